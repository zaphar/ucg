(* std/lists.ucg: len, reverse, head, tail *)
From Ucg Require Import base.Bytes_Lemmas sem.Sem std.Std_Fuel std.Std_Rules std.StdSpec std.Std_Base.
From UcgGen Require Import StdLib.

Section Std.
  Variable fo : float_ops.
  Notation value := (value fo).
  Notation VInt := (VInt fo).
  Notation VBool := (VBool fo).
  Notation VList := (VList fo).
  Notation VTuple := (VTuple fo).
  Notation evals := (evals fo).
  Notation calls := (calls fo).
  Notation fits_chk := (fits_chk fo).

  (* let len = func(list) => reduce(func(acc, item) => acc + 1, 0, list); *)
  Definition len_value : value := get fo "len" (lists_scope fo).

  Lemma len_calls c l :
    fits (Z.of_nat (List.length l)) -> calls c len_value [VList l] (ref_len fo l).
  Proof.
    intros Hfit. eapply calls_named; [vm_compute; reflexivity|reflexivity|reflexivity|].
    eapply (reduce_list_prefix fo) with (F := fun pre => VInt (Z.of_nat (List.length pre))); [ev1|ev1|ev1|].
    intros pre v post El. evs.
    replace (Z.of_nat (List.length (pre ++ [v]))) with (Z.of_nat (List.length pre) + 1)%Z
      by (rewrite app_length; cbn [List.length]; lia).
    apply fits_chk, (fits_upto _ _ Hfit).
    subst l. rewrite app_length. cbn [List.length]. lia.
  Qed.

  Theorem std_len : forall E st ord l,
      fits (Z.of_nat (List.length l)) ->
      exists f, eval fo f (ctx_gen fo E st ord ((b "arg", VList l) :: lists_scope fo)) (call1 "len")
                = Ok (VInt (Z.of_nat (List.length l))).
  Proof.
    intros E st ord l Hfit. eapply ev_call; [evs|ev_lib|apply len_calls, Hfit].
  Qed.

  (* let reverse = func(list) => reduce(func (acc, item) => [item] + acc, [], list); *)
  Definition reverse_value : value := get fo "reverse" (lists_scope fo).

  Lemma reverse_calls c l : calls c reverse_value [VList l] (ref_reverse fo l).
  Proof.
    eapply calls_named; [vm_compute; reflexivity|reflexivity|reflexivity|].
    eapply (reduce_list_prefix fo) with (F := fun pre => VList (rev pre)); [ev1|evs|ev1|].
    intros pre v post El. evs. rewrite rev_app_distr. reflexivity.
  Qed.

  Theorem std_reverse : forall E st ord l,
      exists f, eval fo f (ctx_gen fo E st ord ((b "arg", VList l) :: lists_scope fo)) (call1 "reverse")
                = Ok (VList (rev l)).
  Proof.
    intros E st ord l. eapply ev_call; [evs|ev_lib|apply reverse_calls].
  Qed.

  (* let head = func(list) => select (len(list) > 0, []) => { true = [list.0] }; *)
  Definition head_value : value := get fo "head" (lists_scope fo).

  Lemma head_sees_len : lookup fo (b "len") (closure fo head_value) = Some len_value.
  Proof. vm_compute. reflexivity. Qed.

  Lemma head_calls c l :
    fits (Z.of_nat (List.length l)) -> calls c head_value [VList l] (ref_head fo l).
  Proof.
    intros Hfit. eapply calls_named; [vm_compute; reflexivity|reflexivity|reflexivity|].
    match goal with |- Std_Rules.evals _ ?cc (ESelect ?ve _ _) _ =>
      assert (Hc : evals cc ve (VBool (0 <? Z.of_nat (List.length l))%Z)) end.
    { eapply ev_gt; [eapply ev_call; [evs| |apply len_calls, Hfit]|ev1|reflexivity].
      apply ev_sym; [reflexivity|]. apply lookup_other; [reflexivity|exact head_sees_len]. }
    destruct l as [|x l].
    - eapply ev_select; [exact Hc|reflexivity|]. evs.
    - eapply ev_select; [exact Hc|reflexivity|]. evs. reflexivity.
  Qed.

  Theorem std_head : forall E st ord l,
      fits (Z.of_nat (List.length l)) ->
      exists f, eval fo f (ctx_gen fo E st ord ((b "arg", VList l) :: lists_scope fo)) (call1 "head")
                = Ok (VList (match l with [] => [] | x :: _ => [x] end)).
  Proof.
    intros E st ord l Hfit. eapply ev_call; [evs|ev_lib|apply head_calls, Hfit].
  Qed.

  (* let tail = func(list) => reduce(
       func (acc, item) => select (acc.count > 0, acc{count=1, tail=[]}) => {
         true = acc{count = acc.count + 1, tail = acc.tail + [item]} },
       {count=0, tail=[]}, list).tail; *)
  Definition tail_value : value := get fo "tail" (lists_scope fo).

  Definition tail_acc (pre : list value) : value :=
    VTuple [(b "count", VInt (Z.of_nat (List.length pre))); (b "tail", VList (tl pre))].

  Lemma tail_calls c l :
    fits (Z.of_nat (List.length l)) -> calls c tail_value [VList l] (ref_tail fo l).
  Proof.
    intros Hfit. eapply calls_named; [vm_compute; reflexivity|reflexivity|reflexivity|].
    eapply ev_dot_sym with (lv := tail_acc l); [|reflexivity].
    eapply (reduce_list_prefix fo) with (F := tail_acc); [ev1|evs|ev1|].
    intros pre v post El.
    assert (Hlen : (Z.of_nat (List.length pre) + 1 <= Z.of_nat (List.length l))%Z).
    { subst l. rewrite app_length. cbn [List.length]. lia. }
    replace (tail_acc (pre ++ [v])) with
      (VTuple [(b "count", VInt (Z.of_nat (List.length pre) + 1)); (b "tail", VList (tl (pre ++ [v])))])
      by (unfold tail_acc; rewrite app_length; cbn [List.length]; repeat f_equal; lia).
    ev1. destruct pre as [|x pre].
    - (* the first item is counted and dropped *)
      eapply ev_select; [eapply ev_gt; [ev1|ev1|reflexivity]|reflexivity|]. evs. reflexivity.
    - assert (Hcount : fits (Z.of_nat (List.length (x :: pre)) + 1)).
      { apply (fits_upto _ _ Hfit). lia. }
      eapply ev_select; [eapply ev_gt; [ev1|ev1|reflexivity]|reflexivity|]. evs.
      + eapply evf_cons; [evs; exact (fits_chk _ Hcount)|reflexivity|].
        eapply evf_cons; [evs; reflexivity|reflexivity|ev1].
      + reflexivity.
  Qed.

  Theorem std_tail : forall E st ord l,
      fits (Z.of_nat (List.length l)) ->
      exists f, eval fo f (ctx_gen fo E st ord ((b "arg", VList l) :: lists_scope fo)) (call1 "tail")
                = Ok (VList (tl l)).
  Proof.
    intros E st ord l Hfit. eapply ev_call; [evs|ev_lib|apply tail_calls, Hfit].
  Qed.

End Std.
