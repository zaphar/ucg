(* Big-step introduction rules for the fuel-indexed evaluator of sem/Sem.v, derived from its
   unfolding equations and fuel monotonicity (Std_Fuel.v).  [evals c e v] = "there is fuel with
   which e evaluates to v".  The rules for reduce ([reduce_list_is_fold], [reduce_list_along], ...)
   come from one induction, [folds_inv]. *)
From Ucg Require Import base.Bytes_Lemmas sem.Sem std.Std_Fuel.

Section Rules.
  Variable fo : float_ops.
  Notation value := (value fo).
  Notation scope := (scope fo).
  Notation ctx := (ctx fo).
  Notation eval := (eval fo).
  Notation copy_into := (copy_into fo).
  Notation exec_list := (exec_list fo).
  Notation veq := (veq fo).
  Notation render := (render fo).
  Notation lookup := (lookup fo).
  Notation VInt := (VInt fo).
  Notation VStr := (VStr fo).
  Notation VBool := (VBool fo).
  Notation VNull := (VNull fo).
  Notation VList := (VList fo).
  Notation VTuple := (VTuple fo).
  Notation VFunc := (VFunc fo).
  Notation VModule := (VModule fo).

  (* The local helpers of [eval], standing alone. *)
  (* the context a function body runs in *)
  Definition fctx (c : ctx) (s : scope) : ctx :=
    {| sc := s; self_v := None; envt := envt fo c; strict := strict fo c; eq_ordered := eq_ordered fo c |}.

  (* the semantic call: [call] of Sem.eval *)
  Definition call_v (f : nat) (c : ctx) (fv : value) (args : list value) : res value :=
    match fv with
    | Sem.VFunc _ ps body clo =>
      if negb (Nat.eqb (List.length ps) (List.length args)) then Err
      else do s <- bind_params fo ps args clo; eval f (fctx c s) body
    | _ => Err
    end.

  (* tuple literal / override fields loop *)
  Definition fields_v (f : nat) (c : ctx) (fs : list (bytes * expr)) (a : res (list (bytes * value)))
    : res (list (bytes * value)) :=
    fold_left (fun acc '(k, e) => do a <- acc; do v <- eval f c e; merge_field fo a k v) fs a.

  Definition reduce_v (f : nat) (c : ctx) (fv acc tv : value) : res value :=
    match fv with
    | Sem.VFunc _ ps _ _ =>
      match tv with
      | Sem.VList _ l => if negb (Nat.eqb (List.length ps) 2) then Err
                   else fold_left (fun a v => do a' <- a; call_v f c fv [a'; v]) l (Ok acc)
      | Sem.VTuple _ fs => if negb (Nat.eqb (List.length ps) 3) then Err
                     else fold_left (fun a '(k, v) => do a' <- a; call_v f c fv [a'; VStr k; v]) fs (Ok acc)
      | Sem.VStr _ s => if negb (Nat.eqb (List.length ps) 2) then Err
                  else fold_left (fun a ch => do a' <- a; call_v f c fv [a'; VStr ch]) (utf8_chars s) (Ok acc)
      | _ => Err
      end
    | _ => Err
    end.

  Definition keep_v (o : value) : bool := match o with Sem.VNull _ | Sem.VBool _ false => false | _ => true end.

  Definition select_key (v : value) : option bytes :=
    match v with
    | Sem.VStr _ s => Some s
    | Sem.VBool _ true => Some (b "true")
    | Sem.VBool _ false => Some (b "false")
    | _ => None
    end.
  Fixpoint find_arm (k : bytes) (arms : list (bytes * expr)) : option expr :=
    match arms with
    | [] => None
    | (k', ae) :: arms' => if bytes_eqb k k' then Some ae else find_arm k arms'
    end.
  (* the expression a select evaluates: the arm that matches, else the default *)
  Definition select_pick (v : value) (dflt : option expr) (arms : list (bytes * expr)) : option expr :=
    match (match select_key v with Some k => find_arm k arms | None => None end) with
    | Some ae => Some ae
    | None => dflt
    end.

  (* the context of a module body *)
  Definition mctx (c : ctx) (tv : value) (flds : list (bytes * value)) : ctx :=
    {| sc := [(b "mod", VTuple flds)]; self_v := Some tv; envt := envt fo c;
       strict := strict fo c; eq_ordered := eq_ordered fo c |}.

  Lemma eval_S_sym f c x :
    eval (S f) c (ESym x) =
    if bytes_eqb x (b "self") then match self_v fo c with Some v => Ok v | None => Err end
    else match lookup x (sc fo c) with
         | Some v => Ok v
         | None => if bytes_eqb x (b "env") then Ok (env_tuple fo c) else Err
         end.
  Proof. reflexivity. Qed.

  Lemma eval_S_tuple f c fs : eval (S f) c (ETuple fs) = do r <- fields_v f c fs (Ok []); Ok (VTuple r).
  Proof. reflexivity. Qed.
  Lemma eval_S_list f c es : eval (S f) c (EList es) = do r <- mapM (eval f c) es; Ok (VList r).
  Proof. reflexivity. Qed.
  Lemma eval_S_group f c e : eval (S f) c (EGroup e) = eval f c e.
  Proof. reflexivity. Qed.
  Lemma eval_S_add f c l r :
    eval (S f) c (EBin Add l r) = do rv <- eval f c r; do lv <- eval f c l; arith' fo Add lv rv.
  Proof. reflexivity. Qed.
  Lemma eval_S_gt f c l r :
    eval (S f) c (EBin GT l r) = do rv <- eval f c r; do lv <- eval f c l; compare_num fo GT lv rv.
  Proof. reflexivity. Qed.
  Lemma eval_S_dot_sym f c l k :
    eval (S f) c (EBin DOT l (ESym k)) = do lv <- eval f c l; index fo c lv (VStr k).
  Proof. reflexivity. Qed.
  Lemma eval_S_dot_int f c l k :
    eval (S f) c (EBin DOT l (EInt k)) = do lv <- eval f c l; do kv <- eval f c (EInt k); index fo c lv kv.
  Proof. reflexivity. Qed.
  Lemma eval_S_is f c l r :
    eval (S f) c (EBin IS l r) =
    do tv <- eval f c r; do lv <- eval f c l;
    match tv with
    | Sem.VStr _ t => Ok (VBool (bytes_eqb (is_name fo lv) t))
    | Sem.VNull _ => Ok (VBool false)
    | _ => Err
    end.
  Proof. reflexivity. Qed.
  Lemma eval_S_neq f c l r :
    eval (S f) c (EBin NotEqual l r) =
    do rv <- eval f c r; do lv <- eval f c l;
    if compatible fo lv rv then do q <- veq (eq_ordered fo c) f lv rv; Ok (VBool (negb q)) else Err.
  Proof. reflexivity. Qed.
  Lemma eval_S_eq f c l r :
    eval (S f) c (EBin Equal l r) =
    do rv <- eval f c r; do lv <- eval f c l;
    if compatible fo lv rv then do q <- veq (eq_ordered fo c) f lv rv; Ok (VBool q) else Err.
  Proof. reflexivity. Qed.
  Lemma eval_S_call f c fe args :
    eval (S f) c (ECall fe args) = do avs <- mapM (eval f c) args; do fv <- eval f c fe; call_v f c fv avs.
  Proof. reflexivity. Qed.
  Lemma eval_S_copy f c t fs : eval (S f) c (ECopy t fs) = do tv <- eval f c t; copy_into f c tv fs.
  Proof. reflexivity. Qed.
  Lemma eval_S_func f c ps body : eval (S f) c (EFunc ps body) = Ok (VFunc ps body (sc fo c)).
  Proof. reflexivity. Qed.
  Lemma eval_S_select f c ve dflt arms :
    eval (S f) c (ESelect ve dflt arms) =
    do v <- eval f c ve; match select_pick v dflt arms with Some e' => eval f c e' | None => Err end.
  Proof.
    simpl. destruct (eval f c ve) as [v| | |]; try reflexivity. cbn [bind].
    unfold select_pick.
    assert (E : forall k, (fix find (arms : list (bytes * expr)) : option expr :=
                   match arms with
                   | [] => None
                   | (k', ae) :: arms' => if bytes_eqb k k' then Some ae else find arms'
                   end) arms = find_arm k arms).
    { intros k. induction arms as [|[k' ae] arms IH]; [reflexivity|]. cbn. rewrite IH. reflexivity. }
    destruct v; cbn; try (destruct v); rewrite ?E;
      repeat match goal with |- context[match ?x with _ => _ end] => destruct x end; reflexivity.
  Qed.
  Lemma eval_S_reduce f c fe ae te :
    eval (S f) c (EReduce fe ae te) =
    do fv <- eval f c fe; do acc <- eval f c ae; do tv <- eval f c te; reduce_v f c fv acc tv.
  Proof. reflexivity. Qed.
  Lemma eval_S_filter_tuple f c fe te ps body clo fs :
    eval f c fe = Ok (VFunc ps body clo) -> eval f c te = Ok (VTuple fs) -> List.length ps = 2 ->
    eval (S f) c (EFilter fe te) =
    do r <- mapM (fun '(k, v) => do o <- call_v f c (VFunc ps body clo) [VStr k; v]; Ok (keep_v o, (k, v))) fs;
    Ok (VTuple (map snd (filter fst r))).
  Proof.
    intros H1 H2 H3. simpl. rewrite H1, H2. cbn [bind]. rewrite H3. reflexivity.
  Qed.

  Lemma copy_into_S_tuple f c base fs :
    copy_into (S f) c (VTuple base) fs =
    do ovs <- fields_v f (with_self fo c (Some (VTuple base))) fs (Ok []);
    do r <- merge_fields fo base ovs; Ok (VTuple r).
  Proof. reflexivity. Qed.
  Lemma copy_into_S_module f c ps out body fs :
    copy_into (S f) c (VModule ps out body) fs =
    let tv := VModule ps out body in
    do ovs <- fields_v f (with_self fo c (Some tv)) fs (Ok []);
    do flds <- merge_fields fo ps ovs;
    do flds <- merge_field fo flds (b "this") tv;
    do s <- exec_list f (mctx c tv flds) body;
    match out with
    | Some oe => eval f (with_scope fo (mctx c tv flds) s) oe
    | None => Ok (VTuple (export_scope fo s true))
    end.
  Proof. reflexivity. Qed.

  Lemma exec_list_S_nil f c : exec_list (S f) c [] = Ok (sc fo c).
  Proof. reflexivity. Qed.
  Lemma exec_list_S_let f c x e ss :
    exec_list (S f) c (SLet x e :: ss) =
    do s1 <- (do v <- eval f c e;
              if is_reserved x then Err
              else match lookup x (sc fo c) with Some _ => Err | None => Ok ((x, v) :: sc fo c) end);
    exec_list f (with_scope fo c s1) ss.
  Proof. reflexivity. Qed.

  Lemma call_v_le f f' c fv args : f <= f' -> le_res (call_v f c fv args) (call_v f' c fv args).
  Proof.
    intros Hle. unfold call_v. repeat le_step ltac:(apply eval_le, Hle).
  Qed.
  Lemma call_v_mono f f' c fv args v : call_v f c fv args = Ok v -> f <= f' -> call_v f' c fv args = Ok v.
  Proof. intros H Hle. exact (le_res_ok _ _ _ (call_v_le f f' c fv args Hle) H). Qed.

  Lemma fields_v_le f f' c fs a : f <= f' -> le_res (fields_v f c fs a) (fields_v f' c fs a).
  Proof.
    intros Hle. unfold fields_v. repeat le_step ltac:(apply eval_le, Hle).
  Qed.
  Lemma fields_v_mono f f' c fs a r : fields_v f c fs a = Ok r -> f <= f' -> fields_v f' c fs a = Ok r.
  Proof. intros H Hle. exact (le_res_ok _ _ _ (fields_v_le f f' c fs a Hle) H). Qed.

  Lemma mapM_eval_mono f f' c es vs : mapM (eval f c) es = Ok vs -> f <= f' -> mapM (eval f' c) es = Ok vs.
  Proof.
    intros H Hle. refine (le_res_ok _ _ _ _ H). apply le_res_mapM. intros; apply eval_le, Hle.
  Qed.

  Definition evals (c : ctx) (e : expr) (v : value) : Prop := exists f, eval f c e = Ok v.
  Definition evals_list (c : ctx) (es : list expr) (vs : list value) : Prop :=
    exists f, mapM (eval f c) es = Ok vs.
  Definition evals_fields (c : ctx) (fs : list (bytes * expr)) (a r : list (bytes * value)) : Prop :=
    exists f, fields_v f c fs (Ok a) = Ok r.
  Definition calls (c : ctx) (fv : value) (args : list value) (v : value) : Prop :=
    exists f, call_v f c fv args = Ok v.
  Definition copies (c : ctx) (tv : value) (fs : list (bytes * expr)) (v : value) : Prop :=
    exists f, copy_into f c tv fs = Ok v.
  Definition execs (c : ctx) (ss : list stmt) (s : scope) : Prop := exists f, exec_list f c ss = Ok s.
  Definition renders (v : value) (t : bytes) : Prop := exists f, render f v = Ok t.

  (* [up H F]: the run H, successful at some fuel below F, becomes the same run at fuel F; every rule
     raises its premises to a common fuel this way *)
  Ltac up H F := first
    [ apply (fun h => eval_fuel_mono fo _ F _ _ _ h) in H; [|lia]
    | apply (fun h => mapM_eval_mono _ F _ _ _ h) in H; [|lia]
    | apply (fun h => fields_v_mono _ F _ _ _ _ h) in H; [|lia]
    | apply (fun h => call_v_mono _ F _ _ _ _ h) in H; [|lia]
    | apply (fun h => copy_into_fuel_mono fo _ F _ _ _ _ h) in H; [|lia]
    | apply (fun h => exec_list_fuel_mono fo _ F _ _ _ h) in H; [|lia]
    | apply (fun h => render_fuel_mono fo _ F _ _ h) in H; [|lia]
    | apply (fun h => veq_fuel_mono fo _ _ F _ _ _ h) in H; [|lia] ].

  Lemma ev_null c : evals c ENull VNull. Proof. exists 1; reflexivity. Qed.
  Lemma ev_bool c v : evals c (EBool v) (VBool v). Proof. exists 1; reflexivity. Qed.
  Lemma ev_int c z : evals c (EInt z) (VInt z). Proof. exists 1; reflexivity. Qed.
  Lemma ev_str c s : evals c (EStr s) (VStr s). Proof. exists 1; reflexivity. Qed.
  Lemma ev_func c ps body : evals c (EFunc ps body) (VFunc ps body (sc fo c)).
  Proof. exists 1; reflexivity. Qed.

  Lemma ev_sym c x v :
    bytes_eqb x (b "self") = false -> lookup x (sc fo c) = Some v -> evals c (ESym x) v.
  Proof. intros H1 H2. exists 1. rewrite eval_S_sym, H1, H2. reflexivity. Qed.

  Lemma lookup_other x y w s r : bytes_eqb x y = false -> lookup x s = r -> lookup x ((y, w) :: s) = r.
  Proof. intros H <-. cbn [Sem.lookup]. rewrite H. reflexivity. Qed.

  Lemma ev_group c e v : evals c e v -> evals c (EGroup e) v.
  Proof. intros [f H]. exists (S f). rewrite eval_S_group. exact H. Qed.

  Lemma evl_nil c : evals_list c [] []. Proof. exists 0; reflexivity. Qed.
  Lemma evl_cons c e es v vs : evals c e v -> evals_list c es vs -> evals_list c (e :: es) (v :: vs).
  Proof.
    intros [f1 H1] [f2 H2]. exists (Nat.max f1 f2). up H1 (Nat.max f1 f2). up H2 (Nat.max f1 f2).
    cbn. rewrite H1. cbn. rewrite H2. reflexivity.
  Qed.
  Lemma ev_list c es vs : evals_list c es vs -> evals c (EList es) (VList vs).
  Proof. intros [f H]. exists (S f). rewrite eval_S_list, H. reflexivity. Qed.

  Lemma evf_nil c a : evals_fields c [] a a. Proof. exists 0; reflexivity. Qed.
  Lemma fields_v_cons f c k e fs a :
    fields_v f c ((k, e) :: fs) (Ok a) = fields_v f c fs (do v <- eval f c e; merge_field fo a k v).
  Proof. reflexivity. Qed.
  Lemma evf_cons c k e fs a v a1 r :
    evals c e v -> merge_field fo a k v = Ok a1 -> evals_fields c fs a1 r ->
    evals_fields c ((k, e) :: fs) a r.
  Proof.
    intros [f1 H1] Hm [f2 H2]. exists (Nat.max f1 f2). up H1 (Nat.max f1 f2). up H2 (Nat.max f1 f2).
    rewrite fields_v_cons, H1. cbn [bind]. rewrite Hm. exact H2.
  Qed.
  Lemma ev_tuple c fs r : evals_fields c fs [] r -> evals c (ETuple fs) (VTuple r).
  Proof. intros [f H]. exists (S f). rewrite eval_S_tuple, H. reflexivity. Qed.

  Lemma ev_add c l r lv rv v :
    evals c l lv -> evals c r rv -> arith' fo Add lv rv = Ok v -> evals c (EBin Add l r) v.
  Proof.
    intros [f1 H1] [f2 H2] Ha. exists (S (Nat.max f1 f2)). up H1 (Nat.max f1 f2). up H2 (Nat.max f1 f2).
    rewrite eval_S_add, H2. cbn [bind]. rewrite H1. exact Ha.
  Qed.
  Lemma ev_gt c l r lv rv v :
    evals c l lv -> evals c r rv -> compare_num fo GT lv rv = Ok v -> evals c (EBin GT l r) v.
  Proof.
    intros [f1 H1] [f2 H2] Ha. exists (S (Nat.max f1 f2)). up H1 (Nat.max f1 f2). up H2 (Nat.max f1 f2).
    rewrite eval_S_gt, H2. cbn [bind]. rewrite H1. exact Ha.
  Qed.
  Lemma ev_dot_sym c l k lv v :
    evals c l lv -> index fo c lv (VStr k) = Ok v -> evals c (EBin DOT l (ESym k)) v.
  Proof. intros [f H] Hi. exists (S f). rewrite eval_S_dot_sym, H. exact Hi. Qed.
  Lemma ev_dot_int c l k lv v :
    evals c l lv -> index fo c lv (VInt k) = Ok v -> evals c (EBin DOT l (EInt k)) v.
  Proof.
    intros [f H] Hi. exists (S (S f)). up H (S f). rewrite eval_S_dot_int, H. exact Hi.
  Qed.
  Lemma ev_is c l r lv t :
    evals c l lv -> evals c r (VStr t) -> evals c (EBin IS l r) (VBool (bytes_eqb (is_name fo lv) t)).
  Proof.
    intros [f1 H1] [f2 H2]. exists (S (Nat.max f1 f2)). up H1 (Nat.max f1 f2). up H2 (Nat.max f1 f2).
    rewrite eval_S_is, H2. cbn [bind]. rewrite H1. reflexivity.
  Qed.
  Lemma ev_neq c l r lv rv q :
    evals c l lv -> evals c r rv -> compatible fo lv rv = true ->
    (exists f, veq (eq_ordered fo c) f lv rv = Ok q) ->
    evals c (EBin NotEqual l r) (VBool (negb q)).
  Proof.
    intros [f1 H1] [f2 H2] Hc [f3 H3]. set (F := Nat.max f1 (Nat.max f2 f3)).
    exists (S F). up H1 F. up H2 F. up H3 F.
    rewrite eval_S_neq, H2. cbn [bind]. rewrite H1. cbn [bind]. rewrite Hc, H3. reflexivity.
  Qed.

  Lemma calls_intro c ps body clo avs s v :
    List.length ps = List.length avs -> bind_params fo ps avs clo = Ok s -> evals (fctx c s) body v ->
    calls c (VFunc ps body clo) avs v.
  Proof.
    intros Hl Hb [f H]. exists f. cbn. rewrite Hl, Nat.eqb_refl. cbn. rewrite Hb. exact H.
  Qed.
  (* the same for a function bound in a library scope: value and closure stay folded behind their
     names, only parameters and body are spelled out (and closures are never compared) *)
  Definition closure (fv : value) : scope := match fv with Sem.VFunc _ _ _ clo => clo | _ => [] end.
  Definition as_func (fv : value) : option (list bytes * expr) :=
    match fv with Sem.VFunc _ ps body _ => Some (ps, body) | _ => None end.
  Lemma calls_named c fv ps body avs s v :
    as_func fv = Some (ps, body) ->
    List.length ps = List.length avs -> bind_params fo ps avs (closure fv) = Ok s -> evals (fctx c s) body v ->
    calls c fv avs v.
  Proof. destruct fv; try discriminate. intros [= -> ->]. apply calls_intro. Qed.

  Lemma ev_call c fe args avs fv v :
    evals_list c args avs -> evals c fe fv -> calls c fv avs v -> evals c (ECall fe args) v.
  Proof.
    intros [f1 H1] [f2 H2] [f3 H3]. set (F := Nat.max f1 (Nat.max f2 f3)).
    exists (S F). up H1 F. up H2 F. up H3 F.
    rewrite eval_S_call, H1. cbn [bind]. rewrite H2. exact H3.
  Qed.
  (* calls do not look at the caller's scope or self *)
  Lemma calls_ctx c c' fv avs v :
    envt fo c = envt fo c' -> strict fo c = strict fo c' -> eq_ordered fo c = eq_ordered fo c' ->
    calls c fv avs v -> calls c' fv avs v.
  Proof.
    intros E1 E2 E3 [f H]. exists f. destruct fv; try exact H. cbn in *. unfold fctx in *.
    rewrite <- E1, <- E2, <- E3. exact H.
  Qed.

  Lemma ev_select c ve dflt arms v e' r :
    evals c ve v -> select_pick v dflt arms = Some e' -> evals c e' r -> evals c (ESelect ve dflt arms) r.
  Proof.
    intros [f1 H1] Hp [f2 H2]. exists (S (Nat.max f1 f2)). up H1 (Nat.max f1 f2). up H2 (Nat.max f1 f2).
    rewrite eval_S_select, H1. cbn [bind]. rewrite Hp. exact H2.
  Qed.

  Lemma ev_copy c t fs tv v : evals c t tv -> copies c tv fs v -> evals c (ECopy t fs) v.
  Proof.
    intros [f1 H1] [f2 H2]. exists (S (Nat.max f1 f2)). up H1 (Nat.max f1 f2). up H2 (Nat.max f1 f2).
    rewrite eval_S_copy, H1. exact H2.
  Qed.
  Lemma copies_tuple c base fs ovs r :
    evals_fields (with_self fo c (Some (VTuple base))) fs [] ovs -> merge_fields fo base ovs = Ok r ->
    copies c (VTuple base) fs (VTuple r).
  Proof.
    intros [f H] Hm. exists (S f). rewrite copy_into_S_tuple, H. cbn [bind]. rewrite Hm. reflexivity.
  Qed.
  (* [tv] is a parameter of its own, so that a module bound in a library scope can stay folded
     behind its name wherever the rule mentions it again (self, mod.this) *)
  Lemma copies_module c tv ps oe body fs ovs fl fl' s v :
    tv = VModule ps (Some oe) body ->
    evals_fields (with_self fo c (Some tv)) fs [] ovs ->
    merge_fields fo ps ovs = Ok fl -> merge_field fo fl (b "this") tv = Ok fl' ->
    execs (mctx c tv fl') body s ->
    evals (with_scope fo (mctx c tv fl') s) oe v ->
    copies c tv fs v.
  Proof.
    intros Etv [f1 H1] Hm1 Hm2 [f2 H2] [f3 H3]. set (F := Nat.max f1 (Nat.max f2 f3)).
    exists (S F). up H1 F. up H2 F. up H3 F. rewrite Etv at 1.
    rewrite copy_into_S_module. cbv zeta. rewrite <- Etv, H1. cbn [bind]. rewrite Hm1. cbn [bind].
    rewrite Hm2. cbn [bind]. rewrite H2. cbn [bind]. exact H3.
  Qed.

  Lemma execs_nil c : execs c [] (sc fo c). Proof. exists 1; reflexivity. Qed.
  Lemma execs_let c x e ss v s :
    evals c e v -> is_reserved x = false -> lookup x (sc fo c) = None ->
    execs (with_scope fo c ((x, v) :: sc fo c)) ss s ->
    execs c (SLet x e :: ss) s.
  Proof.
    intros [f1 H1] Hr Hl [f2 H2]. exists (S (Nat.max f1 f2)). up H1 (Nat.max f1 f2). up H2 (Nat.max f1 f2).
    rewrite exec_list_S_let, H1. cbn [bind]. rewrite Hr, Hl. cbn [bind]. exact H2.
  Qed.

  (* the exact, fuel-indexed equation: a reduce over a list IS the fold_left of the semantic call,
     threaded through the result monad *)
  Theorem eval_reduce_list_eq f c fe ae te p1 p2 body clo acc l :
    eval f c fe = Ok (VFunc [p1; p2] body clo) -> eval f c ae = Ok acc -> eval f c te = Ok (VList l) ->
    eval (S f) c (EReduce fe ae te) =
    fold_left (fun a v => do a' <- a; call_v f c (VFunc [p1; p2] body clo) [a'; v]) l (Ok acc).
  Proof. intros H1 H2 H3. rewrite eval_S_reduce, H1, H2, H3. reflexivity. Qed.

  Theorem eval_reduce_tuple_eq f c fe ae te p1 p2 p3 body clo acc fs :
    eval f c fe = Ok (VFunc [p1; p2; p3] body clo) -> eval f c ae = Ok acc -> eval f c te = Ok (VTuple fs) ->
    eval (S f) c (EReduce fe ae te) =
    fold_left (fun a '(k, v) => do a' <- a; call_v f c (VFunc [p1; p2; p3] body clo) [a'; VStr k; v]) fs (Ok acc).
  Proof. intros H1 H2 H3. rewrite eval_S_reduce, H1, H2, H3. reflexivity. Qed.

  (* the fold of a reduce as a judgement: [fv] is called on [mk a x] for each item [x] in turn *)
  Definition folds {X} (c : ctx) (fv : value) (mk : value -> X -> list value) (l : list X) (a r : value) : Prop :=
    exists f, fold_left (fun a x => do a' <- a; call_v f c fv (mk a' x)) l (Ok a) = Ok r.

  Lemma folds_nil {X} c fv (mk : value -> X -> list value) a : folds c fv mk [] a a.
  Proof. exists 0. reflexivity. Qed.
  Lemma folds_cons {X} c fv (mk : value -> X -> list value) x l a a' r :
    calls c fv (mk a x) a' -> folds c fv mk l a' r -> folds c fv mk (x :: l) a r.
  Proof.
    intros [f1 Hc] [f2 Hf]. exists (Nat.max f1 f2). cbn [fold_left bind]. up Hc (Nat.max f1 f2). rewrite Hc.
    refine (le_res_ok _ _ _ _ Hf). apply le_res_fold; [|apply le_res_refl].
    intros y y' z Hy. apply le_res_bind; [exact Hy|]. intros; apply call_v_le; lia.
  Qed.

  Lemma ev_reduce_list c fe ae te p1 p2 body clo acc l r :
    evals c fe (VFunc [p1; p2] body clo) -> evals c ae acc -> evals c te (VList l) ->
    folds c (VFunc [p1; p2] body clo) (fun a v => [a; v]) l acc r ->
    evals c (EReduce fe ae te) r.
  Proof.
    intros [f1 H1] [f2 H2] [f3 H3] [f4 Hf].
    set (F := Nat.max (Nat.max f1 f2) (Nat.max f3 f4)). exists (S F). up H1 F. up H2 F. up H3 F.
    rewrite (eval_reduce_list_eq _ _ _ _ _ _ _ _ _ _ _ H1 H2 H3).
    refine (le_res_ok _ _ _ _ Hf). apply le_res_fold; [|apply le_res_refl].
    intros y y' z Hy. apply le_res_bind; [exact Hy|]. intros; apply call_v_le; lia.
  Qed.
  Lemma ev_reduce_tuple c fe ae te p1 p2 p3 body clo acc fs r :
    evals c fe (VFunc [p1; p2; p3] body clo) -> evals c ae acc -> evals c te (VTuple fs) ->
    folds c (VFunc [p1; p2; p3] body clo) (fun a (kv : bytes * value) => [a; VStr (fst kv); snd kv]) fs acc r ->
    evals c (EReduce fe ae te) r.
  Proof.
    intros [f1 H1] [f2 H2] [f3 H3] [f4 Hf].
    set (F := Nat.max (Nat.max f1 f2) (Nat.max f3 f4)). exists (S F). up H1 F. up H2 F. up H3 F.
    rewrite (eval_reduce_tuple_eq _ _ _ _ _ _ _ _ _ _ _ _ H1 H2 H3).
    refine (le_res_ok _ _ _ _ Hf). apply le_res_fold; [|apply le_res_refl].
    intros y y' [k v] Hy. apply le_res_bind; [exact Hy|]. intros; apply call_v_le; lia.
  Qed.

  (* The induction behind every reduce proof.  The items [l] are followed through a list [ts] of
     what they stand for ([R], elementwise); the invariant [I] relates the accumulator to the part
     of [ts] processed so far. *)
  Lemma folds_inv {X T} c fv (mk : value -> X -> list value) (R : X -> T -> Prop)
        (I : list T -> value -> Prop) (ts : list T) :
    (forall pre t post x a, ts = pre ++ t :: post -> R x t -> I pre a ->
                            exists a', calls c fv (mk a x) a' /\ I (pre ++ [t]) a') ->
    forall l post, Forall2 R l post -> forall pre a, ts = pre ++ post -> I pre a ->
    exists r, folds c fv mk l a r /\ I ts r.
  Proof.
    intros Hstep. induction 1 as [|x t l post Hx _ IH]; intros pre a El Ha.
    - exists a. rewrite app_nil_r in El. subst ts. split; [apply folds_nil|exact Ha].
    - destruct (Hstep pre t post x a El Hx Ha) as (a' & Hc & Ha').
      destruct (IH (pre ++ [t]) a') as (r & Hf & Hr); [rewrite <- app_assoc; exact El|exact Ha'|].
      exists r. split; [exact (folds_cons _ _ _ _ _ _ _ _ Hc Hf)|exact Hr].
  Qed.

  Lemma Forall2_eq_refl {A} (l : list A) : Forall2 eq l l.
  Proof. induction l; constructor; [reflexivity|assumption]. Qed.

  Theorem reduce_list_inv c fe ae te p1 p2 body clo acc l (I : list value -> value -> Prop) :
    evals c fe (VFunc [p1; p2] body clo) -> evals c ae acc -> evals c te (VList l) ->
    I [] acc ->
    (forall pre v post a, l = pre ++ v :: post -> I pre a ->
        exists a', calls c (VFunc [p1; p2] body clo) [a; v] a' /\ I (pre ++ [v]) a') ->
    exists r, evals c (EReduce fe ae te) r /\ I l r.
  Proof.
    intros H1 H2 H3 H0 Hstep.
    destruct (folds_inv c (VFunc [p1; p2] body clo) (fun a v => [a; v]) eq I l) with (l := l) (post := l) (pre := @nil value) (a := acc)
      as (r & Hf & Hr); [|apply Forall2_eq_refl|reflexivity|exact H0|].
    { intros pre t post x a El -> Ha. exact (Hstep pre t post a El Ha). }
    exists r. split; [exact (ev_reduce_list _ _ _ _ _ _ _ _ _ _ _ H1 H2 H3 Hf)|exact Hr].
  Qed.

  (* the usual case: the accumulator is a function [F] of what has been processed *)
  Corollary reduce_list_along {T} (R : value -> T -> Prop) c fe ae te p1 p2 body clo l ts (F : list T -> value) :
    evals c fe (VFunc [p1; p2] body clo) -> evals c ae (F []) -> evals c te (VList l) ->
    Forall2 R l ts ->
    (forall pre t post v, ts = pre ++ t :: post -> R v t ->
                          calls c (VFunc [p1; p2] body clo) [F pre; v] (F (pre ++ [t]))) ->
    evals c (EReduce fe ae te) (F ts).
  Proof.
    intros H1 H2 H3 HR Hstep.
    destruct (folds_inv c (VFunc [p1; p2] body clo) (fun a v => [a; v]) R (fun pre a => a = F pre) ts) with (l := l) (post := ts) (pre := @nil T) (a := F [])
      as (r & Hf & ->); [|exact HR|reflexivity|reflexivity|].
    { intros pre t post x a El Hx ->. exists (F (pre ++ [t])). split; [exact (Hstep pre t post x El Hx)|reflexivity]. }
    exact (ev_reduce_list _ _ _ _ _ _ _ _ _ _ _ H1 H2 H3 Hf).
  Qed.
  Corollary reduce_list_prefix c fe ae te p1 p2 body clo l (F : list value -> value) :
    evals c fe (VFunc [p1; p2] body clo) -> evals c ae (F []) -> evals c te (VList l) ->
    (forall pre v post, l = pre ++ v :: post -> calls c (VFunc [p1; p2] body clo) [F pre; v] (F (pre ++ [v]))) ->
    evals c (EReduce fe ae te) (F l).
  Proof.
    intros H1 H2 H3 Hstep. apply (reduce_list_along eq c fe ae te p1 p2 body clo l l F H1 H2 H3 (Forall2_eq_refl l)).
    intros pre t post v El ->. exact (Hstep pre t post El).
  Qed.

  (* If the 2-parameter closure computes [step] on every accumulator satisfying an
     invariant [I] that [step] preserves, then reduce over the list is [fold_left step]. *)
  Theorem reduce_list_is_fold c fe ae te p1 p2 body clo acc l
          (I : value -> Prop) (step : value -> value -> value) :
    evals c fe (VFunc [p1; p2] body clo) -> evals c ae acc -> evals c te (VList l) ->
    I acc ->
    (forall a v, I a -> In v l -> calls c (VFunc [p1; p2] body clo) [a; v] (step a v) /\ I (step a v)) ->
    evals c (EReduce fe ae te) (fold_left step l acc) /\ I (fold_left step l acc).
  Proof.
    intros H1 H2 H3 H0 Hstep.
    destruct (reduce_list_inv c fe ae te p1 p2 body clo acc l
                (fun pre a => a = fold_left step pre acc /\ I a) H1 H2 H3) as (r & Hr & -> & HI).
    - split; [reflexivity|exact H0].
    - intros pre v post a El [-> Ha].
      destruct (Hstep _ v Ha) as [Hc Hi]. { rewrite El. apply in_or_app. right. left. reflexivity. }
      eexists. split; [exact Hc|]. split; [|exact Hi]. rewrite fold_left_app. reflexivity.
    - split; assumption.
  Qed.

  (* the evals-only half of [reduce_list_is_fold], convenient with eapply *)
  Corollary reduce_list_is_fold_ev c fe ae te p1 p2 body clo acc l
          (I : value -> Prop) (step : value -> value -> value) :
    evals c fe (VFunc [p1; p2] body clo) -> evals c ae acc -> evals c te (VList l) ->
    I acc ->
    (forall a v, I a -> In v l -> calls c (VFunc [p1; p2] body clo) [a; v] (step a v) /\ I (step a v)) ->
    evals c (EReduce fe ae te) (fold_left step l acc).
  Proof. intros H1 H2 H3 H0 Hs. exact (proj1 (reduce_list_is_fold c fe ae te p1 p2 body clo acc l I step H1 H2 H3 H0 Hs)). Qed.

  Theorem reduce_tuple_inv c fe ae te p1 p2 p3 body clo acc fs
          (I : list (bytes * value) -> value -> Prop) :
    evals c fe (VFunc [p1; p2; p3] body clo) -> evals c ae acc -> evals c te (VTuple fs) ->
    I [] acc ->
    (forall pre k v post a, fs = pre ++ (k, v) :: post -> I pre a ->
        exists a', calls c (VFunc [p1; p2; p3] body clo) [a; VStr k; v] a' /\ I (pre ++ [(k, v)]) a') ->
    exists r, evals c (EReduce fe ae te) r /\ I fs r.
  Proof.
    intros H1 H2 H3 H0 Hstep.
    destruct (folds_inv c (VFunc [p1; p2; p3] body clo) (fun a (kv : bytes * value) => [a; VStr (fst kv); snd kv]) eq I fs)
      with (l := fs) (post := fs) (pre := @nil (bytes * value)) (a := acc)
      as (r & Hf & Hr); [|apply Forall2_eq_refl|reflexivity|exact H0|].
    { intros pre [k v] post x a El -> Ha. exact (Hstep pre k v post a El Ha). }
    exists r. split; [exact (ev_reduce_tuple _ _ _ _ _ _ _ _ _ _ _ _ H1 H2 H3 Hf)|exact Hr].
  Qed.
  Corollary reduce_tuple_prefix c fe ae te p1 p2 p3 body clo fs (F : list (bytes * value) -> value) :
    evals c fe (VFunc [p1; p2; p3] body clo) -> evals c ae (F []) -> evals c te (VTuple fs) ->
    (forall pre k v post, fs = pre ++ (k, v) :: post ->
                          calls c (VFunc [p1; p2; p3] body clo) [F pre; VStr k; v] (F (pre ++ [(k, v)]))) ->
    evals c (EReduce fe ae te) (F fs).
  Proof.
    intros H1 H2 H3 Hstep.
    destruct (reduce_tuple_inv c fe ae te p1 p2 p3 body clo (F []) fs (fun pre a => a = F pre) H1 H2 H3 eq_refl)
      as (r & Hr & ->); [|exact Hr].
    intros pre k v post a El ->. exists (F (pre ++ [(k, v)])). split; [exact (Hstep pre k v post El)|reflexivity].
  Qed.

  (* functional form for tuples: the 3-parameter closure computes [step] under the invariant *)
  Theorem reduce_tuple_is_fold c fe ae te p1 p2 p3 body clo acc fs
          (I : value -> Prop) (step : value -> bytes -> value -> value) :
    evals c fe (VFunc [p1; p2; p3] body clo) -> evals c ae acc -> evals c te (VTuple fs) ->
    I acc ->
    (forall a k v, I a -> In (k, v) fs ->
                   calls c (VFunc [p1; p2; p3] body clo) [a; VStr k; v] (step a k v) /\ I (step a k v)) ->
    evals c (EReduce fe ae te) (fold_left (fun a kv => step a (fst kv) (snd kv)) fs acc).
  Proof.
    intros H1 H2 H3 H0 Hstep.
    destruct (reduce_tuple_inv c fe ae te p1 p2 p3 body clo acc fs
                (fun pre a => a = fold_left (fun a kv => step a (fst kv) (snd kv)) pre acc /\ I a) H1 H2 H3)
      as (r & Hr & -> & HI).
    - split; [reflexivity|exact H0].
    - intros pre k v post a El [-> Ha].
      destruct (Hstep _ k v Ha) as [Hc Hi]. { rewrite El. apply in_or_app. right. left. reflexivity. }
      eexists. split; [exact Hc|]. split; [|exact Hi]. rewrite fold_left_app. reflexivity.
    - exact Hr.
  Qed.

  Lemma ev_filter_tuple c fe te p1 p2 body clo fs (keepf : bytes -> value -> bool) :
    evals c fe (VFunc [p1; p2] body clo) -> evals c te (VTuple fs) ->
    (forall k v, In (k, v) fs ->
                 exists o, calls c (VFunc [p1; p2] body clo) [VStr k; v] o /\ keep_v o = keepf k v) ->
    evals c (EFilter fe te) (VTuple (filter (fun kv => keepf (fst kv) (snd kv)) fs)).
  Proof.
    intros [f1 H1] [f2 H2] Hk.
    set (g F := fun '(k, v) => do o <- call_v F c (VFunc [p1; p2] body clo) [VStr k; v]; Ok (keep_v o, (k, v))).
    assert (Hg : forall l F F' r, mapM (g F) l = Ok r -> F <= F' -> mapM (g F') l = Ok r).
    { intros l F F' r Hr Hle. refine (le_res_ok _ _ _ _ Hr). apply le_res_mapM. intros [k v].
      apply le_res_bind; [apply call_v_le, Hle|]. intros; apply le_res_refl. }
    assert (Hm : exists F r, mapM (g F) fs = Ok r
                             /\ map snd (filter fst r) = filter (fun kv => keepf (fst kv) (snd kv)) fs).
    { clear H1 H2. induction fs as [|[k v] fs IH].
      - exists 0, []. split; reflexivity.
      - destruct IH as (F1 & r & Hr & Hf). { intros k' v' Hin. apply Hk. right. exact Hin. }
        destruct (Hk k v) as (o & [F2 Ho] & Hko). { left. reflexivity. }
        exists (Nat.max F1 F2), ((keep_v o, (k, v)) :: r). split.
        + cbn [mapM]. unfold g at 1. up Ho (Nat.max F1 F2). rewrite Ho. cbn [bind].
          rewrite (Hg fs F1 _ r Hr) by lia. reflexivity.
        + cbn [filter fst snd]. rewrite Hko. destruct (keepf k v); cbn [map snd]; rewrite Hf; reflexivity. }
    destruct Hm as (F & r & Hr & Hf).
    set (G := Nat.max F (Nat.max f1 f2)). exists (S G). up H1 G. up H2 G.
    rewrite (eval_S_filter_tuple _ _ _ _ _ _ _ _ H1 H2 eq_refl).
    fold (g G). rewrite (Hg fs F G r Hr) by lia. cbn [bind]. rewrite Hf. reflexivity.
  Qed.

  Definition fmt_go (f : nat) (c : ctx) : list tpart -> list expr -> res value :=
    fix go (ps : list tpart) (es : list expr) : res value :=
    match ps with
    | [] => Ok (VStr [])
    | PStr s :: ps' => do r <- go ps' es; match r with Sem.VStr _ t => Ok (VStr (s ++ t)) | _ => Err end
    | PHole :: ps' =>
      match es with
      | a :: es' => do r <- go ps' es'; do v <- eval f c a; do t <- render f v;
                    match r with Sem.VStr _ t' => Ok (VStr (t ++ t')) | _ => Err end
      | [] => Err
      end
    | PExpr _ :: _ => Err
    end.
  Definition is_hole (p : tpart) : bool := match p with PHole => true | _ => false end.

  Lemma eval_S_formatL f c parts args :
    eval (S f) c (EFormatL parts args) =
    if negb (Nat.eqb (List.length (filter is_hole parts)) (List.length args)) then Err
    else fmt_go f c parts args.
  Proof. reflexivity. Qed.

  (* the text a template produces from the rendered arguments *)
  Fixpoint fmt (ps : list tpart) (ts : list bytes) : option bytes :=
    match ps with
    | [] => Some []
    | PStr s :: ps' => option_map (app s) (fmt ps' ts)
    | PHole :: ps' => match ts with t :: ts' => option_map (app t) (fmt ps' ts') | [] => None end
    | PExpr _ :: _ => None
    end.

  Lemma ev_formatL c parts args ts out :
    List.length (filter is_hole parts) = List.length args ->
    Forall2 (fun a t => exists v, evals c a v /\ renders v t) args ts ->
    fmt parts ts = Some out ->
    evals c (EFormatL parts args) (VStr out).
  Proof.
    intros Hl Hargs Hfmt.
    assert (HF : exists F, Forall2 (fun a t => exists v, eval F c a = Ok v /\ render F v = Ok t) args ts).
    { clear Hl Hfmt. induction Hargs as [|a t args ts (v & [f1 Hv] & [f2 Ht]) _ (F & IH)].
      - exists 0. constructor.
      - set (G := Nat.max F (Nat.max f1 f2)). exists G. constructor.
        + exists v. up Hv G. up Ht G. split; assumption.
        + clear -IH. induction IH as [|a' t' args ts (v' & Hv' & Ht') _ IH']; constructor; [|exact IH'].
          exists v'. up Hv' G. up Ht' G. split; assumption. }
    destruct HF as (F & HF). exists (S F). rewrite eval_S_formatL, Hl, Nat.eqb_refl. cbn [negb].
    clear Hl Hargs. revert args ts out HF Hfmt.
    induction parts as [|p ps IH]; intros args ts out HF Hfmt.
    - cbn in *. inversion Hfmt. reflexivity.
    - destruct p as [s| |pe]; cbn [fmt fmt_go] in *.
      + destruct (fmt ps ts) as [o|] eqn:Eo; [|discriminate]. cbn in Hfmt. inversion Hfmt; subst out.
        rewrite (IH _ _ _ HF Eo). reflexivity.
      + destruct HF as [|a t args ts (v & Hv & Ht) HF]; [discriminate|].
        destruct (fmt ps ts) as [o|] eqn:Eo; [|discriminate]. cbn in Hfmt. inversion Hfmt; subst out.
        rewrite (IH _ _ _ HF Eo). cbn [bind]. rewrite Hv. cbn [bind]. rewrite Ht. reflexivity.
      + discriminate.
  Qed.
End Rules.
