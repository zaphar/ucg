(* Concrete runs (vm_compute, floats = unit) of the helpers reached through `import`, compared with the
   reference functions of StdSpec_Imp.v on grids of inputs, and the witnesses of the findings. *)
From Ucg Require Import base.Bytes_Lemmas sem.Sem std.Sem_Import std.StdSpec std.StdSpec_Imp std.Std_Examples
     std.Imp_Strings std.Imp_Functional.

Notation fo := unit_floats.
Local Open Scope Z_scope.

Definition run (sc0 : scope fo) (e : expr) : res (value fo) := eval_imp fo std_imports 400 [] (ctx_gen fo [] true true sc0) e.
Definition run_lax (sc0 : scope fo) (e : expr) : res (value fo) := eval_imp fo std_imports 400 [] (ctx_gen fo [] false true sc0) e.
Definition B (x : bool) : value fo := VBool fo x.
Definition Nl : value fo := VNull fo.
Example ex_zip :
  run [(b "arg2", L [S_ "a"; S_ "b"]); (b "arg1", L [I 1; I 2; I 3])] (imp_inst lists_path "zip" [("list1", "arg1"); ("list2", "arg2")]%string)
  = Ok (L [L [I 1; S_ "a"]; L [I 2; S_ "b"]]).
Proof. vm_compute. reflexivity. Qed.
Example ex_zip_empty :
  run [(b "arg2", L [S_ "a"]); (b "arg1", L [])] (imp_inst lists_path "zip" [("list1", "arg1"); ("list2", "arg2")]%string) = Ok (L []).
Proof. vm_compute. reflexivity. Qed.
Example ex_slice :
  run [(b "arg3", L [I 0; I 1; I 2; I 3]); (b "arg2", I 2); (b "arg1", I 1)]
      (imp_inst lists_path "slice" [("start", "arg1"); ("end", "arg2"); ("list", "arg3")]%string) = Ok (L [I 1; I 2]).
Proof. vm_compute. reflexivity. Qed.
Example ex_slice_ref : ref_slice fo 1 2 [I 0; I 1; I 2; I 3] = L [I 1; I 2].
Proof. vm_compute. reflexivity. Qed.
Example ex_slice_start_eq_len :
  run [(b "arg3", L [I 0; I 1]); (b "arg1", I 2)] (imp_inst lists_path "slice" [("start", "arg1"); ("list", "arg3")]%string) = Ok (L []).
Proof. vm_compute. reflexivity. Qed.
(* the `ops` wrapper of std/lists.ucg *)
Definition lists_ops : expr := imp_inst lists_path "ops" [("list", "arg")]%string.
Example ex_lists_ops :
  map (fun e => run [(b "arg", L [I 3; I 1; I 2])] e)
      [ EBin DOT lists_ops (ESym (b "len"));
        meth lists_ops "str_join" [EStr (b "-")];
        meth lists_ops "slice" [EInt 1; EInt 2];
        EBin DOT (meth lists_ops "enumerate" []) (ESym (b "list"));
        EBin DOT (meth lists_ops "tail" []) (ESym (b "list"));
        meth lists_ops "head" [];
        EBin DOT (meth lists_ops "reverse" []) (ESym (b "list")) ]
  = [ Ok (I 3); Ok (S_ "3-1-2"); Ok (L [I 1; I 2]); Ok (L [L [I 0; I 3]; L [I 1; I 1]; L [I 2; I 2]]);
      Ok (L [I 1; I 2]); Ok (L [I 3]); Ok (L [I 2; I 1; I 3]) ].
Proof. vm_compute. reflexivity. Qed.
Definition tp : value fo := T [(b "a", I 1); (b "b", S_ "x"); (b "c", Nl)].
Example ex_has_fields :
  map (fun fl => run [(b "arg2", L fl); (b "arg1", tp)] (imp_inst tuples_path "has_fields" [("tpl", "arg1"); ("fields", "arg2")]%string))
      [ [S_ "a"]; [S_ "a"; S_ "c"]; [S_ "a"; S_ "d"]; []; [I 1] ]
  = map (fun fl => Ok (ref_has_fields fo [(b "a", I 1); (b "b", S_ "x"); (b "c", Nl)] fl))
        [ [S_ "a"]; [S_ "a"; S_ "c"]; [S_ "a"; S_ "d"]; []; [I 1] ].
Proof. vm_compute. reflexivity. Qed.
Definition field_type_call : expr := imp_inst tuples_path "field_type" [("tpl", "arg1"); ("field", "arg2"); ("type", "arg3")]%string.
Example ex_field_type :
  map (fun ft => run [(b "arg3", S_ (snd ft)); (b "arg2", S_ (fst ft)); (b "arg1", tp)] field_type_call)
      [ ("a", "int"); ("a", "str"); ("b", "str"); ("c", "null"); ("d", "int"); ("c", "int") ]%string
  = map (fun ft => Ok (B (ref_field_type fo [(b "a", I 1); (b "b", S_ "x"); (b "c", Nl)] (b (fst ft)) (b (snd ft)))))
        [ ("a", "int"); ("a", "str"); ("b", "str"); ("c", "null"); ("d", "int"); ("c", "int") ]%string.
Proof. vm_compute. reflexivity. Qed.
Example ex_tuples_ops :
  map (fun n => run [(b "arg", tp)] (meth (imp_inst tuples_path "ops" [("tpl", "arg")]%string) n []))
      ["fields"; "values"; "iter"]%string
  = [ Ok (L [S_ "a"; S_ "b"; S_ "c"]); Ok (L [I 1; S_ "x"; Nl]);
      Ok (L [L [S_ "a"; I 1]; L [S_ "b"; S_ "x"]; L [S_ "c"; Nl]]) ].
Proof. vm_compute. reflexivity. Qed.
Definition bytes_of (l : list Z) : bytes := map (fun z => ascii_of_nat (Z.to_nat z)) l.
Definition hello_utf8 : bytes := bytes_of [104; 195; 169; 108; 108; 111; 32; 119; 195; 182; 114; 108; 100].  (* "héllo wörld" *)
Definition o_uml : bytes := bytes_of [195; 182].
Definition split_on_call : expr := EBin DOT wrap_arg (ECopy (ESym (b "split_on")) [(b "on", ESym (b "arg2"))]).
Example ex_split_on :
  map (fun so => run [(b "arg2", VStr fo (snd so)); (b "arg", VStr fo (fst so))] split_on_call)
      [ (b "foo bar", b " "); (b "foo bar", b "o"); (b "foo bar", b "oo b"); (b "foo bar", b "xyz"); (b "", b " ");
        (b "a,b", b ""); (b "a,,b,", b ","); (hello_utf8, o_uml); (b "abab", b "ab") ]
  = map (fun so => Ok (ref_split_on fo (snd so) (fst so)))
      [ (b "foo bar", b " "); (b "foo bar", b "o"); (b "foo bar", b "oo b"); (b "foo bar", b "xyz"); (b "", b " ");
        (b "a,b", b ""); (b "a,,b,", b ","); (hello_utf8, o_uml); (b "abab", b "ab") ].
Proof. vm_compute. reflexivity. Qed.
Example ex_split_on_values :
  run [(b "arg2", S_ "o"); (b "arg", S_ "foo bar")] split_on_call = Ok (L [S_ "f"; S_ ""; S_ " bar"])
  /\ run [(b "arg2", S_ ""); (b "arg", S_ "a,b")] split_on_call = Ok (L [S_ ""]).        (* empty separator: one empty piece *)
Proof. split; vm_compute; reflexivity. Qed.
Example ex_strings_utf8 :
  run [(b "arg", VStr fo hello_utf8)] (EBin DOT wrap_arg (ESym (b "len"))) = Ok (I 11)     (* 13 bytes, 11 characters *)
  /\ run [(b "arg2", I 2); (b "arg", VStr fo hello_utf8)] (EBin DOT wrap_arg (ECall (ESym (b "split_at")) [ESym (b "arg2")]))
     = Ok (T [(b "left", VStr fo (bytes_of [104; 195; 169])); (b "right", VStr fo (bytes_of [108; 108; 111; 32; 119; 195; 182; 114; 108; 100]))]).
Proof. split; vm_compute; reflexivity. Qed.
Definition parse_int_call : expr := meth (meth wrap_arg "parse_int" []) "unwrap" [].
Example ex_parse_int :
  map (fun s => run [(b "arg", S_ s)] parse_int_call) ["123abc"; "7"; "0042x9"]%string = [Ok (I 123); Ok (I 7); Ok (I 42)]
  /\ map (fun s => leading_digits (utf8_chars (b s))) ["123abc"; "7"; "0042x9"; "abc"]%string = [b "123"; b "7"; b "0042"; b ""].
Proof. split; vm_compute; reflexivity. Qed.
(* as /repo is since its commit 0cc7b92: a string that does
   not start with a digit gives an empty maybe -- unwrap() is NULL and the cast is not attempted. *)
Example strings_parse_int_no_digits_is_null :
  map (fun s => run [(b "arg", S_ s)] parse_int_call) ["abc"; ""; "-5"]%string = [Ok Nl; Ok Nl; Ok Nl]
  /\ run [(b "arg", S_ "abc")] (meth (meth wrap_arg "parse_int" []) "is_null" []) = Ok (B true)
  /\ run [(b "arg", S_ "12x")] parse_int_call = Ok (I 12).
Proof. repeat split; vm_compute; reflexivity. Qed.
Example ex_maybe :
  let inc := VFunc fo [b "x"] (EBin Add (ESym (b "x")) (EInt 1)) [] in
  run [(b "op", inc); (b "arg", I 41)] (meth (meth maybe_of_arg "do" [ESym (b "op")]) "unwrap" []) = Ok (I 42)
  /\ run [(b "op", inc); (b "arg", Nl)] (meth (meth maybe_of_arg "do" [ESym (b "op")]) "unwrap" []) = Ok Nl
  /\ run [(b "arg", Nl)] (meth maybe_of_arg "is_null" []) = Ok (B true)
  /\ run [(b "msg", S_ "boom"); (b "arg", Nl)] (meth maybe_of_arg "expect" [ESym (b "msg")]) = Err.
Proof. repeat split; vm_compute; reflexivity. Qed.
Definition shaped_call : expr := imp_inst schema_path "shaped" [("val", "arg1"); ("shape", "arg2"); ("partial", "arg3")]%string.
Definition any_call : expr := imp_inst schema_path "any" [("val", "arg1"); ("types", "arg2"); ("partial", "arg3")]%string.
Definition all_call : expr := imp_inst schema_path "all" [("val", "arg1"); ("types", "arg2")]%string.
Definition vals : list (value fo) :=
  [ I 1; S_ "a"; B true; Nl; L []; L [I 1; I 2]; L [I 1; S_ "a"]; T []; T [(b "a", I 1)]; T [(b "a", I 1); (b "b", S_ "x")];
    T [(b "a", T [(b "b", I 1)])]; T [(b "a", T [(b "b", I 1); (b "c", I 2)])]; T [(b "a", L [I 1])];
    L [T [(b "a", I 1); (b "b", I 2)]]; L [T [(b "a", I 1)]; I 3] ].
Definition shapes : list (value fo) :=
  [ I 0; S_ ""; B false; Nl; L []; L [I 0]; L [I 0; S_ ""]; T []; T [(b "a", I 0)]; T [(b "a", I 0); (b "b", S_ "")];
    T [(b "a", T [(b "b", I 0)])]; T [(b "a", L [])]; T [(b "c", I 0)]; L [T [(b "a", I 0)]]; L [T [(b "a", I 0)]; I 0] ].
Definition grid {A C} (xs : list A) (ys : list C) : list (A * C) := flat_map (fun x => map (fun y => (x, y)) ys) xs.
(* 15 x 15 x 2 = 450 instantiations of schema.shaped agree with the reference *)
Example ex_shaped_grid :
  forallb (fun p =>
             forallb (fun vs => match run [(b "arg3", B p); (b "arg2", snd vs); (b "arg1", fst vs)] shaped_call with
                                | Ok (VBool _ r) => Bool.eqb r (ref_shaped fo 6 p (fst vs) (snd vs))
                                | _ => false end) (grid vals shapes)) [true; false] = true.
Proof. vm_compute. reflexivity. Qed.
Example ex_any_all_grid :
  forallb (fun v =>
             forallb (fun ts =>
                        match run [(b "arg3", B false); (b "arg2", L ts); (b "arg1", v)] any_call,
                              run [(b "arg2", L ts); (b "arg1", v)] all_call with
                        | Ok (VBool _ r1), Ok (VBool _ r2) =>
                          Bool.eqb r1 (ref_any fo 6 false v ts) && Bool.eqb r2 (ref_all fo 6 v ts)
                        | _, _ => false end)
                     [ []; [I 0]; [S_ ""; I 0]; [T [(b "a", I 0)]; T [(b "b", S_ "")]]; [L []; T []] ]) vals = true.
Proof. vm_compute. reflexivity. Qed.
(* as /repo is since its commit 7b72e49: partial matching applies to nested tuples. *)
Example schema_shaped_nested_partial :
  run [(b "arg3", B true); (b "arg2", T [(b "a", T [(b "b", I 0)])]); (b "arg1", T [(b "a", T [(b "b", I 1); (b "c", I 2)])])] shaped_call
  = Ok (B true)
  /\ run [(b "arg3", B false); (b "arg2", T [(b "a", T [(b "b", I 0)])]); (b "arg1", T [(b "a", T [(b "b", I 1); (b "c", I 2)])])] shaped_call
  = Ok (B false)
  /\ run [(b "arg3", B true); (b "arg2", T [(b "b", I 0)]); (b "arg1", T [(b "b", I 1); (b "c", I 2)])] shaped_call
  = Ok (B true).
Proof. repeat split; vm_compute; reflexivity. Qed.
(* observation: inside LISTS the elements are matched by schema.any with its own default partial = false,
   so an extra field of a tuple that sits in a list is rejected even when shaped is partial *)
Example schema_shaped_list_elements_not_partial :
  run [(b "arg3", B true); (b "arg2", L [T [(b "a", I 0)]]); (b "arg1", L [T [(b "a", I 1); (b "b", I 2)]])] shaped_call = Ok (B false)
  /\ run [(b "arg3", B true); (b "arg2", L [T [(b "a", I 0)]]); (b "arg1", L [T [(b "a", I 1)]])] shaped_call = Ok (B true).
Proof. split; vm_compute; reflexivity. Qed.
Example model_pkg_override_differs :
  run [(b "arg3", Nl); (b "arg2", L [I 2]); (b "arg1", L [I 1])]
      (imp_inst lists_path "zip" [("list1", "arg1"); ("list2", "arg2"); ("pkg", "arg3")]%string) = Err.
Proof. vm_compute. reflexivity. Qed.
