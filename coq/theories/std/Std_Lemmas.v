(* The std-library helpers compute their reference definitions (StdSpec.v), for all argument
   values, under the definitional semantics sem/Sem.v.  Every statement is about the GENERATED
   library terms of gen/StdLib.v (the scopes [lists_scope], [tuples_scope], [schema_scope] are what
   running those programs leaves bound).  This file: corollaries about compositions. *)
From Ucg Require Import base.Bytes_Lemmas sem.Sem.
From Ucg Require Export std.Std_Fuel std.Std_Rules std.StdSpec std.Std_Base
     std.Std_Lists std.Std_Enumerate std.Std_Join std.Std_Tuples std.Std_Schema.
From UcgGen Require Import StdLib.

Section Cor.
  Variable fo : float_ops.
  Notation value := (value fo).
  Notation VInt := (VInt fo).
  Notation VList := (VList fo).

  Lemma evals_eq c e (v v' : value) : evals fo c e v -> v = v' -> evals fo c e v'.
  Proof. intros H <-. exact H. Qed.

  (* reverse(reverse(arg)) == arg *)
  Corollary std_reverse_involutive : forall E st ord (l : list value),
      exists f, eval fo f (ctx_gen fo E st ord ((b "arg", VList l) :: lists_scope fo))
                     (ECall (ESym (b "reverse")) [call1 "reverse"])
                = Ok (VList l).
  Proof.
    intros E st ord l. eapply evals_eq.
    - eapply ev_call; [|ev_lib|apply reverse_calls].
      eapply evl_cons; [|ev1].
      eapply ev_call; [evs|ev_lib|apply reverse_calls].
    - unfold ref_reverse. rewrite rev_involutive. reflexivity.
  Qed.

  (* len(reverse(arg)) == len(arg) *)
  Corollary std_reverse_length : forall E st ord (l : list value),
      fits (Z.of_nat (List.length l)) ->
      exists f, eval fo f (ctx_gen fo E st ord ((b "arg", VList l) :: lists_scope fo))
                     (ECall (ESym (b "len")) [call1 "reverse"])
                = Ok (VInt (Z.of_nat (List.length l))).
  Proof.
    intros E st ord l Hfit. eapply evals_eq.
    - eapply ev_call; [|ev_lib|apply len_calls; rewrite rev_length; exact Hfit].
      eapply evl_cons; [|ev1].
      eapply ev_call; [evs|ev_lib|apply reverse_calls].
    - unfold ref_len. rewrite rev_length. reflexivity.
  Qed.

  (* head(arg) + tail(arg) == arg *)
  Corollary std_head_tail : forall E st ord (l : list value),
      fits (Z.of_nat (List.length l)) ->
      exists f, eval fo f (ctx_gen fo E st ord ((b "arg", VList l) :: lists_scope fo))
                     (EBin Add (call1 "head") (call1 "tail"))
                = Ok (VList l).
  Proof.
    intros E st ord l Hfit.
    eapply ev_add.
    - eapply ev_call; [evs|ev_lib|apply head_calls, Hfit].
    - eapply ev_call; [evs|ev_lib|apply tail_calls, Hfit].
    - destruct l; reflexivity.
  Qed.
End Cor.
