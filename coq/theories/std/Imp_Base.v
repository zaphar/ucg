(* Tactics and basic facts for the proofs about library helpers reached through `import`.

   The scope a closure or module value captured is part of the value, and every definition in a module
   body adds a closure over the scope before it: written out, the scope after n definitions has 2^n
   copies of the first one.  The proofs therefore never unfold a module value or a scope they do not
   have to look into: module values stay behind their names ([copies_module] takes the value and an
   equation for its parts), scopes are named ([in_scope]), and what is needed of a captured scope is a
   lookup lemma. *)
From Ucg Require Import base.Bytes_Lemmas sem.Sem std.Std_Fuel std.Sem_Import std.Sem_Import_Lemmas
     std.Std_Rules_Imp std.Std_Rules_Imp2 std.StdSpec std.StdSpec_Imp.

(* one rule, chosen by the form of the expression: literals, names, groups, lists, tuple literals and
   field selections; what needs a side condition of its own (copies, calls, operators) is applied by hand *)
Ltac iv1 :=
  lazymatch goal with
  | |- evals _ _ _ _ ENull _ => apply ev_null
  | |- evals _ _ _ _ (EBool _) _ => apply ev_bool
  | |- evals _ _ _ _ (EInt _) _ => apply ev_int
  | |- evals _ _ _ _ (EStr _) _ => apply ev_str
  | |- evals _ _ _ _ (EFunc _ _) _ => apply ev_func
  | |- evals _ _ _ _ (ESym _) _ => apply ev_sym; [reflexivity | reflexivity]
  | |- evals _ _ _ _ (EGroup _) _ => apply ev_group
  | |- evals _ _ _ _ (EList _) _ => apply ev_list
  | |- evals_list _ _ _ _ [] _ => apply evl_nil
  | |- evals_list _ _ _ _ (_ :: _) _ => eapply evl_cons
  | |- evals _ _ _ _ (ETuple _) _ => apply ev_tuple
  | |- evals_fields _ _ _ _ [] _ _ => apply evf_nil
  | |- evals _ _ _ _ (EBin DOT _ (ESym _)) _ => eapply ev_dot_sym
  | |- evals _ _ _ _ (EBin DOT _ (EInt _)) _ => eapply ev_dot_int
  end.
Ltac ivs := repeat iv1.
(* x.f where x is a name and the field exists *)
Ltac dotsym := eapply ev_dot_sym; [iv1|reflexivity].
(* one field of a tuple literal / override list *)
Ltac fld1 := eapply evf_cons; [iv1|reflexivity|].
Ltac fldd := eapply evf_cons; [dotsym|reflexivity|].
Ltac flds := eapply evf_cons; [ivs|reflexivity|].

(* name the scope of an [execs] goal: [T] is convertible with the scope the last step left *)
Ltac in_scope T :=
  lazymatch goal with
  | |- execs ?fo ?imps ?stk (Build_ctx _ _ ?slf ?E ?st ?ord) ?ss ?r =>
    change (execs fo imps stk (Build_ctx fo T slf E st ord) ss r)
  end.

Section Base.
  Variable fo : float_ops.
  Notation value := (value fo).
  Notation evals := (evals fo std_imports []).
  Notation calls := (calls fo std_imports []).
  Notation copies := (copies fo std_imports []).
  Notation execs := (execs fo std_imports []).
  Notation evals_fields := (evals_fields fo std_imports []).
  Notation exec_fails := (exec_fails fo std_imports []).
  Notation VTuple := (VTuple fo).
  Notation VFunc := (VFunc fo).
  Notation VModule := (VModule fo).

  (* `import "std/<x>.ucg"` evaluates (in any context, with an empty import stack) to [import_value] *)
  Lemma import_ok path : In path [lists_path; tuples_path; strings_path; functional_path; schema_path] ->
    forall E st ord s, eval_imp fo std_imports 40 [] (ctx_gen fo E st ord s) (EImport path) = Ok (import_value fo path).
  Proof.
    intros Hin E st ord s. cbn in Hin.
    (* both sides are evaluated in the VM; the cast keeps their normal forms out of the proof *)
    repeat (destruct Hin as [<-|Hin]; [lazymatch goal with |- ?l = ?r => exact (@eq_refl _ r <: l = r) end|]).
    destruct Hin.
  Qed.
  Lemma ev_import_std path c : In path [lists_path; tuples_path; strings_path; functional_path; schema_path] ->
    evals c (EImport path) (import_value fo path).
  Proof.
    intros Hin. exists 40. destruct c as [s sf E st ord].
    rewrite <- (import_ok path Hin E st ord s). apply eval_import_ctx; reflexivity.
  Qed.

  Lemma in_lists : In lists_path [lists_path; tuples_path; strings_path; functional_path; schema_path].
  Proof. left; reflexivity. Qed.
  Lemma in_tuples : In tuples_path [lists_path; tuples_path; strings_path; functional_path; schema_path].
  Proof. right; left; reflexivity. Qed.
  Lemma in_strings : In strings_path [lists_path; tuples_path; strings_path; functional_path; schema_path].
  Proof. right; right; left; reflexivity. Qed.
  Lemma in_functional : In functional_path [lists_path; tuples_path; strings_path; functional_path; schema_path].
  Proof. right; right; right; left; reflexivity. Qed.
  Lemma in_schema : In schema_path [lists_path; tuples_path; strings_path; functional_path; schema_path].
  Proof. right; right; right; right; left; reflexivity. Qed.

  (* ---- the members of a library, described by what evaluates to something small: their parameters
     and bodies, not the scopes they captured ---- *)
  Definition has_member (path : bytes) (name : string) : bool :=
    match import_value fo path with
    | Sem.VTuple _ fs => match lookup fo (b name) fs with Some _ => true | None => false end
    | _ => false
    end.
  Lemma index_member c path name :
    has_member path name = true -> index fo c (import_value fo path) (VStr fo (b name)) = Ok (member fo path name).
  Proof.
    unfold has_member, member, get, index. destruct (import_value fo path) as [| | | | | |fs| |]; try discriminate.
    destruct (lookup fo (b name) fs); [reflexivity|discriminate].
  Qed.

  Definition as_func (v : value) : option (list bytes * expr) :=
    match v with Sem.VFunc _ ps bd _ => Some (ps, bd) | _ => None end.
  Lemma as_func_eq v ps bd : as_func v = Some (ps, bd) -> v = VFunc ps bd (fn_clo fo v).
  Proof. destruct v; try discriminate. intros [= <- <-]. reflexivity. Qed.

  (* a module of a library file: its own parameters, then the `pkg` function that linking added *)
  Definition as_module (v : value) : option (list (bytes * value) * bytes * option expr * list stmt) :=
    match v with
    | Sem.VModule _ ps out body =>
      match last ps ([], VNull fo), lookup fo (b "pkg") (removelast ps) with
      | (k, Sem.VFunc _ [] (EImport p) _), None => if bytes_eqb k (b "pkg") then Some (removelast ps, p, out, body) else None
      | _, _ => None
      end
    | _ => None
    end.
  Lemma lookup_app_none k (l l' : list (bytes * value)) : lookup fo k l = None -> lookup fo k (l ++ l') = lookup fo k l'.
  Proof.
    induction l as [|[k' w] l IH]; cbn; [reflexivity|]. destruct (bytes_eqb k k'); [discriminate|exact IH].
  Qed.
  Lemma as_module_eq v ds p out body :
    as_module v = Some (ds, p, out, body) ->
    v = VModule (ds ++ [(b "pkg", VFunc [] (EImport p) (pkg_clo fo v))]) out body.
  Proof.
    destruct v as [| | | | | | | |ps o bd]; try discriminate. unfold as_module, pkg_clo, get, mod_params.
    destruct ps as [|x ps']; [discriminate|].
    assert (Hps := app_removelast_last ([], VNull fo) (l := x :: ps') ltac:(discriminate)).
    revert Hps. generalize (removelast (x :: ps')) (last (x :: ps') ([], VNull fo)). intros ds' lst ->.
    destruct lst as [k [| | | | | | |[|] [] clo|]]; try discriminate.
    destruct (lookup fo (b "pkg") ds') eqn:El; [discriminate|].
    destruct (bytes_eqb k (b "pkg")) eqn:Ek; [|discriminate]. apply bytes_eqb_spec in Ek. subst k.
    intros [= <- <- <- <-]. rewrite (lookup_app_none _ _ _ El). reflexivity.
  Qed.

  (* the `pkg` function of a module defined in a library file, whatever scope it captured *)
  Lemma pkg_calls c clo path :
    In path [lists_path; tuples_path; strings_path; functional_path; schema_path] ->
    calls c (VFunc [] (EImport path) clo) [] (import_value fo path).
  Proof. intros Hin. eapply calls_intro; [reflexivity|reflexivity|]. apply ev_import_std, Hin. Qed.

  Lemma index_tuple_lookup c fs k v : lookup fo k fs = Some v -> index fo c (VTuple fs) (VStr fo k) = Ok v.
  Proof. intros H. unfold index. rewrite H. reflexivity. Qed.

  Lemma evals_eq stk c e (v v' : value) : Std_Rules_Imp.evals fo std_imports stk c e v -> v = v' -> Std_Rules_Imp.evals fo std_imports stk c e v'.
  Proof. intros H <-. exact H. Qed.
  Lemma calls_eq stk c fv args (v v' : value) :
    Std_Rules_Imp.calls fo std_imports stk c fv args v -> v = v' -> Std_Rules_Imp.calls fo std_imports stk c fv args v'.
  Proof. intros H <-. exact H. Qed.
  Lemma copies_eq stk c tv fs (v v' : value) :
    Std_Rules_Imp.copies fo std_imports stk c tv fs v -> v = v' -> Std_Rules_Imp.copies fo std_imports stk c tv fs v'.
  Proof. intros H <-. exact H. Qed.

  (* a call and a tuple copy from a context written out as a record, as the rules for module bodies are *)
  Notation mk := (Build_ctx fo).
  Lemma calls_intro' s0 slf E st ord ps body clo avs s v :
    List.length ps = List.length avs -> bind_params fo ps avs clo = Ok s ->
    evals (mk s None E st ord) body v ->
    calls (mk s0 slf E st ord) (VFunc ps body clo) avs v.
  Proof. intros H1 H2 H3. exact (calls_intro fo std_imports [] (mk s0 slf E st ord) ps body clo avs s v H1 H2 H3). Qed.
  Lemma copies_tuple' s0 slf E st ord base fs ovs r :
    evals_fields (mk s0 (Some (VTuple base)) E st ord) fs [] ovs ->
    merge_fields fo base ovs = Ok r ->
    copies (mk s0 slf E st ord) (VTuple base) fs (VTuple r).
  Proof. intros H1 H2. exact (copies_tuple fo std_imports [] (mk s0 slf E st ord) base fs ovs r H1 H2). Qed.

  (* `mod.pkg()` inside a module of a library file: the file's own import *)
  Lemma ev_mod_pkg c fl path clo :
    lookup fo (b "mod") (sc fo c) = Some (VTuple fl) ->
    lookup fo (b "pkg") fl = Some (VFunc [] (EImport path) clo) ->
    In path [lists_path; tuples_path; strings_path; functional_path; schema_path] ->
    evals c (EBin DOT (ESym (b "mod")) (ECall (ESym (b "pkg")) [])) (import_value fo path).
  Proof.
    intros Hm Hp Hin.
    eapply ev_dot_call; [apply evl_nil|apply ev_sym; [reflexivity|exact Hm]|apply index_tuple_lookup, Hp|apply pkg_calls, Hin].
  Qed.

  Lemma fits_chk z : fits z -> chk fo z = Ok (VInt fo z).
  Proof. unfold fits, chk. intros ->. reflexivity. Qed.
  Lemma fits_iff z : fits z <-> (i64_min <= z <= i64_max)%Z.
  Proof. unfold fits, in_i64. rewrite andb_true_iff, !Z.leb_le. reflexivity. Qed.
  Lemma fits_between z lo hi : fits lo -> fits hi -> (lo <= z <= hi)%Z -> fits z.
  Proof. rewrite !fits_iff. lia. Qed.
  Lemma fits_0 : fits 0. Proof. reflexivity. Qed.
End Base.
