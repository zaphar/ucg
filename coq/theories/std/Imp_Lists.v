(* std/lists.ucg through `import`: len (on lists and strings), tail, zip. *)
From Ucg Require Import base.Bytes_Lemmas sem.Sem std.Std_Fuel std.Sem_Import std.Sem_Import_Lemmas
     std.Std_Rules_Imp std.Std_Rules_Imp2 std.StdSpec std.StdSpec_Imp std.Imp_Base.

Section Lists.
  Variable fo : float_ops.
  Notation value := (value fo).
  Notation VInt := (VInt fo).
  Notation VStr := (VStr fo).
  Notation VBool := (VBool fo).
  Notation VNull := (VNull fo).
  Notation VList := (VList fo).
  Notation VTuple := (VTuple fo).
  Notation VFunc := (VFunc fo).
  Notation VModule := (VModule fo).
  Notation evals := (evals fo std_imports []).
  Notation calls := (calls fo std_imports []).
  Notation fits_chk := (fits_chk fo).
  Definition idx_list (n : nat) : list value := map (fun i => VInt (Z.of_nat i)) (seq 0 n).

  Lemma range_from_seq : forall n a,
      (i64_min <= a)%Z -> (a + Z.of_nat n <= i64_max)%Z ->
      range_from fo n a 1 (a + Z.of_nat n - 1) = map (fun i => VInt (a + Z.of_nat i)) (seq 0 n).
  Proof.
    induction n as [|n IH]; intros a Hlo Hhi; [reflexivity|].
    cbn [range_from seq map].
    replace (a + Z.of_nat (S n) - 1 <? a)%Z with false by (symmetry; apply Z.ltb_ge; lia).
    replace (a + Z.of_nat 0)%Z with a by lia. f_equal.
    replace (in_i64 (a + 1)) with true.
    2:{ symmetry. apply (proj2 (fits_iff (a + 1))). lia. }
    replace (a + Z.of_nat (S n) - 1)%Z with ((a + 1) + Z.of_nat n - 1)%Z by lia.
    rewrite IH by lia. rewrite <- seq_shift, map_map. apply map_ext. intros i. f_equal. lia.
  Qed.
  Lemma range_len_0 n : range_len 0 1 (Z.of_nat n - 1) = Z.of_nat n.
  Proof. unfold range_len. destruct (Z.ltb_spec (Z.of_nat n - 1) 0); [lia|]. rewrite Z.div_1_r. lia. Qed.
  Lemma range_0 n : (Z.of_nat n <= i64_max)%Z ->
    range_from fo (Z.to_nat (range_len 0 1 (Z.of_nat n - 1))) 0 1 (Z.of_nat n - 1) = idx_list n.
  Proof.
    intros Hn. rewrite range_len_0, Nat2Z.id. replace (Z.of_nat n - 1)%Z with (0 + Z.of_nat n - 1)%Z by lia.
    rewrite (range_from_seq n 0); [reflexivity|unfold i64_min; lia|lia].
  Qed.

  Lemma seq_split {A} (g : nat -> A) : forall pre n a v post,
      map g (seq a n) = pre ++ v :: post -> v = g (a + List.length pre)%nat /\ (List.length pre < n)%nat.
  Proof.
    induction pre as [|x pre IH]; intros n a v post H.
    - destruct n as [|n]; [discriminate|]. cbn in H. inversion H. split; [f_equal; cbn; lia|cbn; lia].
    - destruct n as [|n]; [discriminate|]. cbn in H. inversion H as [[Hx Ht]].
      destruct (IH _ _ _ _ Ht) as [-> Hl]. split; [f_equal; cbn; lia|cbn; lia].
  Qed.

  Lemma index_list_nth c l k : (k < List.length l)%nat ->
    index fo c (VList l) (VInt (Z.of_nat k)) = Ok (nth k l VNull).
  Proof.
    intros Hk. unfold index. replace (0 <=? Z.of_nat k)%Z with true by (symmetry; apply Z.leb_le; lia).
    rewrite Nat2Z.id, (nth_error_nth' l VNull Hk). reflexivity.
  Qed.

  Lemma zip_ref_eq : forall (l1 l2 : list value),
      map (fun i => VList [nth i l1 VNull; nth i l2 VNull]) (seq 0 (Nat.min (List.length l1) (List.length l2)))
      = map (fun p => VList [fst p; snd p]) (combine l1 l2).
  Proof.
    induction l1 as [|x l1 IH]; intros [|y l2]; try reflexivity.
    cbn [List.length Nat.min seq map combine fst snd nth]. f_equal.
    rewrite <- seq_shift, map_map. cbn [nth]. apply IH.
  Qed.
  Definition len_v : value := member fo lists_path "len".
  Definition len_clo := fn_clo fo len_v.
  Definition len_body : expr := Eval vm_compute in fn_body fo len_v.
  Lemma len_v_eq : len_v = VFunc [b "list"] len_body len_clo.
  Proof. apply as_func_eq. vm_compute. reflexivity. Qed.
  Lemma lists_index_len c : index fo c (import_value fo lists_path) (VStr (b "len")) = Ok len_v.
  Proof. apply index_member. vm_compute. reflexivity. Qed.

  Lemma len_calls c l :
    fits (Z.of_nat (List.length l)) -> calls c len_v [VList l] (ref_len fo l).
  Proof.
    intros Hfit. rewrite len_v_eq.
    eapply calls_intro; [reflexivity|reflexivity|]. unfold len_body.
    edestruct (reduce_list_inv fo std_imports []) with (I := fun (pre : list value) (a : value) => a = VInt (Z.of_nat (List.length pre)))
      as (r & Hr & HI); [ | | | | |subst r; exact Hr].
    - iv1.
    - iv1.
    - iv1.
    - reflexivity.
    - intros pre v post a El ->. eexists. split.
      + eapply calls_intro; [reflexivity|reflexivity|].
        eapply ev_add; [iv1|iv1|]. cbn [arith' arith]. apply fits_chk.
        apply (fits_between _ 0 (Z.of_nat (List.length l))); [apply fits_0|exact Hfit|].
        subst l. rewrite app_length. cbn [List.length]. lia.
      + rewrite app_length. cbn [List.length]. f_equal. lia.
  Qed.

  (* on a string the same function counts characters (UTF-8 sequences) *)
  Lemma len_calls_str c s :
    fits (Z.of_nat (List.length (utf8_chars s))) ->
    calls c len_v [VStr s] (VInt (Z.of_nat (List.length (utf8_chars s)))).
  Proof.
    intros Hfit. rewrite len_v_eq.
    eapply calls_intro; [reflexivity|reflexivity|]. unfold len_body.
    edestruct (reduce_str_inv fo std_imports []) with (I := fun (pre : list bytes) (a : value) => a = VInt (Z.of_nat (List.length pre)))
      as (r & Hr & HI); [ | | | | |subst r; exact Hr].
    - iv1.
    - iv1.
    - iv1.
    - reflexivity.
    - intros pre v post a El ->. eexists. split.
      + eapply calls_intro; [reflexivity|reflexivity|].
        eapply ev_add; [iv1|iv1|]. cbn [arith' arith]. apply fits_chk.
        apply (fits_between _ 0 (Z.of_nat (List.length (utf8_chars s)))); [apply fits_0|exact Hfit|].
        rewrite El, app_length. cbn [List.length]. lia.
      + rewrite app_length. cbn [List.length]. f_equal. lia.
  Qed.
  Definition tail_v : value := member fo lists_path "tail".
  Definition tail_clo := fn_clo fo tail_v.
  Definition tail_body : expr := Eval vm_compute in fn_body fo tail_v.
  Lemma tail_v_eq : tail_v = VFunc [b "list"] tail_body tail_clo.
  Proof. apply as_func_eq. vm_compute. reflexivity. Qed.
  Lemma lists_index_tail c : index fo c (import_value fo lists_path) (VStr (b "tail")) = Ok tail_v.
  Proof. apply index_member. vm_compute. reflexivity. Qed.

  Definition tail_acc (n : Z) (x : list value) : value := VTuple [(b "count", VInt n); (b "tail", VList x)].
  Definition tail_reducer_body : expr :=
    Eval vm_compute in match tail_body with EBin DOT (EReduce (EFunc _ bd) _ _) _ => bd | _ => ENull end.
  Lemma tail_step c clo n x v :
    (0 <= n)%Z -> fits (n + 1) ->
    calls c (VFunc [b "acc"; b "item"] tail_reducer_body clo) [tail_acc n x; v]
          (tail_acc (n + 1) (if (0 <? n)%Z then x ++ [v] else [])).
  Proof.
    intros Hn Hfit. eapply calls_intro; [reflexivity|reflexivity|]. unfold tail_reducer_body.
    destruct (0 <? n)%Z eqn:Hpos.
    - eapply evals_eq.
      + eapply ev_select.
        * eapply ev_cmp; [reflexivity|dotsym|iv1|reflexivity].
        * cbn [compare_num]. rewrite Hpos. reflexivity.
        * eapply ev_copy; [iv1|]. eapply copies_tuple.
          { eapply evf_cons; [|reflexivity|].
            { eapply ev_add; [dotsym|iv1|]. cbn [arith' arith]. apply fits_chk, Hfit. }
            eapply evf_cons; [|reflexivity|iv1].
            eapply ev_add; [dotsym|ivs|reflexivity]. }
          reflexivity.
      + reflexivity.
    - assert (n = 0)%Z by (apply Z.ltb_ge in Hpos; lia). subst n.
      eapply evals_eq.
      + eapply ev_select.
        * eapply ev_cmp; [reflexivity|dotsym|iv1|reflexivity].
        * reflexivity.
        * eapply ev_copy; [iv1|]. eapply copies_tuple.
          { eapply evf_cons; [iv1|reflexivity|]. eapply evf_cons; [ivs|reflexivity|iv1]. }
          reflexivity.
      + reflexivity.
  Qed.
  Definition tail_step_fn (a v : value) : value :=
    match a with
    | Sem.VTuple _ [(_, Sem.VInt _ n); (_, Sem.VList _ x)] => tail_acc (n + 1) (if (0 <? n)%Z then x ++ [v] else [])
    | _ => a
    end.

  Lemma tail_calls c l :
    fits (Z.of_nat (List.length l)) -> calls c tail_v [VList l] (VList (tl l)).
  Proof.
    intros Hfit. rewrite tail_v_eq.
    eapply calls_intro; [reflexivity|reflexivity|]. unfold tail_body.
    destruct (reduce_list_is_fold_pre fo std_imports []
                (fctx fo c ((b "list", VList l) :: tail_clo))
                (EFunc [b "acc"; b "item"] tail_reducer_body)
                (ETuple [(b "count", EInt 0); (b "tail", EList [])]) (ESym (b "list"))
                (b "acc") (b "item") tail_reducer_body ((b "list", VList l) :: tail_clo)
                (tail_acc 0 []) l
                (fun pre a => a = tail_acc (Z.of_nat (List.length pre)) (tl pre)) tail_step_fn) as [Hev HI].
    - apply ev_func.
    - iv1. fld1. flds. iv1.
    - iv1.
    - reflexivity.
    - intros pre v post a El ->. cbn [tail_step_fn tail_acc].
      assert (Hlen : (Z.of_nat (List.length pre) + 1 <= Z.of_nat (List.length l))%Z).
      { rewrite El, app_length. cbn [List.length]. lia. }
      split.
      + apply tail_step; [lia|].
        apply (fits_between _ 0 (Z.of_nat (List.length l))); [apply fits_0|exact Hfit|lia].
      + rewrite app_length. cbn [List.length].
        replace (Z.of_nat (List.length pre + 1)) with (Z.of_nat (List.length pre) + 1)%Z by lia.
        destruct pre as [|p pre]; [reflexivity|].
        replace (0 <? Z.of_nat (List.length (p :: pre)))%Z with true by (symmetry; apply Z.ltb_lt; cbn [List.length]; lia).
        reflexivity.
    - rewrite HI in Hev. eapply ev_dot_sym; [exact Hev|reflexivity].
  Qed.
  Definition zip_v : value := member fo lists_path "zip".
  Definition zip_pkg_clo := pkg_clo fo zip_v.
  Definition zip_out : option expr := Eval vm_compute in mod_out fo zip_v.
  Definition zip_body : list stmt := Eval vm_compute in mod_body fo zip_v.
  Lemma zip_v_eq :
    zip_v = VModule ([(b "list1", VList []); (b "list2", VList [])] ++ [(b "pkg", VFunc [] (EImport lists_path) zip_pkg_clo)])
                    zip_out zip_body.
  Proof. apply as_module_eq. vm_compute. reflexivity. Qed.
  Lemma lists_index_zip c : index fo c (import_value fo lists_path) (VStr (b "zip")) = Ok zip_v.
  Proof. apply index_member. vm_compute. reflexivity. Qed.

  Definition zip_acc (l1 l2 : list value) (k : nat) : value :=
    VTuple [(b "list1", VList l1); (b "list2", VList l2);
            (b "result", VList (map (fun i => VList [nth i l1 VNull; nth i l2 VNull]) (seq 0 k)));
            (b "idxs", VList (idx_list k))].

  (* the reducer of zip, whatever scope it captured *)
  Definition zip_reducer_body : expr :=
    Eval vm_compute in match nth 4 zip_body (SExpr ENull) with SLet _ (EFunc _ bd) => bd | _ => ENull end.
  Lemma zip_step c clo l1 l2 k :
    (k < List.length l1)%nat -> (k < List.length l2)%nat ->
    calls c (VFunc [b "acc"; b "item"] zip_reducer_body clo) [zip_acc l1 l2 k; VInt (Z.of_nat k)] (zip_acc l1 l2 (S k)).
  Proof.
    intros Hk1 Hk2.
    eapply calls_intro; [reflexivity|reflexivity|]. unfold zip_reducer_body.
    eapply evals_eq.
    - eapply ev_copy; [iv1|]. eapply copies_tuple'.
      + eapply evf_cons; [|reflexivity|].
        { eapply ev_add; [dotsym| |].
          { iv1. eapply evl_cons; [|iv1]. iv1.
            eapply evl_cons; [eapply ev_dot_group; [dotsym|iv1|apply index_list_nth, Hk1]|].
            eapply evl_cons; [eapply ev_dot_group; [dotsym|iv1|apply index_list_nth, Hk2]|]. iv1. }
          reflexivity. }
        eapply evf_cons; [|reflexivity|iv1].
        eapply ev_add; [dotsym|ivs|reflexivity].
      + reflexivity.
    - unfold zip_acc, idx_list. rewrite !seq_S, !map_app. reflexivity.
  Qed.

  Definition zip_call : expr := imp_inst lists_path "zip" [("list1", "arg1"); ("list2", "arg2")]%string.

  Theorem std_zip : forall E st ord l1 l2,
      fits (Z.of_nat (List.length l1)) -> fits (Z.of_nat (List.length l2)) ->
      (Z.of_nat (Nat.min (List.length l1) (List.length l2)) <= range_limit)%Z ->
      exists f, eval_imp fo std_imports f [] (ctx_gen fo E st ord [(b "arg2", VList l2); (b "arg1", VList l1)]) zip_call
                = Ok (ref_zip fo l1 l2).
  Proof.
    intros E st ord l1 l2 Hf1 Hf2 Hlim.
    set (n := Nat.min (List.length l1) (List.length l2)) in *.
    unfold ref_zip. rewrite <- zip_ref_eq. fold n.
    unfold zip_call, imp_inst, ctx_gen. cbn [map fst snd].
    edestruct (reduce_list_inv fo std_imports []) with (l := idx_list n)
      (I := fun (pre : list value) (a : value) => a = zip_acc l1 l2 (List.length pre))
      as (r & Hr & HI); cycle 5.
    - subst r. unfold idx_list in Hr. rewrite map_length, seq_length in Hr.
      eapply ev_dot_copy; [apply ev_import_std, in_lists|apply lists_index_zip|].
      eapply (copies_module fo std_imports [] zip_v); [exact zip_v_eq| | | | |].
      + fld1. fld1. iv1.
      + reflexivity.
      + reflexivity.
      + unfold zip_body.
        eapply execs_let; [|reflexivity|reflexivity|].
        { eapply ev_dot_sym; [|apply lists_index_len].
          eapply ev_mod_pkg; [reflexivity|reflexivity|apply in_lists]. }
        eapply execs_let; [|reflexivity|reflexivity|].
        { eapply ev_call; [ivs; reflexivity|iv1|apply len_calls, Hf1]. }
        eapply execs_let; [|reflexivity|reflexivity|].
        { eapply ev_call; [ivs; reflexivity|iv1|apply len_calls, Hf2]. }
        eapply execs_let; [|reflexivity|reflexivity|].
        { (* the index range *)
          match goal with |- Std_Rules_Imp.evals _ _ _ ?cc ?e _ =>
            assert (Hrng : evals cc e (VList (idx_list n))); [|exact Hrng] end.
          destruct (Nat.leb_spec (List.length l2) (List.length l1)) as [Hle|Hgt].
          - assert (Hn : n = List.length l2) by (unfold n; lia).
            eapply ev_select.
            + iv1. eapply ev_cmp; [reflexivity|iv1|iv1|reflexivity].
            + cbn [compare_num]. replace (Z.of_nat (List.length l2) <=? Z.of_nat (List.length l1))%Z with true
                by (symmetry; apply Z.leb_le; lia). reflexivity.
            + rewrite <- (range_0 n) by (rewrite Hn; apply fits_iff, Hf2). rewrite Hn.
              eapply ev_range; [iv1| |].
              * iv1. eapply ev_sub; [iv1|iv1|]. cbn [arith' arith]. apply fits_chk.
                apply (fits_between _ (-1) (Z.of_nat (List.length l2))); [reflexivity|exact Hf2|lia].
              * rewrite range_len_0. apply Z.ltb_ge. rewrite <- Hn. exact Hlim.
          - assert (Hn : n = List.length l1) by (unfold n; lia).
            eapply ev_select.
            + iv1. eapply ev_cmp; [reflexivity|iv1|iv1|reflexivity].
            + cbn [compare_num]. replace (Z.of_nat (List.length l2) <=? Z.of_nat (List.length l1))%Z with false
                by (symmetry; apply Z.leb_gt; lia). reflexivity.
            + rewrite <- (range_0 n) by (rewrite Hn; apply fits_iff, Hf1). rewrite Hn.
              eapply ev_range; [iv1| |].
              * iv1. eapply ev_sub; [iv1|iv1|]. cbn [arith' arith]. apply fits_chk.
                apply (fits_between _ (-1) (Z.of_nat (List.length l1))); [reflexivity|exact Hf1|lia].
              * rewrite range_len_0. apply Z.ltb_ge. rewrite <- Hn. exact Hlim. }
        eapply execs_let; [iv1|reflexivity|reflexivity|].
        eapply execs_let; [|reflexivity|reflexivity|].
        { iv1. fldd. fldd. flds. flds. iv1. }
        eapply execs_let; [|reflexivity|reflexivity|apply execs_nil].
        eapply ev_dot_sym; [exact Hr|reflexivity].
      + unfold zip_out. iv1.
    - iv1.
    - iv1.
    - iv1.
    - reflexivity.
    - intros pre v post a El ->.
      destruct (seq_split _ _ _ _ _ _ El) as [-> Hlt]. cbn [Nat.add] in *.
      assert (Hk1 : (List.length pre < List.length l1)%nat) by (unfold n in Hlt; lia).
      assert (Hk2 : (List.length pre < List.length l2)%nat) by (unfold n in Hlt; lia).
      exists (zip_acc l1 l2 (S (List.length pre))). split.
      + apply zip_step; assumption.
      + rewrite app_length, Nat.add_1_r. reflexivity.
  Qed.

End Lists.
