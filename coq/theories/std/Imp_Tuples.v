(* std/tuples.ucg through `import`: fields / iter as modules of the linked library, has_fields. *)
From Ucg Require Import base.Bytes_Lemmas sem.Sem std.Std_Fuel std.Sem_Import std.Sem_Import_Lemmas
     std.Std_Rules_Imp std.Std_Rules_Imp2 std.StdSpec std.StdSpec_Imp std.Imp_Base.

Section Tuples.
  Variable fo : float_ops.
  Notation value := (value fo).
  Notation VInt := (VInt fo).
  Notation VStr := (VStr fo).
  Notation VBool := (VBool fo).
  Notation VNull := (VNull fo).
  Notation VList := (VList fo).
  Notation VTuple := (VTuple fo).
  Notation VFunc := (VFunc fo).
  Notation VModule := (VModule fo).
  Notation evals := (evals fo std_imports []).
  Notation calls := (calls fo std_imports []).
  Notation copies := (copies fo std_imports []).
  (* module{tpl = {}} => (result) { let result = reduce(func (acc, field, value) => acc + [item], [], (mod.tpl)); }
     collects what [item] makes of each field *)
  Definition items_body (item : expr) : list stmt :=
    [SLet (b "result")
          (EReduce (EFunc [b "acc"; b "field"; b "value"] (EBin Add (ESym (b "acc")) (EList [item])))
                   (EList []) (EGroup (EBin DOT (ESym (b "mod")) (ESym (b "tpl")))))].
  Definition step_items (g : bytes -> value -> value) (a : value) (k : bytes) (v : value) : value :=
    match a with Sem.VList _ x => VList (x ++ [g k v]) | _ => a end.
  Lemma fold_step_items g : forall fs x,
      fold_left (fun a kv => step_items g a (fst kv) (snd kv)) fs (VList x) = VList (x ++ map (fun kv => g (fst kv) (snd kv)) fs).
  Proof.
    induction fs as [|[k v] fs IH]; intros x; cbn [fold_left map fst snd step_items].
    - rewrite app_nil_r. reflexivity.
    - rewrite IH, <- app_assoc. reflexivity.
  Qed.
  Lemma items_copies tv path clo item (g : bytes -> value -> value) c e fs :
    tv = VModule ([(b "tpl", VTuple [])] ++ [(b "pkg", VFunc [] (EImport path) clo)]) (Some (ESym (b "result"))) (items_body item) ->
    (forall c' x k v, evals (fctx fo c' ((b "value", v) :: (b "field", VStr k) :: (b "acc", x) :: [(b "mod", VTuple [(b "tpl", VTuple fs); (b "pkg", VFunc [] (EImport path) clo); (b "this", tv)])])) item (g k v)) ->
    evals (with_self fo c (Some tv)) e (VTuple fs) ->
    copies c tv [(b "tpl", e)] (VList (map (fun kv => g (fst kv) (snd kv)) fs)).
  Proof.
    intros Htv Hitem He. destruct c as [s0 slf E st ord].
    rewrite <- (app_nil_l (map _ fs)), <- (fold_step_items g fs []).
    eapply (copies_module fo std_imports [] tv); [exact Htv| | | | |].
    - eapply evf_cons; [exact He|reflexivity|iv1].
    - reflexivity.
    - reflexivity.
    - eapply execs_let; [|reflexivity|reflexivity|apply execs_nil].
      eapply (reduce_tuple_is_fold fo std_imports []) with (I := fun a => exists x, a = VList x) (step := step_items g).
      + iv1.
      + ivs.
      + iv1. dotsym.
      + exists []. reflexivity.
      + intros a k v [x ->] _. split; [|eexists; reflexivity].
        eapply calls_intro; [reflexivity|reflexivity|].
        eapply ev_add; [iv1|iv1; eapply evl_cons; [apply Hitem|iv1]|reflexivity].
    - iv1.
  Qed.
  Definition fields_v : value := member fo tuples_path "fields".
  Definition fields_pkg_clo := pkg_clo fo fields_v.
  Definition fields_out : option expr := Eval vm_compute in mod_out fo fields_v.
  Definition fields_body : list stmt := Eval vm_compute in mod_body fo fields_v.
  Lemma fields_v_eq :
    fields_v = VModule ([(b "tpl", VTuple [])] ++ [(b "pkg", VFunc [] (EImport tuples_path) fields_pkg_clo)])
                       fields_out fields_body.
  Proof. apply as_module_eq. vm_compute. reflexivity. Qed.
  Lemma tuples_index_fields c : index fo c (import_value fo tuples_path) (VStr (b "fields")) = Ok fields_v.
  Proof. apply index_member. vm_compute. reflexivity. Qed.

  (* instantiating `fields` with tpl = e, wherever e evaluates to a tuple *)
  Lemma fields_copies c e fs :
    evals (with_self fo c (Some fields_v)) e (VTuple fs) ->
    copies c fields_v [(b "tpl", e)] (VList (map (fun kv => VStr (fst kv)) fs)).
  Proof. eapply items_copies with (g := fun k _ => VStr k); [exact fields_v_eq|]. intros. iv1. Qed.
  Definition hf_v : value := member fo tuples_path "has_fields".
  Definition hf_pkg_clo := pkg_clo fo hf_v.
  Definition hf_out : option expr := Eval vm_compute in mod_out fo hf_v.
  Definition hf_body : list stmt := Eval vm_compute in mod_body fo hf_v.
  Lemma hf_v_eq :
    hf_v = VModule ([(b "tpl", VTuple []); (b "fields", VList [])] ++
                    [(b "pkg", VFunc [] (EImport tuples_path) hf_pkg_clo)]) hf_out hf_body.
  Proof. apply as_module_eq. vm_compute. reflexivity. Qed.
  Lemma tuples_index_hf c : index fo c (import_value fo tuples_path) (VStr (b "has_fields")) = Ok hf_v.
  Proof. apply index_member. vm_compute. reflexivity. Qed.

  Definition key_in (keys : list bytes) (v : value) : bool :=
    match v with Sem.VStr _ k => existsb (fun x => bytes_eqb x k) keys | _ => false end.
  Lemma has_key_keys fs v : has_key fo fs v = key_in (map fst fs) v.
  Proof.
    destruct v; try reflexivity. cbn. induction fs as [|[k w] fs IH]; [reflexivity|]. cbn. rewrite IH. reflexivity.
  Qed.

  Lemma in_go_keys ord keys v :
    is_closure fo v = false ->
    in_go fo ord 1 v (map VStr keys) = Ok (VBool (key_in keys v)).
  Proof.
    intros Hv. induction keys as [|x keys IH]; cbn [map in_go].
    - destruct v; reflexivity.
    - cbn [in_go] in IH. destruct v; cbn in *; try discriminate; try exact IH.
      destruct (bytes_eqb x s); [reflexivity|exact IH].
  Qed.

  Definition hf_reducer_body : expr :=
    Eval vm_compute in match nth 2 hf_body (SExpr ENull) with SLet _ (EReduce (EFunc _ bd) _ _) => bd | _ => ENull end.
  Lemma hf_step c clo keys (a : bool) v :
    lookup fo (b "fs") clo = Some (VList (map VStr keys)) -> is_closure fo v = false ->
    calls c (VFunc [b "acc"; b "f"] hf_reducer_body clo) [VBool a; v] (VBool (a && key_in keys v)).
  Proof.
    intros Hfs Hv. eapply calls_intro; [reflexivity|reflexivity|]. unfold hf_reducer_body.
    destruct a.
    - eapply ev_and_true; [iv1|]. iv1.
      eapply ev_in_list; [apply ev_sym; [reflexivity|exact Hfs]|iv1|].
      exists 1. apply in_go_keys, Hv.
    - apply ev_and_false. iv1.
  Qed.

  Definition hf_step_fn (keys : list bytes) (a v : value) : value :=
    match a with Sem.VBool _ x => VBool (x && key_in keys v) | _ => a end.
  Lemma hf_fold keys fields x :
    fold_left (hf_step_fn keys) fields (VBool x) = VBool (x && forallb (key_in keys) fields).
  Proof.
    revert x. induction fields as [|v fields IH]; intros x; cbn.
    - rewrite andb_true_r. reflexivity.
    - rewrite IH, andb_assoc. reflexivity.
  Qed.

  Lemma forallb_ext' {A} (g h : A -> bool) l : (forall x, g x = h x) -> forallb g l = forallb h l.
  Proof. intros H. induction l as [|a l IH]; cbn; [reflexivity|]. rewrite H, IH. reflexivity. Qed.

  (* instantiating has_fields with tpl = e1, fields = e2 *)
  Lemma has_fields_copies c e1 e2 fs fields :
    Forall (fun v => is_closure fo v = false) fields ->
    evals (with_self fo c (Some hf_v)) e1 (VTuple fs) ->
    evals (with_self fo c (Some hf_v)) e2 (VList fields) ->
    copies c hf_v [(b "tpl", e1); (b "fields", e2)] (ref_has_fields fo fs fields).
  Proof.
    intros Hcl H1 H2. rewrite Forall_forall in Hcl. destruct c as [s0 slf E st ord].
    unfold ref_has_fields. rewrite (forallb_ext' _ _ fields (has_key_keys fs)).
    change (VBool (forallb (key_in (map fst fs)) fields)) with (VBool (true && forallb (key_in (map fst fs)) fields)).
    rewrite <- hf_fold.
    eapply (copies_module fo std_imports [] hf_v); [exact hf_v_eq| | | | |].
    - eapply evf_cons; [exact H1|reflexivity|]. eapply evf_cons; [exact H2|reflexivity|iv1].
    - reflexivity.
    - reflexivity.
    - unfold hf_body.
      eapply execs_let; [|reflexivity|reflexivity|].
      { eapply ev_mod_pkg; [reflexivity|reflexivity|apply in_tuples]. }
      eapply execs_let; [|reflexivity|reflexivity|].
      { eapply ev_dot_copy; [iv1|apply tuples_index_fields|]. apply fields_copies. dotsym. }
      eapply execs_let; [|reflexivity|reflexivity|apply execs_nil].
      eapply (reduce_list_is_fold_ev fo std_imports []) with (I := fun a => exists x, a = VBool x) (step := hf_step_fn (map fst fs)).
      + iv1.
      + iv1.
      + dotsym.
      + exists true. reflexivity.
      + intros a v [x ->] Hin. split; [|eexists; reflexivity].
        cbn [hf_step_fn]. apply hf_step; [rewrite map_map; reflexivity|apply Hcl, Hin].
    - unfold hf_out. iv1.
  Qed.

  Definition has_fields_call : expr := imp_inst tuples_path "has_fields" [("tpl", "arg1"); ("fields", "arg2")]%string.

  Theorem std_has_fields : forall E st ord fs fields,
      Forall (fun v => is_closure fo v = false) fields ->
      exists f, eval_imp fo std_imports f []
                  (ctx_gen fo E st ord [(b "arg2", VList fields); (b "arg1", VTuple fs)]) has_fields_call
                = Ok (ref_has_fields fo fs fields).
  Proof.
    intros E st ord fs fields Hcl.
    unfold has_fields_call, imp_inst, ctx_gen. cbn [map fst snd].
    eapply ev_dot_copy; [apply ev_import_std, in_tuples|apply tuples_index_hf|].
    apply has_fields_copies; [exact Hcl|iv1|iv1].
  Qed.
  Definition iter_v : value := member fo tuples_path "iter".
  Definition iter_pkg_clo := pkg_clo fo iter_v.
  Definition iter_out : option expr := Eval vm_compute in mod_out fo iter_v.
  Definition iter_body : list stmt := Eval vm_compute in mod_body fo iter_v.
  Lemma iter_v_eq :
    iter_v = VModule ([(b "tpl", VTuple [])] ++ [(b "pkg", VFunc [] (EImport tuples_path) iter_pkg_clo)]) iter_out iter_body.
  Proof. apply as_module_eq. vm_compute. reflexivity. Qed.
  Lemma tuples_index_iter c : index fo c (import_value fo tuples_path) (VStr (b "iter")) = Ok iter_v.
  Proof. apply index_member. vm_compute. reflexivity. Qed.
  Lemma iter_copies c e fs :
    evals (with_self fo c (Some iter_v)) e (VTuple fs) ->
    copies c iter_v [(b "tpl", e)] (VList (map (fun kv => VList [VStr (fst kv); snd kv]) fs)).
  Proof. eapply items_copies with (g := fun k v => VList [VStr k; v]); [exact iter_v_eq|]. intros. ivs. Qed.
  Definition ft_v : value := member fo tuples_path "field_type".
  Definition ft_pkg_clo := pkg_clo fo ft_v.
  Definition ft_out : option expr := Eval vm_compute in mod_out fo ft_v.
  Definition ft_body : list stmt := Eval vm_compute in mod_body fo ft_v.
  Lemma ft_v_eq :
    ft_v = VModule ([(b "tpl", VTuple []); (b "field", VStr []); (b "type", VStr [])] ++
                    [(b "pkg", VFunc [] (EImport tuples_path) ft_pkg_clo)]) ft_out ft_body.
  Proof. apply as_module_eq. vm_compute. reflexivity. Qed.
  Lemma tuples_index_ft c : index fo c (import_value fo tuples_path) (VStr (b "field_type")) = Ok ft_v.
  Proof. apply index_member. vm_compute. reflexivity. Qed.

  Definition ft_reducer_body : expr :=
    Eval vm_compute in match nth 2 ft_body (SExpr ENull) with SLet _ (EFunc _ bd) => bd | _ => ENull end.
  Definition ft_ok (field typ : bytes) (k : bytes) (v : value) : bool :=
    if bytes_eqb k field then bytes_eqb (is_name fo v) typ else true.

  Lemma ft_step c clo flds field typ (a : bool) k v :
    lookup fo (b "mod") clo = Some (VTuple flds) ->
    lookup fo (b "field") flds = Some (VStr field) -> lookup fo (b "type") flds = Some (VStr typ) ->
    calls c (VFunc [b "acc"; b "l"] ft_reducer_body clo) [VBool a; VList [VStr k; v]] (VBool (a && ft_ok field typ k v)).
  Proof.
    intros Hmod Hf Ht. eapply calls_intro; [reflexivity|reflexivity|]. unfold ft_reducer_body.
    destruct a; [|apply ev_and_false; iv1].
    eapply ev_and_true; [iv1|]. cbn [andb]. unfold ft_ok.
    assert (Heq : forall cc, lookup fo (b "l") (sc fo cc) = Some (VList [VStr k; v]) ->
                            lookup fo (b "mod") (sc fo cc) = Some (VTuple flds) ->
              Std_Rules_Imp.evals fo std_imports [] cc
                (EBin Equal (EBin DOT (ESym (b "l")) (EInt 0)) (EBin DOT (ESym (b "mod")) (ESym (b "field"))))
                (VBool (bytes_eqb k field))).
    { intros cc H1 H2. eapply ev_eq.
      - eapply ev_dot_int; [apply ev_sym; [reflexivity|exact H1]|reflexivity].
      - eapply ev_dot_sym; [apply ev_sym; [reflexivity|exact H2]|apply index_tuple_lookup, Hf].
      - reflexivity.
      - exists 1. reflexivity. }
    iv1. destruct (bytes_eqb k field) eqn:Hk.
    - eapply ev_select; [apply Heq; [reflexivity|exact Hmod]|reflexivity|].
      eapply ev_is.
      + eapply ev_dot_int; [iv1|reflexivity].
      + eapply ev_dot_sym; [apply ev_sym; [reflexivity|exact Hmod]|apply index_tuple_lookup, Ht].
    - eapply ev_select; [apply Heq; [reflexivity|exact Hmod]|reflexivity|]. iv1.
  Qed.

  Definition ft_step_fn (field typ : bytes) (a x : value) : value :=
    match a, x with
    | Sem.VBool _ y, Sem.VList _ [Sem.VStr _ k; v] => VBool (y && ft_ok field typ k v)
    | _, _ => a
    end.
  Lemma ft_fold field typ fs y :
    fold_left (ft_step_fn field typ) (map (fun kv => VList [VStr (fst kv); snd kv]) fs) (VBool y)
    = VBool (y && forallb (fun kv => ft_ok field typ (fst kv) (snd kv)) fs).
  Proof.
    revert y. induction fs as [|[k v] fs IH]; intros y; cbn [map fold_left ft_step_fn forallb fst snd].
    - rewrite andb_true_r. reflexivity.
    - rewrite IH, andb_assoc. reflexivity.
  Qed.

  Definition field_type_call : expr :=
    imp_inst tuples_path "field_type" [("tpl", "arg1"); ("field", "arg2"); ("type", "arg3")]%string.

  (* the field must exist, and EVERY binding of that name must have the type (tuple values built by
     the language have one binding per name: see the corollary) *)
  Theorem std_field_type : forall E st ord fs field typ,
      exists f, eval_imp fo std_imports f []
                  (ctx_gen fo E st ord [(b "arg3", VStr typ); (b "arg2", VStr field); (b "arg1", VTuple fs)]) field_type_call
                = Ok (VBool (has_key fo fs (VStr field)
                             && forallb (fun kv => ft_ok field typ (fst kv) (snd kv)) fs)).
  Proof.
    intros E st ord fs field typ.
    unfold field_type_call, imp_inst, ctx_gen. cbn [map fst snd].
    assert (Hhf : ref_has_fields fo fs [VStr field] = VBool (has_key fo fs (VStr field))).
    { unfold ref_has_fields. cbn [forallb]. rewrite andb_true_r. reflexivity. }
    set (flds := [(b "tpl", VTuple fs); (b "field", VStr field); (b "type", VStr typ);
                  (b "pkg", VFunc [] (EImport tuples_path) ft_pkg_clo); (b "this", ft_v)]).
    eapply ev_dot_copy; [apply ev_import_std, in_tuples|apply tuples_index_ft|].
    eapply (copies_module fo std_imports [] ft_v); [exact ft_v_eq| | | | |].
    - fld1. fld1. fld1. iv1.
    - reflexivity.
    - reflexivity.
    - unfold ft_body.
      eapply execs_let; [|reflexivity|reflexivity|].
      { eapply ev_mod_pkg; [reflexivity|reflexivity|apply in_tuples]. }
      eapply execs_let; [|reflexivity|reflexivity|].
      { eapply ev_dot_copy; [iv1|apply tuples_index_iter|]. apply iter_copies. dotsym. }
      eapply execs_let; [iv1|reflexivity|reflexivity|].
      eapply execs_let; [|reflexivity|reflexivity|apply execs_nil].
      eapply ev_and.
      + rewrite <- Hhf.
        eapply ev_dot_copy; [iv1|apply tuples_index_hf|].
        apply has_fields_copies.
        * constructor; [reflexivity|constructor].
        * dotsym.
        * iv1. eapply evl_cons; [dotsym|iv1].
      + intros _. eapply evals_eq; [|exact (ft_fold field typ fs true)].
        eapply (reduce_list_is_fold_ev fo std_imports [])
          with (I := fun a => exists y, a = VBool y) (step := ft_step_fn field typ).
        * iv1.
        * iv1.
        * iv1.
        * exists true. reflexivity.
        * intros a x [y ->] Hin. apply in_map_iff in Hin. destruct Hin as ([k v] & <- & _).
          cbn [ft_step_fn fst snd]. split; [|eexists; reflexivity].
          apply ft_step with (flds := flds); reflexivity.
    - unfold ft_out. iv1.
  Qed.

  (* with one binding per field name this is: the field exists and has the named base type *)
  Lemma lookup_nodup_forall field typ : forall fs,
      NoDup (map fst fs) ->
      has_key fo fs (VStr field) && forallb (fun kv => ft_ok field typ (fst kv) (snd kv)) fs
      = ref_field_type fo fs field typ.
  Proof.
    unfold ref_field_type, ft_ok. cbn [has_key].
    induction fs as [|[k v] fs IH]; intros Hnd; [reflexivity|].
    inversion Hnd as [|? ? Hnotin Hnd']; subst. cbn [existsb forallb lookup fst snd].
    destruct (bytes_eqb k field) eqn:Hk.
    - apply bytes_eqb_spec in Hk. subst k.
      rewrite (proj2 (bytes_eqb_spec field field) eq_refl). cbn [orb andb].
      assert (Hrest : forallb (fun kv => if bytes_eqb (fst kv) field then bytes_eqb (is_name fo (snd kv)) typ else true) fs = true).
      { apply forallb_forall. intros [k' v'] Hin. cbn [fst snd].
        destruct (bytes_eqb k' field) eqn:Hk'; [|reflexivity].
        apply bytes_eqb_spec in Hk'. subst k'. exfalso. apply Hnotin. apply in_map_iff. exists (field, v'). split; [reflexivity|exact Hin]. }
      rewrite Hrest, andb_true_r. reflexivity.
    - assert (Hfk : bytes_eqb field k = false).
      { destruct (bytes_eqb field k) eqn:E'; [|reflexivity]. apply bytes_eqb_spec in E'. subst k.
        rewrite (proj2 (bytes_eqb_spec field field) eq_refl) in Hk. discriminate. }
      rewrite Hfk. cbn [orb andb]. apply IH, Hnd'.
  Qed.
  Corollary std_field_type_nodup : forall E st ord fs field typ,
      NoDup (map fst fs) ->
      exists f, eval_imp fo std_imports f []
                  (ctx_gen fo E st ord [(b "arg3", VStr typ); (b "arg2", VStr field); (b "arg1", VTuple fs)]) field_type_call
                = Ok (VBool (ref_field_type fo fs field typ)).
  Proof.
    intros E st ord fs field typ Hnd. rewrite <- (lookup_nodup_forall field typ fs Hnd). apply std_field_type.
  Qed.
End Tuples.
