(* Print Assumptions of the theorems about the library reached through `import` (expected: Closed under the global context). *)
From Ucg Require Import std.Sem_Import std.Sem_Import_Lemmas std.Std_Rules_Imp std.Std_Rules_Imp2 std.Imp_Base
     std.Imp_Lists std.Imp_Slice std.Imp_Tuples std.Imp_Functional std.Imp_Strings std.Imp_ParseInt
     std.Imp_Schema std.Imp_SplitOn std.Imp_Examples.
Print Assumptions eval_imp_fuel_mono.
Print Assumptions eval_imp_fuel_mono_err.
Print Assumptions copy_imp_fuel_mono.
Print Assumptions exec_imp_fuel_mono.
Print Assumptions eval_imp_conservative.
Print Assumptions copy_imp_conservative.
Print Assumptions exec_imp_conservative.
Print Assumptions sem_prog_imp_conservative.
Print Assumptions eval_imp_of_eval.
Print Assumptions Std_Rules_Imp.reduce_list_is_fold.
Print Assumptions Std_Rules_Imp.reduce_tuple_is_fold.
Print Assumptions reduce_list_is_fold_pre.
Print Assumptions reduce_str_is_fold_pre.
Print Assumptions reduce_str_inv.
Print Assumptions ev_import.
Print Assumptions fails_not_ok.
Print Assumptions import_ok.
Print Assumptions len_calls.
Print Assumptions len_calls_str.
Print Assumptions std_zip.
Print Assumptions std_slice.
Print Assumptions std_slice_default.
Print Assumptions std_slice_guards_fail.
Print Assumptions std_slice_end_is_len_refuted.
Print Assumptions fields_copies.
Print Assumptions std_has_fields.
Print Assumptions has_fields_copies.
Print Assumptions iter_copies.
Print Assumptions std_field_type.
Print Assumptions std_field_type_nodup.
Print Assumptions maybe_copies.
Print Assumptions std_maybe_unwrap.
Print Assumptions std_maybe_is_null.
Print Assumptions std_maybe_do.
Print Assumptions std_maybe_do_null.
Print Assumptions std_maybe_or.
Print Assumptions std_maybe_or_null.
Print Assumptions std_maybe_expect.
Print Assumptions std_maybe_expect_null_fails.
Print Assumptions std_identity.
Print Assumptions ops_copies.
Print Assumptions wrap_calls.
Print Assumptions std_strings_len.
Print Assumptions std_strings_str.
Print Assumptions std_strings_chars.
Print Assumptions split_at_calls.
Print Assumptions std_strings_split_at.
Print Assumptions substr_copies.
Print Assumptions std_strings_substr.
Print Assumptions utf8_concat.
Print Assumptions strings_parse_int_no_digits_is_null.
Print Assumptions schema_shaped_nested_partial.
Print Assumptions ex_shaped_grid.
Print Assumptions ex_any_all_grid.
Print Assumptions ex_split_on.
Print Assumptions tail_calls.
Print Assumptions substr_copies_gen.
Print Assumptions pi_copies_gen.
Print Assumptions std_strings_parse_int.
Print Assumptions std_strings_parse_int_none.
Print Assumptions shaped_any_spec.
Print Assumptions std_schema_shaped.
Print Assumptions std_schema_shaped_default.
Print Assumptions std_schema_any.
Print Assumptions std_schema_any_default.
Print Assumptions std_schema_all.
Print Assumptions ref_shaped_fuel.
Print Assumptions bto_calls.
Print Assumptions rec_all.
Print Assumptions split_on_copies.
Print Assumptions std_strings_split_on.
Print Assumptions split_go_join.
Print Assumptions std_split_on_join.
Print Assumptions rechunk_skipn.
Print Assumptions schema_shaped_list_elements_not_partial.
