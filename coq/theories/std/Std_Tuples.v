(* std/tuples.ucg: fields, values, iter, strip_nulls *)
From Ucg Require Import base.Bytes_Lemmas sem.Sem std.Std_Fuel std.Std_Rules std.StdSpec std.Std_Base.
From UcgGen Require Import StdLib.

Section Std.
  Variable fo : float_ops.
  Notation value := (value fo).
  Notation VStr := (VStr fo).
  Notation VBool := (VBool fo).
  Notation VNull := (VNull fo).
  Notation VList := (VList fo).
  Notation VTuple := (VTuple fo).
  Notation VModule := (VModule fo).
  Notation evals := (evals fo).

  (* fields, values and iter are
       module{tpl = {}} => (result) { let result = reduce(func (acc, field, value) => acc + [item], [], (mod.tpl)); }
     with item = field, value, [field, value] *)
  Lemma listing_copies c tv (item : expr) (g : bytes * value -> value) fs' fs :
    tv = VModule [(b "tpl", VTuple [])] (Some (ESym (b "result")))
           [SLet (b "result")
              (EReduce (EFunc [b "acc"; b "field"; b "value"] (EBin Add (ESym (b "acc")) (EList [item])))
                       (EList []) (EGroup (EBin DOT (ESym (b "mod")) (ESym (b "tpl")))))] ->
    (forall c' clo a k v,
        evals (fctx fo c' ((b "value", v) :: (b "field", VStr k) :: (b "acc", a) :: clo)) item (g (k, v))) ->
    evals_fields fo (with_self fo c (Some tv)) fs' [] [(b "tpl", VTuple fs)] ->
    copies fo c tv fs' (VList (map g fs)).
  Proof.
    intros Etv Hitem Hfs.
    eapply copies_module; [exact Etv|exact Hfs|reflexivity|reflexivity|..]; [evs|ev1].
    eapply (reduce_tuple_prefix fo) with (F := fun pre => VList (map g pre)); [ev1|evs|evs|].
    intros pre k v post _. evs; [apply Hitem|]. rewrite map_app. reflexivity.
  Qed.

  Theorem std_fields : forall E st ord fs,
      exists f, eval fo f (ctx_gen fo E st ord ((b "arg", VTuple fs) :: tuples_scope fo)) (inst1 "fields" "tpl")
                = Ok (VList (map (fun kv => VStr (fst kv)) fs)).
  Proof.
    intros E st ord fs. eapply ev_copy; [ev_lib|].
    apply listing_copies with (item := ESym (b "field")) (g := fun kv => VStr (fst kv)) (fs := fs).
    - vm_compute. reflexivity.
    - intros. ev1.
    - evs.
  Qed.

  Theorem std_values : forall E st ord fs,
      exists f, eval fo f (ctx_gen fo E st ord ((b "arg", VTuple fs) :: tuples_scope fo)) (inst1 "values" "tpl")
                = Ok (VList (map snd fs)).
  Proof.
    intros E st ord fs. eapply ev_copy; [ev_lib|].
    apply listing_copies with (item := ESym (b "value")) (g := snd) (fs := fs).
    - vm_compute. reflexivity.
    - intros. ev1.
    - evs.
  Qed.

  Theorem std_iter : forall E st ord fs,
      exists f, eval fo f (ctx_gen fo E st ord ((b "arg", VTuple fs) :: tuples_scope fo)) (inst1 "iter" "tpl")
                = Ok (VList (map (fun kv => VList [VStr (fst kv); snd kv]) fs)).
  Proof.
    intros E st ord fs. eapply ev_copy; [ev_lib|].
    apply listing_copies with (item := EList [ESym (b "field"); ESym (b "value")])
                              (g := fun kv => VList [VStr (fst kv); snd kv]) (fs := fs).
    - vm_compute. reflexivity.
    - intros. evs.
    - evs.
  Qed.

  (* let strip_nulls = module{tpl = {}} => (result) {
       let result = filter(func (name, value) => value != NULL, (mod.tpl)); }; *)
  Lemma veq_null o v : is_closure fo v = false -> veq fo o 1 v VNull = Ok (is_null fo v).
  Proof. destruct v; cbn; intros H; try discriminate; reflexivity. Qed.
  Lemma compatible_null v : compatible fo v VNull = true.
  Proof. destruct v; reflexivity. Qed.

  (* The hypothesis on fs cannot be dropped in this semantics: Sem.veq answers Unsup when a function or module is compared (here: `value != NULL`), so a
     tuple with a closure-valued field is outside the modelled fragment (Std_Examples.ex_strip_nulls_closure).
     The real binary keeps such fields.  This is a limit of Sem.v, not a finding about the library. *)
  Theorem std_strip_nulls : forall E st ord fs,
      Forall (fun kv => is_closure fo (snd kv) = false) fs ->
      exists f, eval fo f (ctx_gen fo E st ord ((b "arg", VTuple fs) :: tuples_scope fo)) (inst1 "strip_nulls" "tpl")
                = Ok (VTuple (filter (fun kv => negb (is_null fo (snd kv))) fs)).
  Proof.
    intros E st ord fs Hcl. rewrite Forall_forall in Hcl.
    eapply ev_copy; [ev_lib|].
    eapply copies_module; [vm_compute; reflexivity|evs|reflexivity|reflexivity|..]; [evs|ev1].
    eapply (ev_filter_tuple fo) with (keepf := fun k v => negb (is_null fo v)); [ev1|evs|].
    intros k v Hin. exists (VBool (negb (is_null fo v))). split.
    - ev1. eapply ev_neq; [ev1|ev1|apply compatible_null|].
      exists 1. apply veq_null. exact (Hcl _ Hin).
    - destruct (is_null fo v); reflexivity.
  Qed.

End Std.
