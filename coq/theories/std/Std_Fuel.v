(* Fuel monotonicity of the definitional semantics (sem/Sem.v).
   [le_res r r'] : if [r] is a definite answer (anything but [Fuel]) then [r'] is the same answer.
   Main results: [eval_le], [copy_into_le], [exec_list_le] (all three mutually), and the
   corollaries [eval_fuel_mono], [eval_fuel_mono_err], [copy_into_fuel_mono], [exec_list_fuel_mono]. *)
From Ucg Require Import base.Bytes_Lemmas sem.Sem.

Definition le_res {A} (r r' : res A) : Prop := r <> Fuel -> r' = r.

Lemma le_res_refl {A} (r : res A) : le_res r r.
Proof. intros _; reflexivity. Qed.

Lemma le_res_fuel {A} (r' : res A) : le_res Fuel r'.
Proof. intros H; congruence. Qed.

Lemma le_res_bind {A B} (r r' : res A) (k k' : A -> res B) :
  le_res r r' -> (forall a, le_res (k a) (k' a)) -> le_res (bind r k) (bind r' k').
Proof.
  intros H1 H2 Hn. destruct r as [a| | |]; cbn in *.
  - rewrite H1 by discriminate. cbn. apply H2, Hn.
  - rewrite H1 by discriminate. reflexivity.
  - rewrite H1 by discriminate. reflexivity.
  - congruence.
Qed.

Lemma le_res_mapM {A B} (g g' : A -> res B) (l : list A) :
  (forall a, le_res (g a) (g' a)) -> le_res (mapM g l) (mapM g' l).
Proof.
  intros H. induction l as [|a l IH]; cbn.
  - apply le_res_refl.
  - apply le_res_bind; [apply H|]. intros x. apply le_res_bind; [exact IH|]. intros; apply le_res_refl.
Qed.

Lemma le_res_fold {A B} (g g' : res A -> B -> res A) (l : list B) :
  (forall a a' x, le_res a a' -> le_res (g a x) (g' a' x)) ->
  forall a a', le_res a a' -> le_res (fold_left g l a) (fold_left g' l a').
Proof.
  intros H. induction l as [|x l IH]; intros a a' Ha; cbn.
  - exact Ha.
  - apply IH, H, Ha.
Qed.

Lemma le_res_ok {A} (r r' : res A) a : le_res r r' -> r = Ok a -> r' = Ok a.
Proof. intros H E. rewrite H; [exact E|]. rewrite E; discriminate. Qed.

Lemma le_res_err {A} (r r' : res A) : le_res r r' -> r = Err -> r' = Err.
Proof. intros H E. rewrite H; [exact E|]. rewrite E; discriminate. Qed.
Lemma le_res_trans {A} (r r' r'' : res A) : le_res r r' -> le_res r' r'' -> le_res r r''.
Proof. intros H1 H2 Hn. rewrite H2; rewrite (H1 Hn); [reflexivity|exact Hn]. Qed.

(* One step of a monotonicity proof, chosen by the shape of the two sides; [leaf] closes what is left:
   the recursive calls. *)
Ltac le_step leaf :=
  lazymatch goal with
  | |- le_res ?r ?r => apply le_res_refl
  | |- le_res (bind _ _) (bind _ _) => apply le_res_bind; [ | intros ? ]
  | |- le_res (mapM _ _) (mapM _ _) => apply le_res_mapM; intros ?
  | |- le_res (fold_left _ _ _) (fold_left _ _ _) => apply le_res_fold; [ intros ? ? ? ? | ]
  | |- le_res (match ?x with _ => _ end) (match ?x with _ => _ end) => destruct x
  | |- _ => first [ assumption | leaf ]
  end.

(* The right operands of `.` that the evaluators tell apart: a copy or a call of a field given by name,
   string or position, a bare name, anything else.  The evaluators spell this out as a nested match on
   the operand, some eighty cases of four kinds. *)
Inductive dot_form :=
| DCopy (k : bytes + Z) (fs : list (bytes * expr))
| DCall (k : bytes + Z) (args : list expr)
| DSym (k : bytes)
| DOther.
Definition dot_key (e : expr) : option (bytes + Z) :=
  match e with ESym k | EStr k => Some (inl k) | EInt k => Some (inr k) | _ => None end.
Definition dot_form_of (r : expr) : dot_form :=
  match r with
  | ECopy t fs => match dot_key t with Some k => DCopy k fs | None => DOther end
  | ECall t args => match dot_key t with Some k => DCall k args | None => DOther end
  | ESym k => DSym k
  | _ => DOther
  end.
Definition key_value {fo} (k : bytes + Z) : value fo := match k with inl s => VStr fo s | inr z => VInt fo z end.

Section Fuel.
  Variable fo : float_ops.
  Notation eval := (eval fo).
  Notation copy_into := (copy_into fo).
  Notation exec_list := (exec_list fo).
  Notation veq := (veq fo).
  Notation render := (render fo).

  Lemma veq_le o : forall f f' a b', f <= f' -> le_res (veq o f a b') (veq o f' a b').
  Proof.
    induction f as [|f IH]; intros f' a b' Hle; [apply le_res_fuel|].
    destruct f' as [|f']; [lia|]. assert (Hf : f <= f') by lia.
    assert (IH' : forall a b', le_res (veq o f a b') (veq o f' a b')) by (intros; apply IH; exact Hf).
    clear IH Hle Hf.
    destruct a, b'; simpl; try apply le_res_refl.
    - (* lists *)
      revert l0. induction l as [|v x IHx]; intros [|w y]; simpl; repeat first [ le_step ltac:(apply IH') | apply IHx ].
    - (* tuples *)
      repeat le_step ltac:(apply IH').
      + revert fs0. induction fs as [|[k v] x IHx]; intros [|[k' w] y]; simpl;
          repeat first [ le_step ltac:(apply IH') | apply IHx ].
      + induction fs as [|[k v] x IHx]; [apply le_res_refl|].
        apply le_res_bind; [|intros [|]; [apply IHx|apply le_res_refl]]. clear IHx.
        match goal with |- le_res (?F fs0 false) (?G fs0 false) =>
          assert (Hfd : forall fd, le_res (F fs0 fd) (G fs0 fd)); [|apply Hfd] end.
        induction fs0 as [|[k' w] y IHy]; intros found; simpl; repeat first [ le_step ltac:(apply IH') | apply IHy ].
  Qed.

  Lemma render_le : forall f f' v, f <= f' -> le_res (render f v) (render f' v).
  Proof.
    induction f as [|f IH]; intros f' v Hle; [apply le_res_fuel|].
    destruct f' as [|f']; [lia|]. assert (Hf : f <= f') by lia.
    assert (IH' : forall v, le_res (render f v) (render f' v)) by (intros; apply IH; exact Hf).
    clear IH Hle Hf.
    destruct v; simpl; try apply le_res_refl.
    - apply le_res_bind; [|intros; apply le_res_refl].
      induction l as [|v l IHl]; simpl; repeat le_step ltac:(apply IH').
    - apply le_res_bind; [|intros; apply le_res_refl].
      induction fs as [|[k v] l IHl]; simpl; repeat le_step ltac:(apply IH').
  Qed.

  (* [eval] on `l.r`, by the form of r *)
  Lemma eval_S_dot f c l r :
    eval (S f) c (EBin DOT l r) =
    match dot_form_of r with
    | DCopy k fs => do lv <- eval f c l; do tv <- index fo c lv (key_value k); copy_into f c tv fs
    | DCall k args =>
      do avs <- mapM (eval f c) args; do lv <- eval f c l; do fv <- index fo c lv (key_value k);
      match fv with
      | VFunc _ ps body clo =>
        if negb (Nat.eqb (List.length ps) (List.length avs)) then Err
        else do s <- bind_params fo ps avs clo;
             eval f {| sc := s; self_v := None; envt := envt fo c; strict := strict fo c; eq_ordered := eq_ordered fo c |} body
      | _ => Err
      end
    | DSym k => do lv <- eval f c l; index fo c lv (VStr fo k)
    | DOther => do lv <- eval f c l; do kv <- eval f c r; index fo c lv kv
    end.
  Proof.
    destruct r; try reflexivity;
      match goal with |- context [dot_form_of (_ ?t _)] => destruct t; reflexivity end.
  Qed.

  Definition mono_at (f : nat) : Prop :=
    (forall f' c e, f <= f' -> le_res (eval f c e) (eval f' c e)) /\
    (forall f' c tv fs, f <= f' -> le_res (copy_into f c tv fs) (copy_into f' c tv fs)) /\
    (forall f' c ss, f <= f' -> le_res (exec_list f c ss) (exec_list f' c ss)).

  Lemma mono_all : forall f, mono_at f.
  Proof.
    induction f as [|f IH].
    { repeat split; intros; apply le_res_fuel. }
    destruct IH as (IHe & IHc & IHx).
    assert (Step : forall f', f <= f' ->
              (forall c e, le_res (eval (S f) c e) (eval (S f') c e)) /\
              (forall c tv fs, le_res (copy_into (S f) c tv fs) (copy_into (S f') c tv fs)) /\
              (forall c ss, le_res (exec_list (S f) c ss) (exec_list (S f') c ss))).
    { intros f' Hf.
      assert (He : forall c e, le_res (eval f c e) (eval f' c e)) by (intros; apply IHe; exact Hf).
      assert (Hc : forall c tv fs, le_res (copy_into f c tv fs) (copy_into f' c tv fs)) by (intros; apply IHc; exact Hf).
      assert (Hx : forall c ss, le_res (exec_list f c ss) (exec_list f' c ss)) by (intros; apply IHx; exact Hf).
      assert (Hv : forall o a b', le_res (veq o f a b') (veq o f' a b')) by (intros; apply veq_le; exact Hf).
      assert (Hr : forall v, le_res (render f v) (render f' v)) by (intros; apply render_le; exact Hf).
      clear IHe IHc IHx Hf.
      split; [|split].
      - (* eval *)
        intros c e. destruct e; try match goal with |- context [EBin ?o _ _] => destruct o end.
        all: rewrite ?eval_S_dot.
        all: simpl.
        all: repeat le_step ltac:(first [ apply He | apply Hv | apply Hr | apply Hc | apply Hx ]).
        (* left over: the loops that [eval] defines by a local fixpoint *)
        + (* IN over a list *)
          induction l as [|v rest IHl]; simpl; repeat first [ le_step ltac:(apply He) | apply Hv ].
        + (* EFormatL *)
          revert args. induction parts as [|p ps IHp]; intros args; simpl;
            repeat first [ le_step ltac:(apply He) | apply IHp | apply Hr ].
        + (* EFormatS *)
          induction parts as [|p ps IHp]; simpl; repeat first [ le_step ltac:(apply He) | apply Hr ].
        + (* EMap over a tuple *)
          induction fs as [|[k v] fs' IHfs]; simpl; repeat le_step ltac:(apply He).
      - (* copy_into *)
        intros c tv fs. simpl.
        repeat first [ le_step ltac:(apply He) | apply Hx ].
      - (* exec_list *)
        intros c ss. simpl.
        repeat first [ le_step ltac:(apply He) | apply Hx ].
    }
    repeat split; intros f' *; intros Hle; (destruct f' as [|f']; [lia|]); apply Step; lia.
  Qed.

  Theorem eval_le f f' c e : f <= f' -> le_res (eval f c e) (eval f' c e).
  Proof. apply (mono_all f). Qed.
  Theorem copy_into_le f f' c tv fs : f <= f' -> le_res (copy_into f c tv fs) (copy_into f' c tv fs).
  Proof. apply (mono_all f). Qed.
  Theorem exec_list_le f f' c ss : f <= f' -> le_res (exec_list f c ss) (exec_list f' c ss).
  Proof. apply (mono_all f). Qed.

  (* answers other than [Fuel] do not depend on the fuel *)
  Theorem eval_definite f f' c e r r' :
    eval f c e = r -> eval f' c e = r' -> r <> Fuel -> r' <> Fuel -> r = r'.
  Proof.
    intros <- <- H H'. destruct (Nat.le_ge_cases f f') as [L|L].
    - symmetry. exact (eval_le f f' c e L H).
    - exact (eval_le f' f c e L H').
  Qed.

  (* a successful evaluation stays the same with more fuel *)
  Theorem eval_fuel_mono f f' c e v : eval f c e = Ok v -> f <= f' -> eval f' c e = Ok v.
  Proof. intros H Hle. exact (le_res_ok _ _ _ (eval_le f f' c e Hle) H). Qed.

  (* ... and so does a failed one (build error) and an out-of-fragment one *)
  Theorem eval_fuel_mono_err f f' c e : eval f c e = Err -> f <= f' -> eval f' c e = Err.
  Proof. intros H Hle. exact (le_res_err _ _ (eval_le f f' c e Hle) H). Qed.
  Theorem eval_fuel_mono_unsup f f' c e : eval f c e = Unsup -> f <= f' -> eval f' c e = Unsup.
  Proof. intros H Hle. rewrite (eval_le f f' c e Hle); [exact H|]. rewrite H; discriminate. Qed.

  Theorem copy_into_fuel_mono f f' c tv fs v : copy_into f c tv fs = Ok v -> f <= f' -> copy_into f' c tv fs = Ok v.
  Proof. intros H Hle. exact (le_res_ok _ _ _ (copy_into_le f f' c tv fs Hle) H). Qed.
  Theorem exec_list_fuel_mono f f' c ss s : exec_list f c ss = Ok s -> f <= f' -> exec_list f' c ss = Ok s.
  Proof. intros H Hle. exact (le_res_ok _ _ _ (exec_list_le f f' c ss Hle) H). Qed.

  Theorem render_fuel_mono f f' v t : render f v = Ok t -> f <= f' -> render f' v = Ok t.
  Proof. intros H Hle. exact (le_res_ok _ _ _ (render_le f f' v Hle) H). Qed.
  Theorem veq_fuel_mono o f f' a b' r : veq o f a b' = Ok r -> f <= f' -> veq o f' a b' = Ok r.
  Proof. intros H Hle. exact (le_res_ok _ _ _ (veq_le o f f' a b' Hle) H). Qed.
End Fuel.
