(* std/strings.ucg through `import`: split_on (the recursive module `recurse` behind
   wrap(s).split_on{on = sep}).  Reference: [split_go] of StdSpec_Imp.v on the UTF-8 character list;
   [split_go_join]: for a non-empty separator, joining the pieces with the separator gives the string back. *)
From Ucg Require Import base.Bytes_Lemmas sem.Sem std.Std_Fuel std.Sem_Import std.Sem_Import_Lemmas
     std.Std_Rules_Imp std.Std_Rules_Imp2 std.StdSpec std.StdSpec_Imp std.Imp_Base std.Imp_Lists std.Imp_Strings.
Lemma utf8_fuel_indep : forall f f' s, (List.length s <= f)%nat -> (List.length s <= f')%nat ->
    utf8_chars_fuel f s = utf8_chars_fuel f' s.
Proof.
  induction f as [|f IH]; intros f' s H1 H2.
  - destruct s; [destruct f'; reflexivity|cbn in H1; lia].
  - destruct s as [|c r]; [destruct f'; reflexivity|].
    destruct f' as [|f']; [cbn in H2; lia|]. cbn [utf8_chars_fuel]. f_equal.
    pose proof (utf8_len_pos c) as Hp.
    apply IH; rewrite skipn_length; cbn [List.length] in *; lia.
Qed.
Lemma chars_cons c r :
  utf8_chars (c :: r) = firstn (utf8_len c) (c :: r) :: utf8_chars (skipn (utf8_len c) (c :: r)).
Proof.
  unfold utf8_chars at 1. cbn [List.length utf8_chars_fuel]. f_equal.
  apply utf8_fuel_indep; [|lia]. rewrite skipn_length. pose proof (utf8_len_pos c). cbn [List.length]. lia.
Qed.
Lemma rechunk_skipn : forall k s, utf8_chars (concat (skipn k (utf8_chars s))) = skipn k (utf8_chars s).
Proof.
  induction k as [|k IH]; intros s.
  - cbn [skipn]. rewrite utf8_concat. reflexivity.
  - destruct s as [|c r]; [reflexivity|]. rewrite chars_cons. cbn [skipn]. apply IH.
Qed.
Lemma chars_nonempty : forall s c, In c (utf8_chars s) -> c <> [].
Proof.
  intros s. remember (List.length s) as n eqn:Hn. revert s Hn.
  induction n as [n IH] using lt_wf_ind. intros s Hn c Hin.
  destruct s as [|a r]; [destruct Hin|]. rewrite chars_cons in Hin. destruct Hin as [<-|Hin].
  - pose proof (utf8_len_pos a). destruct (utf8_len a); [lia|]. discriminate.
  - eapply (IH (List.length (skipn (utf8_len a) (a :: r)))); [|reflexivity|exact Hin].
    rewrite skipn_length. pose proof (utf8_len_pos a). subst n. cbn [List.length]. lia.
Qed.
Lemma concat_nil_chunks (cs : list bytes) : (forall c, In c cs -> c <> []) -> concat cs = [] -> cs = [].
Proof.
  destruct cs as [|c cs]; [reflexivity|]. intros H Hc. cbn in Hc. apply app_eq_nil in Hc. destruct Hc as [Hc _].
  exfalso. apply (H c); [left; reflexivity|exact Hc].
Qed.
Lemma pick_firstn : forall cs a b' j, (a <= j)%Z -> pick a b' j cs = concat (firstn (Z.to_nat (b' - j + 1)) cs).
Proof.
  induction cs as [|c cs IH]; intros a b' j Ha; cbn [pick].
  - rewrite firstn_nil. reflexivity.
  - replace (a <=? j)%Z with true by (symmetry; apply Z.leb_le; exact Ha). cbn [andb].
    rewrite IH by lia. destruct (Z.leb_spec j b').
    + replace (Z.to_nat (b' - j + 1)) with (S (Z.to_nat (b' - (j + 1) + 1))) by lia. reflexivity.
    + replace (Z.to_nat (b' - j + 1)) with 0%nat by lia. replace (Z.to_nat (b' - (j + 1) + 1)) with 0%nat by lia. reflexivity.
Qed.
Lemma pick_skipn : forall cs a b' j, (j + Z.of_nat (List.length cs) - 1 <= b')%Z ->
    pick a b' j cs = concat (skipn (Z.to_nat (a - j)) cs).
Proof.
  induction cs as [|c cs IH]; intros a b' j Hb; cbn [pick].
  - rewrite skipn_nil. reflexivity.
  - cbn [List.length] in Hb. replace (j <=? b')%Z with true by (symmetry; apply Z.leb_le; lia). rewrite andb_true_r.
    rewrite IH by lia. destruct (Z.leb_spec a j).
    + replace (Z.to_nat (a - j)) with 0%nat by lia. replace (Z.to_nat (a - (j + 1))) with 0%nat by lia. reflexivity.
    + replace (Z.to_nat (a - j)) with (S (Z.to_nat (a - (j + 1)))) by lia. reflexivity.
Qed.

(* accumulated pieces come first *)
Lemma split_go_acc : forall f sep L buf acc cs,
    split_go f sep L buf acc cs = acc ++ split_go f sep L buf [] cs.
Proof.
  induction f as [|f IH]; intros sep L buf acc cs; cbn [split_go]; [reflexivity|].
  destruct (firstn L cs) eqn:E; [reflexivity|].
  destruct (bytes_eqb _ sep).
  - rewrite IH, (IH sep L [] ([] ++ [buf])). rewrite app_assoc. reflexivity.
  - destruct cs; [reflexivity|]. apply IH.
Qed.
Lemma split_go_nonempty f sep L buf acc cs : split_go f sep L buf acc cs <> [].
Proof.
  revert buf acc cs. induction f as [|f IH]; intros buf acc cs; cbn [split_go].
  - destruct acc; discriminate.
  - destruct (firstn L cs); [destruct acc; discriminate|].
    destruct (bytes_eqb _ sep); [apply IH|]. destruct cs; [destruct acc; discriminate|apply IH].
Qed.
Lemma join_cons_nonempty sep t ts : ts <> [] -> join sep (t :: ts) = t ++ sep ++ join sep ts.
Proof. destruct ts; [congruence|reflexivity]. Qed.
(* joining the pieces with the separator gives the text back (non-empty separator, enough fuel) *)
Theorem split_go_join : forall f sep L buf cs,
    (0 < L)%nat -> (List.length cs < f)%nat ->
    join sep (split_go f sep L buf [] cs) = buf ++ concat cs.
Proof.
  induction f as [|f IH]; intros sep L buf cs HL Hf; [lia|]. cbn [split_go].
  destruct (firstn L cs) as [|x xs] eqn:E.
  - destruct cs; [cbn; rewrite app_nil_r; reflexivity|]. destruct L; [lia|discriminate].
  - destruct cs as [|c cs']; [rewrite firstn_nil in E; discriminate|].
    destruct (bytes_eqb (concat (x :: xs)) sep) eqn:Hs.
    + apply bytes_eqb_spec in Hs. rewrite split_go_acc. cbn [app].
      rewrite join_cons_nonempty by apply split_go_nonempty.
      rewrite IH; [|exact HL|rewrite skipn_length; cbn [List.length] in *; lia].
      cbn [app]. rewrite <- Hs, <- E, <- concat_app, firstn_skipn. reflexivity.
    + rewrite IH; [|exact HL|cbn [List.length] in *; lia]. cbn [concat]. rewrite <- app_assoc. reflexivity.
Qed.

Section SplitOn.
  Variable fo : float_ops.
  Notation value := (value fo).
  Notation VInt := (VInt fo).
  Notation VStr := (VStr fo).
  Notation VBool := (VBool fo).
  Notation VNull := (VNull fo).
  Notation VList := (VList fo).
  Notation VTuple := (VTuple fo).
  Notation VFunc := (VFunc fo).
  Notation VModule := (VModule fo).
  Notation evals := (evals fo std_imports []).
  Notation calls := (calls fo std_imports []).
  Notation copies := (copies fo std_imports []).
  Notation evals_fields := (evals_fields fo std_imports []).
  Notation execs := (execs fo std_imports []).
  Notation ops_tuple := (ops_tuple fo).
  Notation fits_chk := (fits_chk fo).

  Definition rec_e : expr := Eval vm_compute in stmt_expr 0 split_on_body.
  Definition rec_out : option expr := Eval vm_compute in e_mod_out rec_e.
  Definition rec_body : list stmt := Eval vm_compute in e_mod_body rec_e.

  Lemma N_zero_iff (x : bytes) : N x = 0%Z <-> x = [].
  Proof.
    unfold N, chars. split; [|intros ->; reflexivity]. destruct x as [|c r]; [reflexivity|].
    rewrite chars_cons. cbn [List.length]. lia.
  Qed.
  Lemma bytes_le_fits (x y : bytes) : (List.length x <= List.length y)%nat -> fits (Z.of_nat (List.length y)) -> fits (Z.of_nat (List.length x)).
  Proof. intros Hl Hf. apply (fits_between _ 0 (Z.of_nat (List.length y))); [apply fits_0|exact Hf|lia]. Qed.
  Lemma fits_N (x : bytes) : fits (Z.of_nat (List.length x)) -> fits (N x).
  Proof. intros Hf. pose proof (N_le_bytes x). apply (fits_between _ 0 (Z.of_nat (List.length x))); [apply fits_0|exact Hf|unfold N in *; lia]. Qed.
  Lemma concat_sub_length (cs : list bytes) k :
    (List.length (concat (skipn k cs)) <= List.length (concat cs))%nat /\ (List.length (concat (firstn k cs)) <= List.length (concat cs))%nat.
  Proof.
    rewrite <- (firstn_skipn k cs) at 2 4. rewrite concat_app, app_length. lia.
  Qed.

  Section Rec.
    Variables (sep : bytes) (s0 : bytes) (clo : scope fo).
    Definition RM : value :=
      VModule [(b "buf", VStr []); (b "acc", VList []); (b "str", VStr s0); (b "sep", VNull); (b "pkg", pkgf fo clo)] rec_out rec_body.
    Definition rflds (buf : bytes) (acc : list bytes) (str : bytes) : list (bytes * value) :=
      [(b "buf", VStr buf); (b "acc", VList (map VStr acc)); (b "str", VStr str); (b "sep", VStr sep); (b "pkg", pkgf fo clo)].
    Let L := List.length (utf8_chars sep).
    Hypothesis Hsep : fits (Z.of_nat (List.length sep)).

    Definition rec_spec (m : nat) : Prop :=
      forall str buf acc c fs ovs,
        (List.length (utf8_chars str) <= m)%nat -> fits (Z.of_nat (List.length str)) ->
        evals_fields (with_self fo c (Some RM)) fs [] ovs ->
        merge_fields fo (mod_params fo RM) ovs = Ok (rflds buf acc str) ->
        copies c RM fs (VList (map VStr (split_go (S m) sep L buf acc (utf8_chars str)))).

    (* the scope after the first seven statements of `recurse`: the guard, pkg, this, the two wrapped
       strings and the two substrings *)
    Definition R7 (buf : bytes) (acc : list bytes) (str : bytes) : scope fo :=
      [(b "maybe_suffix", ops_tuple (pick (N sep) (N str) 0 (chars str)));
       (b "maybe_prefix", ops_tuple (pick 0 (N sep - 1) 0 (chars str)));
       (b "split_str", ops_tuple sep); (b "check_str", ops_tuple str); (b "this", RM);
       (b "pkg", import_value fo strings_path); (b "mod", VTuple (rflds buf acc str ++ [(b "this", RM)]))].

    Lemma rec_prefix buf acc str slf E st ord :
      fits (Z.of_nat (List.length str)) ->
      execs (Build_ctx fo [(b "mod", VTuple (rflds buf acc str ++ [(b "this", RM)]))] slf E st ord) (firstn 7 rec_body)
            (R7 buf acc str).
    Proof.
      intros Hstr. unfold rec_body. cbn [firstn].
      assert (HfL : fits (N sep - 1)).
      { pose proof (fits_N sep Hsep) as HfN. pose proof (N_le_bytes sep).
        apply (fits_between _ (-1) (N sep)); [reflexivity|exact HfN|unfold N in *; lia]. }
      eapply execs_expr.
      { eapply ev_or_true. eapply evals_eq; [iv1; eapply ev_neq; [dotsym|iv1|reflexivity|exists 1; reflexivity]|reflexivity]. }
      eapply execs_let; [eapply ev_mod_pkg; [reflexivity|reflexivity|apply in_strings]|reflexivity|reflexivity|].
      eapply execs_let; [dotsym|reflexivity|reflexivity|].
      eapply execs_let; [|reflexivity|reflexivity|].
      { eapply ev_dot_copy; [iv1|apply strings_index_ops|]. apply ops_copies; [apply fits_N, Hstr|dotsym]. }
      eapply execs_let; [|reflexivity|reflexivity|].
      { eapply ev_dot_copy; [iv1|apply strings_index_ops|]. apply ops_copies; [apply fits_N, Hsep|dotsym]. }
      eapply execs_let; [|reflexivity|reflexivity|].
      { eapply ev_dot_copy; [iv1|reflexivity|].
        eapply substr_copies_gen with (ovs := [(b "end", VInt (N sep - 1))]) (a := 0%Z) (b' := (N sep - 1)%Z); [exact Hstr| |reflexivity].
        eapply evf_cons; [|reflexivity|iv1].
        eapply ev_sub; [dotsym|iv1|]. cbn [arith' arith]. apply fits_chk, HfL. }
      eapply execs_let; [|reflexivity|reflexivity|apply execs_nil].
      eapply ev_dot_copy; [iv1|reflexivity|].
      eapply substr_copies_gen with (ovs := [(b "start", VInt (N sep))]) (a := N sep) (b' := N str); [exact Hstr| |reflexivity].
      eapply evf_cons; [dotsym|reflexivity|iv1].
    Qed.

    (* the module body up to its last statement, whose value [v] is the result *)
    Lemma rec_copies c fs ovs buf acc str v :
      fits (Z.of_nat (List.length str)) ->
      evals_fields (with_self fo c (Some RM)) fs [] ovs ->
      merge_fields fo (mod_params fo RM) ovs = Ok (rflds buf acc str) ->
      (forall slf E st ord, exists e, skipn 7 rec_body = [SLet (b "result") e] /\
                                      evals (Build_ctx fo (R7 buf acc str) slf E st ord) e v) ->
      copies c RM fs v.
    Proof.
      intros Hstr Hfs Hmerge Hlast. destruct c as [sc0 slf E st ord].
      destruct (Hlast (Some RM) E st ord) as (e & He & Hv).
      eapply (copies_module fo std_imports [] RM); [reflexivity|exact Hfs|exact Hmerge|reflexivity| |].
      - rewrite <- (firstn_skipn 7 rec_body). eapply execs_app; [apply rec_prefix, Hstr|]. rewrite He.
        eapply execs_let; [exact Hv|reflexivity|reflexivity|apply execs_nil].
      - unfold rec_out. iv1.
    Qed.

    Lemma rec_strong m : (forall m', (m' < m)%nat -> rec_spec m') -> rec_spec m.
    Proof.
      intros IH str buf acc c fs ovs Hm Hstr Hfs Hmerge.
      set (cs := utf8_chars str) in *.
      assert (HNsep : N sep = Z.of_nat L) by reflexivity.
      assert (HNstr : N str = Z.of_nat (List.length cs)) by reflexivity.
      (* the prefix and the suffix computed by the two substr instantiations *)
      assert (Hpx : pick 0 (N sep - 1) 0 (chars str) = concat (firstn L cs)).
      { rewrite pick_firstn by lia. unfold chars. fold cs. rewrite HNsep. f_equal. f_equal. lia. }
      assert (Hsx : pick (N sep) (N str) 0 (chars str) = concat (skipn L cs)).
      { rewrite pick_skipn by (unfold chars; fold cs; rewrite HNstr; lia). unfold chars. fold cs. rewrite HNsep. f_equal. f_equal. lia. }
      assert (Hsub : forall k, fits (Z.of_nat (List.length (concat (skipn k cs))))).
      { intros k. eapply bytes_le_fits; [|exact Hstr]. pose proof (proj1 (concat_sub_length cs k)) as Hl.
        unfold cs in Hl at 2. rewrite utf8_concat in Hl. exact Hl. }
      apply (rec_copies c fs ovs buf acc str); [exact Hstr|exact Hfs|exact Hmerge|].
      intros slf E st ord. eexists. split; [reflexivity|]. unfold R7. rewrite Hpx, Hsx.
      cbn [split_go].
      destruct (firstn L cs) as [|x xs] eqn:Efst.
      - (* nothing left (or an empty separator): the pieces so far and the buffer *)
        rewrite map_app. cbn [map concat].
        eapply ev_select.
        + eapply ev_eq; [dotsym|iv1|reflexivity|exists 1; reflexivity].
        + reflexivity.
        + eapply ev_add; [dotsym|ivs; reflexivity|reflexivity].
      - (* a non-empty prefix of L characters *)
        destruct cs as [|ch cs'] eqn:Ecs; [rewrite firstn_nil in Efst; discriminate|].
        assert (Hm1 : exists m', m = S m') by (destruct m; [cbn [List.length] in Hm; lia|eexists; reflexivity]).
        destruct Hm1 as [m' ->].
        assert (Hpne : (N (concat (x :: xs)) =? 0)%Z = false).
        { apply Z.eqb_neq. intros Hz. apply N_zero_iff in Hz. apply concat_nil_chunks in Hz; [discriminate|].
          intros c0 Hin. apply (chars_nonempty str). fold cs. rewrite Ecs, <- (firstn_skipn L (ch :: cs')), Efst.
          apply in_or_app. left. exact Hin. }
        eapply ev_select.
        { eapply ev_eq; [dotsym|iv1|reflexivity|exists 1; reflexivity]. }
        { cbn [veq]. rewrite Hpne. reflexivity. }
        destruct (bytes_eqb (concat (x :: xs)) sep) eqn:Hmatch.
        + (* the prefix is the separator: close the piece, continue after it *)
          assert (HL : (0 < L)%nat) by (destruct L; [discriminate|lia]).
          eapply ev_select.
          * eapply ev_eq; [dotsym|dotsym|reflexivity|exists 1; reflexivity].
          * cbn [veq]. rewrite Hmatch. reflexivity.
          * eapply ev_copy; [iv1|]. eapply copies_eq.
            -- eapply (IH m' (Nat.lt_succ_diag_r m') (concat (skipn L (ch :: cs'))) [] (acc ++ [buf]))
                 with (ovs := [(b "str", VStr (concat (skipn L (ch :: cs')))); (b "sep", VStr sep);
                               (b "acc", VList (map VStr acc ++ [VStr buf]))]).
               ++ rewrite <- Ecs. unfold cs. rewrite rechunk_skipn. fold cs. rewrite Ecs, skipn_length.
                  cbn [List.length] in *. lia.
               ++ apply Hsub.
               ++ eapply evf_cons; [dotsym|reflexivity|]. eapply evf_cons; [dotsym|reflexivity|].
                  eapply evf_cons; [|reflexivity|iv1].
                  eapply ev_add; [dotsym|ivs; reflexivity|reflexivity].
               ++ unfold rflds. rewrite map_app. reflexivity.
            -- rewrite <- Ecs. unfold cs. rewrite rechunk_skipn. reflexivity.
        + (* no match: move one character to the buffer *)
          eapply ev_select.
          * eapply ev_eq; [dotsym|dotsym|reflexivity|exists 1; reflexivity].
          * cbn [veq]. rewrite Hmatch. reflexivity.
          * eapply ev_copy; [iv1|]. eapply copies_eq.
            -- eapply (IH m' (Nat.lt_succ_diag_r m') (concat (skipn 1 (ch :: cs'))) (buf ++ ch) acc)
                 with (ovs := [(b "buf", VStr (buf ++ ch)); (b "str", VStr (concat (skipn 1 (ch :: cs'))));
                               (b "sep", VStr sep); (b "acc", VList (map VStr acc))]).
               ++ rewrite <- Ecs. unfold cs. rewrite rechunk_skipn. fold cs. rewrite Ecs. cbn [skipn List.length] in *. lia.
               ++ apply Hsub.
               ++ eapply evf_cons; [|reflexivity|].
                  { eapply ev_add; [dotsym| |].
                    { eapply ev_dot_int; [dotsym|]. unfold chars. fold cs. rewrite Ecs. reflexivity. }
                    reflexivity. }
                  eapply evf_cons; [|reflexivity|].
                  { eapply ev_dot_sym.
                    - eapply ev_dot_copy; [iv1|reflexivity|].
                      eapply copies_eq.
                      + eapply substr_copies_gen with (ovs := [(b "start", VInt 1)]) (a := 1%Z) (b' := N str); [exact Hstr| |reflexivity].
                        eapply evf_cons; [iv1|reflexivity|iv1].
                      + rewrite pick_skipn by (unfold chars; fold cs; rewrite HNstr, Ecs; cbn [List.length]; lia).
                        unfold chars. fold cs. rewrite Ecs. reflexivity.
                    - reflexivity. }
                  eapply evf_cons; [dotsym|reflexivity|]. eapply evf_cons; [dotsym|reflexivity|iv1].
               ++ reflexivity.
            -- rewrite <- Ecs. unfold cs. rewrite rechunk_skipn. fold cs. rewrite Ecs. reflexivity.
    Qed.

    Lemma rec_all : forall m, rec_spec m.
    Proof. induction m as [m IH] using lt_wf_ind. apply rec_strong. exact IH. Qed.
  End Rec.
  Definition so_flds (s sep : bytes) : list (bytes * value) :=
    [(b "on", VStr sep); (b "buf", VStr []); (b "out", VList []); (b "str", VStr s); (b "pkg", pkgf fo (T4 fo s));
     (b "this", Vsplit_on fo s)].

  Lemma split_on_copies c s sep e :
    fits (Z.of_nat (List.length s)) -> fits (Z.of_nat (List.length sep)) ->
    evals (with_self fo c (Some (Vsplit_on fo s))) e (VStr sep) ->
    copies c (Vsplit_on fo s) [(b "on", e)] (ref_split_on fo sep s).
  Proof.
    intros Hs Hsep He. destruct c as [sc0 slf E st ord]. unfold ref_split_on.
    eapply (copies_module fo std_imports [] (Vsplit_on fo s)); [reflexivity| | | | |].
    - eapply evf_cons; [exact He|reflexivity|iv1].
    - reflexivity.
    - reflexivity.
    - unfold split_on_body.
      eapply execs_let; [|reflexivity|reflexivity|].
      { eapply ev_module_lit. fld1. flds. fldd. fld1. fld1. iv1. }
      eapply execs_let; [|reflexivity|reflexivity|apply execs_nil].
      eapply ev_copy; [iv1|].
      eapply (rec_all sep s [(b "mod", VTuple (so_flds s sep))] Hsep (List.length s) s [] [])
        with (ovs := [(b "sep", VStr sep); (b "str", VStr s)]).
      + pose proof (N_le_bytes s). unfold N, chars in *. lia.
      + exact Hs.
      + eapply evf_cons; [dotsym|reflexivity|]. eapply evf_cons; [dotsym|reflexivity|iv1].
      + reflexivity.
    - unfold split_on_out. iv1.
  Qed.

  Definition split_on_call : expr := EBin DOT wrap_arg (ECopy (ESym (b "split_on")) [(b "on", ESym (b "arg2"))]).

  (* wrap(arg).split_on{on = arg2}: the pieces between the leftmost, non-overlapping occurrences of the
     separator (compared as strings against the next [#characters of sep] characters) *)
  Theorem std_strings_split_on : forall E st ord s sep,
      fits (Z.of_nat (List.length s)) -> fits (Z.of_nat (List.length sep)) ->
      exists f, eval_imp fo std_imports f [] (ctx_gen fo E st ord [(b "arg2", VStr sep); (b "arg", VStr s)]) split_on_call
                = Ok (ref_split_on fo sep s).
  Proof.
    intros E st ord s sep Hs Hsep. unfold ctx_gen, split_on_call.
    eapply ev_dot_copy; [eapply wrap_arg_evals; [apply fits_N, Hs|reflexivity]|reflexivity|].
    apply split_on_copies; [exact Hs|exact Hsep|iv1].
  Qed.

  (* for a non-empty separator, joining the result with the separator gives the string back *)
  Theorem std_split_on_join : forall (s sep : bytes),
      sep <> [] ->
      join sep (split_go (S (List.length s)) sep (List.length (utf8_chars sep)) [] [] (utf8_chars s)) = s.
  Proof.
    intros s sep Hne.
    rewrite split_go_join.
    - cbn [app]. apply utf8_concat.
    - destruct sep as [|c r]; [congruence|]. rewrite chars_cons. cbn [List.length]. lia.
    - pose proof (N_le_bytes s). unfold N, chars in *. lia.
  Qed.
  (* an empty separator yields the single piece "" (split_go with L = 0) *)
  Lemma split_on_empty_sep s : ref_split_on fo [] s = VList [VStr []].
  Proof. reflexivity. Qed.
End SplitOn.
