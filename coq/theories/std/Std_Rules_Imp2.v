(* Continuation of Std_Rules_Imp.v: the rules for imports, for the operators that the helpers behind
   `import` use (-, comparisons, &&, ||, ==, in, ranges, fail, casts, `a.b(..)`, `a.b{..}`, `a.(e)`,
   reduce over strings, expression statements), statement lists in two parts, and judgements for FAILING
   evaluations. *)
From Ucg Require Import base.Bytes_Lemmas sem.Sem std.Std_Fuel std.Sem_Import std.Sem_Import_Lemmas std.Std_Rules_Imp.

Section Rules2.
  Variable fo : float_ops.
  Variable imports : bytes -> option prog.
  Variable stk : list bytes.
  Notation value := (value fo).
  Notation scope := (scope fo).
  Notation ctx := (ctx fo).
  Notation eval := (eval_imp fo imports).
  Notation copy_into := (copy_imp fo imports).
  Notation exec_list := (exec_imp fo imports).
  Notation veq := (veq fo).
  Notation render := (render fo).
  Notation lookup := (lookup fo).
  Notation VInt := (VInt fo).
  Notation VStr := (VStr fo).
  Notation VBool := (VBool fo).
  Notation VNull := (VNull fo).
  Notation VList := (VList fo).
  Notation VTuple := (VTuple fo).
  Notation VFunc := (VFunc fo).
  Notation VModule := (VModule fo).
  Notation evals := (evals fo imports stk).
  Notation evals_list := (evals_list fo imports stk).
  Notation evals_fields := (evals_fields fo imports stk).
  Notation calls := (calls fo imports stk).
  Notation copies := (copies fo imports stk).
  Notation execs := (execs fo imports stk).
  Notation call_v := (call_v fo imports stk).
  Notation fields_v := (fields_v fo imports stk).
  Notation reduce_v := (reduce_v fo imports stk).

  (* [up H F]: the run H, successful at some fuel below F, becomes the same run at fuel F; every rule
     raises its premises to a common fuel this way *)
  Ltac up H F := first
    [ apply (fun h => eval_imp_fuel_mono fo imports _ F stk _ _ _ h) in H; [|lia]
    | apply (fun h => mapM_eval_mono fo imports stk _ F _ _ _ h) in H; [|lia]
    | apply (fun h => fields_v_mono fo imports stk _ F _ _ _ _ h) in H; [|lia]
    | apply (fun h => call_v_mono fo imports stk _ F _ _ _ _ h) in H; [|lia]
    | apply (fun h => copy_imp_fuel_mono fo imports _ F stk _ _ _ _ h) in H; [|lia]
    | apply (fun h => exec_imp_fuel_mono fo imports _ F stk _ _ _ h) in H; [|lia]
    | apply (fun h => render_fuel_mono fo _ F _ _ h) in H; [|lia]
    | apply (fun h => veq_fuel_mono fo _ _ F _ _ _ h) in H; [|lia] ].
  Lemma eval_S_sub f c l r :
    eval (S f) stk c (EBin Sub l r) = do rv <- eval f stk c r; do lv <- eval f stk c l; arith' fo Sub lv rv.
  Proof. reflexivity. Qed.
  Definition is_cmp (o : op) : bool := match o with GT | LT | GTEqual | LTEqual => true | _ => false end.
  Lemma eval_S_cmp f c o l r : is_cmp o = true ->
    eval (S f) stk c (EBin o l r) = do rv <- eval f stk c r; do lv <- eval f stk c l; compare_num fo o lv rv.
  Proof. destruct o; try discriminate; reflexivity. Qed.
  Lemma eval_S_and f c l r :
    eval (S f) stk c (EBin AND l r) =
    do lv <- eval f stk c l;
    match lv with Sem.VBool _ false => Ok (VBool false) | Sem.VBool _ true => eval f stk c r | _ => Err end.
  Proof. reflexivity. Qed.
  Lemma eval_S_or f c l r :
    eval (S f) stk c (EBin OR l r) =
    do lv <- eval f stk c l;
    match lv with Sem.VBool _ true => Ok (VBool true) | Sem.VBool _ false => eval f stk c r | _ => Err end.
  Proof. reflexivity. Qed.
  Lemma eval_S_dot_call f c l k args :
    eval (S f) stk c (EBin DOT l (ECall (ESym k) args)) =
    do avs <- mapM (eval f stk c) args; do lv <- eval f stk c l; do fv <- index fo c lv (VStr k); call_v f c fv avs.
  Proof. reflexivity. Qed.
  Lemma eval_S_dot_copy f c l k fs :
    eval (S f) stk c (EBin DOT l (ECopy (ESym k) fs)) =
    do lv <- eval f stk c l; do tv <- index fo c lv (VStr k); copy_into f stk c tv fs.
  Proof. reflexivity. Qed.
  Lemma eval_S_dot_group f c l e :
    eval (S f) stk c (EBin DOT l (EGroup e)) =
    do lv <- eval f stk c l; do kv <- eval f stk c (EGroup e); index fo c lv kv.
  Proof. reflexivity. Qed.
  Lemma eval_S_range f c st en :
    eval (S f) stk c (ERange st None en) =
    do env_ <- eval f stk c en; do sv <- eval f stk c st;
    match sv, env_ with
    | Sem.VInt _ a, Sem.VInt _ z =>
      if Z.ltb range_limit (range_len a 1 z) then Unsup else Ok (VList (range_from fo (Z.to_nat (range_len a 1 z)) a 1 z))
    | _, _ => Err
    end.
  Proof.
    simpl. destruct (eval f stk c en) as [env_| | |]; reflexivity.
  Qed.
  Lemma eval_S_fail f c e : eval (S f) stk c (EFail e) = do _ <- eval f stk c e; Err.
  Proof. reflexivity. Qed.
  Lemma eval_S_cast f c ct e : eval (S f) stk c (ECast ct e) = do v <- eval f stk c e; cast fo ct v.
  Proof. reflexivity. Qed.

  Definition in_go (ord : bool) (f : nat) (needle : value) : list value -> res value :=
    fix go (items : list value) : res value :=
      match items with
      | [] => Ok (VBool false)
      | v :: rest => do r <- veq ord f v needle; if r then Ok (VBool true) else go rest
      end.
  Lemma eval_S_in_list f c l r items needle :
    eval f stk c r = Ok (VList items) -> eval f stk c l = Ok needle ->
    eval (S f) stk c (EBin IN l r) = in_go (eq_ordered fo c) f needle items.
  Proof.
    intros H1 H2. simpl. rewrite H1. cbn [bind]. destruct l; rewrite H2; reflexivity.
  Qed.
  (* `x in tuple`: a bare name on the left is the field name *)
  Lemma eval_S_in_tuple_sym f c x r fs :
    eval f stk c r = Ok (VTuple fs) ->
    eval (S f) stk c (EBin IN (ESym x) r) = Ok (VBool (match lookup x fs with Some _ => true | None => false end)).
  Proof. intros H1. simpl. rewrite H1. reflexivity. Qed.
  Lemma eval_S_in_tuple_group f c e r fs k :
    eval f stk c r = Ok (VTuple fs) -> eval f stk c (EGroup e) = Ok (VStr k) ->
    eval (S f) stk c (EBin IN (EGroup e) r) = Ok (VBool (match lookup k fs with Some _ => true | None => false end)).
  Proof. intros H1 H2. simpl in *. rewrite H1. cbn [bind]. rewrite H2. reflexivity. Qed.

  Lemma exec_list_S_expr f c e ss :
    exec_list (S f) stk c (SExpr e :: ss) =
    do s1 <- (do _ <- eval f stk c e; Ok (sc fo c)); exec_list f stk (with_scope fo c s1) ss.
  Proof. reflexivity. Qed.

  Theorem eval_reduce_str_eq f c fe ae te p1 p2 body clo acc s :
    eval f stk c fe = Ok (VFunc [p1; p2] body clo) -> eval f stk c ae = Ok acc -> eval f stk c te = Ok (VStr s) ->
    eval (S f) stk c (EReduce fe ae te) =
    fold_left (fun a ch => do a' <- a; call_v f c (VFunc [p1; p2] body clo) [a'; VStr ch]) (utf8_chars s) (Ok acc).
  Proof. intros H1 H2 H3. rewrite eval_S_reduce, H1, H2, H3. reflexivity. Qed.
  Lemma ev_sub c l r lv rv v :
    evals c l lv -> evals c r rv -> arith' fo Sub lv rv = Ok v -> evals c (EBin Sub l r) v.
  Proof.
    intros [f1 H1] [f2 H2] Ha. exists (S (Nat.max f1 f2)). up H1 (Nat.max f1 f2). up H2 (Nat.max f1 f2).
    rewrite eval_S_sub, H2. cbn [bind]. rewrite H1. exact Ha.
  Qed.
  Lemma ev_cmp c o l r lv rv v :
    is_cmp o = true -> evals c l lv -> evals c r rv -> compare_num fo o lv rv = Ok v -> evals c (EBin o l r) v.
  Proof.
    intros Ho [f1 H1] [f2 H2] Ha. exists (S (Nat.max f1 f2)). up H1 (Nat.max f1 f2). up H2 (Nat.max f1 f2).
    rewrite (eval_S_cmp _ _ _ _ _ Ho), H2. cbn [bind]. rewrite H1. exact Ha.
  Qed.
  Lemma ev_eq c l r lv rv q :
    evals c l lv -> evals c r rv -> compatible fo lv rv = true ->
    (exists f, veq (eq_ordered fo c) f lv rv = Ok q) ->
    evals c (EBin Equal l r) (VBool q).
  Proof.
    intros [f1 H1] [f2 H2] Hc [f3 H3]. set (F := Nat.max f1 (Nat.max f2 f3)).
    exists (S F). up H1 F. up H2 F. up H3 F.
    rewrite eval_S_eq, H2. cbn [bind]. rewrite H1. cbn [bind]. rewrite Hc, H3. reflexivity.
  Qed.
  Lemma ev_and_false c l r : evals c l (VBool false) -> evals c (EBin AND l r) (VBool false).
  Proof. intros [f H]. exists (S f). rewrite eval_S_and, H. reflexivity. Qed.
  Lemma ev_and_true c l r v : evals c l (VBool true) -> evals c r v -> evals c (EBin AND l r) v.
  Proof.
    intros [f1 H1] [f2 H2]. exists (S (Nat.max f1 f2)). up H1 (Nat.max f1 f2). up H2 (Nat.max f1 f2).
    rewrite eval_S_and, H1. exact H2.
  Qed.
  (* both at once: the right operand matters only when the left one is true *)
  Lemma ev_and c l r (x y : bool) :
    evals c l (VBool x) -> (x = true -> evals c r (VBool y)) -> evals c (EBin AND l r) (VBool (x && y)).
  Proof.
    intros Hl Hr. destruct x; [exact (ev_and_true c l r _ Hl (Hr eq_refl))|exact (ev_and_false c l r Hl)].
  Qed.
  Lemma ev_or_true c l r : evals c l (VBool true) -> evals c (EBin OR l r) (VBool true).
  Proof. intros [f H]. exists (S f). rewrite eval_S_or, H. reflexivity. Qed.
  Lemma ev_or_false c l r v : evals c l (VBool false) -> evals c r v -> evals c (EBin OR l r) v.
  Proof.
    intros [f1 H1] [f2 H2]. exists (S (Nat.max f1 f2)). up H1 (Nat.max f1 f2). up H2 (Nat.max f1 f2).
    rewrite eval_S_or, H1. exact H2.
  Qed.
  Lemma ev_or c l r (x y : bool) :
    evals c l (VBool x) -> (x = false -> evals c r (VBool y)) -> evals c (EBin OR l r) (VBool (x || y)).
  Proof.
    intros Hl Hr. destruct x; [exact (ev_or_true c l r Hl)|exact (ev_or_false c l r _ Hl (Hr eq_refl))].
  Qed.
  Lemma ev_dot_call c l k args avs lv fv v :
    evals_list c args avs -> evals c l lv -> index fo c lv (VStr k) = Ok fv -> calls c fv avs v ->
    evals c (EBin DOT l (ECall (ESym k) args)) v.
  Proof.
    intros [f1 H1] [f2 H2] Hi [f3 H3]. set (F := Nat.max f1 (Nat.max f2 f3)).
    exists (S F). up H1 F. up H2 F. up H3 F.
    rewrite eval_S_dot_call, H1. cbn [bind]. rewrite H2. cbn [bind]. rewrite Hi. exact H3.
  Qed.
  Lemma ev_dot_copy c l k fs lv tv v :
    evals c l lv -> index fo c lv (VStr k) = Ok tv -> copies c tv fs v ->
    evals c (EBin DOT l (ECopy (ESym k) fs)) v.
  Proof.
    intros [f1 H1] Hi [f2 H2]. exists (S (Nat.max f1 f2)). up H1 (Nat.max f1 f2). up H2 (Nat.max f1 f2).
    rewrite eval_S_dot_copy, H1. cbn [bind]. rewrite Hi. exact H2.
  Qed.
  Lemma ev_dot_group c l e lv kv v :
    evals c l lv -> evals c e kv -> index fo c lv kv = Ok v -> evals c (EBin DOT l (EGroup e)) v.
  Proof.
    intros [f1 H1] [f2 H2] Hi. set (F := Nat.max f1 (S f2)). exists (S F).
    assert (H2' : eval (S f2) stk c (EGroup e) = Ok kv) by (rewrite eval_S_group; exact H2).
    up H1 F. up H2' F. rewrite eval_S_dot_group, H1. cbn [bind]. rewrite H2'. exact Hi.
  Qed.
  Lemma ev_range c st en a z :
    evals c st (VInt a) -> evals c en (VInt z) -> Z.ltb range_limit (range_len a 1 z) = false ->
    evals c (ERange st None en) (VList (range_from fo (Z.to_nat (range_len a 1 z)) a 1 z)).
  Proof.
    intros [f1 H1] [f2 H2] Hl. exists (S (Nat.max f1 f2)). up H1 (Nat.max f1 f2). up H2 (Nat.max f1 f2).
    rewrite eval_S_range, H2. cbn [bind]. rewrite H1. cbn [bind]. rewrite Hl. reflexivity.
  Qed.
  Lemma ev_cast c ct e v w : evals c e v -> cast fo ct v = Ok w -> evals c (ECast ct e) w.
  Proof. intros [f H] Hc. exists (S f). rewrite eval_S_cast, H. exact Hc. Qed.
  Lemma ev_in_list c l r items needle res_ :
    evals c r (VList items) -> evals c l needle ->
    (exists f, in_go (eq_ordered fo c) f needle items = Ok res_) ->
    evals c (EBin IN l r) res_.
  Proof.
    intros [f1 H1] [f2 H2] [f3 H3]. set (F := Nat.max f1 (Nat.max f2 f3)). exists (S F).
    up H1 F. up H2 F. rewrite (eval_S_in_list _ _ _ _ _ _ H1 H2).
    refine (le_res_ok _ _ _ _ H3). clear. induction items as [|v rest IH]; [apply le_res_refl|].
    cbn. apply le_res_bind; [apply veq_le; lia|]. intros [|]; [apply le_res_refl|exact IH].
  Qed.
  Lemma ev_in_tuple_group c e r fs k :
    evals c r (VTuple fs) -> evals c e (VStr k) ->
    evals c (EBin IN (EGroup e) r) (VBool (match lookup k fs with Some _ => true | None => false end)).
  Proof.
    intros [f1 H1] [f2 H2]. set (F := Nat.max f1 (S f2)). exists (S F).
    assert (H2' : eval (S f2) stk c (EGroup e) = Ok (VStr k)) by (rewrite eval_S_group; exact H2).
    up H1 F. up H2' F. exact (eval_S_in_tuple_group _ _ _ _ _ _ H1 H2').
  Qed.

  Lemma eval_S_module f c ps out body :
    eval (S f) stk c (EModule ps out body) = do pv <- fields_v f c ps (Ok []); Ok (VModule pv out body).
  Proof. reflexivity. Qed.
  Lemma ev_module_lit c ps out body pv :
    evals_fields c ps [] pv -> evals c (EModule ps out body) (VModule pv out body).
  Proof. intros [f H]. exists (S f). rewrite eval_S_module, H. reflexivity. Qed.

  Notation mk := (Build_ctx fo).
  Lemma execs_expr s0 slf E st ord e ss v s :
    evals (mk s0 slf E st ord) e v -> execs (mk s0 slf E st ord) ss s -> execs (mk s0 slf E st ord) (SExpr e :: ss) s.
  Proof.
    intros [f1 H1] [f2 H2]. exists (S (Nat.max f1 f2)). up H1 (Nat.max f1 f2). up H2 (Nat.max f1 f2).
    rewrite exec_list_S_expr, H1. exact H2.
  Qed.

  (* reduce over a string: the closure sees the characters (UTF-8 sequences) one by one *)
  Theorem reduce_str_inv c fe ae te p1 p2 body clo acc s (I : list bytes -> value -> Prop) :
    evals c fe (VFunc [p1; p2] body clo) -> evals c ae acc -> evals c te (VStr s) ->
    I [] acc ->
    (forall pre ch post a, utf8_chars s = pre ++ ch :: post -> I pre a ->
        exists a', calls c (VFunc [p1; p2] body clo) [a; VStr ch] a' /\ I (pre ++ [ch]) a') ->
    exists r, evals c (EReduce fe ae te) r /\ I (utf8_chars s) r.
  Proof.
    intros H1 H2 H3. apply (reduce_inv fo imports stk c fe ae te _ acc _ (utf8_chars s) (fun a ch => [a; VStr ch]) I H1 H2 H3). reflexivity.
  Qed.

  (* functional forms with an invariant indexed by the processed prefix *)
  Theorem reduce_list_is_fold_pre c fe ae te p1 p2 body clo acc l
          (I : list value -> value -> Prop) (step : value -> value -> value) :
    evals c fe (VFunc [p1; p2] body clo) -> evals c ae acc -> evals c te (VList l) ->
    I [] acc ->
    (forall pre v post a, l = pre ++ v :: post -> I pre a ->
        calls c (VFunc [p1; p2] body clo) [a; v] (step a v) /\ I (pre ++ [v]) (step a v)) ->
    evals c (EReduce fe ae te) (fold_left step l acc) /\ I l (fold_left step l acc).
  Proof.
    intros H1 H2 H3. apply (reduce_is_fold fo imports stk c fe ae te _ acc _ l (fun a v => [a; v]) I step H1 H2 H3). reflexivity.
  Qed.
  Theorem reduce_str_is_fold_pre c fe ae te p1 p2 body clo acc s
          (I : list bytes -> value -> Prop) (step : value -> bytes -> value) :
    evals c fe (VFunc [p1; p2] body clo) -> evals c ae acc -> evals c te (VStr s) ->
    I [] acc ->
    (forall pre ch post a, utf8_chars s = pre ++ ch :: post -> I pre a ->
        calls c (VFunc [p1; p2] body clo) [a; VStr ch] (step a ch) /\ I (pre ++ [ch]) (step a ch)) ->
    evals c (EReduce fe ae te) (fold_left step (utf8_chars s) acc) /\ I (utf8_chars s) (fold_left step (utf8_chars s) acc).
  Proof.
    intros H1 H2 H3.
    apply (reduce_is_fold fo imports stk c fe ae te _ acc _ (utf8_chars s) (fun a ch => [a; VStr ch]) I step H1 H2 H3). reflexivity.
  Qed.
  Definition fails (c : ctx) (e : expr) : Prop := exists f, eval f stk c e = Err.
  Definition exec_fails (c : ctx) (ss : list stmt) : Prop := exists f, exec_list f stk c ss = Err.
  Definition copy_fails (c : ctx) (tv : value) (fs : list (bytes * expr)) : Prop :=
    exists f, copy_into f stk c tv fs = Err.

  (* the same for a run that fails *)
  Ltac upe H F := first
    [ apply (fun h => eval_imp_fuel_mono_err fo imports _ F stk _ _ h) in H; [|lia]
    | apply (fun h => copy_imp_fuel_mono_err fo imports _ F stk _ _ _ h) in H; [|lia]
    | apply (fun h => exec_imp_fuel_mono_err fo imports _ F stk _ _ h) in H; [|lia] ].

  Lemma fails_fail c e v : evals c e v -> fails c (EFail e).
  Proof. intros [f H]. exists (S f). rewrite eval_S_fail, H. reflexivity. Qed.
  Lemma fails_or c l r : evals c l (VBool false) -> fails c r -> fails c (EBin OR l r).
  Proof.
    intros [f1 H1] [f2 H2]. exists (S (Nat.max f1 f2)). up H1 (Nat.max f1 f2). upe H2 (Nat.max f1 f2).
    rewrite eval_S_or, H1. exact H2.
  Qed.
  Lemma fails_group c e : fails c e -> fails c (EGroup e).
  Proof. intros [f H]. exists (S f). rewrite eval_S_group. exact H. Qed.
  Lemma xf_expr_here c e ss : fails c e -> exec_fails c (SExpr e :: ss).
  Proof. intros [f H]. exists (S f). rewrite exec_list_S_expr, H. reflexivity. Qed.
  Lemma xf_expr_skip s0 slf E st ord e ss v :
    evals (mk s0 slf E st ord) e v -> exec_fails (mk s0 slf E st ord) ss -> exec_fails (mk s0 slf E st ord) (SExpr e :: ss).
  Proof.
    intros [f1 H1] [f2 H2]. exists (S (Nat.max f1 f2)). up H1 (Nat.max f1 f2). upe H2 (Nat.max f1 f2).
    rewrite exec_list_S_expr, H1. exact H2.
  Qed.
  Lemma xf_let_here c x e ss : fails c e -> exec_fails c (SLet x e :: ss).
  Proof. intros [f H]. exists (S f). rewrite exec_list_S_let, H. reflexivity. Qed.
  Lemma xf_let_skip s0 slf E st ord x e ss v :
    evals (mk s0 slf E st ord) e v -> is_reserved x = false -> lookup x s0 = None ->
    exec_fails (mk ((x, v) :: s0) slf E st ord) ss -> exec_fails (mk s0 slf E st ord) (SLet x e :: ss).
  Proof.
    intros [f1 H1] Hr Hl [f2 H2]. exists (S (Nat.max f1 f2)). up H1 (Nat.max f1 f2). upe H2 (Nat.max f1 f2).
    rewrite exec_list_S_let, H1. unfold with_scope. cbn [sc self_v envt strict eq_ordered]. cbn [bind]. rewrite Hr, Hl. cbn [bind]. exact H2.
  Qed.
  Lemma copy_fails_module tv s0 slf E st ord ps out body fs ovs fl fl' :
    tv = VModule ps out body ->
    evals_fields (mk s0 (Some tv) E st ord) fs [] ovs ->
    merge_fields fo ps ovs = Ok fl -> merge_field fo fl (b "this") tv = Ok fl' ->
    exec_fails (mk [(b "mod", VTuple fl')] (Some tv) E st ord) body ->
    copy_fails (mk s0 slf E st ord) tv fs.
  Proof.
    intros -> [f1 H1] Hm1 Hm2 [f2 H2]. exists (S (Nat.max f1 f2)). up H1 (Nat.max f1 f2). upe H2 (Nat.max f1 f2).
    rewrite copy_into_S_module. cbv zeta. unfold mctx, with_self, with_scope. cbn [sc self_v envt strict eq_ordered]. rewrite H1. cbn [bind]. rewrite Hm1. cbn [bind].
    rewrite Hm2. cbn [bind]. rewrite H2. reflexivity.
  Qed.
  Lemma fails_dot_copy c l k fs lv tv :
    evals c l lv -> index fo c lv (VStr k) = Ok tv -> copy_fails c tv fs ->
    fails c (EBin DOT l (ECopy (ESym k) fs)).
  Proof.
    intros [f1 H1] Hi [f2 H2]. exists (S (Nat.max f1 f2)). up H1 (Nat.max f1 f2). upe H2 (Nat.max f1 f2).
    rewrite eval_S_dot_copy, H1. cbn [bind]. rewrite Hi. exact H2.
  Qed.
  (* one statement: the step inside [exec_imp], standing alone *)
  Definition exec_stmt (f : nat) (c : ctx) (s : stmt) : res scope :=
    match s with
    | SLet x e => do v <- eval f stk c e;
                  if is_reserved x then Err
                  else match lookup x (sc fo c) with Some _ => Err | None => Ok ((x, v) :: sc fo c) end
    | SExpr e => do _ <- eval f stk c e; Ok (sc fo c)
    | SAssert _ | SOut _ _ => Unsup
    end.
  Lemma exec_list_S_cons f c s ss :
    exec_list (S f) stk c (s :: ss) = do s1 <- exec_stmt f c s; exec_list f stk (with_scope fo c s1) ss.
  Proof. reflexivity. Qed.
  Lemma exec_stmt_le f f' c s : f <= f' -> le_res (exec_stmt f c s) (exec_stmt f' c s).
  Proof.
    intros Hle. destruct s; try apply le_res_refl;
      (apply le_res_bind; [apply eval_imp_le, Hle|intros; apply le_res_refl]).
  Qed.

  (* running ss1 and then ss2 in the scope it leaves is running ss1 ++ ss2; each statement of ss1 costs
     one unit of fuel before ss2 is reached *)
  Lemma exec_app_le ss1 ss2 : forall f c,
      le_res (do s1 <- exec_list f stk c ss1; exec_list f stk (with_scope fo c s1) ss2)
             (exec_list (List.length ss1 + f) stk c (ss1 ++ ss2)).
  Proof.
    induction ss1 as [|s ss1 IH]; intros f c; (destruct f as [|f]; [intros H; exfalso; apply H; reflexivity|]).
    - destruct c. apply le_res_refl.
    - cbn [app List.length Nat.add]. rewrite !exec_list_S_cons.
      destruct (exec_stmt f c s) as [s'| | |] eqn:Es.
      + rewrite (le_res_ok _ _ _ (exec_stmt_le f (List.length ss1 + S f) c s ltac:(lia)) Es). cbn [bind].
        refine (le_res_trans _ _ _ _ (IH (S f) (with_scope fo c s'))).
        apply le_res_bind; [apply exec_imp_le; lia|]. intros s1. destruct c. apply le_res_refl.
      + rewrite (le_res_err _ _ (exec_stmt_le f (List.length ss1 + S f) c s ltac:(lia)) Es). apply le_res_refl.
      + intros _. pose proof (exec_stmt_le f (List.length ss1 + S f) c s ltac:(lia)) as Hle.
        rewrite Hle; rewrite Es; [reflexivity|discriminate].
      + intros H; exfalso; apply H; reflexivity.
  Qed.
  Lemma execs_app s0 slf E st ord ss1 ss2 s1 s :
    execs (mk s0 slf E st ord) ss1 s1 -> execs (mk s1 slf E st ord) ss2 s -> execs (mk s0 slf E st ord) (ss1 ++ ss2) s.
  Proof.
    intros [f1 H1] [f2 H2]. set (F := Nat.max f1 f2). exists (List.length ss1 + F). up H1 F. up H2 F.
    refine (le_res_ok _ _ _ (exec_app_le ss1 ss2 F _) _). rewrite H1. exact H2.
  Qed.
  Lemma xf_app s0 slf E st ord ss1 ss2 s1 :
    execs (mk s0 slf E st ord) ss1 s1 -> exec_fails (mk s1 slf E st ord) ss2 -> exec_fails (mk s0 slf E st ord) (ss1 ++ ss2).
  Proof.
    intros [f1 H1] [f2 H2]. set (F := Nat.max f1 f2). exists (List.length ss1 + F). up H1 F. upe H2 F.
    refine (le_res_err _ _ (exec_app_le ss1 ss2 F _) _). rewrite H1. exact H2.
  Qed.

  (* a failing evaluation never succeeds, whatever the fuel *)
  Lemma fails_not_ok c e : fails c e -> forall f v, eval f stk c e <> Ok v.
  Proof.
    intros [f0 H0] f v H. destruct (Nat.le_ge_cases f f0) as [Hle|Hge].
    - rewrite (eval_imp_fuel_mono fo imports _ _ _ _ _ _ H Hle) in H0. discriminate.
    - rewrite (eval_imp_fuel_mono_err fo imports _ _ _ _ _ H0 Hge) in H. discriminate.
  Qed.
End Rules2.
Section ImportRule.
  Variable fo : float_ops.
  Variable imports : bytes -> option prog.

  Lemma eval_S_import f stk c p :
    eval_imp fo imports (S f) stk c (EImport p) =
    if existsb (bytes_eqb p) stk then Err
    else match imports p with
         | None => Err
         | Some pr =>
           do s <- exec_imp fo imports f (p :: stk)
                     {| sc := []; self_v := None; envt := envt fo c; strict := strict fo c; eq_ordered := eq_ordered fo c |} pr;
           Ok (VTuple fo (export_scope fo s false))
         end.
  Proof. reflexivity. Qed.

  (* an import looks at the environment, the strictness and the equality reading of its context only *)
  Lemma eval_import_ctx f stk c c' p :
    envt fo c = envt fo c' -> strict fo c = strict fo c' -> eq_ordered fo c = eq_ordered fo c' ->
    eval_imp fo imports f stk c (EImport p) = eval_imp fo imports f stk c' (EImport p).
  Proof. intros H1 H2 H3. destruct f; [reflexivity|]. rewrite !eval_S_import, H1, H2, H3. reflexivity. Qed.

  Lemma ev_import stk c p pr s :
    existsb (bytes_eqb p) stk = false -> imports p = Some pr ->
    execs fo imports (p :: stk)
          {| sc := []; self_v := None; envt := envt fo c; strict := strict fo c; eq_ordered := eq_ordered fo c |} pr s ->
    evals fo imports stk c (EImport p) (VTuple fo (export_scope fo s false)).
  Proof.
    intros Hs Hi [f H]. exists (S f). rewrite eval_S_import, Hs, Hi, H. reflexivity.
  Qed.
End ImportRule.
