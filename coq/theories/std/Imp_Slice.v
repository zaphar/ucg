(* std/lists.ucg through `import`: slice (inclusive bounds, guards, the end = len finding). *)
From Ucg Require Import base.Bytes_Lemmas sem.Sem std.Std_Fuel std.Sem_Import std.Sem_Import_Lemmas
     std.Std_Rules_Imp std.Std_Rules_Imp2 std.StdSpec std.StdSpec_Imp std.Imp_Base std.Imp_Lists.

Section Slice.
  Variable fo : float_ops.
  Notation value := (value fo).
  Notation VInt := (VInt fo).
  Notation VStr := (VStr fo).
  Notation VBool := (VBool fo).
  Notation VNull := (VNull fo).
  Notation VList := (VList fo).
  Notation VTuple := (VTuple fo).
  Notation VFunc := (VFunc fo).
  Notation VModule := (VModule fo).
  Notation evals := (evals fo std_imports []).
  Notation calls := (calls fo std_imports []).
  Notation copies := (copies fo std_imports []).
  Notation execs := (execs fo std_imports []).
  Notation evals_fields := (evals_fields fo std_imports []).
  Notation fits_chk := (fits_chk fo).
  Notation len_v := (len_v fo).
  Notation len_calls := (len_calls fo).
  Notation lists_index_len := (lists_index_len fo).
  Notation range_from_seq := (range_from_seq fo).
  Notation index_list_nth := (index_list_nth fo).
  Definition slice_v : value := member fo lists_path "slice".
  Definition slice_pkg_clo := pkg_clo fo slice_v.
  Definition slice_out : option expr := Eval vm_compute in mod_out fo slice_v.
  Definition slice_body : list stmt := Eval vm_compute in mod_body fo slice_v.
  Definition slice_params : list (bytes * value) :=
    [(b "start", VInt 0); (b "end", VNull); (b "list", VList [])] ++ [(b "pkg", VFunc [] (EImport lists_path) slice_pkg_clo)].
  Lemma slice_v_eq : slice_v = VModule slice_params slice_out slice_body.
  Proof. apply as_module_eq. vm_compute. reflexivity. Qed.
  Lemma lists_index_slice c : index fo c (import_value fo lists_path) (VStr (b "slice")) = Ok slice_v.
  Proof. apply index_member. vm_compute. reflexivity. Qed.

  Lemma range_gen s e : (i64_min <= s)%Z -> (e + 1 <= i64_max)%Z ->
    range_from fo (Z.to_nat (range_len s 1 e)) s 1 e
    = map (fun i => VInt (s + Z.of_nat i)) (seq 0 (Z.to_nat (e - s + 1))).
  Proof.
    intros Hs He. unfold range_len. destruct (Z.ltb_spec e s) as [Hlt|Hge].
    - replace (Z.to_nat (e - s + 1)) with 0%nat by lia. reflexivity.
    - rewrite Z.div_1_r. set (m := Z.to_nat (e - s + 1)).
      pose proof (range_from_seq m s Hs ltac:(unfold m; lia)) as H.
      replace (s + Z.of_nat m - 1)%Z with e in H by (unfold m; lia). exact H.
  Qed.

  Lemma firstn_S_nth {A} (d : A) : forall k (x : list A), (k < List.length x)%nat ->
    firstn (S k) x = firstn k x ++ [nth k x d].
  Proof.
    induction k as [|k IH]; intros [|a x] Hk; cbn in *; try lia; [reflexivity|].
    f_equal. apply IH. lia.
  Qed.
  Lemma nth_skipn {A} (d : A) : forall s k (l : list A), nth k (skipn s l) d = nth (s + k) l d.
  Proof. induction s as [|s IH]; intros k [|a l]; cbn; try reflexivity; [destruct k; reflexivity|apply IH]. Qed.

  (* the reducer of slice: acc + [mod.list.(item)], for any captured scope that binds `mod` *)
  Definition slice_reducer_body : expr :=
    Eval vm_compute in match nth 7 slice_body (SExpr ENull) with SLet _ (EFunc _ bd) => bd | _ => ENull end.
  Lemma slice_step c clo flds l x i :
    lookup fo (b "mod") clo = Some (VTuple flds) -> lookup fo (b "list") flds = Some (VList l) ->
    (i < List.length l)%nat ->
    calls c (VFunc [b "acc"; b "item"] slice_reducer_body clo) [VList x; VInt (Z.of_nat i)]
          (VList (x ++ [nth i l VNull])).
  Proof.
    intros Hmod Hlist Hi.
    eapply calls_intro; [reflexivity|reflexivity|]. unfold slice_reducer_body.
    eapply ev_add; [iv1| |].
    { iv1. eapply evl_cons; [|iv1].
      eapply ev_dot_group; [|iv1|apply index_list_nth, Hi].
      eapply ev_dot_sym; [apply ev_sym; [reflexivity|exact Hmod]|apply index_tuple_lookup, Hlist]. }
    reflexivity.
  Qed.

  Definition slice_call : expr := imp_inst lists_path "slice" [("start", "arg1"); ("end", "arg2"); ("list", "arg3")]%string.
  Definition slice_call_default : expr := imp_inst lists_path "slice" [("start", "arg1"); ("list", "arg3")]%string.


  Lemma slice_result (s e' : Z) (l : list value) :
    firstn (List.length (map (fun i => VInt (s + Z.of_nat i)) (seq 0 (Z.to_nat (e' - s + 1))))) (skipn (Z.to_nat s) l)
    = firstn (Z.to_nat (e' - s + 1)) (skipn (Z.to_nat s) l).
  Proof. intros. rewrite map_length, seq_length. reflexivity. Qed.
  Section Body.
    Variables (s : Z) (l : list value).
    Notation n := (Z.of_nat (List.length l)).
    Notation mk := (Build_ctx fo).
    Definition slice_fl (mend : value) : list (bytes * value) :=
      [(b "start", VInt s); (b "end", mend); (b "list", VList l); (b "pkg", VFunc [] (EImport lists_path) slice_pkg_clo)].
    Definition SL0 mend : scope fo := [(b "mod", VTuple (slice_fl mend ++ [(b "this", slice_v)]))].
    (* the last index: the one given, or that of the last element *)
    Definition end_of (mend : value) : option Z :=
      match mend with Sem.VInt _ e => Some e | Sem.VNull _ => Some (n - 1)%Z | _ => None end.
    Definition SL4 mend (e : Z) : scope fo :=
      (b "start", VInt s) :: (b "end", VInt e) :: (b "list_len", VInt n) :: (b "list", import_value fo lists_path) :: SL0 mend.

    Hypothesis Hfit : fits n.

    (* the four bindings before the guards *)
    Lemma slice_prefix mend e slf E st ord :
      end_of mend = Some e -> execs (mk (SL0 mend) slf E st ord) (firstn 4 slice_body) (SL4 mend e).
    Proof.
      intros He. unfold slice_body. cbn [firstn].
      eapply execs_let; [eapply ev_mod_pkg; [reflexivity|reflexivity|apply in_lists]|reflexivity|reflexivity|].
      eapply execs_let; [|reflexivity|reflexivity|].
      { eapply ev_dot_call; [ivs; reflexivity|iv1|apply lists_index_len|apply len_calls, Hfit]. }
      eapply execs_let with (v := VInt e); [|reflexivity|reflexivity|].
      { unfold end_of in He. destruct mend; try discriminate; injection He as <-.
        - eapply ev_select; [eapply ev_is; [dotsym|iv1]|reflexivity|].
          eapply ev_sub; [iv1|iv1|]. cbn [arith' arith]. apply fits_chk.
          apply (fits_between _ (-1) n); [reflexivity|exact Hfit|lia].
        - eapply ev_select; [eapply ev_is; [dotsym|iv1]|reflexivity|dotsym]. }
      eapply execs_let; [dotsym|reflexivity|reflexivity|apply execs_nil].
    Qed.

    (* a guard `(x <= y) || fail ..` that holds *)
    Ltac guard_ok :=
      eapply ev_or_true; eapply evals_eq;
      [ iv1; eapply ev_cmp; [reflexivity|iv1|iv1|reflexivity]
      | cbn [compare_num]; f_equal; apply Z.leb_le; lia ].

    (* within bounds the guards pass and the reducer collects l[s..e] *)
    Lemma slice_rest mend e slf E st ord :
      (0 <= s <= n)%Z -> (e < n)%Z -> (e - s + 1 <= range_limit)%Z ->
      exists sc', execs (mk (SL4 mend e) slf E st ord) (skipn 4 slice_body) sc' /\
                  lookup fo (b "result") sc' = Some (ref_slice fo s e l).
    Proof.
      intros Hs He Hlim. assert (Hn : (n <= i64_max)%Z) by (apply fits_iff in Hfit; lia).
      unfold ref_slice. rewrite <- (slice_result s e l).
      edestruct (reduce_list_inv fo std_imports [])
        with (l := map (fun i => VInt (s + Z.of_nat i)) (seq 0 (Z.to_nat (e - s + 1))))
             (I := fun (pre : list value) (a : value) => a = VList (firstn (List.length pre) (skipn (Z.to_nat s) l)))
        as (r & Hr & ->); cycle 5.
      - eexists. split.
        + unfold slice_body. cbn [skipn].
          eapply execs_expr; [guard_ok|]. eapply execs_expr; [guard_ok|]. eapply execs_expr; [guard_ok|].
          apply execs_def; [reflexivity|reflexivity|].
          eapply execs_let; [exact Hr|reflexivity|reflexivity|apply execs_nil].
        + reflexivity.
      - iv1.
      - ivs.
      - rewrite <- range_gen by (unfold i64_min; lia).
        eapply ev_range; [iv1|iv1|]. apply Z.ltb_ge. unfold range_len.
        destruct (Z.ltb_spec e s); [unfold range_limit; lia|]. rewrite Z.div_1_r. lia.
      - reflexivity.
      - intros pre v post a El ->.
        destruct (seq_split _ _ _ _ _ _ El) as [-> Hlt]. cbn [Nat.add] in *.
        set (k := List.length pre) in *.
        assert (Hi : (Z.to_nat s + k < List.length l)%nat) by lia.
        eexists. split.
        + replace (s + Z.of_nat k)%Z with (Z.of_nat (Z.to_nat s + k)) by lia.
          eapply slice_step; [reflexivity|reflexivity|exact Hi].
        + rewrite app_length. cbn [List.length]. rewrite Nat.add_1_r. fold k.
          rewrite (firstn_S_nth VNull k) by (rewrite skipn_length; lia).
          rewrite nth_skipn. reflexivity.
    Qed.

    Lemma slice_copies mend c fs ovs e :
      end_of mend = Some e -> (0 <= s <= n)%Z -> (e < n)%Z -> (e - s + 1 <= range_limit)%Z ->
      evals_fields (with_self fo c (Some slice_v)) fs [] ovs -> merge_fields fo slice_params ovs = Ok (slice_fl mend) ->
      copies c slice_v fs (ref_slice fo s e l).
    Proof.
      intros Hend Hs He Hlim Hfs Hmerge. destruct c as [s0 slf E st ord].
      destruct (slice_rest mend e (Some slice_v) E st ord Hs He Hlim) as (sc' & Hrest & Hres).
      eapply (copies_module fo std_imports [] slice_v); [exact slice_v_eq|exact Hfs|exact Hmerge|reflexivity| |].
      - rewrite <- (firstn_skipn 4 slice_body). eapply execs_app; [apply slice_prefix, Hend|exact Hrest].
      - unfold slice_out. apply ev_sym; [reflexivity|exact Hres].
    Qed.
  End Body.

  Theorem std_slice : forall E st ord s e l,
      fits (Z.of_nat (List.length l)) ->
      (0 <= s <= Z.of_nat (List.length l))%Z -> (e < Z.of_nat (List.length l))%Z ->
      (e - s + 1 <= range_limit)%Z ->
      exists f, eval_imp fo std_imports f []
                  (ctx_gen fo E st ord [(b "arg3", VList l); (b "arg2", VInt e); (b "arg1", VInt s)]) slice_call
                = Ok (ref_slice fo s e l).
  Proof.
    intros E st ord s e l Hfit Hs He Hlim. unfold slice_call, imp_inst, ctx_gen. cbn [map fst snd].
    eapply ev_dot_copy; [apply ev_import_std, in_lists|apply lists_index_slice|].
    eapply (slice_copies s l Hfit (VInt e)) with (ovs := [(b "start", VInt s); (b "end", VInt e); (b "list", VList l)]);
      [reflexivity|exact Hs|exact He|exact Hlim| |reflexivity].
    fld1. fld1. fld1. iv1.
  Qed.

  (* end omitted: it defaults to len - 1 *)
  Theorem std_slice_default : forall E st ord s l,
      fits (Z.of_nat (List.length l)) ->
      (0 <= s <= Z.of_nat (List.length l))%Z ->
      (Z.of_nat (List.length l) - s <= range_limit)%Z ->
      exists f, eval_imp fo std_imports f []
                  (ctx_gen fo E st ord [(b "arg3", VList l); (b "arg1", VInt s)]) slice_call_default
                = Ok (ref_slice fo s (Z.of_nat (List.length l) - 1) l).
  Proof.
    intros E st ord s l Hfit Hs Hlim. unfold slice_call_default, imp_inst, ctx_gen. cbn [map fst snd].
    eapply ev_dot_copy; [apply ev_import_std, in_lists|apply lists_index_slice|].
    eapply (slice_copies s l Hfit VNull) with (ovs := [(b "start", VInt s); (b "list", VList l)]);
      [reflexivity|exact Hs|lia|lia| |reflexivity].
    fld1. fld1. iv1.
  Qed.
  Theorem std_slice_guards_fail : forall E st ord s e l,
      fits (Z.of_nat (List.length l)) ->
      (s < 0 \/ Z.of_nat (List.length l) < s \/ Z.of_nat (List.length l) < e)%Z ->
      fails fo std_imports [] (ctx_gen fo E st ord [(b "arg3", VList l); (b "arg2", VInt e); (b "arg1", VInt s)]) slice_call.
  Proof.
    intros E st ord s e l Hfit Hbad.
    set (n := Z.of_nat (List.length l)) in *.
    unfold slice_call, imp_inst, ctx_gen. cbn [map fst snd].
    eapply fails_dot_copy; [apply ev_import_std, in_lists|apply lists_index_slice|].
    eapply (copy_fails_module fo std_imports [] slice_v); [exact slice_v_eq| | | |].
    - fld1. fld1. fld1. iv1.
    - reflexivity.
    - reflexivity.
    - rewrite <- (firstn_skipn 4 slice_body).
      eapply xf_app; [apply (slice_prefix s l Hfit (VInt e) e); reflexivity|].
      unfold slice_body, SL4. cbn [skipn].
      destruct (Z.ltb_spec s 0) as [Hneg|Hpos].
      { (* start < 0 *)
        apply xf_expr_here. eapply fails_or; [|eapply fails_fail; iv1].
        eapply evals_eq; [iv1; eapply ev_cmp; [reflexivity|iv1|iv1|reflexivity]|].
        cbn [compare_num]. f_equal. apply Z.leb_gt. exact Hneg. }
      eapply xf_expr_skip.
      { eapply ev_or_true. eapply evals_eq; [iv1; eapply ev_cmp; [reflexivity|iv1|iv1|reflexivity]|].
        cbn [compare_num]. f_equal. apply Z.leb_le. lia. }
      destruct (Z.ltb_spec n s) as [Hbig|Hok].
      { (* start > len *)
        apply xf_expr_here. eapply fails_or.
        - eapply evals_eq; [iv1; eapply ev_cmp; [reflexivity|iv1|iv1|reflexivity]|].
          cbn [compare_num]. f_equal. apply Z.leb_gt. exact Hbig.
        - eapply fails_fail. eapply ev_formatL; [reflexivity| |].
          + constructor; [|constructor]. eexists. split; [iv1|]. exists 1. reflexivity.
          + reflexivity. }
      eapply xf_expr_skip.
      { eapply ev_or_true. eapply evals_eq; [iv1; eapply ev_cmp; [reflexivity|iv1|iv1|reflexivity]|].
        cbn [compare_num]. f_equal. apply Z.leb_le. lia. }
      (* end > len *)
      assert (Hend : (n < e)%Z) by lia.
      apply xf_expr_here. eapply fails_or.
      + eapply evals_eq; [iv1; eapply ev_cmp; [reflexivity|iv1|iv1|reflexivity]|].
        cbn [compare_num]. f_equal. apply Z.leb_gt. exact Hend.
      + eapply fails_fail. eapply ev_formatL; [reflexivity| |].
        * constructor; [|constructor]. eexists. split; [iv1|]. exists 1. reflexivity.
        * reflexivity.
  Qed.

  (* The third guard is `end <= list_len`, but valid indices stop at list_len - 1: end = len
     passes the library's own check and then the reducer indexes one past the end --
     a selector error when the build is strict, a trailing NULL when it is not. *)
  Theorem std_slice_end_is_len_refuted : forall E ord,
      let l := [VInt 0; VInt 1; VInt 2; VInt 3] in
      eval_imp fo std_imports 60 [] (ctx_gen fo E true ord [(b "arg3", VList l); (b "arg2", VInt 4); (b "arg1", VInt 0)]) slice_call
      = Err /\
      eval_imp fo std_imports 60 [] (ctx_gen fo E false ord [(b "arg3", VList l); (b "arg2", VInt 4); (b "arg1", VInt 0)]) slice_call
      = Ok (VList [VInt 0; VInt 1; VInt 2; VInt 3; VNull]).
  Proof. intros E ord l. split; vm_compute; reflexivity. Qed.
End Slice.
