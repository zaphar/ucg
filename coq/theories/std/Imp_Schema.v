(* std/schema.ucg through `import`: base_type_of, shaped, any, all = the reference functions
   [ref_shaped], [ref_any], [ref_all] of StdSpec_Imp.v, for all values (closures included: they are
   never compared) whose nesting depth is below the fuel of the reference. *)
From Ucg Require Import base.Bytes_Lemmas sem.Sem std.Std_Fuel std.Sem_Import std.Sem_Import_Lemmas
     std.Std_Rules_Imp std.Std_Rules_Imp2 std.StdSpec std.StdSpec_Imp std.Imp_Base.

Section Schema.
  Variable fo : float_ops.
  Notation value := (value fo).
  Notation VInt := (VInt fo).
  Notation VStr := (VStr fo).
  Notation VBool := (VBool fo).
  Notation VNull := (VNull fo).
  Notation VList := (VList fo).
  Notation VTuple := (VTuple fo).
  Notation VFunc := (VFunc fo).
  Notation VModule := (VModule fo).
  Notation evals := (evals fo std_imports []).
  Notation calls := (calls fo std_imports []).
  Notation copies := (copies fo std_imports []).
  Notation evals_fields := (evals_fields fo std_imports []).
  Notation ref_shaped := (ref_shaped fo).

  (* nesting depth of a value *)
  Fixpoint vdepth (v : value) : nat :=
    match v with
    | Sem.VList _ l => S (list_max (map vdepth l))
    | Sem.VTuple _ fs => S (list_max (map (fun kv => vdepth (snd kv)) fs))
    | _ => 0
    end.
  Lemma list_max_in x l : In x l -> (x <= list_max l)%nat.
  Proof.
    induction l as [|a l IH]; cbn [In list_max fold_right]; [tauto|].
    intros [<-|H]; [apply Nat.le_max_l|]. specialize (IH H). etransitivity; [exact IH|apply Nat.le_max_r].
  Qed.
  Lemma vdepth_elem x l : In x l -> (vdepth x < vdepth (VList l))%nat.
  Proof. intros H. cbn. apply Nat.lt_succ_r, list_max_in, in_map, H. Qed.
  Lemma vdepth_field k v fs : In (k, v) fs -> (vdepth v < vdepth (VTuple fs))%nat.
  Proof. intros H. cbn. apply Nat.lt_succ_r, list_max_in. apply in_map_iff. exists (k, v). split; [reflexivity|exact H]. Qed.
  Lemma lookup_in k (fs : list (bytes * value)) v : lookup fo k fs = Some v -> exists k', In (k', v) fs.
  Proof.
    induction fs as [|[k' w] fs IH]; cbn; [discriminate|]. destruct (bytes_eqb k k').
    - intros H. inversion H; subst. exists k'. left. reflexivity.
    - intros H. destruct (IH H) as [k'' Hin]. exists k''. right. exact Hin.
  Qed.
  Lemma vdepth_lookup k v fs : lookup fo k fs = Some v -> (vdepth v < vdepth (VTuple fs))%nat.
  Proof. intros H. destruct (lookup_in _ _ _ H) as [k' Hin]. eapply vdepth_field, Hin. Qed.

  Lemma forallb_ext_in {A} (g h : A -> bool) l : (forall x, In x l -> g x = h x) -> forallb g l = forallb h l.
  Proof.
    induction l as [|a l IH]; intros H; cbn; [reflexivity|]. rewrite H by (left; reflexivity).
    rewrite IH; [reflexivity|]. intros x Hx. apply H. right. exact Hx.
  Qed.
  Lemma existsb_ext' {A} (g h : A -> bool) l : (forall x, g x = h x) -> existsb g l = existsb h l.
  Proof. intros H. induction l as [|a l IH]; cbn; [reflexivity|]. rewrite H, IH. reflexivity. Qed.
  Definition bto_v : value := member fo schema_path "base_type_of".
  Lemma schema_index_bto c : index fo c (import_value fo schema_path) (VStr (b "base_type_of")) = Ok bto_v.
  Proof. apply index_member. vm_compute. reflexivity. Qed.
  Lemma bto_calls c v : calls c bto_v [v] (VStr (is_name fo v)).
  Proof. destruct c as [s0 slf E st ord]. exists 14. destruct v; vm_compute; reflexivity. Qed.

  Definition shaped_v : value := member fo schema_path "shaped".
  Definition shaped_pkg_clo := pkg_clo fo shaped_v.
  Definition shaped_out : option expr := Eval vm_compute in mod_out fo shaped_v.
  Definition shaped_body : list stmt := Eval vm_compute in mod_body fo shaped_v.
  Definition SPK : value := VFunc [] (EImport schema_path) shaped_pkg_clo.
  Definition shaped_params := [(b "val", VNull); (b "shape", VNull); (b "partial", VBool true)] ++ [(b "pkg", SPK)].
  Lemma shaped_v_eq : shaped_v = VModule shaped_params shaped_out shaped_body.
  Proof. apply as_module_eq. vm_compute. reflexivity. Qed.
  Lemma schema_index_shaped c : index fo c (import_value fo schema_path) (VStr (b "shaped")) = Ok shaped_v.
  Proof. apply index_member. vm_compute. reflexivity. Qed.

  Definition any_v : value := member fo schema_path "any".
  Definition any_pkg_clo := pkg_clo fo any_v.
  Definition any_out : option expr := Eval vm_compute in mod_out fo any_v.
  Definition any_body : list stmt := Eval vm_compute in mod_body fo any_v.
  Definition APK : value := VFunc [] (EImport schema_path) any_pkg_clo.
  Definition any_params := [(b "val", VNull); (b "types", VList []); (b "partial", VBool false)] ++ [(b "pkg", APK)].
  Lemma any_v_eq : any_v = VModule any_params any_out any_body.
  Proof. apply as_module_eq. vm_compute. reflexivity. Qed.
  Lemma schema_index_any c : index fo c (import_value fo schema_path) (VStr (b "any")) = Ok any_v.
  Proof. apply index_member. vm_compute. reflexivity. Qed.

  Definition all_v : value := member fo schema_path "all".
  Definition all_pkg_clo := pkg_clo fo all_v.
  Definition all_out : option expr := Eval vm_compute in mod_out fo all_v.
  Definition all_body : list stmt := Eval vm_compute in mod_body fo all_v.
  Definition LPK : value := VFunc [] (EImport schema_path) all_pkg_clo.
  Definition all_params := [(b "val", VNull); (b "types", VList [])] ++ [(b "pkg", LPK)].
  Lemma all_v_eq : all_v = VModule all_params all_out all_body.
  Proof. apply as_module_eq. vm_compute. reflexivity. Qed.
  Lemma schema_index_all c : index fo c (import_value fo schema_path) (VStr (b "all")) = Ok all_v.
  Proof. apply index_member. vm_compute. reflexivity. Qed.
  Definition sflds (v sh : value) (p : bool) : list (bytes * value) :=
    [(b "val", v); (b "shape", sh); (b "partial", VBool p); (b "pkg", SPK)].
  Definition shaped_spec (n : nat) : Prop :=
    forall v sh p c fs ovs,
      (vdepth v < n)%nat ->
      evals_fields (with_self fo c (Some shaped_v)) fs [] ovs ->
      merge_fields fo shaped_params ovs = Ok (sflds v sh p) ->
      copies c shaped_v fs (VBool (ref_shaped n p v sh)).
  Definition aflds (v : value) (ts : list value) (p : bool) : list (bytes * value) :=
    [(b "val", v); (b "types", VList ts); (b "partial", VBool p); (b "pkg", APK)].
  Definition any_spec (n : nat) : Prop :=
    forall v ts p c fs ovs,
      (vdepth v < n)%nat ->
      evals_fields (with_self fo c (Some any_v)) fs [] ovs ->
      merge_fields fo any_params ovs = Ok (aflds v ts p) ->
      copies c any_v fs (VBool (ref_any fo n p v ts)).

  Lemma shaped_merge v sh p :
    merge_fields fo shaped_params [(b "val", v); (b "shape", sh); (b "partial", VBool p)] = Ok (sflds v sh p).
  Proof. destruct v, sh; reflexivity. Qed.
  Lemma any_merge3 v ts p :
    merge_fields fo any_params [(b "val", v); (b "types", VList ts); (b "partial", VBool p)] = Ok (aflds v ts p).
  Proof. destruct v; reflexivity. Qed.
  Lemma any_merge2 v ts :
    merge_fields fo any_params [(b "val", v); (b "types", VList ts)] = Ok (aflds v ts false).
  Proof. destruct v; reflexivity. Qed.
  Definition any_acc (o : bool) (v : value) : value := VTuple [(b "ok", VBool o); (b "val", v)].
  Definition any_red_body : expr := Eval vm_compute in
        match nth 1 any_body (SExpr ENull) with SLet _ (EFunc _ bd) => bd | _ => ENull end.
  Definition any_fn_body : expr := Eval vm_compute in
        match nth 2 any_body (SExpr ENull) with SLet _ (EFunc _ bd) => bd | _ => ENull end.
  Definition A1 (v : value) (ts : list value) (p : bool) : scope fo :=
    [(b "schema", import_value fo schema_path); (b "mod", VTuple (aflds v ts p ++ [(b "this", any_v)]))].

  Lemma any_red_step n v ts p c (o : bool) t :
    shaped_spec n -> (vdepth v < n)%nat ->
    calls c (VFunc [b "acc"; b "t"] any_red_body (A1 v ts p)) [any_acc o v; t] (any_acc (o || ref_shaped n p v t) v).
  Proof.
    intros Hsh Hd. eapply calls_intro; [reflexivity|reflexivity|]. unfold any_red_body.
    eapply ev_copy; [iv1|]. eapply copies_tuple.
    { eapply evf_cons; [|reflexivity|iv1].
      eapply ev_or; [dotsym|]. intros _. iv1.
      eapply ev_dot_copy; [iv1|apply schema_index_shaped|].
      eapply (Hsh v t p) with (ovs := [(b "val", v); (b "shape", t); (b "partial", VBool p)]); [exact Hd| |apply shaped_merge].
      eapply evf_cons; [dotsym|reflexivity|]. eapply evf_cons; [iv1|reflexivity|].
      eapply evf_cons; [dotsym|reflexivity|iv1]. }
    reflexivity.
  Qed.

  (* `any` and `all` are one module around different reducers: the reducer [red] runs over the types
     from ok = o0, the result is its ok.  If [red] combines ok with a check of the type by [op], the
     module computes the fold of [op] over the checks. *)
  Definition types_body (red : expr) (o0 : bool) : list stmt :=
    [SLet (b "schema") (EBin DOT (ESym (b "mod")) (ECall (ESym (b "pkg")) []));
     SLet (b "reducer") (EFunc [b "acc"; b "t"] red);
     SLet (b "any") (EFunc [b "val"; b "types"]
                            (EReduce (ESym (b "reducer")) (ETuple [(b "ok", EBool o0); (b "val", ESym (b "val"))])
                                     (ESym (b "types"))));
     SLet (b "result") (EBin DOT (ECall (ESym (b "any")) [EBin DOT (ESym (b "mod")) (ESym (b "val"));
                                                          EBin DOT (ESym (b "mod")) (ESym (b "types"))])
                                 (ESym (b "ok")))].
  Definition acc_step (op : bool -> bool -> bool) (chk : value -> bool) (a t : value) : value :=
    match a with
    | Sem.VTuple _ [(_, Sem.VBool _ o); (_, v)] => any_acc (op o (chk t)) v
    | _ => a
    end.
  Lemma acc_fold op chk v ts : forall o,
    fold_left (acc_step op chk) ts (any_acc o v) = any_acc (fold_left (fun o t => op o (chk t)) ts o) v.
  Proof. induction ts as [|t ts IH]; intros o; [reflexivity|apply IH]. Qed.

  Lemma types_copies tv params clo red o0 (op : bool -> bool -> bool) (chk : value -> bool) c fs ovs fl fl' v ts :
    tv = VModule params (Some (ESym (b "result"))) (types_body red o0) ->
    evals_fields (with_self fo c (Some tv)) fs [] ovs ->
    merge_fields fo params ovs = Ok fl -> merge_field fo fl (b "this") tv = Ok fl' ->
    lookup fo (b "val") fl' = Some v -> lookup fo (b "types") fl' = Some (VList ts) ->
    lookup fo (b "pkg") fl' = Some (VFunc [] (EImport schema_path) clo) ->
    (forall c' o t, calls c' (VFunc [b "acc"; b "t"] red [(b "schema", import_value fo schema_path); (b "mod", VTuple fl')])
                          [any_acc o v; t] (any_acc (op o (chk t)) v)) ->
    copies c tv fs (VBool (fold_left (fun o t => op o (chk t)) ts o0)).
  Proof.
    intros Htv Hfs Hmerge Hthis Hv Hts Hpkg Hred. destruct c as [s0 slf E st ord].
    eapply (copies_module fo std_imports [] tv); [exact Htv|exact Hfs|exact Hmerge|exact Hthis| |].
    - eapply execs_let; [eapply ev_mod_pkg; [reflexivity|exact Hpkg|apply in_schema]|reflexivity|reflexivity|].
      apply execs_def; [reflexivity|reflexivity|]. apply execs_def; [reflexivity|reflexivity|].
      eapply execs_let; [|reflexivity|reflexivity|apply execs_nil].
      eapply ev_dot_sym with (lv := any_acc (fold_left (fun o t => op o (chk t)) ts o0) v); [|reflexivity].
      eapply ev_call; [|iv1|].
      + eapply evl_cons; [eapply ev_dot_sym; [iv1|apply index_tuple_lookup, Hv]|].
        eapply evl_cons; [eapply ev_dot_sym; [iv1|apply index_tuple_lookup, Hts]|iv1].
      + eapply calls_intro'; [reflexivity|reflexivity|].
        eapply evals_eq; [|apply (acc_fold op chk v ts o0)].
        eapply (reduce_list_is_fold_ev fo std_imports [])
          with (I := fun a => exists o, a = any_acc o v) (step := acc_step op chk).
        * iv1.
        * iv1. fld1. fld1. iv1.
        * iv1.
        * exists o0. reflexivity.
        * intros a t [o ->] _. split; [apply Hred|eexists; reflexivity].
    - iv1.
  Qed.

  Lemma fold_orb {A} (chk : A -> bool) ts : forall o, fold_left (fun o t => o || chk t) ts o = o || existsb chk ts.
  Proof.
    induction ts as [|t ts IH]; intros o; cbn [fold_left existsb]; [symmetry; apply orb_false_r|].
    rewrite IH, orb_assoc. reflexivity.
  Qed.
  Lemma fold_andb {A} (chk : A -> bool) ts : forall o, fold_left (fun o t => o && chk t) ts o = o && forallb chk ts.
  Proof.
    induction ts as [|t ts IH]; intros o; cbn [fold_left forallb]; [symmetry; apply andb_true_r|].
    rewrite IH, andb_assoc. reflexivity.
  Qed.

  Lemma any_step n : shaped_spec n -> any_spec n.
  Proof.
    intros Hsh v ts p c fs ovs Hd Hfs Hmerge. eapply copies_eq.
    - eapply (types_copies any_v any_params _ any_red_body false orb (fun t => ref_shaped n p v t));
        [exact any_v_eq|exact Hfs|exact Hmerge|reflexivity|reflexivity|reflexivity|reflexivity|].
      intros c' o t. exact (any_red_step n v ts p c' o t Hsh Hd).
    - unfold ref_any. rewrite fold_orb. reflexivity.
  Qed.
  Definition sstmt (k : nat) : expr := match nth k shaped_body (SExpr ENull) with SLet _ e => e | _ => ENull end.
  Definition fbody (e : expr) : expr := match e with EFunc _ bd => bd | _ => ENull end.
  Definition sh_body := Eval vm_compute in fbody (sstmt 2).
  Definition th_body := Eval vm_compute in fbody (sstmt 3).
  Definition sth_body := Eval vm_compute in fbody (sstmt 4).
  Definition msf_body := Eval vm_compute in fbody (sstmt 5).
  Definition mtf_body := Eval vm_compute in fbody (sstmt 6).
  Definition lh_body := Eval vm_compute in fbody (sstmt 7).
  Definition result_e := Eval vm_compute in sstmt 8.

  Section Closures.
    Variables (v0 sh0 : value) (p : bool).
    Definition F0 : list (bytes * value) := sflds v0 sh0 p ++ [(b "this", shaped_v)].
    (* U1 .. U8: the scope of the body of `shaped` after each of its statements, for val = v0, shape = sh0,
       partial = p; the handlers in between close over the scope before them *)
    Definition U1 : scope fo := [(b "schema", import_value fo schema_path); (b "mod", VTuple F0)].
    Definition U2 : scope fo := (b "this", shaped_v) :: U1.
    Definition Vsimple : value := VFunc [b "val"; b "shape"] sh_body U2.
    Definition U3 : scope fo := (b "simple_handler", Vsimple) :: U2.
    Definition Vth : value := VFunc [b "acc"; b "name"; b "value"] th_body U3.
    Definition U4 : scope fo := (b "tuple_handler", Vth) :: U3.
    Definition Vsth : value := VFunc [b "acc"; b "field_name"; b "value"] sth_body U4.
    Definition U5 : scope fo := (b "shape_tuple_handler", Vsth) :: U4.
    Definition Vmsf : value := VFunc [b "val"; b "shape"] msf_body U5.
    Definition U6 : scope fo := (b "match_shape_fields", Vmsf) :: U5.
    Definition Vmtf : value := VFunc [b "val"; b "shape"] mtf_body U6.
    Definition U7 : scope fo := (b "match_tuple_fields", Vmtf) :: U6.
    Definition Vlh : value := VFunc [b "acc"; b "value"] lh_body U7.
    Definition U8 : scope fo := (b "list_handler", Vlh) :: U7.

    Variable n : nat.
    Hypothesis Hsh : shaped_spec n.
    Hypothesis Han : any_spec n.

    Lemma simple_calls c x y : calls c Vsimple [x; y] (VBool (bytes_eqb (is_name fo x) (is_name fo y))).
    Proof.
      eapply calls_intro; [reflexivity|reflexivity|]. unfold sh_body.
      eapply ev_is; [iv1|].
      eapply ev_dot_call; [ivs|iv1|apply schema_index_bto|apply bto_calls].
    Qed.

    Definition acc2 (name : bytes) (A : value) (o : bool) : value := VTuple [(name, A); (b "ok", VBool o)].

    (* shape_tuple_handler: one field (k, sv) of the shape against the value's fields *)
    Definition chk_s (vfs : list (bytes * value)) (k : bytes) (sv : value) : bool :=
      match lookup fo k vfs with Some vv => ref_shaped n p vv sv | None => false end.
    Lemma sth_step c vfs (o : bool) k sv :
      (vdepth (VTuple vfs) <= n)%nat ->
      calls c Vsth [acc2 (b "val") (VTuple vfs) o; VStr k; sv] (acc2 (b "val") (VTuple vfs) (o && chk_s vfs k sv)).
    Proof.
      intros Hd. eapply calls_intro; [reflexivity|reflexivity|]. unfold sth_body.
      eapply ev_copy; [iv1|]. eapply copies_tuple.
      { eapply evf_cons; [|reflexivity|iv1].
        eapply ev_and with (y := chk_s vfs k sv); [dotsym|]. intros _. unfold chk_s.
        destruct (lookup fo k vfs) as [vv|] eqn:Hl;
          (eapply ev_select; [eapply ev_in_tuple_group; [dotsym|iv1]|rewrite Hl; reflexivity|]); [|iv1].
        eapply ev_copy; [iv1|].
        eapply (Hsh vv sv p) with (ovs := [(b "val", vv); (b "shape", sv); (b "partial", VBool p)]);
          [pose proof (vdepth_lookup _ _ _ Hl); lia| |apply shaped_merge].
        eapply evf_cons; [|reflexivity|].
        { eapply ev_dot_group; [dotsym|iv1|apply index_tuple_lookup, Hl]. }
        eapply evf_cons; [iv1|reflexivity|]. eapply evf_cons; [dotsym|reflexivity|iv1]. }
      reflexivity.
    Qed.

    (* tuple_handler: one field (k, vv) of the value against the shape's fields *)
    Definition chk_t (sfs : list (bytes * value)) (k : bytes) (vv : value) : bool :=
      match lookup fo k sfs with Some sv => ref_shaped n p vv sv | None => p end.
    Lemma th_step c sfs (o : bool) k vv :
      (vdepth vv < n)%nat ->
      calls c Vth [acc2 (b "shape") (VTuple sfs) o; VStr k; vv] (acc2 (b "shape") (VTuple sfs) (o && chk_t sfs k vv)).
    Proof.
      intros Hd. eapply calls_intro; [reflexivity|reflexivity|]. unfold th_body.
      eapply ev_copy; [iv1|]. eapply copies_tuple.
      { eapply evf_cons; [|reflexivity|iv1].
        eapply ev_and with (y := chk_t sfs k vv); [dotsym|]. intros _. unfold chk_t.
        destruct (lookup fo k sfs) as [sv|] eqn:Hl;
          (eapply ev_select; [eapply ev_in_tuple_group; [dotsym|iv1]|rewrite Hl; reflexivity|]); [|dotsym].
        eapply ev_copy; [iv1|].
        eapply (Hsh vv sv p) with (ovs := [(b "val", vv); (b "shape", sv); (b "partial", VBool p)]);
          [exact Hd| |apply shaped_merge].
        eapply evf_cons; [iv1|reflexivity|].
        eapply evf_cons; [|reflexivity|].
        { eapply ev_dot_group; [dotsym|iv1|apply index_tuple_lookup, Hl]. }
        eapply evf_cons; [dotsym|reflexivity|iv1]. }
      reflexivity.
    Qed.

    Definition step2 (name : bytes) (chk : bytes -> value -> bool) (a : value) (k : bytes) (x : value) : value :=
      match a with
      | Sem.VTuple _ [(_, A); (_, Sem.VBool _ o)] => acc2 name A (o && chk k x)
      | _ => a
      end.
    Lemma fold_step2 name chk A fs o :
      fold_left (fun a kv => step2 name chk a (fst kv) (snd kv)) fs (acc2 name A o)
      = acc2 name A (o && forallb (fun kv => chk (fst kv) (snd kv)) fs).
    Proof.
      revert o. induction fs as [|[k x] fs IH]; intros o; cbn [fold_left forallb fst snd step2 acc2].
      - rewrite andb_true_r. reflexivity.
      - fold (acc2 name A (o && chk k x)). rewrite IH, andb_assoc. reflexivity.
    Qed.

    Lemma msf_calls c vfs sfs :
      (vdepth (VTuple vfs) <= n)%nat ->
      calls c Vmsf [VTuple vfs; VTuple sfs] (VBool (forallb (fun ks => chk_s vfs (fst ks) (snd ks)) sfs)).
    Proof.
      intros Hd. eapply calls_intro; [reflexivity|reflexivity|]. unfold msf_body.
      eapply ev_dot_sym.
      - eapply evals_eq.
        + eapply (reduce_tuple_is_fold fo std_imports [])
            with (I := fun a => exists o, a = acc2 (b "val") (VTuple vfs) o) (step := step2 (b "val") (chk_s vfs)).
          * iv1.
          * iv1. fld1. fld1. iv1.
          * iv1.
          * exists true. reflexivity.
          * intros a k sv [o ->] _. cbn [step2 acc2]. split; [|eexists; reflexivity].
            apply (sth_step _ vfs o k sv Hd).
        + apply (fold_step2 (b "val") (chk_s vfs) (VTuple vfs) sfs true).
      - reflexivity.
    Qed.

    Lemma mtf_calls c vfs sfs :
      (vdepth (VTuple vfs) <= n)%nat ->
      calls c Vmtf [VTuple vfs; VTuple sfs] (VBool (forallb (fun kv => chk_t sfs (fst kv) (snd kv)) vfs)).
    Proof.
      intros Hd. eapply calls_intro; [reflexivity|reflexivity|]. unfold mtf_body.
      eapply ev_dot_sym.
      - eapply evals_eq.
        + eapply (reduce_tuple_is_fold fo std_imports [])
            with (I := fun a => exists o, a = acc2 (b "shape") (VTuple sfs) o) (step := step2 (b "shape") (chk_t sfs)).
          * iv1.
          * iv1. fld1. fld1. iv1.
          * iv1.
          * exists true. reflexivity.
          * intros a k vv [o ->] Hin. cbn [step2 acc2]. split; [|eexists; reflexivity].
            apply (th_step _ sfs o k vv). pose proof (vdepth_field _ _ _ Hin). lia.
        + apply (fold_step2 (b "shape") (chk_t sfs) (VTuple sfs) vfs true).
      - reflexivity.
    Qed.

    (* list_handler: one element against the shape list, through schema.any (partial = false there) *)
    Lemma lh_step c ts (o : bool) x :
      (vdepth x < n)%nat ->
      calls c Vlh [acc2 (b "shape") (VList ts) o; x] (acc2 (b "shape") (VList ts) (o && ref_any fo n false x ts)).
    Proof.
      intros Hd. eapply calls_intro; [reflexivity|reflexivity|]. unfold lh_body.
      eapply ev_copy; [iv1|]. eapply copies_tuple.
      { eapply evf_cons; [|reflexivity|iv1].
        eapply ev_and; [dotsym|]. intros _.
        eapply ev_dot_copy; [iv1|apply schema_index_any|].
        eapply (Han x ts false) with (ovs := [(b "val", x); (b "types", VList ts)]); [exact Hd| |apply any_merge2].
        eapply evf_cons; [iv1|reflexivity|]. eapply evf_cons; [dotsym|reflexivity|iv1]. }
      reflexivity.
    Qed.
    Definition step2l (chk : value -> bool) (a x : value) : value :=
      match a with
      | Sem.VTuple _ [(_, A); (_, Sem.VBool _ o)] => acc2 (b "shape") A (o && chk x)
      | _ => a
      end.
    Lemma fold_step2l chk A l o :
      fold_left (step2l chk) l (acc2 (b "shape") A o) = acc2 (b "shape") A (o && forallb chk l).
    Proof.
      revert o. induction l as [|x l IH]; intros o; cbn [fold_left forallb step2l acc2].
      - rewrite andb_true_r. reflexivity.
      - fold (acc2 (b "shape") A (o && chk x)). rewrite IH, andb_assoc. reflexivity.
    Qed.

  End Closures.

  (* the `result` statement, in the scope of the module body *)
  Section Result.
    Variable n : nat.
    Hypothesis Hsh : shaped_spec n.
    Hypothesis Han : any_spec n.
    Notation mk := (Build_ctx fo).

    Lemma result_simple v0 sh0 p slf E st ord :
      (forall vfs, v0 <> VTuple vfs) -> (forall l, v0 <> VList l) ->
      evals (mk (U8 v0 sh0 p) slf E st ord) result_e (VBool (bytes_eqb (is_name fo v0) (is_name fo sh0))).
    Proof.
      intros Hnt Hnl. unfold result_e.
      destruct v0; try (exfalso; eapply Hnt; reflexivity); try (exfalso; eapply Hnl; reflexivity).
      all: (eapply ev_select;
            [ eapply ev_dot_call; [ivs; reflexivity|iv1|apply schema_index_bto|apply bto_calls]
            | reflexivity
            | eapply ev_call; [ivs; reflexivity|iv1|apply simple_calls] ]).
    Qed.

    Lemma result_tuple vfs sh0 p slf E st ord :
      (vdepth (VTuple vfs) <= n)%nat ->
      evals (mk (U8 (VTuple vfs) sh0 p) slf E st ord) result_e (VBool (ref_shaped (S n) p (VTuple vfs) sh0)).
    Proof.
      intros Hd. unfold result_e.
      assert (Hargs : forall slf', Std_Rules_Imp.evals_list fo std_imports [] (mk (U8 (VTuple vfs) sh0 p) slf' E st ord)
                 [EBin DOT (ESym (b "mod")) (ESym (b "val")); EBin DOT (ESym (b "mod")) (ESym (b "shape"))] [VTuple vfs; sh0]).
      { intros. eapply evl_cons; [dotsym|]. eapply evl_cons; [dotsym|iv1]. }
      assert (His : evals (mk (U8 (VTuple vfs) sh0 p) slf E st ord)
                          (EGroup (EBin IS (EBin DOT (ESym (b "mod")) (ESym (b "shape"))) (EStr (b "tuple"))))
                          (VBool (bytes_eqb (is_name fo sh0) (b "tuple")))).
      { iv1. eapply ev_is; [dotsym|iv1]. }
      eapply ev_select.
      - eapply ev_dot_call; [ivs; reflexivity|iv1|apply schema_index_bto|apply bto_calls].
      - reflexivity.
      - destruct sh0 as [| | | | | | sfs | | ];
          try (cbn [ref_shaped]; apply ev_and_false; apply ev_and_false; exact His).
        cbn [ref_shaped].
        destruct (forallb (fun ks => match lookup fo (fst ks) vfs with Some vv => ref_shaped n p vv (snd ks) | None => false end) sfs) eqn:HA.
        + cbn [andb]. eapply ev_and_true.
          * eapply evals_eq.
            -- eapply ev_and_true; [exact His|]. eapply ev_call; [apply Hargs|iv1|eapply msf_calls; eassumption].
            -- unfold chk_s. rewrite HA. reflexivity.
          * eapply ev_call; [apply Hargs|iv1|eapply mtf_calls; eassumption].
        + cbn [andb]. apply ev_and_false. eapply evals_eq.
          * eapply ev_and_true; [exact His|]. eapply ev_call; [apply Hargs|iv1|eapply msf_calls; eassumption].
          * unfold chk_s. rewrite HA. reflexivity.
    Qed.

    Lemma result_list l sh0 p slf E st ord :
      (vdepth (VList l) <= n)%nat ->
      evals (mk (U8 (VList l) sh0 p) slf E st ord) result_e (VBool (ref_shaped (S n) p (VList l) sh0)).
    Proof.
      intros Hd. unfold result_e.
      assert (His : evals (mk (U8 (VList l) sh0 p) slf E st ord)
                          (EGroup (EBin IS (EBin DOT (ESym (b "mod")) (ESym (b "shape"))) (EStr (b "list"))))
                          (VBool (bytes_eqb (is_name fo sh0) (b "list")))).
      { iv1. eapply ev_is; [dotsym|iv1]. }
      eapply ev_select.
      - eapply ev_dot_call; [ivs; reflexivity|iv1|apply schema_index_bto|apply bto_calls].
      - reflexivity.
      - destruct sh0 as [| | | | | ts | | | ];
          try (cbn [ref_shaped]; apply ev_and_false; exact His).
        destruct ts as [|t ts].
        + cbn [ref_shaped]. eapply ev_and_true; [exact His|].
          eapply ev_select.
          * eapply ev_eq; [dotsym|ivs|reflexivity|exists 1; reflexivity].
          * reflexivity.
          * iv1.
        + cbn [ref_shaped]. eapply ev_and_true; [exact His|].
          eapply ev_select.
          * eapply ev_eq; [dotsym|ivs|reflexivity|exists 1; reflexivity].
          * reflexivity.
          * eapply ev_dot_sym.
            -- eapply evals_eq.
               ++ eapply (reduce_list_is_fold_ev fo std_imports [])
                    with (I := fun a => exists o, a = acc2 (b "shape") (VList (t :: ts)) o)
                         (step := step2l (fun x => ref_any fo n false x (t :: ts))).
                  ** iv1.
                  ** iv1. fldd. fld1. iv1.
                  ** dotsym.
                  ** exists true. reflexivity.
                  ** intros a x [o ->] Hin. cbn [step2l acc2]. split; [|eexists; reflexivity].
                     eapply lh_step; [eassumption|]. pose proof (vdepth_elem _ _ Hin). lia.
               ++ apply (fold_step2l (fun x => ref_any fo n false x (t :: ts)) (VList (t :: ts)) l true).
            -- reflexivity.
    Qed.

    Lemma result_stmt v0 sh0 p slf E st ord :
      (vdepth v0 <= n)%nat ->
      evals (mk (U8 v0 sh0 p) slf E st ord) result_e (VBool (ref_shaped (S n) p v0 sh0)).
    Proof.
      intros Hd. destruct v0 as [| | | | | l | vfs | | ].
      6: apply result_list, Hd.
      6: apply result_tuple, Hd.
      all: eapply evals_eq; [apply result_simple; intros; discriminate|reflexivity].
    Qed.
  End Result.

  Lemma shaped_step n : shaped_spec n -> any_spec n -> shaped_spec (S n).
  Proof.
    intros Hsh Han v sh p c fs ovs Hd Hfs Hmerge. destruct c as [s0 slf E st ord].
    eapply (copies_module fo std_imports [] shaped_v); [exact shaped_v_eq|exact Hfs|exact Hmerge|reflexivity| |].
    - unfold shaped_body.
      eapply execs_let; [|reflexivity|reflexivity|].
      { eapply ev_mod_pkg; [reflexivity|reflexivity|apply in_schema]. }
      in_scope (U1 v sh p).
      eapply execs_let; [dotsym|reflexivity|reflexivity|]. in_scope (U2 v sh p).
      eapply execs_let; [iv1|reflexivity|reflexivity|]. in_scope (U3 v sh p).
      eapply execs_let; [iv1|reflexivity|reflexivity|]. in_scope (U4 v sh p).
      eapply execs_let; [iv1|reflexivity|reflexivity|]. in_scope (U5 v sh p).
      eapply execs_let; [iv1|reflexivity|reflexivity|]. in_scope (U6 v sh p).
      eapply execs_let; [iv1|reflexivity|reflexivity|]. in_scope (U7 v sh p).
      eapply execs_let; [iv1|reflexivity|reflexivity|]. in_scope (U8 v sh p).
      eapply execs_let; [|reflexivity|reflexivity|apply execs_nil].
      apply (result_stmt n Hsh Han). lia.
    - unfold shaped_out. iv1.
  Qed.

  Theorem shaped_any_spec : forall n, shaped_spec n /\ any_spec n.
  Proof.
    induction n as [|n [IHs IHa]].
    - split; intros v; intros; lia.
    - assert (Hs : shaped_spec (S n)) by (apply shaped_step; assumption).
      split; [exact Hs|apply any_step, Hs].
  Qed.
  Definition all_red_body : expr := Eval vm_compute in
        match nth 1 all_body (SExpr ENull) with SLet _ (EFunc _ bd) => bd | _ => ENull end.
  Definition lflds (v : value) (ts : list value) : list (bytes * value) :=
    [(b "val", v); (b "types", VList ts); (b "pkg", LPK)].
  Definition L1 (v : value) (ts : list value) : scope fo :=
    [(b "schema", import_value fo schema_path); (b "mod", VTuple (lflds v ts ++ [(b "this", all_v)]))].
  Lemma all_merge v ts :
    merge_fields fo all_params [(b "val", v); (b "types", VList ts)] = Ok (lflds v ts).
  Proof. destruct v; reflexivity. Qed.

  Lemma all_red_step n v ts c (o : bool) t :
    shaped_spec n -> (vdepth v < n)%nat ->
    calls c (VFunc [b "acc"; b "t"] all_red_body (L1 v ts)) [any_acc o v; t] (any_acc (o && ref_shaped n true v t) v).
  Proof.
    intros Hsh Hd. eapply calls_intro; [reflexivity|reflexivity|]. unfold all_red_body.
    eapply ev_copy; [iv1|]. eapply copies_tuple.
    { eapply evf_cons; [|reflexivity|iv1].
      eapply ev_and; [dotsym|]. intros _. iv1.
      eapply ev_dot_copy; [iv1|apply schema_index_shaped|].
      eapply (Hsh v t true) with (ovs := [(b "val", v); (b "shape", t); (b "partial", VBool true)]); [exact Hd| |apply shaped_merge].
      eapply evf_cons; [dotsym|reflexivity|]. eapply evf_cons; [iv1|reflexivity|].
      eapply evf_cons; [iv1|reflexivity|iv1]. }
    reflexivity.
  Qed.
  Lemma all_copies n v ts c fs ovs :
    shaped_spec n -> (vdepth v < n)%nat ->
    evals_fields (with_self fo c (Some all_v)) fs [] ovs ->
    merge_fields fo all_params ovs = Ok (lflds v ts) ->
    copies c all_v fs (VBool (ref_all fo n v ts)).
  Proof.
    intros Hsh Hd Hfs Hmerge. eapply copies_eq.
    - eapply (types_copies all_v all_params _ all_red_body true andb (fun t => ref_shaped n true v t));
        [exact all_v_eq|exact Hfs|exact Hmerge|reflexivity|reflexivity|reflexivity|reflexivity|].
      intros c' o t. exact (all_red_step n v ts c' o t Hsh Hd).
    - unfold ref_all. rewrite fold_andb. reflexivity.
  Qed.
  Definition shaped_call : expr := imp_inst schema_path "shaped" [("val", "arg1"); ("shape", "arg2"); ("partial", "arg3")]%string.
  Definition shaped_call_default : expr := imp_inst schema_path "shaped" [("val", "arg1"); ("shape", "arg2")]%string.
  Definition any_call : expr := imp_inst schema_path "any" [("val", "arg1"); ("types", "arg2"); ("partial", "arg3")]%string.
  Definition any_call_default : expr := imp_inst schema_path "any" [("val", "arg1"); ("types", "arg2")]%string.
  Definition all_call : expr := imp_inst schema_path "all" [("val", "arg1"); ("types", "arg2")]%string.

  (* shaped{val, shape, partial} = ref_shaped, for ALL values, with any fuel above the depth of val *)
  Theorem std_schema_shaped : forall E st ord v sh p n,
      (vdepth v < n)%nat ->
      exists f, eval_imp fo std_imports f [] (ctx_gen fo E st ord [(b "arg3", VBool p); (b "arg2", sh); (b "arg1", v)]) shaped_call
                = Ok (VBool (ref_shaped n p v sh)).
  Proof.
    intros E st ord v sh p n Hd. unfold shaped_call, imp_inst, ctx_gen. cbn [map fst snd].
    eapply ev_dot_copy; [apply ev_import_std, in_schema|apply schema_index_shaped|].
    eapply (proj1 (shaped_any_spec n) v sh p) with (ovs := [(b "val", v); (b "shape", sh); (b "partial", VBool p)]);
      [exact Hd| |apply shaped_merge].
    fld1. fld1. fld1. iv1.
  Qed.
  Lemma shaped_merge2 v sh :
    merge_fields fo shaped_params [(b "val", v); (b "shape", sh)] = Ok (sflds v sh true).
  Proof. destruct v, sh; reflexivity. Qed.
  Theorem std_schema_shaped_default : forall E st ord v sh n,
      (vdepth v < n)%nat ->
      exists f, eval_imp fo std_imports f [] (ctx_gen fo E st ord [(b "arg2", sh); (b "arg1", v)]) shaped_call_default
                = Ok (VBool (ref_shaped n true v sh)).
  Proof.
    intros E st ord v sh n Hd. unfold shaped_call_default, imp_inst, ctx_gen. cbn [map fst snd].
    eapply ev_dot_copy; [apply ev_import_std, in_schema|apply schema_index_shaped|].
    eapply (proj1 (shaped_any_spec n) v sh true) with (ovs := [(b "val", v); (b "shape", sh)]);
      [exact Hd| |apply shaped_merge2].
    fld1. fld1. iv1.
  Qed.
  Theorem std_schema_any : forall E st ord v ts p n,
      (vdepth v < n)%nat ->
      exists f, eval_imp fo std_imports f [] (ctx_gen fo E st ord [(b "arg3", VBool p); (b "arg2", VList ts); (b "arg1", v)]) any_call
                = Ok (VBool (ref_any fo n p v ts)).
  Proof.
    intros E st ord v ts p n Hd. unfold any_call, imp_inst, ctx_gen. cbn [map fst snd].
    eapply ev_dot_copy; [apply ev_import_std, in_schema|apply schema_index_any|].
    eapply (proj2 (shaped_any_spec n) v ts p) with (ovs := [(b "val", v); (b "types", VList ts); (b "partial", VBool p)]);
      [exact Hd| |apply any_merge3].
    fld1. fld1. fld1. iv1.
  Qed.
  Theorem std_schema_any_default : forall E st ord v ts n,
      (vdepth v < n)%nat ->
      exists f, eval_imp fo std_imports f [] (ctx_gen fo E st ord [(b "arg2", VList ts); (b "arg1", v)]) any_call_default
                = Ok (VBool (ref_any fo n false v ts)).
  Proof.
    intros E st ord v ts n Hd. unfold any_call_default, imp_inst, ctx_gen. cbn [map fst snd].
    eapply ev_dot_copy; [apply ev_import_std, in_schema|apply schema_index_any|].
    eapply (proj2 (shaped_any_spec n) v ts false) with (ovs := [(b "val", v); (b "types", VList ts)]);
      [exact Hd| |apply any_merge2].
    fld1. fld1. iv1.
  Qed.
  Theorem std_schema_all : forall E st ord v ts n,
      (vdepth v < n)%nat ->
      exists f, eval_imp fo std_imports f [] (ctx_gen fo E st ord [(b "arg2", VList ts); (b "arg1", v)]) all_call
                = Ok (VBool (ref_all fo n v ts)).
  Proof.
    intros E st ord v ts n Hd. unfold all_call, imp_inst, ctx_gen. cbn [map fst snd].
    eapply ev_dot_copy; [apply ev_import_std, in_schema|apply schema_index_all|].
    eapply (all_copies n v ts) with (ovs := [(b "val", v); (b "types", VList ts)]);
      [apply shaped_any_spec|exact Hd| |apply all_merge].
    fld1. fld1. iv1.
  Qed.

  (* the fuel of the reference is immaterial above the depth of the value *)
  Lemma ref_shaped_fuel : forall n m p v sh, (vdepth v < n)%nat -> (vdepth v < m)%nat -> ref_shaped n p v sh = ref_shaped m p v sh.
  Proof.
    induction n as [|n IH]; intros m p v sh Hn Hm; [lia|]. destruct m as [|m]; [lia|].
    destruct v; try reflexivity.
    - (* list *) cbn [StdSpec_Imp.ref_shaped]. destruct sh; try reflexivity. destruct l0 as [|t ts]; [reflexivity|].
      apply forallb_ext_in. intros x Hin. apply existsb_ext'. intros t'.
      pose proof (vdepth_elem _ _ Hin). apply IH; lia.
    - (* tuple *) cbn [StdSpec_Imp.ref_shaped]. destruct sh; try reflexivity. f_equal.
      + apply forallb_ext_in. intros [k sv] _. cbn [fst snd]. destruct (lookup fo k fs) as [vv|] eqn:Hl; [|reflexivity].
        pose proof (vdepth_lookup _ _ _ Hl). apply IH; lia.
      + apply forallb_ext_in. intros [k vv] Hin. cbn [fst snd]. destruct (lookup fo k fs0); [|reflexivity].
        pose proof (vdepth_field _ _ _ Hin). apply IH; lia.
  Qed.
End Schema.
