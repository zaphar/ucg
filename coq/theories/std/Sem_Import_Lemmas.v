(* Facts about the import-extended evaluator (Sem_Import.v):
   - fuel monotonicity: [eval_imp_le], [eval_imp_fuel_mono] (+ copy_imp, exec_imp);
   - conservativity: wherever Sem.eval gives a definite answer (anything but Unsup) eval_imp gives the
     same answer, for every import table and stack: [eval_imp_conservative] (+ copy/exec forms,
     [sem_prog_imp_conservative]).  In particular every theorem of Std_*.v "exists f, eval f c e = Ok v"
     transfers verbatim to eval_imp ([eval_imp_of_eval]). *)
From Ucg Require Import base.Bytes_Lemmas sem.Sem std.Std_Fuel std.Sem_Import.

Inductive botk := BFuel | BUnsup.
Definition bot_of {A} (k : botk) : res A := match k with BFuel => Fuel | BUnsup => Unsup end.
Definition le_k {A} (k : botk) (r r' : res A) : Prop := r <> bot_of k -> r' = r.

Lemma le_k_refl {A} k (r : res A) : le_k k r r.
Proof. intros _; reflexivity. Qed.
Lemma le_k_bot {A} k (r' : res A) : le_k k (bot_of k) r'.
Proof. intros H; congruence. Qed.
Lemma le_k_bind {A B} k (r r' : res A) (g g' : A -> res B) :
  le_k k r r' -> (forall a, le_k k (g a) (g' a)) -> le_k k (bind r g) (bind r' g').
Proof.
  intros H1 H2 Hn. unfold le_k in *.
  destruct k, r as [a| | |]; cbn in *; try congruence;
    try (rewrite H1 by discriminate; cbn; try reflexivity; apply H2, Hn).
Qed.
Lemma le_k_mapM {A B} k (g g' : A -> res B) (l : list A) :
  (forall a, le_k k (g a) (g' a)) -> le_k k (mapM g l) (mapM g' l).
Proof.
  intros H. induction l as [|a l IH]; cbn.
  - apply le_k_refl.
  - apply le_k_bind; [apply H|]. intros x. apply le_k_bind; [exact IH|]. intros; apply le_k_refl.
Qed.
Lemma le_k_fold {A B} k (g g' : res A -> B -> res A) (l : list B) :
  (forall a a' x, le_k k a a' -> le_k k (g a x) (g' a' x)) ->
  forall a a', le_k k a a' -> le_k k (fold_left g l a) (fold_left g' l a').
Proof.
  intros H. induction l as [|x l IH]; intros a a' Ha; cbn.
  - exact Ha.
  - apply IH, H, Ha.
Qed.
Lemma le_k_ok {A} k (r r' : res A) a : le_k k r r' -> r = Ok a -> r' = Ok a.
Proof. intros H E. rewrite H; [exact E|]. rewrite E; destruct k; discriminate. Qed.
Lemma le_res_k {A} (r r' : res A) : le_res r r' -> le_k BFuel r r'.
Proof. intros H; exact H. Qed.

(* one step of a proof that two runs of an evaluator body are related: decided by the shape of the
   left result, never by trying lemmas that do not apply *)
Ltac lek_step leaf :=
  lazymatch goal with
  | |- le_k _ ?r ?r => apply le_k_refl
  | |- le_k _ (bind _ _) (bind _ _) => apply le_k_bind; [ | intros ? ]
  | |- le_k _ (mapM _ _) (mapM _ _) => apply le_k_mapM; intros ?
  | |- le_k _ (fold_left _ _ _) (fold_left _ _ _) => apply le_k_fold; [intros ? ? ? ?|]
  | |- le_k _ (match ?x with _ => _ end) (match ?x with _ => _ end) => destruct x
  | |- le_k _ (if ?x then _ else _) (if ?x then _ else _) => destruct x
  | |- _ => leaf
  end.

Section Lemmas.
  Variable fo : float_ops.
  Variable imports : bytes -> option prog.
  Notation value := (value fo).
  Notation ctx := (ctx fo).
  Notation eval_imp := (eval_imp fo imports).
  Notation copy_imp := (copy_imp fo imports).
  Notation exec_imp := (exec_imp fo imports).
  Notation veq := (veq fo).
  Notation render := (render fo).

  (* [eval_imp] on `l.r`, by the form of r *)
  Lemma eval_imp_S_dot f stk c l r :
    eval_imp (S f) stk c (EBin DOT l r) =
    match dot_form_of r with
    | DCopy k fs => do lv <- eval_imp f stk c l; do tv <- index fo c lv (key_value k); copy_imp f stk c tv fs
    | DCall k args =>
      do avs <- mapM (eval_imp f stk c) args; do lv <- eval_imp f stk c l; do fv <- index fo c lv (key_value k);
      match fv with
      | VFunc _ ps body clo =>
        if negb (Nat.eqb (List.length ps) (List.length avs)) then Err
        else do s <- bind_params fo ps avs clo;
             eval_imp f stk {| sc := s; self_v := None; envt := envt fo c; strict := strict fo c; eq_ordered := eq_ordered fo c |} body
      | _ => Err
      end
    | DSym k => do lv <- eval_imp f stk c l; index fo c lv (VStr fo k)
    | DOther => do lv <- eval_imp f stk c l; do kv <- eval_imp f stk c r; index fo c lv kv
    end.
  Proof.
    destruct r; try reflexivity;
      match goal with |- context [dot_form_of (_ ?t _)] => destruct t; reflexivity end.
  Qed.
  Definition mono_imp_at (f : nat) : Prop :=
    (forall f' stk c e, f <= f' -> le_k BFuel (eval_imp f stk c e) (eval_imp f' stk c e)) /\
    (forall f' stk c tv fs, f <= f' -> le_k BFuel (copy_imp f stk c tv fs) (copy_imp f' stk c tv fs)) /\
    (forall f' stk c ss, f <= f' -> le_k BFuel (exec_imp f stk c ss) (exec_imp f' stk c ss)).

  Lemma mono_imp_all : forall f, mono_imp_at f.
  Proof.
    induction f as [|f IH].
    { repeat split; intros; apply (le_k_bot BFuel). }
    destruct IH as (IHe & IHc & IHx).
    assert (Step : forall f', f <= f' ->
              (forall stk c e, le_k BFuel (eval_imp (S f) stk c e) (eval_imp (S f') stk c e)) /\
              (forall stk c tv fs, le_k BFuel (copy_imp (S f) stk c tv fs) (copy_imp (S f') stk c tv fs)) /\
              (forall stk c ss, le_k BFuel (exec_imp (S f) stk c ss) (exec_imp (S f') stk c ss))).
    { intros f' Hf.
      assert (He : forall stk c e, le_k BFuel (eval_imp f stk c e) (eval_imp f' stk c e)) by (intros; apply IHe; exact Hf).
      assert (Hc : forall stk c tv fs, le_k BFuel (copy_imp f stk c tv fs) (copy_imp f' stk c tv fs)) by (intros; apply IHc; exact Hf).
      assert (Hx : forall stk c ss, le_k BFuel (exec_imp f stk c ss) (exec_imp f' stk c ss)) by (intros; apply IHx; exact Hf).
      assert (Hv : forall o a b', le_k BFuel (veq o f a b') (veq o f' a b')) by (intros; apply le_res_k, veq_le; exact Hf).
      assert (Hr : forall v, le_k BFuel (render f v) (render f' v)) by (intros; apply le_res_k, render_le; exact Hf).
      clear IHe IHc IHx Hf.
      split; [|split].
      - intros stk c e. destruct e; try match goal with |- context [EBin ?o _ _] => destruct o end.
        all: rewrite ?eval_imp_S_dot.
        all: simpl.
        all: repeat lek_step ltac:(first [ assumption | apply He | apply Hv | apply Hr | apply Hc | apply Hx ]).
        + induction l as [|v rest IHl]; [apply le_k_refl|].
          apply le_k_bind; [apply Hv|]. intros [|]; [apply le_k_refl|apply IHl].
        + revert args. induction parts as [|p ps IHp]; intros args; [apply le_k_refl|].
          destruct p as [s0| |pe]; [| |apply le_k_refl].
          * apply le_k_bind; [apply IHp|]. intros; apply le_k_refl.
          * destruct args as [|a es']; [apply le_k_refl|].
            apply le_k_bind; [apply IHp|]. intros r.
            apply le_k_bind; [apply He|]. intros v.
            apply le_k_bind; [apply Hr|]. intros; apply le_k_refl.
        + induction parts as [|p ps IHp]; [apply le_k_refl|].
          destruct p as [s0| |pe]; [|apply le_k_refl|].
          * apply le_k_bind; [apply IHp|]. intros; apply le_k_refl.
          * apply le_k_bind; [apply IHp|]. intros r.
            apply le_k_bind; [apply He|]. intros v.
            apply le_k_bind; [apply Hr|]. intros; apply le_k_refl.
        + induction fs as [|[k v] fs' IHfs]; [apply le_k_refl|].
          apply le_k_bind.
          * apply le_k_bind; [apply le_k_refl|]. intros; apply He.
          * intros out. destruct out; try apply IHfs.
            destruct l as [|x1 l]; [apply le_k_refl|].
            destruct x1; try apply le_k_refl.
            destruct l as [|x2 l]; [apply le_k_refl|].
            destruct l as [|x3 l]; [|apply le_k_refl].
            apply le_k_bind; [apply IHfs|]. intros; apply le_k_refl.
      - intros stk c tv fs. simpl.
        repeat lek_step ltac:(first [ assumption | apply He | apply Hx ]).
      - intros stk c ss. simpl.
        repeat lek_step ltac:(first [ apply He | apply Hx ]).
    }
    repeat split; intros f' *; intros Hle; (destruct f' as [|f']; [lia|]); apply Step; lia.
  Qed.

  Theorem eval_imp_le f f' stk c e : f <= f' -> le_res (eval_imp f stk c e) (eval_imp f' stk c e).
  Proof. apply (mono_imp_all f). Qed.
  Theorem copy_imp_le f f' stk c tv fs : f <= f' -> le_res (copy_imp f stk c tv fs) (copy_imp f' stk c tv fs).
  Proof. apply (mono_imp_all f). Qed.
  Theorem exec_imp_le f f' stk c ss : f <= f' -> le_res (exec_imp f stk c ss) (exec_imp f' stk c ss).
  Proof. apply (mono_imp_all f). Qed.

  Theorem eval_imp_fuel_mono f f' stk c e v : eval_imp f stk c e = Ok v -> f <= f' -> eval_imp f' stk c e = Ok v.
  Proof. intros H Hle. exact (le_res_ok _ _ _ (eval_imp_le f f' stk c e Hle) H). Qed.
  Theorem eval_imp_fuel_mono_err f f' stk c e : eval_imp f stk c e = Err -> f <= f' -> eval_imp f' stk c e = Err.
  Proof. intros H Hle. rewrite (eval_imp_le f f' stk c e Hle); [exact H|]. rewrite H; discriminate. Qed.
  Theorem copy_imp_fuel_mono f f' stk c tv fs v : copy_imp f stk c tv fs = Ok v -> f <= f' -> copy_imp f' stk c tv fs = Ok v.
  Proof. intros H Hle. exact (le_res_ok _ _ _ (copy_imp_le f f' stk c tv fs Hle) H). Qed.
  Theorem exec_imp_fuel_mono f f' stk c ss s : exec_imp f stk c ss = Ok s -> f <= f' -> exec_imp f' stk c ss = Ok s.
  Proof. intros H Hle. exact (le_res_ok _ _ _ (exec_imp_le f f' stk c ss Hle) H). Qed.

  Theorem copy_imp_fuel_mono_err f f' stk c tv fs : copy_imp f stk c tv fs = Err -> f <= f' -> copy_imp f' stk c tv fs = Err.
  Proof. intros H Hle. rewrite (copy_imp_le f f' stk c tv fs Hle); [exact H|]. rewrite H; discriminate. Qed.
  Theorem exec_imp_fuel_mono_err f f' stk c ss : exec_imp f stk c ss = Err -> f <= f' -> exec_imp f' stk c ss = Err.
  Proof. intros H Hle. rewrite (exec_imp_le f f' stk c ss Hle); [exact H|]. rewrite H; discriminate. Qed.
  Lemma conservative_all : forall f,
    (forall stk c e, le_k BUnsup (eval fo f c e) (eval_imp f stk c e)) /\
    (forall stk c tv fs, le_k BUnsup (copy_into fo f c tv fs) (copy_imp f stk c tv fs)) /\
    (forall stk c ss, le_k BUnsup (exec_list fo f c ss) (exec_imp f stk c ss)).
  Proof.
    induction f as [|f IH].
    { repeat split; intros; apply le_k_refl. }
    destruct IH as (He & Hc & Hx).
    split; [|split].
    - intros stk c e. destruct e; try match goal with |- context [EBin ?o _ _] => destruct o end.
      all: rewrite ?eval_imp_S_dot, ?eval_S_dot.
      all: simpl.
      all: repeat lek_step ltac:(first [ assumption | apply He | apply Hc | apply Hx ]).
      + revert args. induction parts as [|p ps IHp]; intros args; [apply le_k_refl|].
        destruct p as [s0| |pe]; [| |apply le_k_refl].
        * apply le_k_bind; [apply IHp|]. intros; apply le_k_refl.
        * destruct args as [|a es']; [apply le_k_refl|].
          apply le_k_bind; [apply IHp|]. intros r.
          apply le_k_bind; [apply He|]. intros v. apply le_k_refl.
      + induction parts as [|p ps IHp]; [apply le_k_refl|].
        destruct p as [s0| |pe]; [|apply le_k_refl|].
        * apply le_k_bind; [apply IHp|]. intros; apply le_k_refl.
        * apply le_k_bind; [apply IHp|]. intros r.
          apply le_k_bind; [apply He|]. intros v. apply le_k_refl.
      + induction fs as [|[k v] fs' IHfs]; [apply le_k_refl|].
        apply le_k_bind.
        * apply le_k_bind; [apply le_k_refl|]. intros; apply He.
        * intros out. destruct out; try apply IHfs.
          destruct l as [|x1 l]; [apply le_k_refl|].
          destruct x1; try apply le_k_refl.
          destruct l as [|x2 l]; [apply le_k_refl|].
          destruct l as [|x3 l]; [|apply le_k_refl].
          apply le_k_bind; [apply IHfs|]. intros; apply le_k_refl.
      + (* EImport: Sem says Unsup *) apply (le_k_bot BUnsup).
    - intros stk c tv fs. simpl.
      repeat lek_step ltac:(first [ assumption | apply He | apply Hx ]).
    - intros stk c ss. simpl.
      repeat lek_step ltac:(first [ apply He | apply Hx ]).
  Qed.

  (* Wherever the definitional semantics gives a definite answer, the extension agrees. *)
  Theorem eval_imp_conservative f stk c e r :
    eval fo f c e = r -> r <> Unsup -> eval_imp f stk c e = r.
  Proof. intros <- Hn. exact (proj1 (conservative_all f) stk c e Hn). Qed.
  Theorem copy_imp_conservative f stk c tv fs r :
    copy_into fo f c tv fs = r -> r <> Unsup -> copy_imp f stk c tv fs = r.
  Proof. intros <- Hn. exact (proj1 (proj2 (conservative_all f)) stk c tv fs Hn). Qed.
  Theorem exec_imp_conservative f stk c ss r :
    exec_list fo f c ss = r -> r <> Unsup -> exec_imp f stk c ss = r.
  Proof. intros <- Hn. exact (proj2 (proj2 (conservative_all f)) stk c ss Hn). Qed.
  Theorem sem_prog_imp_conservative f E st ord p r :
    sem_prog fo f E st ord p = r -> r <> Unsup -> sem_prog_imp fo imports f E st ord p = r.
  Proof.
    unfold sem_prog, sem_prog_imp. intros <- Hn.
    destruct (exec_list fo f _ p) as [s| | |] eqn:E1; cbn in *; try congruence;
      rewrite (exec_imp_conservative f [] _ p _ E1) by discriminate; reflexivity.
  Qed.
  (* the form in which the theorems of Std_*.v transfer *)
  Corollary eval_imp_of_eval stk c e v :
    (exists f, eval fo f c e = Ok v) -> exists f, eval_imp f stk c e = Ok v.
  Proof. intros [f H]. exists f. apply eval_imp_conservative; [exact H|discriminate]. Qed.
End Lemmas.
