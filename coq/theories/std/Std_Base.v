(* Common tactics and facts for the std-library proofs.
   The std-library helpers compute their reference definitions (StdSpec.v), for all inputs,
   under the definitional semantics sem/Sem.v.  All statements are about the GENERATED library
   terms of gen/StdLib.v.
   Every function value of a library scope contains the scope of its definition point, so an
   evaluated library scope is a very large term.  The symbolic proofs never unfold one (the [*_scope_ok] lemmas below evaluate each once): a helper is
   [get x scope], of which the rules [calls_named] and [copies_module] spell out parameters and body
   only, and each helper is verified in an arbitrary context before the library scope is put in. *)
From Ucg Require Import base.Bytes_Lemmas sem.Sem std.Std_Fuel std.Std_Rules std.StdSpec.
From UcgGen Require Import StdLib.

(* One step of symbolic evaluation: the rule for the head constructor of the expression, with the side
   conditions that are decided by computation (lookups, parameter binding, field merging).
   [evs] runs it as far as it goes; what is left are the side conditions that need an argument. *)
Ltac ev1 :=
  lazymatch goal with
  | |- evals _ _ ENull _ => apply ev_null
  | |- evals _ _ (EBool _) _ => apply ev_bool
  | |- evals _ _ (EInt _) _ => apply ev_int
  | |- evals _ _ (EStr _) _ => apply ev_str
  | |- evals _ _ (EFunc _ _) _ => apply ev_func
  | |- evals _ _ (ESym _) _ => apply ev_sym; [reflexivity | reflexivity]
  | |- evals _ _ (EGroup _) _ => apply ev_group
  | |- evals _ _ (EList _) _ => apply ev_list
  | |- evals_list _ _ [] _ => apply evl_nil
  | |- evals_list _ _ (_ :: _) _ => eapply evl_cons
  | |- evals _ _ (ETuple _) _ => apply ev_tuple
  | |- evals_fields _ _ [] _ _ => apply evf_nil
  | |- evals_fields _ _ (_ :: _) _ _ => eapply evf_cons; [solve [repeat ev1] | reflexivity | ]
  | |- evals _ _ (EBin DOT (ESym _) (ESym _)) _ => eapply ev_dot_sym; [apply ev_sym; reflexivity | reflexivity]
  | |- evals _ _ (EBin DOT _ (ESym _)) _ => eapply ev_dot_sym
  | |- evals _ _ (EBin DOT _ (EInt _)) _ => eapply ev_dot_int
  | |- evals _ _ (EBin Add _ _) _ => eapply ev_add
  | |- evals _ _ (ECopy _ _) _ => eapply ev_copy
  | |- copies _ _ _ _ _ => eapply copies_tuple
  | |- calls _ _ (Sem.VFunc _ _ _ _) _ _ => eapply calls_intro; [reflexivity | reflexivity | ]
  | |- execs _ _ [] _ => apply execs_nil
  | |- execs _ _ (SLet _ _ :: _) _ => eapply execs_let; [ | reflexivity | reflexivity | ]
  end.
Ltac evs := repeat ev1.

Section Std.
  Variable fo : float_ops.
  Notation value := (value fo).
  Notation VInt := (VInt fo).
  Notation evals := (evals fo).
  Notation calls := (calls fo).

  (* ---- the library programs run, and their scopes do not depend on env / strictness ---- *)
  Lemma lists_scope_ok E st ord :
    exec_list fo (std_fuel) (ctx_gen fo E st ord []) std_lists = Ok (lists_scope fo).
  Proof. vm_compute. reflexivity. Qed.
  Lemma tuples_scope_ok E st ord :
    exec_list fo (std_fuel) (ctx_gen fo E st ord []) std_tuples = Ok (tuples_scope fo).
  Proof. vm_compute. reflexivity. Qed.
  Lemma schema_scope_ok E st ord :
    exec_list fo (std_fuel) (ctx_gen fo E st ord []) std_schema = Ok (schema_scope fo).
  Proof. vm_compute. reflexivity. Qed.

  (* a name the library binds: its value stays folded as [get x s] *)
  Lemma lookup_get x (s : scope fo) :
    (if lookup fo (b x) s then true else false) = true -> lookup fo (b x) s = Some (get fo x s).
  Proof. unfold get. destruct (lookup fo (b x) s); [reflexivity|discriminate]. Qed.

  Lemma fits_chk z : fits z -> chk fo z = Ok (VInt z).
  Proof. unfold fits, chk. intros ->. reflexivity. Qed.
  Lemma fits_iff z : fits z <-> (i64_min <= z <= i64_max)%Z.
  Proof.
    unfold fits, in_i64. rewrite andb_true_iff, !Z.leb_le. reflexivity.
  Qed.
  Lemma fits_upto z n : fits (Z.of_nat n) -> (0 <= z <= Z.of_nat n)%Z -> fits z.
  Proof. rewrite !fits_iff. unfold i64_min. lia. Qed.
  Lemma fits_1 : fits 1. Proof. reflexivity. Qed.

End Std.

(* a name of the library, looked up below the argument bindings without unfolding the library scope *)
Ltac lib_lookup :=
  repeat (lazymatch goal with |- Sem.lookup _ _ (_ :: _) = _ => apply lookup_other; [reflexivity|] end);
  apply lookup_get; reflexivity.
Ltac ev_lib := apply ev_sym; [reflexivity|lib_lookup].
