(* std/functional.ucg through `import`: maybe (do / or / is_null / unwrap / expect), identity. *)
From Ucg Require Import base.Bytes_Lemmas sem.Sem std.Std_Fuel std.Sem_Import std.Sem_Import_Lemmas
     std.Std_Rules_Imp std.Std_Rules_Imp2 std.StdSpec std.StdSpec_Imp std.Imp_Base.

Section Functional.
  Variable fo : float_ops.
  Notation value := (value fo).
  Notation VInt := (VInt fo).
  Notation VStr := (VStr fo).
  Notation VBool := (VBool fo).
  Notation VNull := (VNull fo).
  Notation VList := (VList fo).
  Notation VTuple := (VTuple fo).
  Notation VFunc := (VFunc fo).
  Notation VModule := (VModule fo).
  Notation evals := (evals fo std_imports []).
  Notation calls := (calls fo std_imports []).
  Notation copies := (copies fo std_imports []).
  Notation fails := (fails fo std_imports []).

  Definition maybe_v : value := member fo functional_path "maybe".
  Definition maybe_pkg_clo := pkg_clo fo maybe_v.
  Definition maybe_out : option expr := Eval vm_compute in mod_out fo maybe_v.
  Definition maybe_body : list stmt := Eval vm_compute in mod_body fo maybe_v.
  Definition maybe_pkg : value := VFunc [] (EImport functional_path) maybe_pkg_clo.
  Lemma maybe_v_eq : maybe_v = VModule ([(b "val", VNull)] ++ [(b "pkg", maybe_pkg)]) maybe_out maybe_body.
  Proof. apply as_module_eq. vm_compute. reflexivity. Qed.
  Lemma functional_index_maybe c : index fo c (import_value fo functional_path) (VStr (b "maybe")) = Ok maybe_v.
  Proof. apply index_member. vm_compute. reflexivity. Qed.

  Definition let_body (n : nat) : expr :=
    match nth n maybe_body (SExpr ENull) with SLet _ (EFunc _ bd) => bd | _ => ENull end.
  Definition do_body : expr := Eval vm_compute in let_body 1.
  Definition or_body : expr := Eval vm_compute in let_body 2.
  Definition null_body : expr := Eval vm_compute in let_body 3.
  Definition unwrap_body : expr := Eval vm_compute in let_body 4.
  Definition expect_body : expr := Eval vm_compute in let_body 5.

  (* the value of maybe{val = v}: five closures over the module's scope; S0 .. S4 are the scope of the
     body after each statement *)
  Definition modt (v : value) : value := VTuple [(b "val", v); (b "pkg", maybe_pkg); (b "this", maybe_v)].
  Definition S0 (v : value) : scope fo := [(b "this", maybe_v); (b "mod", modt v)].
  Definition Vdo v : value := VFunc [b "op"] do_body (S0 v).
  Definition S1 v : scope fo := (b "do", Vdo v) :: S0 v.
  Definition Vor v : value := VFunc [b "op"] or_body (S1 v).
  Definition S2 v : scope fo := (b "or", Vor v) :: S1 v.
  Definition Vnull v : value := VFunc [] null_body (S2 v).
  Definition S3 v : scope fo := (b "is_null", Vnull v) :: S2 v.
  Definition Vunwrap v : value := VFunc [] unwrap_body (S3 v).
  Definition S4 v : scope fo := (b "unwrap", Vunwrap v) :: S3 v.
  Definition Vexpect v : value := VFunc [b "msg"] expect_body (S4 v).
  Definition maybe_tuple (v : value) : value :=
    VTuple [(b "do", Vdo v); (b "is_null", Vnull v); (b "or", Vor v); (b "unwrap", Vunwrap v); (b "expect", Vexpect v)].

  Lemma maybe_copies c e v :
    evals (with_self fo c (Some maybe_v)) e v -> copies c maybe_v [(b "val", e)] (maybe_tuple v).
  Proof.
    intros He. destruct c as [s0 slf E st ord].
    eapply (copies_module fo std_imports [] maybe_v); [exact maybe_v_eq| | | | |].
    - eapply evf_cons; [exact He|reflexivity|iv1].
    - destruct v; reflexivity.
    - reflexivity.
    - unfold maybe_body.
      eapply execs_let; [dotsym|reflexivity|reflexivity|]. in_scope (S0 v).
      apply execs_def; [reflexivity|reflexivity|]. in_scope (S1 v).
      apply execs_def; [reflexivity|reflexivity|]. in_scope (S2 v).
      apply execs_def; [reflexivity|reflexivity|]. in_scope (S3 v).
      apply execs_def; [reflexivity|reflexivity|]. in_scope (S4 v).
      apply execs_def; [reflexivity|reflexivity|].
      apply execs_nil.
    - unfold maybe_tuple. iv1. fld1. fld1. fld1. fld1. fld1. iv1.
  Qed.

  Lemma veq_null o v : is_closure fo v = false -> veq fo o 1 v VNull = Ok (is_null fo v).
  Proof. destruct v; cbn; intros H; try discriminate; reflexivity. Qed.
  Lemma compatible_null v : compatible fo v VNull = true.
  Proof. destruct v; reflexivity. Qed.

  Lemma unwrap_calls c v : calls c (Vunwrap v) [] v.
  Proof. eapply calls_intro; [reflexivity|reflexivity|]. unfold unwrap_body. dotsym. Qed.

  Lemma is_null_calls c v : is_closure fo v = false -> calls c (Vnull v) [] (VBool (is_null fo v)).
  Proof.
    intros Hv. eapply calls_intro; [reflexivity|reflexivity|]. unfold null_body.
    eapply ev_eq; [dotsym|iv1|apply compatible_null|]. exists 1. apply veq_null, Hv.
  Qed.

  (* do: NULL stays NULL, otherwise the operation is applied and the result wrapped again *)
  Lemma do_calls_null c opv : calls c (Vdo VNull) [opv] (maybe_tuple VNull).
  Proof.
    eapply calls_intro; [reflexivity|reflexivity|]. unfold do_body.
    eapply ev_select.
    - iv1. eapply ev_neq; [dotsym|iv1|reflexivity|]. exists 1. reflexivity.
    - reflexivity.
    - eapply ev_copy; [iv1|]. apply maybe_copies. iv1.
  Qed.
  Lemma do_calls c opv v w :
    is_closure fo v = false -> is_null fo v = false -> calls c opv [v] w ->
    calls c (Vdo v) [opv] (maybe_tuple w).
  Proof.
    intros Hc Hn Hop. eapply calls_intro; [reflexivity|reflexivity|]. unfold do_body.
    eapply ev_select.
    - iv1. eapply ev_neq; [dotsym|iv1|apply compatible_null|]. exists 1. apply veq_null, Hc.
    - rewrite Hn. reflexivity.
    - eapply ev_copy; [iv1|]. apply maybe_copies.
      eapply ev_call; [ivs; reflexivity|iv1|].
      eapply calls_ctx; [| | |exact Hop]; reflexivity.
  Qed.

  (* or: a non-NULL value is kept, NULL is replaced by the result of the operation *)
  Lemma or_calls c opv v :
    is_closure fo v = false -> is_null fo v = false -> calls c (Vor v) [opv] (maybe_tuple v).
  Proof.
    intros Hc Hn. eapply calls_intro; [reflexivity|reflexivity|]. unfold or_body.
    eapply ev_select.
    - iv1. eapply ev_eq; [dotsym|iv1|apply compatible_null|]. exists 1. apply veq_null, Hc.
    - rewrite Hn. reflexivity.
    - eapply ev_copy; [iv1|]. apply maybe_copies. dotsym.
  Qed.
  Lemma or_calls_null c opv w :
    calls c opv [] w -> calls c (Vor VNull) [opv] (maybe_tuple w).
  Proof.
    intros Hop. eapply calls_intro; [reflexivity|reflexivity|]. unfold or_body.
    eapply ev_select.
    - iv1. eapply ev_eq; [dotsym|iv1|reflexivity|]. exists 1. reflexivity.
    - reflexivity.
    - eapply ev_copy; [iv1|]. apply maybe_copies.
      eapply ev_call; [iv1|iv1|]. eapply calls_ctx; [| | |exact Hop]; reflexivity.
  Qed.

  Lemma expect_calls c msg v :
    is_closure fo v = false -> is_null fo v = false -> calls c (Vexpect v) [msg] v.
  Proof.
    intros Hc Hn. eapply calls_intro; [reflexivity|reflexivity|]. unfold expect_body.
    eapply ev_select.
    - eapply ev_neq; [dotsym|iv1|apply compatible_null|]. exists 1. apply veq_null, Hc.
    - rewrite Hn. reflexivity.
    - dotsym.
  Qed.
  Definition maybe_of_arg : expr := imp_inst functional_path "maybe" [("val", "arg")]%string.
  Definition meth (m : expr) (name : string) (args : list expr) : expr := EBin DOT m (ECall (ESym (b name)) args).

  Lemma maybe_of_arg_evals E st ord sc0 v :
    lookup fo (b "arg") sc0 = Some v ->
    evals (Build_ctx fo sc0 None E st ord) maybe_of_arg (maybe_tuple v).
  Proof.
    intros Hl. unfold maybe_of_arg, imp_inst. cbn [map fst snd].
    eapply ev_dot_copy; [apply ev_import_std, in_functional|apply functional_index_maybe|].
    apply maybe_copies. apply ev_sym; [reflexivity|exact Hl].
  Qed.

  Theorem std_maybe_unwrap : forall E st ord v,
      exists f, eval_imp fo std_imports f [] (ctx_gen fo E st ord [(b "arg", v)]) (meth maybe_of_arg "unwrap" []) = Ok v.
  Proof.
    intros. unfold ctx_gen, meth.
    eapply ev_dot_call; [iv1|apply maybe_of_arg_evals; reflexivity|reflexivity|apply unwrap_calls].
  Qed.

  Theorem std_maybe_is_null : forall E st ord v, is_closure fo v = false ->
      exists f, eval_imp fo std_imports f [] (ctx_gen fo E st ord [(b "arg", v)]) (meth maybe_of_arg "is_null" [])
                = Ok (VBool (is_null fo v)).
  Proof.
    intros. unfold ctx_gen, meth.
    eapply ev_dot_call; [iv1|apply maybe_of_arg_evals; reflexivity|reflexivity|apply is_null_calls; assumption].
  Qed.

  Theorem std_maybe_do : forall E st ord v opv w,
      is_closure fo v = false -> is_null fo v = false ->
      calls (ctx_gen fo E st ord []) opv [v] w ->
      exists f, eval_imp fo std_imports f [] (ctx_gen fo E st ord [(b "op", opv); (b "arg", v)])
                         (meth (meth maybe_of_arg "do" [ESym (b "op")]) "unwrap" []) = Ok w.
  Proof.
    intros E st ord v opv w Hc Hn Hop. unfold ctx_gen, meth in *.
    eapply ev_dot_call.
    - iv1.
    - eapply ev_dot_call; [ivs|apply maybe_of_arg_evals; reflexivity|reflexivity|].
      apply do_calls; [assumption|assumption|]. eapply calls_ctx; [| | |exact Hop]; reflexivity.
    - reflexivity.
    - apply unwrap_calls.
  Qed.
  Theorem std_maybe_do_null : forall E st ord opv,
      exists f, eval_imp fo std_imports f [] (ctx_gen fo E st ord [(b "op", opv); (b "arg", VNull)])
                         (meth (meth maybe_of_arg "do" [ESym (b "op")]) "unwrap" []) = Ok VNull.
  Proof.
    intros E st ord opv. unfold ctx_gen, meth in *.
    eapply ev_dot_call.
    - iv1.
    - eapply ev_dot_call; [ivs|apply maybe_of_arg_evals; reflexivity|reflexivity|apply do_calls_null].
    - reflexivity.
    - apply unwrap_calls.
  Qed.

  Theorem std_maybe_or : forall E st ord v opv,
      is_closure fo v = false -> is_null fo v = false ->
      exists f, eval_imp fo std_imports f [] (ctx_gen fo E st ord [(b "op", opv); (b "arg", v)])
                         (meth (meth maybe_of_arg "or" [ESym (b "op")]) "unwrap" []) = Ok v.
  Proof.
    intros E st ord v opv Hc Hn. unfold ctx_gen, meth in *.
    eapply ev_dot_call.
    - iv1.
    - eapply ev_dot_call; [ivs|apply maybe_of_arg_evals; reflexivity|reflexivity|apply or_calls; assumption].
    - reflexivity.
    - apply unwrap_calls.
  Qed.
  Theorem std_maybe_or_null : forall E st ord opv w,
      calls (ctx_gen fo E st ord []) opv [] w ->
      exists f, eval_imp fo std_imports f [] (ctx_gen fo E st ord [(b "op", opv); (b "arg", VNull)])
                         (meth (meth maybe_of_arg "or" [ESym (b "op")]) "unwrap" []) = Ok w.
  Proof.
    intros E st ord opv w Hop. unfold ctx_gen, meth in *.
    eapply ev_dot_call.
    - iv1.
    - eapply ev_dot_call; [ivs|apply maybe_of_arg_evals; reflexivity|reflexivity|].
      apply or_calls_null. eapply calls_ctx; [| | |exact Hop]; reflexivity.
    - reflexivity.
    - apply unwrap_calls.
  Qed.

  Theorem std_maybe_expect : forall E st ord v m,
      is_closure fo v = false -> is_null fo v = false ->
      exists f, eval_imp fo std_imports f [] (ctx_gen fo E st ord [(b "msg", m); (b "arg", v)])
                         (meth maybe_of_arg "expect" [ESym (b "msg")]) = Ok v.
  Proof.
    intros E st ord v m Hc Hn. unfold ctx_gen, meth in *.
    eapply ev_dot_call; [ivs|apply maybe_of_arg_evals; reflexivity|reflexivity|apply expect_calls; assumption].
  Qed.
  (* ... and on NULL it is a build failure (`fail msg`) *)
  Theorem std_maybe_expect_null_fails : forall E ord m,
      forall f v, eval_imp fo std_imports f [] (ctx_gen fo E true ord [(b "msg", VStr m); (b "arg", VNull)])
                           (meth maybe_of_arg "expect" [ESym (b "msg")]) <> Ok v.
  Proof.
    intros E ord m. apply fails_not_ok. exists 60. vm_compute. reflexivity.
  Qed.

  Theorem std_identity : forall E st ord v,
      exists f, eval_imp fo std_imports f [] (ctx_gen fo E st ord [(b "arg", v)]) (imp_call functional_path "identity" ["arg"%string])
                = Ok v.
  Proof. intros. exists 60. vm_compute. reflexivity. Qed.
End Functional.
