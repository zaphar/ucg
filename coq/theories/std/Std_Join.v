(* std/lists.ucg: str_join *)
From Ucg Require Import base.Bytes_Lemmas sem.Sem std.Std_Fuel std.Std_Rules std.StdSpec std.Std_Base.
From UcgGen Require Import StdLib.

Section Std.
  Variable fo : float_ops.
  Notation value := (value fo).
  Notation VInt := (VInt fo).
  Notation VStr := (VStr fo).
  Notation VBool := (VBool fo).
  Notation VList := (VList fo).
  Notation VTuple := (VTuple fo).
  Notation renders := (renders fo).

  Definition join_acc (sep out : bytes) (first : bool) : value :=
    VTuple [(b "sep", VStr sep); (b "out", VStr out); (b "first", VBool first)].
  Definition is_nil {A} (l : list A) : bool := match l with [] => true | _ => false end.

  Lemma join_snoc sep ts t : ts <> [] -> join sep (ts ++ [t]) = join sep ts ++ sep ++ t.
  Proof.
    induction ts as [|u ts IH]; intros Hne; [congruence|].
    destruct ts as [|u' ts].
    - reflexivity.
    - cbn [app join] in *. rewrite IH by discriminate. rewrite <- !app_assoc. reflexivity.
  Qed.

  Lemma renders_str s : renders (VStr s) s.
  Proof. exists 1. reflexivity. Qed.
  Lemma renders_int z : renders (VInt z) (dec_Z z).
  Proof. exists 1. reflexivity. Qed.

  (* let str_join = module{sep = " ", list = []} => (result) {
       let joiner = func (acc, item) => select (acc.first, NULL) => {
         true = acc{out = "@" % (item), first = false},
         false = acc{out = "@@@" % (acc.out, acc.sep, item)} };
       let result = reduce(joiner, {sep=mod.sep, out="", first=true}, (mod.list)).out; }; *)
  Definition str_join_value : value := get fo "str_join" (lists_scope fo).

  (* General form: the items are rendered by the format semantics [render]; [ts] are their texts.
     In any context, whatever expressions give the two fields. *)
  Lemma str_join_copies c fs sep l ts :
    evals_fields fo (with_self fo c (Some str_join_value)) fs [] [(b "sep", VStr sep); (b "list", VList l)] ->
    Forall2 renders l ts ->
    copies fo c str_join_value fs (VStr (join sep ts)).
  Proof.
    intros Hfs Hts.
    eapply copies_module; [vm_compute; reflexivity|exact Hfs|reflexivity|reflexivity|..]; [evs|ev1].
    (* the module body has run up to the reduce; [out] of its result is taken *)
    - eapply (reduce_list_along fo renders) with (F := fun pre => join_acc sep (join sep pre) (is_nil pre));
        [ev1|evs|evs|exact Hts|].
      intros pre t post v _ Hv. ev1. destruct pre as [|u pre].
      + (* first item: out = "@" % (item) *)
        eapply ev_select; [ev1|reflexivity|]. evs.
        * eapply evf_cons; [|reflexivity|evs].
          eapply ev_formatL with (ts := [t]); [reflexivity| |cbn; rewrite app_nil_r; reflexivity].
          constructor; [|constructor]. exists v. split; [ev1|exact Hv].
        * reflexivity.
      + (* later items: out = "@@@" % (acc.out, acc.sep, item) *)
        rewrite join_snoc by discriminate.
        eapply ev_select; [ev1|reflexivity|]. evs.
        * eapply evf_cons; [|reflexivity|ev1].
          eapply ev_formatL with (ts := [join sep (u :: pre); sep; t]);
            [reflexivity| |cbn [fmt option_map app]; rewrite app_nil_r; reflexivity].
          constructor; [|constructor; [|constructor; [|constructor]]].
          -- eexists. split; [ev1|apply renders_str].
          -- eexists. split; [ev1|apply renders_str].
          -- exists v. split; [ev1|exact Hv].
        * reflexivity.
    - reflexivity.
  Qed.

  Theorem std_str_join : forall E st ord sep l ts,
      Forall2 renders l ts ->
      exists f, eval fo f (ctx_gen fo E st ord ((b "arg2", VList l) :: (b "arg1", VStr sep) :: lists_scope fo))
                     str_join_call
                = Ok (VStr (join sep ts)).
  Proof.
    intros E st ord sep l ts Hts.
    eapply ev_copy.
    - ev_lib.
    - apply str_join_copies with (l := l); [evs|exact Hts].
  Qed.

  (* the same with a text assignment [txt] that agrees with [render] on the items *)
  Corollary std_str_join_txt : forall E st ord sep l (txt : value -> bytes),
      (forall v, In v l -> renders v (txt v)) ->
      exists f, eval fo f (ctx_gen fo E st ord ((b "arg2", VList l) :: (b "arg1", VStr sep) :: lists_scope fo))
                     str_join_call
                = Ok (VStr (join sep (map txt l))).
  Proof.
    intros E st ord sep l txt Htxt. apply std_str_join.
    induction l as [|v l IH]; constructor.
    - apply Htxt. left. reflexivity.
    - apply IH. intros w Hw. apply Htxt. right. exact Hw.
  Qed.

  Corollary std_str_join_strings : forall E st ord sep (ss : list bytes),
      exists f, eval fo f (ctx_gen fo E st ord ((b "arg2", VList (map VStr ss)) :: (b "arg1", VStr sep) :: lists_scope fo))
                     str_join_call
                = Ok (VStr (join sep ss)).
  Proof.
    intros E st ord sep ss. apply std_str_join.
    induction ss as [|s ss IH]; constructor; [apply renders_str|exact IH].
  Qed.

  Corollary std_str_join_ints : forall E st ord sep (zs : list Z),
      exists f, eval fo f (ctx_gen fo E st ord ((b "arg2", VList (map VInt zs)) :: (b "arg1", VStr sep) :: lists_scope fo))
                     str_join_call
                = Ok (VStr (join sep (map dec_Z zs))).
  Proof.
    intros E st ord sep zs. apply std_str_join.
    induction zs as [|z zs IH]; constructor; [apply renders_int|exact IH].
  Qed.
End Std.
