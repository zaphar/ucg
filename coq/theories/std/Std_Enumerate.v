(* std/lists.ucg: enumerate *)
From Ucg Require Import base.Bytes_Lemmas sem.Sem std.Std_Fuel std.Std_Rules std.StdSpec std.Std_Base.
From UcgGen Require Import StdLib.

Section Std.
  Variable fo : float_ops.
  Notation value := (value fo).
  Notation VInt := (VInt fo).
  Notation VList := (VList fo).
  Notation VTuple := (VTuple fo).
  Notation fits_chk := (fits_chk fo).

  Definition enum_acc (n : Z) (x : list value) (t : Z) : value :=
    VTuple [(b "count", VInt n); (b "list", VList x); (b "step", VInt t)].

  Lemma enum_from_app start step pre v :
    enum_from fo start step (pre ++ [v]) =
    enum_from fo start step pre ++ [VList [VInt (start + Z.of_nat (List.length pre) * step); v]].
  Proof.
    revert start. induction pre as [|x pre IH]; intros start; cbn [enum_from app List.length].
    - replace (start + Z.of_nat 0 * step)%Z with start by lia. reflexivity.
    - rewrite IH.
      replace (start + step + Z.of_nat (List.length pre) * step)%Z
        with (start + Z.of_nat (S (List.length pre)) * step)%Z by lia. reflexivity.
  Qed.

  Lemma ref_enumerate_eq start step l : ref_enumerate fo start step l = VList (enum_from fo start step l).
  Proof.
    unfold ref_enumerate. f_equal.
    assert (H : forall l k, map (fun p => VList [VInt (start + Z.of_nat (fst p) * step); snd p])
                               (combine (seq k (List.length l)) l)
                          = enum_from fo (start + Z.of_nat k * step) step l).
    { clear l. induction l as [|x l IH]; intros k; [reflexivity|].
      cbn [List.length seq combine map fst snd enum_from]. rewrite IH.
      replace (start + Z.of_nat (S k) * step)%Z with (start + Z.of_nat k * step + step)%Z by lia. reflexivity. }
    rewrite H. replace (start + Z.of_nat 0 * step)%Z with start by lia. reflexivity.
  Qed.

  (* let enumerate = module{start = 0, step = 1, list = []} => (result) {
       let reducer = func (acc, item) => acc{count = acc.count + acc.step, list = acc.list + [[acc.count, item]]};
       let result = reduce(reducer, {count=mod.start, list=[], step=mod.step}, (mod.list)).list; }; *)
  Definition enumerate_value : value := get fo "enumerate" (lists_scope fo).

  (* in any context, whatever expressions give the three fields *)
  Lemma enumerate_copies c fs start step l :
    evals_fields fo (with_self fo c (Some enumerate_value)) fs []
                 [(b "start", VInt start); (b "step", VInt step); (b "list", VList l)] ->
    (forall i, (i <= List.length l)%nat -> fits (start + Z.of_nat i * step)) ->
    copies fo c enumerate_value fs (VList (enum_from fo start step l)).
  Proof.
    intros Hfs Hfit.
    eapply copies_module; [vm_compute; reflexivity|exact Hfs|reflexivity|reflexivity|..]; [evs|ev1].
    (* the module body has run up to the reduce; [list] of its result is taken *)
    - eapply (reduce_list_prefix fo) with
        (F := fun pre => enum_acc (start + Z.of_nat (List.length pre) * step) (enum_from fo start step pre) step);
        [ev1| |evs|].
      + cbn [List.length enum_from]. replace (start + Z.of_nat 0 * step)%Z with start by lia. evs.
      + intros pre v post El.
        replace (start + Z.of_nat (List.length (pre ++ [v])) * step)%Z
          with (start + Z.of_nat (List.length pre) * step + step)%Z by (rewrite app_length; cbn [List.length]; lia).
        rewrite enum_from_app.
        assert (Hnext : fits (start + Z.of_nat (List.length pre) * step + step)).
        { replace (start + Z.of_nat (List.length pre) * step + step)%Z
            with (start + Z.of_nat (S (List.length pre)) * step)%Z by lia.
          apply Hfit. subst l. rewrite app_length. cbn [List.length]. lia. }
        evs.
        * eapply evf_cons; [evs; exact (fits_chk _ Hnext)|reflexivity|].
          eapply evf_cons; [evs; reflexivity|reflexivity|ev1].
        * reflexivity.
    - reflexivity.
  Qed.

  Theorem std_enumerate : forall E st ord start step l,
      (forall i, (i <= List.length l)%nat -> fits (start + Z.of_nat i * step)) ->
      exists f, eval fo f (ctx_gen fo E st ord ((b "arg3", VList l) :: (b "arg2", VInt step) :: (b "arg1", VInt start)
                                                 :: lists_scope fo)) enumerate_call
                = Ok (ref_enumerate fo start step l).
  Proof.
    intros E st ord start step l Hfit. rewrite ref_enumerate_eq.
    eapply ev_copy.
    - ev_lib.
    - apply enumerate_copies; [evs|exact Hfit].
  Qed.

  (* The reducer computes the NEXT count (acc.count + acc.step) also after the last item,
     so enumerate fails with an integer overflow although every index it has to produce fits:
     enumerate{start = i64::MAX, step = 1, list = [x]} should be [[i64::MAX, x]] and is a build error. *)
  Lemma std_enumerate_overflow_err : forall E st ord (x : value),
      eval fo 12 (ctx_gen fo E st ord ((b "arg3", VList [x]) :: (b "arg2", VInt 1) :: (b "arg1", VInt i64_max)
                                         :: lists_scope fo)) enumerate_call = Err.
  Proof. intros. vm_compute. reflexivity. Qed.

  Theorem std_enumerate_refuted : forall E st ord (x : value),
      (* all the indices of the reference result fit an i64 ... *)
      (forall i, (i < List.length [x])%nat -> fits (i64_max + Z.of_nat i * 1)) /\
      (* ... but no amount of fuel makes the helper return it (or anything else) *)
      forall f v, eval fo f (ctx_gen fo E st ord ((b "arg3", VList [x]) :: (b "arg2", VInt 1) :: (b "arg1", VInt i64_max)
                                                    :: lists_scope fo)) enumerate_call <> Ok v.
  Proof.
    intros E st ord x. split.
    - intros i Hi. cbn in Hi. assert (i = 0%nat) by lia. subst i. reflexivity.
    - intros f v H.
      pose proof (eval_definite fo _ _ _ _ _ _ H (std_enumerate_overflow_err E st ord x)) as D.
      discriminate D; discriminate.
  Qed.
End Std.
