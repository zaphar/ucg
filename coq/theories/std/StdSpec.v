(* Reference definitions of the std-library helpers (std/*.ucg) and the scopes the generated
   library programs (gen/StdLib.v) produce.  Definitions only; the proofs are in Std_Lists.v, Std_Join.v, Std_Enumerate.v, Std_Tuples.v and Std_Schema.v. *)
From Ucg Require Import sem.Sem.
From UcgGen Require Import StdLib.


(* ---- how the helpers are invoked on arbitrary argument VALUES: the values are bound to fresh
   names (arg, arg1, ...) on top of the library scope and the call mentions those names ---- *)
Definition call1 (name : string) : expr := ECall (ESym (b name)) [ESym (b "arg")].
(* instantiate a library module with one field *)
Definition inst1 (name field : string) : expr := ECopy (ESym (b name)) [(b field, ESym (b "arg"))].
(* enumerate{start = arg1, step = arg2, list = arg3} *)
Definition enumerate_call : expr :=
  ECopy (ESym (b "enumerate")) [(b "start", ESym (b "arg1")); (b "step", ESym (b "arg2")); (b "list", ESym (b "arg3"))].
(* str_join{sep = arg1, list = arg2} *)
Definition str_join_call : expr :=
  ECopy (ESym (b "str_join")) [(b "sep", ESym (b "arg1")); (b "list", ESym (b "arg2"))].

Section Spec.
  Variable fo : float_ops.
  Notation value := (value fo).
  Notation scope := (scope fo).

  (* ---- contexts ---- *)
  Definition ctx_gen (envv : list (bytes * bytes)) (strict_ ordered : bool) (s : scope) : ctx fo :=
    {| sc := s; self_v := None; envt := envv; strict := strict_; eq_ordered := ordered |}.
  Definition ctx_of (s : scope) : ctx fo := ctx_gen [] false true s.
  Definition ctx0 : ctx fo := ctx_of [].

  (* ---- the library scopes: what running the statements of a std file leaves bound ---- *)
  Definition std_fuel : nat := 20.
  Definition scope_of (p : prog) : scope :=
    match exec_list fo std_fuel ctx0 p with Ok s => s | _ => [] end.
  Definition lists_scope : scope := scope_of std_lists.
  Definition tuples_scope : scope := scope_of std_tuples.
  Definition schema_scope : scope := scope_of std_schema.

  (* the value a library scope binds to a name *)
  Definition get (x : string) (s : scope) : value :=
    match lookup fo (b x) s with Some v => v | None => VNull fo end.

  (* ---- reference functions ---- *)
  Definition ref_len (l : list value) : value := VInt fo (Z.of_nat (List.length l)).
  Definition ref_reverse (l : list value) : value := VList fo (rev l).
  Definition ref_head (l : list value) : value := VList fo (match l with [] => [] | x :: _ => [x] end).
  Definition ref_tail (l : list value) : value := VList fo (tl l).

  (* [[start + i*step, x_i]] *)
  Definition ref_enumerate (start step : Z) (l : list value) : value :=
    VList fo (map (fun p => VList fo [VInt fo (start + Z.of_nat (fst p) * step); snd p])
                  (combine (seq 0 (List.length l)) l)).
  (* the same, by recursion on the list *)
  Fixpoint enum_from (start step : Z) (l : list value) : list value :=
    match l with
    | [] => []
    | x :: l' => VList fo [VInt fo start; x] :: enum_from (start + step) step l'
    end.

  (* texts with [sep] between them *)
  Fixpoint join (sep : bytes) (ts : list bytes) : bytes :=
    match ts with
    | [] => []
    | [t] => t
    | t :: ts' => t ++ sep ++ join sep ts'
    end.

  Definition ref_fields (fs : list (bytes * value)) : value := VList fo (map (fun kv => VStr fo (fst kv)) fs).
  Definition ref_values (fs : list (bytes * value)) : value := VList fo (map snd fs).
  Definition ref_iter (fs : list (bytes * value)) : value :=
    VList fo (map (fun kv => VList fo [VStr fo (fst kv); snd kv]) fs).
  Definition is_null (v : value) : bool := match v with VNull _ => true | _ => false end.
  Definition ref_strip_nulls (fs : list (bytes * value)) : value :=
    VTuple fo (filter (fun kv => negb (is_null (snd kv))) fs).
  Definition ref_base_type_of (v : value) : value := VStr fo (is_name fo v).

  (* side conditions *)
  Definition fits (z : Z) : Prop := in_i64 z = true.
  Definition is_closure (v : value) : bool :=
    match v with VFunc _ _ _ _ | VModule _ _ _ _ => true | _ => false end.
End Spec.
