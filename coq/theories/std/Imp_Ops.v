(* std/*.ucg through `import`: schema.must, tuples.assert_tuple, and the `ops` wrappers of
   std/tuples.ucg and std/lists.ucg.  All statements are for ALL argument values.

   Parameter constraints (`m :: false`, `tpl :: {}`) are not part of the AST of gen/StdLib.v (EFunc carries
   only the parameter NAMES): the model ignores them for function parameters, so the theorems below say
   what the BODY does with an argument of any shape. *)
From Ucg Require Import base.Bytes_Lemmas sem.Sem std.Std_Fuel std.Sem_Import std.Sem_Import_Lemmas
     std.Std_Rules_Imp std.Std_Rules_Imp2 std.StdSpec std.StdSpec_Imp std.Imp_Base std.Imp_Tuples std.Imp_Lists.

Section Ops.
  Variable fo : float_ops.
  Notation value := (value fo).
  Notation VInt := (VInt fo).
  Notation VStr := (VStr fo).
  Notation VBool := (VBool fo).
  Notation VNull := (VNull fo).
  Notation VList := (VList fo).
  Notation VTuple := (VTuple fo).
  Notation VFunc := (VFunc fo).
  Notation VModule := (VModule fo).
  Notation eval := (eval_imp fo std_imports).
  Notation evals := (evals fo std_imports []).
  Notation evals_list := (evals_list fo std_imports []).
  Notation calls := (calls fo std_imports []).
  Notation copies := (copies fo std_imports []).
  Notation fails := (fails fo std_imports []).
  Notation call_v := (call_v fo std_imports []).
  Notation renders := (renders fo).
  Definition call_fails (c : ctx fo) (fv : value) (avs : list value) : Prop := exists f, call_v f c fv avs = Err.
  Definition never_ok (c : ctx fo) (e : expr) : Prop := forall f v, eval f [] c e <> Ok v.
  Definition call_never_ok (c : ctx fo) (fv : value) (avs : list value) : Prop := forall f v, call_v f c fv avs <> Ok v.

  Lemma call_fails_intro c ps body clo avs s :
    List.length ps = List.length avs -> bind_params fo ps avs clo = Ok s -> fails (fctx fo c s) body ->
    call_fails c (VFunc ps body clo) avs.
  Proof. intros Hl Hb [f H]. exists f. cbn. rewrite Hl, Nat.eqb_refl. cbn. rewrite Hb. exact H. Qed.
  Lemma call_never_ok_intro c ps body clo avs s :
    List.length ps = List.length avs -> bind_params fo ps avs clo = Ok s -> never_ok (fctx fo c s) body ->
    call_never_ok c (VFunc ps body clo) avs.
  Proof. intros Hl Hb H f v. cbn. rewrite Hl, Nat.eqb_refl. cbn. rewrite Hb. apply H. Qed.

  Lemma fails_dot_call c l k args avs lv fv :
    evals_list c args avs -> evals c l lv -> index fo c lv (VStr k) = Ok fv -> call_fails c fv avs ->
    fails c (EBin DOT l (ECall (ESym k) args)).
  Proof.
    intros [f1 H1] [f2 H2] Hi [f3 H3]. set (F := Nat.max f1 (Nat.max f2 f3)). exists (S F).
    apply (fun h => mapM_eval_mono fo std_imports [] _ F _ _ _ h) in H1; [|lia].
    apply (fun h => eval_imp_fuel_mono fo std_imports _ F [] _ _ _ h) in H2; [|lia].
    apply (le_res_err _ _ (call_v_le fo std_imports [] f3 F c fv avs ltac:(lia))) in H3.
    rewrite eval_S_dot_call, H1. cbn [bind]. rewrite H2. cbn [bind]. rewrite Hi. exact H3.
  Qed.
  Lemma fails_select c ve dflt arms v e' :
    evals c ve v -> select_pick fo v dflt arms = Some e' -> fails c e' -> fails c (ESelect ve dflt arms).
  Proof.
    intros [f1 H1] Hp [f2 H2]. exists (S (Nat.max f1 f2)).
    apply (fun h => eval_imp_fuel_mono fo std_imports _ (Nat.max f1 f2) [] _ _ _ h) in H1; [|lia].
    apply (fun h => eval_imp_fuel_mono_err fo std_imports _ (Nat.max f1 f2) [] _ _ h) in H2; [|lia].
    rewrite eval_S_select, H1. cbn [bind]. rewrite Hp. exact H2.
  Qed.

  Lemma evals_det c e v f w : evals c e v -> eval f [] c e = Ok w -> w = v.
  Proof.
    intros [f0 H0] H.
    apply (fun h => eval_imp_fuel_mono fo std_imports _ (Nat.max f f0) [] _ _ _ h) in H0; [|lia].
    apply (fun h => eval_imp_fuel_mono fo std_imports _ (Nat.max f f0) [] _ _ _ h) in H; [|lia].
    congruence.
  Qed.
  Lemma evals_list_det c es vs f ws : evals_list c es vs -> mapM (eval f [] c) es = Ok ws -> ws = vs.
  Proof.
    intros [f0 H0] H.
    apply (fun h => mapM_eval_mono fo std_imports [] _ (Nat.max f f0) _ _ _ h) in H0; [|lia].
    apply (fun h => mapM_eval_mono fo std_imports [] _ (Nat.max f f0) _ _ _ h) in H; [|lia].
    congruence.
  Qed.

  Lemma never_ok_fail c e : never_ok c (EFail e).
  Proof.
    intros [|f] v; [discriminate|]. rewrite eval_S_fail. destruct (eval f [] c e); discriminate.
  Qed.
  Lemma never_ok_select c ve dflt arms v0 e' :
    evals c ve v0 -> select_pick fo v0 dflt arms = Some e' -> never_ok c e' -> never_ok c (ESelect ve dflt arms).
  Proof.
    intros H0 Hp Hn [|f] v; [discriminate|]. rewrite eval_S_select.
    destruct (eval f [] c ve) as [w| | |] eqn:Hv; cbn [bind]; try discriminate.
    rewrite (evals_det _ _ _ _ _ H0 Hv), Hp. apply Hn.
  Qed.
  Lemma never_ok_dot_call c l k args avs lv fv :
    evals_list c args avs -> evals c l lv -> index fo c lv (VStr k) = Ok fv -> call_never_ok c fv avs ->
    never_ok c (EBin DOT l (ECall (ESym k) args)).
  Proof.
    intros H1 H2 Hi H3 [|f] v; [discriminate|]. rewrite eval_S_dot_call.
    destruct (mapM (eval f [] c) args) as [ws| | |] eqn:Ha; cbn [bind]; try discriminate.
    rewrite (evals_list_det _ _ _ _ _ H1 Ha).
    destruct (eval f [] c l) as [w| | |] eqn:Hl; cbn [bind]; try discriminate.
    rewrite (evals_det _ _ _ _ _ H2 Hl), Hi. cbn [bind]. apply H3.
  Qed.
  Definition must_v : value := member fo schema_path "must".
  Definition must_clo := fn_clo fo must_v.
  Definition must_body : expr := Eval vm_compute in fn_body fo must_v.
  Lemma must_v_eq : must_v = VFunc [b "m"; b "msg"] must_body must_clo.
  Proof. apply as_func_eq. vm_compute. reflexivity. Qed.
  Lemma schema_index_must c : index fo c (import_value fo schema_path) (VStr (b "must")) = Ok must_v.
  Proof. apply index_member. vm_compute. reflexivity. Qed.

  (* the values `must` lets through: the boolean true -- and the STRING "true" (select keys are strings) *)
  Definition must_passes (m : value) : bool :=
    match m with
    | Sem.VBool _ x => x
    | Sem.VStr _ s => bytes_eqb s (b "true")
    | _ => false
    end.

  Lemma must_pick_pass m : must_passes m = true ->
    select_pick fo m (Some (EFail (ESym (b "msg")))) [(b "true", ESym (b "m"))] = Some (ESym (b "m")).
  Proof.
    destruct m as [|[|]| | |s| | | |]; cbn [must_passes]; try discriminate; intros H; try reflexivity.
    unfold select_pick. cbn [select_key find_arm]. rewrite H. reflexivity.
  Qed.
  Lemma must_pick_fail m : must_passes m = false ->
    select_pick fo m (Some (EFail (ESym (b "msg")))) [(b "true", ESym (b "m"))] = Some (EFail (ESym (b "msg"))).
  Proof.
    destruct m as [|[|]| | |s| | | |]; cbn [must_passes]; try discriminate; intros H; try reflexivity.
    unfold select_pick. cbn [select_key find_arm]. rewrite H. reflexivity.
  Qed.

  Lemma must_calls_pass c m msg : must_passes m = true -> calls c must_v [m; msg] m.
  Proof.
    intros Hm. rewrite must_v_eq. eapply calls_intro; [reflexivity|reflexivity|]. unfold must_body.
    eapply ev_select; [iv1|apply must_pick_pass, Hm|iv1].
  Qed.
  Lemma must_calls_fail c m msg : must_passes m = false -> call_fails c must_v [m; msg].
  Proof.
    intros Hm. rewrite must_v_eq. eapply call_fails_intro; [reflexivity|reflexivity|]. unfold must_body.
    eapply fails_select; [iv1|apply must_pick_fail, Hm|]. eapply fails_fail. iv1.
  Qed.

  Definition must_call : expr := imp_call schema_path "must" ["arg1"; "arg2"]%string.

  Theorem std_must_passes : forall E st ord m msg, must_passes m = true ->
      exists f, eval f [] (ctx_gen fo E st ord [(b "arg2", msg); (b "arg1", m)]) must_call = Ok m.
  Proof.
    intros E st ord m msg Hm. unfold must_call, imp_call, ctx_gen. cbn [map].
    eapply ev_dot_call; [ivs|apply ev_import_std, in_schema|apply schema_index_must|].
    apply must_calls_pass, Hm.
  Qed.
  Theorem std_must_rejects : forall E st ord m msg, must_passes m = false ->
      exists f, eval f [] (ctx_gen fo E st ord [(b "arg2", msg); (b "arg1", m)]) must_call = Err.
  Proof.
    intros E st ord m msg Hm. unfold must_call, imp_call, ctx_gen. cbn [map].
    eapply fails_dot_call; [ivs|apply ev_import_std, in_schema|apply schema_index_must|].
    apply must_calls_fail, Hm.
  Qed.
  (* the two documented cases, for every message value *)
  Corollary std_must_true : forall E st ord msg,
      exists f, eval f [] (ctx_gen fo E st ord [(b "arg2", msg); (b "arg1", VBool true)]) must_call = Ok (VBool true).
  Proof. intros. apply std_must_passes. reflexivity. Qed.
  Corollary std_must_false : forall E st ord msg,
      exists f, eval f [] (ctx_gen fo E st ord [(b "arg2", msg); (b "arg1", VBool false)]) must_call = Err.
  Proof. intros. apply std_must_rejects. reflexivity. Qed.
  (* ... and a rejected argument is rejected with every amount of fuel *)
  Corollary std_must_rejects_never_ok : forall E st ord m msg, must_passes m = false ->
      forall f v, eval f [] (ctx_gen fo E st ord [(b "arg2", msg); (b "arg1", m)]) must_call <> Ok v.
  Proof.
    intros E st ord m msg Hm. apply (fails_not_ok fo std_imports []). apply std_must_rejects, Hm.
  Qed.
  Definition at_v : value := member fo tuples_path "assert_tuple".
  Definition at_clo := fn_clo fo at_v.
  Definition at_body : expr := Eval vm_compute in fn_body fo at_v.
  Lemma at_v_eq : at_v = VFunc [b "tpl"] at_body at_clo.
  Proof. apply as_func_eq. vm_compute. reflexivity. Qed.
  Lemma tuples_index_at c : index fo c (import_value fo tuples_path) (VStr (b "assert_tuple")) = Ok at_v.
  Proof. apply index_member. vm_compute. reflexivity. Qed.

  Lemma is_tuple_name v : bytes_eqb (is_name fo v) (b "tuple") = is_tuple_v fo v.
  Proof. destruct v; reflexivity. Qed.

  Definition assert_tuple_call : expr := imp_call tuples_path "assert_tuple" ["arg"]%string.

  Theorem std_assert_tuple_tuple : forall E st ord fs,
      exists f, eval f [] (ctx_gen fo E st ord [(b "arg", VTuple fs)]) assert_tuple_call = Ok VNull.
  Proof.
    intros E st ord fs. unfold assert_tuple_call, imp_call, ctx_gen. cbn [map].
    eapply ev_dot_call; [ivs|apply ev_import_std, in_tuples|apply tuples_index_at|].
    rewrite at_v_eq. eapply calls_intro; [reflexivity|reflexivity|]. unfold at_body.
    eapply ev_select; [eapply ev_is; [iv1|iv1]|reflexivity|iv1].
  Qed.

  (* a non-tuple whose text can be produced for the message: the failure *)
  Theorem std_assert_tuple_other : forall E st ord v t, is_tuple_v fo v = false -> renders v t ->
      exists f, eval f [] (ctx_gen fo E st ord [(b "arg", v)]) assert_tuple_call = Err.
  Proof.
    intros E st ord v t Hv Hr. unfold assert_tuple_call, imp_call, ctx_gen. cbn [map].
    eapply fails_dot_call; [ivs|apply ev_import_std, in_tuples|apply tuples_index_at|].
    rewrite at_v_eq. eapply call_fails_intro; [reflexivity|reflexivity|]. unfold at_body.
    eapply fails_select; [eapply ev_is; [iv1|iv1]|rewrite is_tuple_name, Hv; reflexivity|].
    eapply fails_fail. eapply ev_formatL with (ts := [t]); [reflexivity| |reflexivity].
    constructor; [|constructor]. exists v. split; [iv1|exact Hr].
  Qed.
  (* every non-tuple, whatever it is (a float the model has no text for makes the message, hence the
     whole call, "unsupported" rather than an error): never a value *)
  Theorem std_assert_tuple_other_never_ok : forall E st ord v, is_tuple_v fo v = false ->
      forall f w, eval f [] (ctx_gen fo E st ord [(b "arg", v)]) assert_tuple_call <> Ok w.
  Proof.
    intros E st ord v Hv. unfold assert_tuple_call, imp_call, ctx_gen. cbn [map].
    eapply never_ok_dot_call; [ivs|apply ev_import_std, in_tuples|apply tuples_index_at|].
    rewrite at_v_eq. eapply call_never_ok_intro; [reflexivity|reflexivity|]. unfold at_body.
    eapply never_ok_select; [eapply ev_is; [iv1|iv1]|rewrite is_tuple_name, Hv; reflexivity|].
    apply never_ok_fail.
  Qed.
  (* two evaluations of the same context that succeed, succeed together *)
  Lemma agree_intro c e1 e2 v :
    evals c e1 v -> evals c e2 v -> exists f, eval f [] c e1 = Ok v /\ eval f [] c e2 = Ok v.
  Proof.
    intros [f1 H1] [f2 H2]. exists (Nat.max f1 f2).
    apply (fun h => eval_imp_fuel_mono fo std_imports _ (Nat.max f1 f2) [] _ _ _ h) in H1; [|lia].
    apply (fun h => eval_imp_fuel_mono fo std_imports _ (Nat.max f1 f2) [] _ _ _ h) in H2; [|lia].
    split; assumption.
  Qed.

  (* values: the module of the linked library (fields and iter are in Imp_Tuples.v) *)
  Definition values_v : value := member fo tuples_path "values".
  Definition values_pkg_clo := pkg_clo fo values_v.
  Definition values_out : option expr := Eval vm_compute in mod_out fo values_v.
  Definition values_body : list stmt := Eval vm_compute in mod_body fo values_v.
  Lemma values_v_eq :
    values_v = VModule ([(b "tpl", VTuple [])] ++ [(b "pkg", VFunc [] (EImport tuples_path) values_pkg_clo)])
                       values_out values_body.
  Proof. apply as_module_eq. vm_compute. reflexivity. Qed.
  Lemma tuples_index_values c : index fo c (import_value fo tuples_path) (VStr (b "values")) = Ok values_v.
  Proof. apply index_member. vm_compute. reflexivity. Qed.
  Lemma values_copies c e fs :
    evals (with_self fo c (Some values_v)) e (VTuple fs) ->
    copies c values_v [(b "tpl", e)] (VList (map snd fs)).
  Proof. eapply items_copies with (g := fun _ v => v); [exact values_v_eq|]. intros. iv1. Qed.

  (* the plain helpers, reached through the import: (import "std/tuples.ucg").<name>{tpl = arg} *)
  Definition tfields_call : expr := imp_inst tuples_path "fields" [("tpl", "arg")]%string.
  Definition tvalues_call : expr := imp_inst tuples_path "values" [("tpl", "arg")]%string.
  Definition titer_call : expr := imp_inst tuples_path "iter" [("tpl", "arg")]%string.

  Definition ref_fields (fs : list (bytes * value)) : value := VList (map (fun kv => VStr (fst kv)) fs).
  Definition ref_values (fs : list (bytes * value)) : value := VList (map snd fs).
  Definition ref_iter (fs : list (bytes * value)) : value := VList (map (fun kv => VList [VStr (fst kv); snd kv]) fs).

  Definition tops_v : value := member fo tuples_path "ops".
  Definition tops_pkg_clo := pkg_clo fo tops_v.
  Definition tops_out : option expr := Eval vm_compute in mod_out fo tops_v.
  Definition tops_body : list stmt := Eval vm_compute in mod_body fo tops_v.
  Definition tops_pkg : value := VFunc [] (EImport tuples_path) tops_pkg_clo.
  Lemma tops_v_eq : tops_v = VModule ([(b "tpl", VTuple [])] ++ [(b "pkg", tops_pkg)]) tops_out tops_body.
  Proof. apply as_module_eq. vm_compute. reflexivity. Qed.
  Lemma tuples_index_ops c : index fo c (import_value fo tuples_path) (VStr (b "ops")) = Ok tops_v.
  Proof. apply index_member. vm_compute. reflexivity. Qed.

  Definition tops_let_body (n : nat) : expr :=
    match nth n tops_body (SExpr ENull) with SLet _ (EFunc _ bd) => bd | _ => ENull end.
  Definition tops_fields_body : expr := Eval vm_compute in tops_let_body 1.
  Definition tops_values_body : expr := Eval vm_compute in tops_let_body 2.
  Definition tops_iter_body : expr := Eval vm_compute in tops_let_body 3.

  (* the value of ops{tpl = t}: three closures over the module's scope *)
  Definition tops_modt (t : value) : value := VTuple [(b "tpl", t); (b "pkg", tops_pkg); (b "this", tops_v)].
  Definition TS1 (t : value) : scope fo := [(b "pkg", import_value fo tuples_path); (b "mod", tops_modt t)].
  Definition Vtfields t : value := VFunc [] tops_fields_body (TS1 t).
  Definition TS2 t : scope fo := (b "fields", Vtfields t) :: TS1 t.
  Definition Vtvalues t : value := VFunc [] tops_values_body (TS2 t).
  Definition TS3 t : scope fo := (b "values", Vtvalues t) :: TS2 t.
  Definition Vtiter t : value := VFunc [] tops_iter_body (TS3 t).
  Definition tops_tuple (t : value) : value :=
    VTuple [(b "fields", Vtfields t); (b "values", Vtvalues t); (b "iter", Vtiter t)].

  Lemma tops_copies c e fs :
    evals (with_self fo c (Some tops_v)) e (VTuple fs) -> copies c tops_v [(b "tpl", e)] (tops_tuple (VTuple fs)).
  Proof.
    intros He. destruct c as [s0 slf E st ord].
    eapply (copies_module fo std_imports [] tops_v); [exact tops_v_eq| | | | |].
    - eapply evf_cons; [exact He|reflexivity|iv1].
    - reflexivity.
    - reflexivity.
    - unfold tops_body.
      eapply execs_let; [|reflexivity|reflexivity|].
      { eapply ev_mod_pkg; [reflexivity|reflexivity|apply in_tuples]. }
      eapply execs_let; [iv1|reflexivity|reflexivity|].
      eapply execs_let; [iv1|reflexivity|reflexivity|].
      eapply execs_let; [iv1|reflexivity|reflexivity|].
      apply execs_nil.
    - unfold tops_out, tops_tuple. iv1. fld1. fld1. fld1. iv1.
  Qed.

  (* the three methods hand the wrapped tuple to the plain helpers *)
  Lemma tops_fields_calls c fs : calls c (Vtfields (VTuple fs)) [] (ref_fields fs).
  Proof.
    eapply calls_intro; [reflexivity|reflexivity|]. unfold tops_fields_body.
    eapply ev_dot_copy; [iv1|apply tuples_index_fields|]. apply fields_copies. dotsym.
  Qed.
  Lemma tops_values_calls c fs : calls c (Vtvalues (VTuple fs)) [] (ref_values fs).
  Proof.
    eapply calls_intro; [reflexivity|reflexivity|]. unfold tops_values_body.
    eapply ev_dot_copy; [iv1|apply tuples_index_values|]. apply values_copies. dotsym.
  Qed.
  Lemma tops_iter_calls c fs : calls c (Vtiter (VTuple fs)) [] (ref_iter fs).
  Proof.
    eapply calls_intro; [reflexivity|reflexivity|]. unfold tops_iter_body.
    eapply ev_dot_copy; [iv1|apply tuples_index_iter|]. apply iter_copies. dotsym.
  Qed.

  Definition tops_of_arg : expr := imp_inst tuples_path "ops" [("tpl", "arg")]%string.
  Definition meth0 (m : expr) (name : string) : expr := EBin DOT m (ECall (ESym (b name)) []).

  Lemma tops_of_arg_evals E st ord fs :
    evals (ctx_gen fo E st ord [(b "arg", VTuple fs)]) tops_of_arg (tops_tuple (VTuple fs)).
  Proof.
    unfold tops_of_arg, imp_inst, ctx_gen. cbn [map fst snd].
    eapply ev_dot_copy; [apply ev_import_std, in_tuples|apply tuples_index_ops|].
    apply tops_copies. iv1.
  Qed.

  Theorem std_tuples_ops_fields : forall E st ord fs,
      exists f, eval f [] (ctx_gen fo E st ord [(b "arg", VTuple fs)]) (meth0 tops_of_arg "fields")
                = Ok (VList (map (fun kv => VStr (fst kv)) fs)).
  Proof.
    intros E st ord fs. eapply ev_dot_call; [iv1|apply tops_of_arg_evals|reflexivity|apply tops_fields_calls].
  Qed.
  Theorem std_tuples_ops_values : forall E st ord fs,
      exists f, eval f [] (ctx_gen fo E st ord [(b "arg", VTuple fs)]) (meth0 tops_of_arg "values")
                = Ok (VList (map snd fs)).
  Proof.
    intros E st ord fs. eapply ev_dot_call; [iv1|apply tops_of_arg_evals|reflexivity|apply tops_values_calls].
  Qed.
  Theorem std_tuples_ops_iter : forall E st ord fs,
      exists f, eval f [] (ctx_gen fo E st ord [(b "arg", VTuple fs)]) (meth0 tops_of_arg "iter")
                = Ok (VList (map (fun kv => VList [VStr (fst kv); snd kv]) fs)).
  Proof.
    intros E st ord fs. eapply ev_dot_call; [iv1|apply tops_of_arg_evals|reflexivity|apply tops_iter_calls].
  Qed.

  (* the plain helpers through the import (the statements of Std_Tuples.v are about the unlinked scope) *)
  Theorem std_imp_fields : forall E st ord fs,
      exists f, eval f [] (ctx_gen fo E st ord [(b "arg", VTuple fs)]) tfields_call
                = Ok (VList (map (fun kv => VStr (fst kv)) fs)).
  Proof.
    intros E st ord fs. unfold tfields_call, imp_inst, ctx_gen. cbn [map fst snd].
    eapply ev_dot_copy; [apply ev_import_std, in_tuples|apply tuples_index_fields|]. apply fields_copies. iv1.
  Qed.
  Theorem std_imp_values : forall E st ord fs,
      exists f, eval f [] (ctx_gen fo E st ord [(b "arg", VTuple fs)]) tvalues_call = Ok (VList (map snd fs)).
  Proof.
    intros E st ord fs. unfold tvalues_call, imp_inst, ctx_gen. cbn [map fst snd].
    eapply ev_dot_copy; [apply ev_import_std, in_tuples|apply tuples_index_values|]. apply values_copies. iv1.
  Qed.
  Theorem std_imp_iter : forall E st ord fs,
      exists f, eval f [] (ctx_gen fo E st ord [(b "arg", VTuple fs)]) titer_call
                = Ok (VList (map (fun kv => VList [VStr (fst kv); snd kv]) fs)).
  Proof.
    intros E st ord fs. unfold titer_call, imp_inst, ctx_gen. cbn [map fst snd].
    eapply ev_dot_copy; [apply ev_import_std, in_tuples|apply tuples_index_iter|]. apply iter_copies. iv1.
  Qed.

  (* wrapper and plain helper return the same value *)
  Theorem std_tuples_ops_fields_agrees : forall E st ord fs,
      exists f v, eval f [] (ctx_gen fo E st ord [(b "arg", VTuple fs)]) (meth0 tops_of_arg "fields") = Ok v /\
                  eval f [] (ctx_gen fo E st ord [(b "arg", VTuple fs)]) tfields_call = Ok v.
  Proof.
    intros. destruct (agree_intro _ _ _ _ (std_tuples_ops_fields E st ord fs) (std_imp_fields E st ord fs)) as [f H].
    exists f, (ref_fields fs). exact H.
  Qed.
  Theorem std_tuples_ops_values_agrees : forall E st ord fs,
      exists f v, eval f [] (ctx_gen fo E st ord [(b "arg", VTuple fs)]) (meth0 tops_of_arg "values") = Ok v /\
                  eval f [] (ctx_gen fo E st ord [(b "arg", VTuple fs)]) tvalues_call = Ok v.
  Proof.
    intros. destruct (agree_intro _ _ _ _ (std_tuples_ops_values E st ord fs) (std_imp_values E st ord fs)) as [f H].
    exists f, (ref_values fs). exact H.
  Qed.
  Theorem std_tuples_ops_iter_agrees : forall E st ord fs,
      exists f v, eval f [] (ctx_gen fo E st ord [(b "arg", VTuple fs)]) (meth0 tops_of_arg "iter") = Ok v /\
                  eval f [] (ctx_gen fo E st ord [(b "arg", VTuple fs)]) titer_call = Ok v.
  Proof.
    intros. destruct (agree_intro _ _ _ _ (std_tuples_ops_iter E st ord fs) (std_imp_iter E st ord fs)) as [f H].
    exists f, (ref_iter fs). exact H.
  Qed.
  Notation fits_chk := (fits_chk fo).

  (* head and reverse of the linked library (len and tail are in Imp_Lists.v) *)
  Definition head_v : value := member fo lists_path "head".
  Definition head_clo := fn_clo fo head_v.
  Definition head_body : expr := Eval vm_compute in fn_body fo head_v.
  Lemma head_v_eq : head_v = VFunc [b "list"] head_body head_clo.
  Proof. apply as_func_eq. vm_compute. reflexivity. Qed.
  Lemma lists_index_head c : index fo c (import_value fo lists_path) (VStr (b "head")) = Ok head_v.
  Proof. apply index_member. vm_compute. reflexivity. Qed.
  Lemma head_clo_len : lookup fo (b "len") head_clo = Some (len_v fo).
  Proof. vm_compute. reflexivity. Qed.

  Lemma head_calls c l :
    fits (Z.of_nat (List.length l)) -> calls c head_v [VList l] (ref_head fo l).
  Proof.
    intros Hfit. rewrite head_v_eq.
    eapply calls_intro; [reflexivity|reflexivity|]. unfold head_body.
    match goal with |- Std_Rules_Imp.evals _ _ _ ?cc (ESelect ?ve _ _) _ =>
      assert (Hc : evals cc ve (VBool (0 <? Z.of_nat (List.length l))%Z)) end.
    { eapply ev_cmp with (lv := ref_len fo l); [reflexivity| |iv1|reflexivity].
      eapply ev_call; [ivs|apply ev_sym; [reflexivity|exact head_clo_len]|]. apply len_calls, Hfit. }
    destruct l as [|x l].
    - eapply ev_select; [exact Hc|reflexivity|]. ivs.
    - eapply ev_select; [exact Hc|reflexivity|].
      iv1. eapply evl_cons; [eapply ev_dot_int; [iv1|reflexivity]|iv1].
  Qed.

  Definition reverse_v : value := member fo lists_path "reverse".
  Definition reverse_clo := fn_clo fo reverse_v.
  Definition reverse_body : expr := Eval vm_compute in fn_body fo reverse_v.
  Lemma reverse_v_eq : reverse_v = VFunc [b "list"] reverse_body reverse_clo.
  Proof. apply as_func_eq. vm_compute. reflexivity. Qed.
  Lemma lists_index_reverse c : index fo c (import_value fo lists_path) (VStr (b "reverse")) = Ok reverse_v.
  Proof. apply index_member. vm_compute. reflexivity. Qed.

  Lemma reverse_calls c l : calls c reverse_v [VList l] (ref_reverse fo l).
  Proof.
    rewrite reverse_v_eq.
    eapply calls_intro; [reflexivity|reflexivity|]. unfold reverse_body.
    edestruct (reduce_list_inv fo std_imports []) with (I := fun (pre : list value) (a : value) => a = VList (rev pre))
      as (r & Hr & HI); [ | | | | |subst r; exact Hr].
    - iv1.
    - ivs.
    - iv1.
    - reflexivity.
    - intros pre v post a El ->. eexists. split.
      + eapply calls_intro; [reflexivity|reflexivity|].
        eapply ev_add; [ivs|iv1|]. reflexivity.
      + rewrite rev_app_distr. reflexivity.
  Qed.

  Definition lops_v : value := member fo lists_path "ops".
  Definition lops_pkg_clo := pkg_clo fo lops_v.
  Definition lops_out : option expr := Eval vm_compute in mod_out fo lops_v.
  Definition lops_body : list stmt := Eval vm_compute in mod_body fo lops_v.
  Definition lops_pkg : value := VFunc [] (EImport lists_path) lops_pkg_clo.
  Lemma lops_v_eq : lops_v = VModule ([(b "list", VList [])] ++ [(b "pkg", lops_pkg)]) lops_out lops_body.
  Proof. apply as_module_eq. vm_compute. reflexivity. Qed.
  Lemma lists_index_ops c : index fo c (import_value fo lists_path) (VStr (b "ops")) = Ok lops_v.
  Proof. apply index_member. vm_compute. reflexivity. Qed.

  Definition lops_let_body (n : nat) : expr :=
    match nth n lops_body (SExpr ENull) with SLet _ (EFunc _ bd) => bd | _ => ENull end.
  Definition lops_sj_body : expr := Eval vm_compute in lops_let_body 3.
  Definition lops_slice_body : expr := Eval vm_compute in lops_let_body 4.
  Definition lops_enum_body : expr := Eval vm_compute in lops_let_body 5.
  Definition lops_tail_body : expr := Eval vm_compute in lops_let_body 6.
  Definition lops_head_body : expr := Eval vm_compute in lops_let_body 7.
  Definition lops_rev_body : expr := Eval vm_compute in lops_let_body 8.

  (* the value of ops{list = l} *)
  Definition lops_modt (l : list value) : value := VTuple [(b "list", VList l); (b "pkg", lops_pkg); (b "this", lops_v)].
  Definition LS3 (l : list value) : scope fo :=
    [(b "len", ref_len fo l); (b "list", VList l); (b "pkg", import_value fo lists_path); (b "mod", lops_modt l)].
  Definition Vlsj l : value := VFunc [b "sep"] lops_sj_body (LS3 l).
  Definition LS4 l : scope fo := (b "str_join", Vlsj l) :: LS3 l.
  Definition Vlslice l : value := VFunc [b "start"; b "end"] lops_slice_body (LS4 l).
  Definition LS5 l : scope fo := (b "slice", Vlslice l) :: LS4 l.
  Definition Vlenum l : value := VFunc [] lops_enum_body (LS5 l).
  Definition LS6 l : scope fo := (b "enumerate", Vlenum l) :: LS5 l.
  Definition Vltail l : value := VFunc [] lops_tail_body (LS6 l).
  Definition LS7 l : scope fo := (b "tail", Vltail l) :: LS6 l.
  Definition Vlhead l : value := VFunc [] lops_head_body (LS7 l).
  Definition LS8 l : scope fo := (b "head", Vlhead l) :: LS7 l.
  Definition Vlrev l : value := VFunc [] lops_rev_body (LS8 l).
  Definition lops_tuple (l : list value) : value :=
    VTuple [(b "len", ref_len fo l); (b "str_join", Vlsj l); (b "slice", Vlslice l); (b "enumerate", Vlenum l);
            (b "tail", Vltail l); (b "head", Vlhead l); (b "reverse", Vlrev l); (b "list", VList l)].

  Lemma lops_copies c e l :
    fits (Z.of_nat (List.length l)) ->
    evals (with_self fo c (Some lops_v)) e (VList l) -> copies c lops_v [(b "list", e)] (lops_tuple l).
  Proof.
    intros Hfit He. destruct c as [s0 slf E st ord].
    eapply (copies_module fo std_imports [] lops_v); [exact lops_v_eq| | | | |].
    - eapply evf_cons; [exact He|reflexivity|iv1].
    - reflexivity.
    - reflexivity.
    - unfold lops_body.
      (* the values are given FOLDED: every closure contains the scope before it, so the unfolded
         scope doubles with each statement *)
      eapply execs_let with (v := import_value fo lists_path); [|reflexivity|reflexivity|].
      { eapply ev_mod_pkg; [reflexivity|reflexivity|apply in_lists]. }
      eapply execs_let with (v := VList l); [dotsym|reflexivity|reflexivity|].
      eapply execs_let with (v := ref_len fo l); [|reflexivity|reflexivity|].
      { eapply ev_dot_call; [|iv1|apply lists_index_len|apply len_calls, Hfit].
        eapply evl_cons; [dotsym|iv1]. }
      eapply execs_let with (v := Vlsj l); [apply ev_func|reflexivity|reflexivity|].
      eapply execs_let with (v := Vlslice l); [apply ev_func|reflexivity|reflexivity|].
      eapply execs_let with (v := Vlenum l); [apply ev_func|reflexivity|reflexivity|].
      eapply execs_let with (v := Vltail l); [apply ev_func|reflexivity|reflexivity|].
      eapply execs_let with (v := Vlhead l); [apply ev_func|reflexivity|reflexivity|].
      eapply execs_let with (v := Vlrev l); [apply ev_func|reflexivity|reflexivity|].
      apply execs_nil.
    - unfold lops_out, lops_tuple. iv1. fld1. fld1. fld1. fld1. fld1. fld1. fld1. fld1. iv1.
  Qed.

  (* head(): the plain head of the wrapped list *)
  Lemma lops_head_calls c l :
    fits (Z.of_nat (List.length l)) -> calls c (Vlhead l) [] (ref_head fo l).
  Proof.
    intros Hfit. eapply calls_intro; [reflexivity|reflexivity|]. unfold lops_head_body.
    eapply ev_dot_call; [|iv1|apply lists_index_head|apply head_calls, Hfit].
    eapply evl_cons; [dotsym|iv1].
  Qed.
  (* tail(): the wrapper of the plain tail *)
  Lemma lops_tail_calls c l :
    fits (Z.of_nat (List.length l)) -> calls c (Vltail l) [] (lops_tuple (tl l)).
  Proof.
    intros Hfit. eapply calls_intro; [reflexivity|reflexivity|]. unfold lops_tail_body.
    eapply ev_dot_copy; [iv1|apply lists_index_ops|]. apply lops_copies.
    - apply (fits_between _ 0 (Z.of_nat (List.length l))); [apply fits_0|exact Hfit|].
      destruct l; cbn [tl List.length]; lia.
    - eapply ev_dot_call; [|iv1|apply lists_index_tail|apply tail_calls, Hfit].
      eapply evl_cons; [dotsym|iv1].
  Qed.
  (* reverse(): the wrapper (mod.this) of the plain reverse *)
  Lemma lops_reverse_calls c l :
    fits (Z.of_nat (List.length l)) -> calls c (Vlrev l) [] (lops_tuple (rev l)).
  Proof.
    intros Hfit. eapply calls_intro; [reflexivity|reflexivity|]. unfold lops_rev_body.
    eapply ev_dot_copy; [iv1|reflexivity|]. apply lops_copies.
    - rewrite rev_length. exact Hfit.
    - eapply ev_dot_call; [|iv1|apply lists_index_reverse|apply reverse_calls].
      eapply evl_cons; [dotsym|iv1].
  Qed.

  Definition lops_of_arg : expr := imp_inst lists_path "ops" [("list", "arg")]%string.
  Definition fld (m : expr) (name : string) : expr := EBin DOT m (ESym (b name)).

  Lemma lops_of_arg_evals E st ord l :
    fits (Z.of_nat (List.length l)) ->
    evals (ctx_gen fo E st ord [(b "arg", VList l)]) lops_of_arg (lops_tuple l).
  Proof.
    intros Hfit. unfold lops_of_arg, imp_inst, ctx_gen. cbn [map fst snd].
    eapply ev_dot_copy; [apply ev_import_std, in_lists|apply lists_index_ops|].
    apply lops_copies; [exact Hfit|iv1].
  Qed.

  (* the plain helpers through the import: (import "std/lists.ucg").<name>(arg) *)
  Definition llen_call : expr := imp_call lists_path "len" ["arg"]%string.
  Definition lhead_call : expr := imp_call lists_path "head" ["arg"]%string.
  Definition ltail_call : expr := imp_call lists_path "tail" ["arg"]%string.
  Definition lreverse_call : expr := imp_call lists_path "reverse" ["arg"]%string.

  Theorem std_lists_ops_len : forall E st ord l, fits (Z.of_nat (List.length l)) ->
      exists f, eval f [] (ctx_gen fo E st ord [(b "arg", VList l)]) (fld lops_of_arg "len")
                = Ok (VInt (Z.of_nat (List.length l))).
  Proof.
    intros E st ord l Hfit. eapply ev_dot_sym; [apply lops_of_arg_evals, Hfit|reflexivity].
  Qed.
  Theorem std_lists_ops_list : forall E st ord l, fits (Z.of_nat (List.length l)) ->
      exists f, eval f [] (ctx_gen fo E st ord [(b "arg", VList l)]) (fld lops_of_arg "list") = Ok (VList l).
  Proof.
    intros E st ord l Hfit. eapply ev_dot_sym; [apply lops_of_arg_evals, Hfit|reflexivity].
  Qed.
  Theorem std_lists_ops_head : forall E st ord l, fits (Z.of_nat (List.length l)) ->
      exists f, eval f [] (ctx_gen fo E st ord [(b "arg", VList l)]) (meth0 lops_of_arg "head")
                = Ok (VList (match l with [] => [] | x :: _ => [x] end)).
  Proof.
    intros E st ord l Hfit. eapply ev_dot_call; [iv1|apply lops_of_arg_evals, Hfit|reflexivity|apply lops_head_calls, Hfit].
  Qed.
  Theorem std_lists_ops_tail_list : forall E st ord l, fits (Z.of_nat (List.length l)) ->
      exists f, eval f [] (ctx_gen fo E st ord [(b "arg", VList l)]) (fld (meth0 lops_of_arg "tail") "list")
                = Ok (VList (tl l)).
  Proof.
    intros E st ord l Hfit. eapply ev_dot_sym with (lv := lops_tuple (tl l)); [|reflexivity].
    eapply ev_dot_call; [iv1|apply lops_of_arg_evals, Hfit|reflexivity|apply lops_tail_calls, Hfit].
  Qed.
  Theorem std_lists_ops_reverse_list : forall E st ord l, fits (Z.of_nat (List.length l)) ->
      exists f, eval f [] (ctx_gen fo E st ord [(b "arg", VList l)]) (fld (meth0 lops_of_arg "reverse") "list")
                = Ok (VList (rev l)).
  Proof.
    intros E st ord l Hfit. eapply ev_dot_sym with (lv := lops_tuple (rev l)); [|reflexivity].
    eapply ev_dot_call; [iv1|apply lops_of_arg_evals, Hfit|reflexivity|apply lops_reverse_calls, Hfit].
  Qed.

  Theorem std_imp_len : forall E st ord l, fits (Z.of_nat (List.length l)) ->
      exists f, eval f [] (ctx_gen fo E st ord [(b "arg", VList l)]) llen_call = Ok (VInt (Z.of_nat (List.length l))).
  Proof.
    intros E st ord l Hfit. unfold llen_call, imp_call, ctx_gen. cbn [map].
    eapply ev_dot_call; [ivs|apply ev_import_std, in_lists|apply lists_index_len|apply len_calls, Hfit].
  Qed.
  Theorem std_imp_head : forall E st ord l, fits (Z.of_nat (List.length l)) ->
      exists f, eval f [] (ctx_gen fo E st ord [(b "arg", VList l)]) lhead_call
                = Ok (VList (match l with [] => [] | x :: _ => [x] end)).
  Proof.
    intros E st ord l Hfit. unfold lhead_call, imp_call, ctx_gen. cbn [map].
    eapply ev_dot_call; [ivs|apply ev_import_std, in_lists|apply lists_index_head|apply head_calls, Hfit].
  Qed.
  Theorem std_imp_tail : forall E st ord l, fits (Z.of_nat (List.length l)) ->
      exists f, eval f [] (ctx_gen fo E st ord [(b "arg", VList l)]) ltail_call = Ok (VList (tl l)).
  Proof.
    intros E st ord l Hfit. unfold ltail_call, imp_call, ctx_gen. cbn [map].
    eapply ev_dot_call; [ivs|apply ev_import_std, in_lists|apply lists_index_tail|apply tail_calls, Hfit].
  Qed.
  Theorem std_imp_reverse : forall E st ord l,
      exists f, eval f [] (ctx_gen fo E st ord [(b "arg", VList l)]) lreverse_call = Ok (VList (rev l)).
  Proof.
    intros E st ord l. unfold lreverse_call, imp_call, ctx_gen. cbn [map].
    eapply ev_dot_call; [ivs|apply ev_import_std, in_lists|apply lists_index_reverse|apply reverse_calls].
  Qed.

  (* wrapper and plain helper return the same value *)
  Theorem std_lists_ops_len_agrees : forall E st ord l, fits (Z.of_nat (List.length l)) ->
      exists f v, eval f [] (ctx_gen fo E st ord [(b "arg", VList l)]) (fld lops_of_arg "len") = Ok v /\
                  eval f [] (ctx_gen fo E st ord [(b "arg", VList l)]) llen_call = Ok v.
  Proof.
    intros E st ord l H. destruct (agree_intro _ _ _ _ (std_lists_ops_len E st ord l H) (std_imp_len E st ord l H)) as [f Hf].
    exists f, (ref_len fo l). exact Hf.
  Qed.
  Theorem std_lists_ops_head_agrees : forall E st ord l, fits (Z.of_nat (List.length l)) ->
      exists f v, eval f [] (ctx_gen fo E st ord [(b "arg", VList l)]) (meth0 lops_of_arg "head") = Ok v /\
                  eval f [] (ctx_gen fo E st ord [(b "arg", VList l)]) lhead_call = Ok v.
  Proof.
    intros E st ord l H. destruct (agree_intro _ _ _ _ (std_lists_ops_head E st ord l H) (std_imp_head E st ord l H)) as [f Hf].
    exists f, (ref_head fo l). exact Hf.
  Qed.
  Theorem std_lists_ops_tail_agrees : forall E st ord l, fits (Z.of_nat (List.length l)) ->
      exists f v, eval f [] (ctx_gen fo E st ord [(b "arg", VList l)]) (fld (meth0 lops_of_arg "tail") "list") = Ok v /\
                  eval f [] (ctx_gen fo E st ord [(b "arg", VList l)]) ltail_call = Ok v.
  Proof.
    intros E st ord l H. destruct (agree_intro _ _ _ _ (std_lists_ops_tail_list E st ord l H) (std_imp_tail E st ord l H)) as [f Hf].
    exists f, (ref_tail fo l). exact Hf.
  Qed.
  Theorem std_lists_ops_reverse_agrees : forall E st ord l, fits (Z.of_nat (List.length l)) ->
      exists f v, eval f [] (ctx_gen fo E st ord [(b "arg", VList l)]) (fld (meth0 lops_of_arg "reverse") "list") = Ok v /\
                  eval f [] (ctx_gen fo E st ord [(b "arg", VList l)]) lreverse_call = Ok v.
  Proof.
    intros E st ord l H. destruct (agree_intro _ _ _ _ (std_lists_ops_reverse_list E st ord l H) (std_imp_reverse E st ord l)) as [f Hf].
    exists f, (ref_reverse fo l). exact Hf.
  Qed.
End Ops.

