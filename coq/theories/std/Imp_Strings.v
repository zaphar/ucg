(* std/strings.ucg through `import`: the value of ops{str = s} (= wrap(s)) and its len / str / chars /
   split_at / substr.  Strings are BYTE strings in the semantics; the helpers work on "characters" =
   the UTF-8 sequences [utf8_chars s] (1-4 bytes by the leading byte; a truncated last sequence is one
   character), exactly as the implementation's reduce-over-a-string does. *)
From Ucg Require Import base.Bytes_Lemmas sem.Sem std.Std_Fuel std.Sem_Import std.Sem_Import_Lemmas
     std.Std_Rules_Imp std.Std_Rules_Imp2 std.StdSpec std.StdSpec_Imp std.Imp_Base std.Imp_Lists.

Section Strings.
  Variable fo : float_ops.
  Notation value := (value fo).
  Notation VInt := (VInt fo).
  Notation VStr := (VStr fo).
  Notation VBool := (VBool fo).
  Notation VNull := (VNull fo).
  Notation VList := (VList fo).
  Notation VTuple := (VTuple fo).
  Notation VFunc := (VFunc fo).
  Notation VModule := (VModule fo).
  Notation evals := (evals fo std_imports []).
  Notation calls := (calls fo std_imports []).
  Notation copies := (copies fo std_imports []).
  Notation fits_chk := (fits_chk fo).

  Definition chars (s : bytes) : list bytes := utf8_chars s.
  Definition N (s : bytes) : Z := Z.of_nat (List.length (chars s)).

  (* the characters of a string: each takes at least one byte, and together they are the string *)
  Lemma utf8_len_pos c : (1 <= utf8_len c)%nat.
  Proof. unfold utf8_len. repeat destruct (N.ltb _ _); lia. Qed.
  Lemma utf8_fuel_concat : forall f s, (List.length s <= f)%nat -> concat (utf8_chars_fuel f s) = s.
  Proof.
    induction f as [|f IH]; intros s Hl.
    - destruct s; [reflexivity|cbn in Hl; lia].
    - destruct s as [|c s']; [reflexivity|]. cbn [utf8_chars_fuel concat].
      rewrite IH; [apply firstn_skipn|].
      rewrite skipn_length. pose proof (utf8_len_pos c). cbn [List.length] in *. lia.
  Qed.
  Lemma utf8_concat s : concat (utf8_chars s) = s.
  Proof. apply utf8_fuel_concat. lia. Qed.
  Lemma utf8_fuel_count : forall f s, (List.length (utf8_chars_fuel f s) <= List.length s)%nat.
  Proof.
    induction f as [|f IH]; intros s; [cbn; lia|].
    destruct s as [|c s']; [cbn; lia|]. cbn [utf8_chars_fuel List.length].
    specialize (IH (skipn (utf8_len c) (c :: s'))). rewrite skipn_length in IH.
    pose proof (utf8_len_pos c). cbn [List.length] in *. lia.
  Qed.
  Lemma N_le_bytes s : (N s <= Z.of_nat (List.length s))%Z.
  Proof. unfold N, chars, utf8_chars. pose proof (utf8_fuel_count (List.length s) s). lia. Qed.

  Definition ops_v : value := member fo strings_path "ops".
  Definition ops_pkg_clo := pkg_clo fo ops_v.
  Definition ops_out : option expr := Eval vm_compute in mod_out fo ops_v.
  Definition ops_body : list stmt := Eval vm_compute in mod_body fo ops_v.
  Definition ops_pkg : value := VFunc [] (EImport strings_path) ops_pkg_clo.
  Lemma ops_v_eq : ops_v = VModule ([(b "str", VStr [])] ++ [(b "pkg", ops_pkg)]) ops_out ops_body.
  Proof. apply as_module_eq. vm_compute. reflexivity. Qed.
  Lemma strings_index_ops c : index fo c (import_value fo strings_path) (VStr (b "ops")) = Ok ops_v.
  Proof. apply index_member. vm_compute. reflexivity. Qed.

  Definition stmt_expr (n : nat) (body : list stmt) : expr :=
    match nth n body (SExpr ENull) with SLet _ e => e | _ => ENull end.
  Definition e_mod_out (e : expr) : option expr := match e with EModule _ o _ => o | _ => None end.
  Definition e_mod_body (e : expr) : list stmt := match e with EModule _ _ bd => bd | _ => [] end.
  Definition e_fn_body (e : expr) : expr := match e with EFunc _ bd => bd | _ => ENull end.

  Definition split_on_out := Eval vm_compute in e_mod_out (stmt_expr 4 ops_body).
  Definition split_on_body := Eval vm_compute in e_mod_body (stmt_expr 4 ops_body).
  Definition split_at_body := Eval vm_compute in e_fn_body (stmt_expr 5 ops_body).
  Definition pi_out := Eval vm_compute in e_mod_out (stmt_expr 6 ops_body).
  Definition pi_body := Eval vm_compute in e_mod_body (stmt_expr 6 ops_body).
  Definition pif_body := Eval vm_compute in e_fn_body (stmt_expr 7 ops_body).
  Definition substr_out := Eval vm_compute in e_mod_out (stmt_expr 8 ops_body).
  Definition substr_body := Eval vm_compute in e_mod_body (stmt_expr 8 ops_body).

  Definition pkgf (clo : scope fo) : value := VFunc [] (EImport strings_path) clo.
  Definition Mt (s : bytes) : value := VTuple [(b "str", VStr s); (b "pkg", ops_pkg); (b "this", ops_v)].
  (* T0 .. T9: the scope of the body of `ops` after each of its statements; the member values in between
     (Vsplit_on, Vsplit_at, Vparse_int, Vpif, Vsubstr) close over the scope before them *)
  Definition T0 s : scope fo := [(b "mod", Mt s)].
  Definition T1 s : scope fo := (b "lists", import_value fo lists_path) :: T0 s.
  Definition T2 s : scope fo := (b "len", VInt (N s)) :: T1 s.
  Definition T3 s : scope fo := (b "str", VStr s) :: T2 s.
  Definition T4 s : scope fo := (b "chars", VList (map VStr (chars s))) :: T3 s.
  Definition Vsplit_on s : value :=
    VModule [(b "on", VStr (b " ")); (b "buf", VStr []); (b "out", VList []); (b "str", VStr s); (b "pkg", pkgf (T4 s))]
            split_on_out split_on_body.
  Definition T5 s : scope fo := (b "split_on", Vsplit_on s) :: T4 s.
  Definition Vsplit_at s : value := VFunc [b "idx"] split_at_body (T5 s).
  Definition T6 s : scope fo := (b "split_at", Vsplit_at s) :: T5 s.
  Definition Vparse_int s : value :=
    VModule [(b "chars", VList []); (b "acc", VStr []); (b "pkg", pkgf (T6 s))] pi_out pi_body.
  Definition T7 s : scope fo := (b "parse_int", Vparse_int s) :: T6 s.
  Definition Vpif s : value := VFunc [] pif_body (T7 s).
  Definition T8 s : scope fo := (b "parse_int_func", Vpif s) :: T7 s.
  Definition Vsubstr s : value :=
    VModule [(b "str", VStr s); (b "start", VInt 0); (b "end", VInt (N s)); (b "pkg", pkgf (T8 s))] substr_out substr_body.
  Definition T9 s : scope fo := (b "substr", Vsubstr s) :: T8 s.
  Definition ops_tuple (s : bytes) : value :=
    VTuple [(b "len", VInt (N s)); (b "str", VStr s); (b "chars", VList (map VStr (chars s)));
            (b "split_on", Vsplit_on s); (b "split_at", Vsplit_at s); (b "substr", Vsubstr s);
            (b "parse_int", Vpif s)].

  Definition step_chars (a : value) (ch : bytes) : value :=
    match a with Sem.VList _ x => VList (x ++ [VStr ch]) | _ => a end.
  Lemma fold_step_chars cs x : fold_left step_chars cs (VList x) = VList (x ++ map VStr cs).
  Proof.
    revert x. induction cs as [|c cs IH]; intros x; cbn [fold_left map step_chars].
    - rewrite app_nil_r. reflexivity.
    - rewrite IH, <- app_assoc. reflexivity.
  Qed.

  Lemma ops_copies c e s :
    fits (N s) ->
    evals (with_self fo c (Some ops_v)) e (VStr s) -> copies c ops_v [(b "str", e)] (ops_tuple s).
  Proof.
    intros Hfit He. destruct c as [s0 slf E st ord].
    eapply (copies_module fo std_imports [] ops_v); [exact ops_v_eq| | | | |].
    - eapply evf_cons; [exact He|reflexivity|iv1].
    - reflexivity.
    - reflexivity.
    - unfold ops_body. in_scope (T0 s).
      eapply execs_let; [apply ev_import_std, in_lists|reflexivity|reflexivity|]. in_scope (T1 s).
      eapply execs_let; [|reflexivity|reflexivity|].
      { eapply ev_dot_call; [ivs; reflexivity|iv1|apply lists_index_len|apply len_calls_str, Hfit]. }
      in_scope (T2 s).
      eapply execs_let; [dotsym|reflexivity|reflexivity|]. in_scope (T3 s).
      eapply execs_let; [|reflexivity|reflexivity|].
      { eapply evals_eq.
        - eapply (reduce_str_is_fold_pre fo std_imports []) with (I := fun _ a => exists x, a = VList x) (step := step_chars).
          + iv1.
          + ivs.
          + dotsym.
          + exists []. reflexivity.
          + intros pre ch post a _ [x ->]. split; [|eexists; reflexivity].
            eapply calls_intro; [reflexivity|reflexivity|]. eapply ev_add; [iv1|ivs|reflexivity].
        - apply (fold_step_chars (utf8_chars s) []). }
      in_scope (T4 s).
      eapply execs_let; [|reflexivity|reflexivity|].
      { eapply ev_module_lit. fld1. fld1. flds. fldd. fld1. iv1. }
      in_scope (T5 s).
      eapply execs_let; [iv1|reflexivity|reflexivity|]. in_scope (T6 s).
      eapply execs_let; [|reflexivity|reflexivity|].
      { eapply ev_module_lit. flds. fld1. fld1. iv1. }
      in_scope (T7 s).
      eapply execs_let; [iv1|reflexivity|reflexivity|]. in_scope (T8 s).
      eapply execs_let; [|reflexivity|reflexivity|].
      { eapply ev_module_lit. fldd. fld1. fld1. fld1. iv1. }
      in_scope (T9 s).
      apply execs_nil.
    - unfold ops_out, ops_tuple, T9, T8, T7, T6, T5. iv1. fld1. fld1. fld1. fld1. fld1. fld1. fld1. iv1.
  Qed.
  Definition wrap_v : value := member fo strings_path "wrap".
  Definition wrap_clo := fn_clo fo wrap_v.
  Definition wrap_body : expr := Eval vm_compute in fn_body fo wrap_v.
  Lemma wrap_v_eq : wrap_v = VFunc [b "str"] wrap_body wrap_clo.
  Proof. apply as_func_eq. vm_compute. reflexivity. Qed.
  Lemma wrap_clo_ops : lookup fo (b "ops") wrap_clo = Some ops_v.
  Proof. vm_compute. reflexivity. Qed.
  Lemma strings_index_wrap c : index fo c (import_value fo strings_path) (VStr (b "wrap")) = Ok wrap_v.
  Proof. apply index_member. vm_compute. reflexivity. Qed.

  Lemma wrap_calls c s : fits (N s) -> calls c wrap_v [VStr s] (ops_tuple s).
  Proof.
    intros Hfit. rewrite wrap_v_eq. eapply calls_intro; [reflexivity|reflexivity|]. unfold wrap_body.
    eapply ev_copy; [apply ev_sym; [reflexivity|exact wrap_clo_ops]|].
    apply ops_copies; [exact Hfit|]. iv1.
  Qed.

  Definition wrap_arg : expr := imp_call strings_path "wrap" ["arg"%string].
  Lemma wrap_arg_evals E st ord sc0 s :
    fits (N s) -> lookup fo (b "arg") sc0 = Some (VStr s) ->
    evals (Build_ctx fo sc0 None E st ord) wrap_arg (ops_tuple s).
  Proof.
    intros Hfit Hl. unfold wrap_arg, imp_call. cbn [map].
    eapply ev_dot_call; [|apply ev_import_std, in_strings|apply strings_index_wrap|apply wrap_calls, Hfit].
    eapply evl_cons; [apply ev_sym; [reflexivity|exact Hl]|iv1].
  Qed.

  (* len counts characters, str is the string, chars are the characters *)
  Theorem std_strings_len : forall E st ord s, fits (N s) ->
      exists f, eval_imp fo std_imports f [] (ctx_gen fo E st ord [(b "arg", VStr s)]) (EBin DOT wrap_arg (ESym (b "len")))
                = Ok (VInt (Z.of_nat (List.length (utf8_chars s)))).
  Proof. intros. unfold ctx_gen. eapply ev_dot_sym; [eapply wrap_arg_evals; [eassumption|reflexivity]|reflexivity]. Qed.
  Theorem std_strings_str : forall E st ord s, fits (N s) ->
      exists f, eval_imp fo std_imports f [] (ctx_gen fo E st ord [(b "arg", VStr s)]) (EBin DOT wrap_arg (ESym (b "str")))
                = Ok (VStr s).
  Proof. intros. unfold ctx_gen. eapply ev_dot_sym; [eapply wrap_arg_evals; [eassumption|reflexivity]|reflexivity]. Qed.
  Theorem std_strings_chars : forall E st ord s, fits (N s) ->
      exists f, eval_imp fo std_imports f [] (ctx_gen fo E st ord [(b "arg", VStr s)]) (EBin DOT wrap_arg (ESym (b "chars")))
                = Ok (VList (map VStr (utf8_chars s))).
  Proof. intros. unfold ctx_gen. eapply ev_dot_sym; [eapply wrap_arg_evals; [eassumption|reflexivity]|reflexivity]. Qed.
  Definition sa_acc (j : Z) (L R : bytes) : value :=
    VTuple [(b "counter", VInt j); (b "left", VStr L); (b "right", VStr R)].
  Definition sa_reducer_body : expr :=
    Eval vm_compute in match split_at_body with EFilter _ (EReduce (EFunc _ bd) _ _) => bd | _ => ENull end.

  Lemma sa_step c clo idx j L R ch :
    lookup fo (b "idx") clo = Some (VInt idx) -> fits (j + 1) ->
    calls c (VFunc [b "acc"; b "char"] sa_reducer_body clo) [sa_acc j L R; VStr ch]
          (sa_acc (j + 1) (if (j <? idx)%Z then L ++ ch else L) (if (j <? idx)%Z then R else R ++ ch)).
  Proof.
    intros Hidx Hfit. eapply calls_intro; [reflexivity|reflexivity|]. unfold sa_reducer_body.
    assert (Hge : (idx <=? j)%Z = negb (j <? idx)%Z) by apply Z.leb_antisym.
    destruct (j <? idx)%Z eqn:Hlt; cbn [negb] in Hge.
    - eapply ev_copy; [iv1|]. eapply copies_tuple.
      { eapply evf_cons; [|reflexivity|].
        { eapply ev_add; [dotsym|iv1|]. cbn [arith' arith]. apply fits_chk, Hfit. }
        eapply evf_cons; [|reflexivity|].
        { eapply ev_select.
          - eapply ev_cmp; [reflexivity|dotsym|apply ev_sym; [reflexivity|exact Hidx]|reflexivity].
          - cbn [compare_num]. rewrite Hlt. reflexivity.
          - eapply ev_add; [dotsym|iv1|reflexivity]. }
        eapply evf_cons; [|reflexivity|iv1].
        eapply ev_select.
        + eapply ev_cmp; [reflexivity|dotsym|apply ev_sym; [reflexivity|exact Hidx]|reflexivity].
        + cbn [compare_num]. rewrite Hge. reflexivity.
        + dotsym. }
      reflexivity.
    - eapply ev_copy; [iv1|]. eapply copies_tuple.
      { eapply evf_cons; [|reflexivity|].
        { eapply ev_add; [dotsym|iv1|]. cbn [arith' arith]. apply fits_chk, Hfit. }
        eapply evf_cons; [|reflexivity|].
        { eapply ev_select.
          - eapply ev_cmp; [reflexivity|dotsym|apply ev_sym; [reflexivity|exact Hidx]|reflexivity].
          - cbn [compare_num]. rewrite Hlt. reflexivity.
          - dotsym. }
        eapply evf_cons; [|reflexivity|iv1].
        eapply ev_select.
        + eapply ev_cmp; [reflexivity|dotsym|apply ev_sym; [reflexivity|exact Hidx]|reflexivity].
        + cbn [compare_num]. rewrite Hge. reflexivity.
        + eapply ev_add; [dotsym|iv1|reflexivity]. }
      reflexivity.
  Qed.

  Definition sa_step_fn (idx : Z) (a : value) (ch : bytes) : value :=
    match a with
    | Sem.VTuple _ [(_, Sem.VInt _ j); (_, Sem.VStr _ L); (_, Sem.VStr _ R)] =>
      sa_acc (j + 1) (if (j <? idx)%Z then L ++ ch else L) (if (j <? idx)%Z then R else R ++ ch)
    | _ => a
    end.

  Lemma concat_snoc {A} (l : list (list A)) x : concat (l ++ [x]) = concat l ++ x.
  Proof. rewrite concat_app. cbn. rewrite app_nil_r. reflexivity. Qed.
  Lemma firstn_snoc {A} k (pre : list A) x :
    firstn k (pre ++ [x]) = if (List.length pre <? k)%nat then firstn k pre ++ [x] else firstn k pre.
  Proof.
    rewrite firstn_app. destruct (Nat.ltb_spec (List.length pre) k) as [H|H].
    - destruct (k - List.length pre)%nat eqn:E; [lia|]. cbn. rewrite firstn_nil. reflexivity.
    - replace (k - List.length pre)%nat with 0%nat by lia. cbn. apply app_nil_r.
  Qed.
  Lemma skipn_snoc {A} k (pre : list A) x :
    skipn k (pre ++ [x]) = if (List.length pre <? k)%nat then skipn k pre else skipn k pre ++ [x].
  Proof.
    rewrite skipn_app. destruct (Nat.ltb_spec (List.length pre) k) as [H|H].
    - destruct (k - List.length pre)%nat eqn:E; [lia|]. cbn. rewrite skipn_nil. apply app_nil_r.
    - replace (k - List.length pre)%nat with 0%nat by lia. reflexivity.
  Qed.

  (* split_at(idx): the characters before index idx, and the rest *)
  Lemma split_at_calls c s idx :
    fits (N s) ->
    calls c (Vsplit_at s) [VInt idx]
          (VTuple [(b "left", VStr (concat (firstn (Z.to_nat idx) (chars s))));
                   (b "right", VStr (concat (skipn (Z.to_nat idx) (chars s))))]).
  Proof.
    intros Hfit. set (k := Z.to_nat idx).
    eapply calls_intro; [reflexivity|reflexivity|]. unfold split_at_body.
    destruct (reduce_str_is_fold_pre fo std_imports []
                (fctx fo c ((b "idx", VInt idx) :: T5 s))
                (EFunc [b "acc"; b "char"] sa_reducer_body)
                (ETuple [(b "counter", EInt 0); (b "left", EStr []); (b "right", EStr [])])
                (EBin DOT (ESym (b "mod")) (ESym (b "str")))
                (b "acc") (b "char") sa_reducer_body ((b "idx", VInt idx) :: T5 s)
                (sa_acc 0 [] []) s
                (fun pre a => a = sa_acc (Z.of_nat (List.length pre)) (concat (firstn k pre)) (concat (skipn k pre)))
                (sa_step_fn idx)) as [Hev HI].
    - apply ev_func.
    - iv1. fld1. fld1. fld1. iv1.
    - dotsym.
    - unfold sa_acc. rewrite firstn_nil, skipn_nil. reflexivity.
    - intros pre ch post a El ->. cbn [sa_step_fn sa_acc].
      assert (Hj : (Z.of_nat (List.length pre) + 1 <= N s)%Z).
      { unfold N, chars. rewrite El, app_length. cbn [List.length]. lia. }
      split.
      + apply sa_step; [reflexivity|].
        apply (fits_between _ 0 (N s)); [apply fits_0|exact Hfit|lia].
      + rewrite app_length, firstn_snoc, skipn_snoc. cbn [List.length].
        replace (Z.of_nat (List.length pre + 1)) with (Z.of_nat (List.length pre) + 1)%Z by lia.
        assert (Hb : (Z.of_nat (List.length pre) <? idx)%Z = (List.length pre <? k)%nat).
        { unfold k. destruct (Z.ltb_spec (Z.of_nat (List.length pre)) idx), (Nat.ltb_spec (List.length pre) (Z.to_nat idx)); try reflexivity; lia. }
        rewrite Hb. destruct (List.length pre <? k)%nat.
        * pose proof (@concat_snoc ascii (firstn k pre) ch) as Hc. change (list ascii) with bytes in Hc. rewrite Hc. reflexivity.
        * pose proof (@concat_snoc ascii (skipn k pre) ch) as Hc. change (list ascii) with bytes in Hc. rewrite Hc. reflexivity.
    - rewrite HI in Hev.
      eapply evals_eq.
      + eapply (ev_filter_tuple fo std_imports []) with (keepf := fun k' _ => negb (bytes_eqb k' (b "counter"))).
        * apply ev_func.
        * exact Hev.
        * intros k' v _. exists (VBool (negb (bytes_eqb k' (b "counter")))). split.
          -- eapply calls_intro; [reflexivity|reflexivity|].
             eapply ev_neq; [iv1|iv1|reflexivity|]. exists 1. reflexivity.
          -- destruct (bytes_eqb k' (b "counter")); reflexivity.
      + reflexivity.
  Qed.

  Theorem std_strings_split_at : forall E st ord s idx, fits (N s) ->
      exists f, eval_imp fo std_imports f [] (ctx_gen fo E st ord [(b "arg2", VInt idx); (b "arg", VStr s)])
                         (EBin DOT wrap_arg (ECall (ESym (b "split_at")) [ESym (b "arg2")]))
                = Ok (VTuple [(b "left", VStr (concat (firstn (Z.to_nat idx) (utf8_chars s))));
                              (b "right", VStr (concat (skipn (Z.to_nat idx) (utf8_chars s))))]).
  Proof.
    intros E st ord s idx Hfit. unfold ctx_gen.
    eapply ev_dot_call; [ivs|eapply wrap_arg_evals; [eassumption|reflexivity]|reflexivity|apply split_at_calls, Hfit].
  Qed.
  Lemma pick_snoc a b' : forall pre j ch,
      pick a b' j (pre ++ [ch]) =
      pick a b' j pre ++ (if Z.leb a (j + Z.of_nat (List.length pre)) && Z.leb (j + Z.of_nat (List.length pre)) b' then ch else []).
  Proof.
    induction pre as [|c pre IH]; intros j ch; cbn [pick app List.length].
    - rewrite Z.add_0_r, app_nil_r. reflexivity.
    - rewrite IH, app_assoc. replace (j + 1 + Z.of_nat (List.length pre))%Z with (j + Z.of_nat (S (List.length pre)))%Z by lia.
      reflexivity.
  Qed.
  Lemma pick_length a b' : forall cs j, (List.length (pick a b' j cs) <= List.length (concat cs))%nat.
  Proof.
    induction cs as [|c cs IH]; intros j; cbn [pick concat]; [lia|].
    rewrite !app_length. specialize (IH (j + 1)%Z). destruct (_ && _); cbn [List.length]; lia.
  Qed.

  Definition sub_acc (j : Z) (S' : bytes) : value := VTuple [(b "counter", VInt j); (b "str", VStr S')].
  Definition sub_reducer_body : expr :=
    Eval vm_compute in e_fn_body (stmt_expr 1 substr_body).

  Lemma sub_step c clo flds a b' j S' ch :
    lookup fo (b "mod") clo = Some (VTuple flds) ->
    lookup fo (b "start") flds = Some (VInt a) -> lookup fo (b "end") flds = Some (VInt b') ->
    fits (j + 1) ->
    calls c (VFunc [b "acc"; b "char"] sub_reducer_body clo) [sub_acc j S'; VStr ch]
          (sub_acc (j + 1) (if Z.leb a j && Z.leb j b' then S' ++ ch else S')).
  Proof.
    intros Hmod Hst Hen Hfit. eapply calls_intro; [reflexivity|reflexivity|]. unfold sub_reducer_body.
    assert (Hcond : forall cc, lookup fo (b "mod") (sc fo cc) = Some (VTuple flds) ->
                              lookup fo (b "acc") (sc fo cc) = Some (sub_acc j S') ->
              Std_Rules_Imp.evals fo std_imports [] cc
                (EBin AND (EGroup (EBin GTEqual (EBin DOT (ESym (b "acc")) (ESym (b "counter"))) (EBin DOT (ESym (b "mod")) (ESym (b "start")))))
                          (EGroup (EBin LTEqual (EBin DOT (ESym (b "acc")) (ESym (b "counter"))) (EBin DOT (ESym (b "mod")) (ESym (b "end"))))))
                (VBool (Z.leb a j && Z.leb j b'))).
    { intros cc H1 H2.
      assert (Hc1 : Std_Rules_Imp.evals fo std_imports [] cc (EGroup (EBin GTEqual (EBin DOT (ESym (b "acc")) (ESym (b "counter"))) (EBin DOT (ESym (b "mod")) (ESym (b "start"))))) (VBool (Z.leb a j))).
      { iv1. eapply ev_cmp.
        - reflexivity.
        - eapply ev_dot_sym; [apply ev_sym; [reflexivity|exact H2]|reflexivity].
        - eapply ev_dot_sym; [apply ev_sym; [reflexivity|exact H1]|apply index_tuple_lookup, Hst].
        - reflexivity. }
      destruct (Z.leb a j).
      - eapply ev_and_true; [exact Hc1|]. iv1. eapply ev_cmp.
        + reflexivity.
        + eapply ev_dot_sym; [apply ev_sym; [reflexivity|exact H2]|reflexivity].
        + eapply ev_dot_sym; [apply ev_sym; [reflexivity|exact H1]|apply index_tuple_lookup, Hen].
        + reflexivity.
      - apply ev_and_false. exact Hc1. }
    destruct (Z.leb a j && Z.leb j b') eqn:Hb.
    - eapply ev_copy; [iv1|]. eapply copies_tuple.
      { eapply evf_cons; [|reflexivity|].
        { eapply ev_add; [dotsym|iv1|]. cbn [arith' arith]. apply fits_chk, Hfit. }
        eapply evf_cons; [|reflexivity|iv1].
        eapply ev_select.
        - apply Hcond; [exact Hmod|reflexivity].
        - reflexivity.
        - eapply ev_add; [dotsym|iv1|reflexivity]. }
      reflexivity.
    - eapply ev_copy; [iv1|]. eapply copies_tuple.
      { eapply evf_cons; [|reflexivity|].
        { eapply ev_add; [dotsym|iv1|]. cbn [arith' arith]. apply fits_chk, Hfit. }
        eapply evf_cons; [|reflexivity|iv1].
        eapply ev_select.
        - apply Hcond; [exact Hmod|reflexivity].
        - reflexivity.
        - dotsym. }
      reflexivity.
  Qed.

  Definition sub_step_fn (a b' : Z) (x : value) (ch : bytes) : value :=
    match x with
    | Sem.VTuple _ [(_, Sem.VInt _ j); (_, Sem.VStr _ S')] =>
      sub_acc (j + 1) (if Z.leb a j && Z.leb j b' then S' ++ ch else S')
    | _ => x
    end.

  (* instantiating the `substr` member of ops{str = s} with start = a, end = b:
     the result is the ops-wrapped substring *)
  Definition subflds (s : bytes) (a b' : Z) : list (bytes * value) :=
    [(b "str", VStr s); (b "start", VInt a); (b "end", VInt b'); (b "pkg", pkgf (T8 s))].
  (* generic in the override list: whatever fields are given, as long as the merged parameters are
     str = s, start = a, end = b *)
  Lemma substr_copies_gen c s fs ovs a b' :
    fits (Z.of_nat (List.length s)) ->
    Std_Rules_Imp.evals_fields fo std_imports [] (with_self fo c (Some (Vsubstr s))) fs [] ovs ->
    merge_fields fo (mod_params fo (Vsubstr s)) ovs = Ok (subflds s a b') ->
    copies c (Vsubstr s) fs (ops_tuple (pick a b' 0 (chars s))).
  Proof.
    intros Hfit Hfs Hmerge. destruct c as [s0 slf E st ord].
    pose proof (N_le_bytes s) as HN.
    assert (HfN : fits (N s)).
    { apply (fits_between _ 0 (Z.of_nat (List.length s))); [apply fits_0|exact Hfit|unfold N in *; lia]. }
    set (flds := [(b "str", VStr s); (b "start", VInt a); (b "end", VInt b'); (b "pkg", pkgf (T8 s));
                  (b "this", VModule [(b "str", VStr s); (b "start", VInt 0); (b "end", VInt (N s)); (b "pkg", pkgf (T8 s))] substr_out substr_body)]).
    eapply (copies_module fo std_imports [] (Vsubstr s)); [reflexivity|exact Hfs|exact Hmerge|reflexivity| |].
    - unfold substr_body.
      eapply execs_let; [|reflexivity|reflexivity|].
      { eapply ev_dot_call; [iv1|iv1|reflexivity|]. unfold pkgf.
        eapply calls_intro; [reflexivity|reflexivity|]. apply ev_import_std, in_strings. }
      eapply execs_let; [iv1|reflexivity|reflexivity|].
      eapply execs_let; [|reflexivity|reflexivity|apply execs_nil].
      eapply ev_dot_copy; [iv1|apply strings_index_ops|].
      apply (ops_copies _ _ (pick a b' 0 (chars s))).
      + apply (fits_between _ 0 (Z.of_nat (List.length s))); [apply fits_0|exact Hfit|].
        pose proof (N_le_bytes (pick a b' 0 (chars s))) as Hp1. pose proof (pick_length a b' (chars s) 0%Z) as Hp2.
        unfold chars in Hp1, Hp2 |- *. rewrite utf8_concat in Hp2. split; [unfold N; lia|]. lia.
      + match goal with |- Std_Rules_Imp.evals _ _ _ ?cc (EBin DOT (EReduce ?fe ?ae ?te) _) _ =>
          destruct (reduce_str_is_fold_pre fo std_imports [] cc fe ae te (b "acc") (b "char") sub_reducer_body
                      ((b "pkg", import_value fo strings_path) :: [(b "mod", VTuple flds)])
                      (sub_acc 0 []) s
                      (fun pre x => x = sub_acc (Z.of_nat (List.length pre)) (pick a b' 0 pre))
                      (sub_step_fn a b')) as [Hev HI]
        end.
        * iv1.
        * iv1. fld1. fld1. iv1.
        * dotsym.
        * reflexivity.
        * intros pre ch post x El ->. cbn [sub_step_fn sub_acc].
          assert (Hj : (Z.of_nat (List.length pre) + 1 <= N s)%Z).
          { unfold N, chars. rewrite El, app_length. cbn [List.length]. lia. }
          split.
          -- eapply sub_step; [reflexivity|reflexivity|reflexivity|].
             apply (fits_between _ 0 (N s)); [apply fits_0|exact HfN|lia].
          -- rewrite app_length, pick_snoc. cbn [List.length]. rewrite Z.add_0_l.
             replace (Z.of_nat (List.length pre + 1)) with (Z.of_nat (List.length pre) + 1)%Z by lia.
             destruct (_ && _); [reflexivity|rewrite app_nil_r; reflexivity].
        * rewrite HI in Hev. eapply ev_dot_sym; [exact Hev|reflexivity].
    - unfold substr_out. iv1.
  Qed.

  Lemma substr_copies c s e1 e2 a b' :
    fits (Z.of_nat (List.length s)) ->
    evals (with_self fo c (Some (Vsubstr s))) e1 (VInt a) ->
    evals (with_self fo c (Some (Vsubstr s))) e2 (VInt b') ->
    copies c (Vsubstr s) [(b "start", e1); (b "end", e2)] (ops_tuple (pick a b' 0 (chars s))).
  Proof.
    intros Hfit H1 H2.
    eapply substr_copies_gen with (ovs := [(b "start", VInt a); (b "end", VInt b')]); [exact Hfit| |reflexivity].
    eapply evf_cons; [exact H1|reflexivity|]. eapply evf_cons; [exact H2|reflexivity|iv1].
  Qed.

  Theorem std_strings_substr : forall E st ord s a b',
      fits (Z.of_nat (List.length s)) ->
      exists f, eval_imp fo std_imports f []
                  (ctx_gen fo E st ord [(b "arg3", VInt b'); (b "arg2", VInt a); (b "arg", VStr s)])
                  (EBin DOT (EBin DOT wrap_arg (ECopy (ESym (b "substr")) [(b "start", ESym (b "arg2")); (b "end", ESym (b "arg3"))]))
                            (ESym (b "str")))
                = Ok (VStr (pick a b' 0 (utf8_chars s))).
  Proof.
    intros E st ord s a b' Hfit. unfold ctx_gen.
    assert (HfN : fits (N s)).
    { pose proof (N_le_bytes s). apply (fits_between _ 0 (Z.of_nat (List.length s))); [apply fits_0|exact Hfit|unfold N in *; lia]. }
    eapply ev_dot_sym.
    - eapply ev_dot_copy; [eapply wrap_arg_evals; [exact HfN|reflexivity]|reflexivity|].
      apply substr_copies; [exact Hfit|iv1|iv1].
    - reflexivity.
  Qed.
End Strings.
