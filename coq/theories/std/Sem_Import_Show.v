(* A printer: a program's bindings as an
   s-expression with hex-encoded strings.  Not used by any theorem. *)
From Ucg Require Import std.Sem_Import.

Definition hexd (n : N) : ascii := ascii_of_N (if N.ltb n 10 then 48 + n else 87 + n).
Fixpoint hex (s : bytes) : bytes :=
  match s with
  | [] => []
  | c :: s' => let n := N_of_ascii c in hexd (N.div n 16) :: hexd (N.modulo n 16) :: hex s'
  end.

Section Show.
  Variable fo : float_ops.
  Fixpoint show (v : value fo) : bytes :=
    match v with
    | VNull _ => b "(null)"
    | VBool _ true => b "(bool 1)"
    | VBool _ false => b "(bool 0)"
    | VInt _ z => b "(int " ++ dec_Z z ++ b ")"
    | VFloat _ _ => b "(float)"
    | VStr _ s => b "(str x" ++ hex s ++ b ")"
    | VList _ l => b "(list" ++ (fix go (l : list (value fo)) : bytes :=
                                   match l with [] => [] | v :: l' => " "%char :: show v ++ go l' end) l ++ b ")"
    | VTuple _ fs => b "(tuple" ++ (fix go (fs : list (bytes * value fo)) : bytes :=
                                      match fs with
                                      | [] => []
                                      | (k, v) :: fs' => b " (x" ++ hex k ++ b " " ++ show v ++ b ")" ++ go fs'
                                      end) fs ++ b ")"
    | VFunc _ _ _ _ => b "(func)"
    | VModule _ _ _ _ => b "(module)"
    end.
  Definition show_res (r : res (list (bytes * value fo))) : string :=
    string_of_list_ascii
      match r with
      | Ok fs => b "ok" ++ (fix go (fs : list (bytes * value fo)) : bytes :=
                              match fs with
                              | [] => []
                              | (k, v) :: fs' => b " (x" ++ hex k ++ b " " ++ show v ++ b ")" ++ go fs'
                              end) fs
      | Err => b "err"
      | Unsup => b "unsup"
      | Fuel => b "fuel"
      end.
End Show.
