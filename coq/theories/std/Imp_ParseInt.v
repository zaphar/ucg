(* std/strings.ucg through `import`: parse_int (the recursive module behind wrap(s).parse_int()). *)
From Ucg Require Import base.Bytes_Lemmas sem.Sem std.Std_Fuel std.Sem_Import std.Sem_Import_Lemmas
     std.Std_Rules_Imp std.Std_Rules_Imp2 std.StdSpec std.StdSpec_Imp std.Imp_Base std.Imp_Lists
     std.Imp_Functional std.Imp_Strings.

Section ParseInt.
  Variable fo : float_ops.
  Notation value := (value fo).
  Notation VInt := (VInt fo).
  Notation VStr := (VStr fo).
  Notation VBool := (VBool fo).
  Notation VNull := (VNull fo).
  Notation VList := (VList fo).
  Notation VTuple := (VTuple fo).
  Notation VFunc := (VFunc fo).
  Notation VModule := (VModule fo).
  Notation evals := (evals fo std_imports []).
  Notation calls := (calls fo std_imports []).
  Notation copies := (copies fo std_imports []).
  Notation evals_fields := (evals_fields fo std_imports []).
  Notation PM := (Vparse_int fo).
  Notation maybe_tuple := (maybe_tuple fo).

  Definition found_v (x : bytes) : value := if bytes_eqb x [] then VNull else VStr x.
  Lemma found_v_nonempty a d r : found_v (a ++ d :: r) = VStr (a ++ d :: r).
  Proof. unfold found_v. destruct a; reflexivity. Qed.

  (* is_int *)
  Definition isint_body : expr := Eval vm_compute in e_fn_body (stmt_expr 3 pi_body).
  Definition isint_arms : list (bytes * expr) :=
    Eval vm_compute in match isint_body with ESelect _ _ arms => arms | _ => [] end.
  Lemma pick_digit ch :
    select_pick fo (VStr ch) (Some (EBool false)) isint_arms = Some (EBool (is_digit_char ch)).
  Proof.
    unfold select_pick. cbn [select_key].
    destruct ch as [|d [|e r]].
    - reflexivity.
    - destruct d as [[] [] [] [] [] [] [] []]; vm_compute; reflexivity.
    - unfold isint_arms. cbn [find_arm bytes_eqb is_digit_char]. rewrite !andb_false_r. reflexivity.
  Qed.
  Lemma isint_calls c clo ch :
    calls c (VFunc [b "c"] isint_body clo) [VStr ch] (VBool (is_digit_char ch)).
  Proof.
    eapply calls_intro; [reflexivity|reflexivity|]. unfold isint_body.
    eapply ev_select; [iv1|apply pick_digit|iv1].
  Qed.
  Lemma digit_char_shape ch : is_digit_char ch = true -> exists d, ch = [d].
  Proof. destruct ch as [|d [|e r]]; cbn; try discriminate. intros _. exists d. reflexivity. Qed.

  Lemma functional_index_maybe' c : index fo c (import_value fo functional_path) (Sem.VStr fo (b "maybe")) = Ok (maybe_v fo).
  Proof. apply functional_index_maybe. Qed.

  Section ForS.
    Variable s : bytes.
    Definition pflds (cs : list bytes) (a : bytes) : list (bytes * value) :=
      [(b "chars", VList (map VStr cs)); (b "acc", VStr a); (b "pkg", pkgf fo (T6 fo s))].

    (* the scope after the first four statements: this, the two imports and is_int *)
    Definition P3 (cs : list bytes) (a : bytes) : scope fo :=
      [(b "lists", import_value fo lists_path); (b "f", import_value fo functional_path); (b "this", PM s);
       (b "mod", VTuple (pflds cs a ++ [(b "this", PM s)]))].
    Definition P4 cs a : scope fo := (b "is_int", VFunc [b "c"] isint_body (P3 cs a)) :: P3 cs a.
    Definition result_e : expr := Eval vm_compute in stmt_expr 4 pi_body.

    (* the module around its statement `result`: if that gives the text x, the instance is the maybe
       of x, or of NULL when x is empty *)
    Lemma pi_copies_of c fs ovs cs a x :
      evals_fields (with_self fo c (Some (PM s))) fs [] ovs ->
      merge_fields fo (mod_params fo (PM s)) ovs = Ok (pflds cs a) ->
      (forall slf E st ord, evals (Build_ctx fo (P4 cs a) slf E st ord) result_e (VStr x)) ->
      copies c (PM s) fs (maybe_tuple (found_v x)).
    Proof.
      intros Hfs Hmerge Hres. destruct c as [s0 slf E st ord].
      eapply (copies_module fo std_imports [] (PM s)); [reflexivity|exact Hfs|exact Hmerge|reflexivity| |].
      - unfold pi_body.
        eapply execs_let; [dotsym|reflexivity|reflexivity|].
        eapply execs_let; [apply ev_import_std, in_functional|reflexivity|reflexivity|].
        eapply execs_let; [apply ev_import_std, in_lists|reflexivity|reflexivity|]. in_scope (P3 cs a).
        apply execs_def; [reflexivity|reflexivity|]. in_scope (P4 cs a).
        eapply execs_let; [apply Hres|reflexivity|reflexivity|].
        eapply execs_let with (v := found_v x); [|reflexivity|reflexivity|apply execs_nil].
        (* found = NULL for the empty text *)
        unfold found_v. destruct (bytes_eqb x []) eqn:Hx;
          (eapply ev_select;
           [eapply ev_eq; [iv1|iv1|reflexivity|exists 1; reflexivity]|cbn [veq]; rewrite Hx; reflexivity|iv1]).
      - eapply ev_dot_copy; [iv1|apply functional_index_maybe|]. apply maybe_copies. iv1.
    Qed.

    Lemma pi_copies_gen : forall cs a c fs ovs,
        fits (Z.of_nat (List.length cs)) ->
        evals_fields (with_self fo c (Some (PM s))) fs [] ovs ->
        merge_fields fo (mod_params fo (PM s)) ovs = Ok (pflds cs a) ->
        copies c (PM s) fs (maybe_tuple (found_v (a ++ leading_digits cs))).
    Proof.
      induction cs as [|ch cs IH]; intros a c fs ovs Hfit Hfs Hmerge;
        (eapply pi_copies_of; [exact Hfs|exact Hmerge|]); intros slf E st ord; unfold result_e;
        (* the test whether characters are left *)
        (eapply ev_select;
         [eapply ev_eq;
          [eapply ev_dot_call; [ivs; reflexivity|iv1|apply lists_index_len|apply len_calls; rewrite map_length; exact Hfit]
          |iv1|reflexivity|exists 1; reflexivity]
         |reflexivity|]).
      - (* none: the accumulator *)
        cbn [leading_digits]. rewrite app_nil_r. dotsym.
      - assert (Hfit' : fits (Z.of_nat (List.length cs))).
        { apply (fits_between _ 0 (Z.of_nat (List.length (ch :: cs)))); [apply fits_0|exact Hfit|cbn [List.length]; lia]. }
        assert (Hfm : fits (Z.of_nat (List.length (map VStr (ch :: cs))))) by (rewrite map_length; exact Hfit).
        (* is the first one a digit? *)
        cbn [leading_digits]. destruct (is_digit_char ch) eqn:Hd;
          (eapply ev_select;
           [eapply ev_call; [eapply evl_cons; [eapply ev_dot_int; [dotsym|reflexivity]|iv1]|iv1|apply isint_calls]
           |rewrite Hd; reflexivity|]).
        + (* yes: recurse with the digit appended *)
          destruct (digit_char_shape ch Hd) as [d ->]. rewrite app_assoc.
          eapply ev_dot_call.
          * iv1.
          * eapply ev_copy; [iv1|].
            apply (IH (a ++ [d])) with
                (ovs := [(b "chars", VList (map VStr cs)); (b "acc", VStr (a ++ [d]))]); [exact Hfit'| |reflexivity].
            eapply evf_cons; [|reflexivity|].
            { eapply ev_dot_call; [ivs; reflexivity|iv1|apply lists_index_tail|].
              eapply calls_eq; [apply tail_calls, Hfm|reflexivity]. }
            eapply evf_cons; [|reflexivity|iv1].
            eapply ev_add; [dotsym|eapply ev_dot_int; [dotsym|reflexivity]|reflexivity].
          * reflexivity.
          * eapply calls_eq; [apply unwrap_calls|]. rewrite <- app_assoc. apply found_v_nonempty.
        + (* no: stop *)
          rewrite app_nil_r. dotsym.
    Qed.
  End ForS.

  (* wrap(s).parse_int(): the maybe of the leading digits, cast to an integer when there are any *)
  Definition pif_cast_v (clo : scope fo) : value := VFunc [b "s"] (ECast CInt (ESym (b "s"))) clo.

  Lemma pif_calls_digits c s z :
    fits (N s) -> leading_digits (chars s) <> [] -> parse_int (leading_digits (chars s)) = Some z ->
    calls c (Vpif fo s) [] (maybe_tuple (VInt z)).
  Proof.
    intros Hfit Hne Hz. eapply calls_intro; [reflexivity|reflexivity|]. unfold pif_body.
    assert (Hf : found_v (leading_digits (chars s)) = VStr (leading_digits (chars s))).
    { unfold found_v. destruct (leading_digits (chars s)); [congruence|reflexivity]. }
    eapply ev_dot_call.
    - eapply evl_cons; [iv1|iv1].
    - eapply ev_copy; [iv1|].
      eapply (pi_copies_gen s (chars s) []) with (ovs := [(b "chars", VList (map VStr (chars s)))]).
      + unfold chars. exact Hfit.
      + eapply evf_cons; [iv1|reflexivity|iv1].
      + reflexivity.
    - cbn [app]. rewrite Hf. reflexivity.
    - cbn [app]. rewrite ?Hf. apply do_calls.
      + reflexivity.
      + reflexivity.
      + eapply calls_intro; [reflexivity|reflexivity|].
        eapply ev_cast; [iv1|]. cbn [cast]. rewrite Hz. reflexivity.
  Qed.

  Lemma pif_calls_none c s :
    fits (N s) -> leading_digits (chars s) = [] ->
    calls c (Vpif fo s) [] (maybe_tuple VNull).
  Proof.
    intros Hfit He. eapply calls_intro; [reflexivity|reflexivity|]. unfold pif_body.
    assert (Hf : found_v (leading_digits (chars s)) = VNull).
    { rewrite He. reflexivity. }
    eapply ev_dot_call.
    - eapply evl_cons; [iv1|iv1].
    - eapply ev_copy; [iv1|].
      eapply (pi_copies_gen s (chars s) []) with (ovs := [(b "chars", VList (map VStr (chars s)))]).
      + unfold chars. exact Hfit.
      + eapply evf_cons; [iv1|reflexivity|iv1].
      + reflexivity.
    - cbn [app]. rewrite Hf. reflexivity.
    - cbn [app]. rewrite ?Hf. apply do_calls_null.
  Qed.

  Definition parse_int_unwrap : expr := meth (meth wrap_arg "parse_int" []) "unwrap" [].

  (* digits prefix -> its value (when it fits an i64: [Sem.parse_int] is Rust's i64::from_str) *)
  Theorem std_strings_parse_int : forall E st ord s z,
      fits (N s) -> leading_digits (utf8_chars s) <> [] -> parse_int (leading_digits (utf8_chars s)) = Some z ->
      exists f, eval_imp fo std_imports f [] (ctx_gen fo E st ord [(b "arg", VStr s)]) parse_int_unwrap = Ok (VInt z).
  Proof.
    intros E st ord s z Hfit Hne Hz. unfold ctx_gen, parse_int_unwrap, meth.
    eapply ev_dot_call.
    - iv1.
    - eapply ev_dot_call; [iv1|eapply wrap_arg_evals; [exact Hfit|reflexivity]|reflexivity|].
      apply pif_calls_digits; unfold chars; eassumption.
    - reflexivity.
    - apply unwrap_calls.
  Qed.
  (* no leading digit -> NULL (an empty maybe) *)
  Theorem std_strings_parse_int_none : forall E st ord s,
      fits (N s) -> leading_digits (utf8_chars s) = [] ->
      exists f, eval_imp fo std_imports f [] (ctx_gen fo E st ord [(b "arg", VStr s)]) parse_int_unwrap = Ok VNull.
  Proof.
    intros E st ord s Hfit He. unfold ctx_gen, parse_int_unwrap, meth.
    eapply ev_dot_call.
    - iv1.
    - eapply ev_dot_call; [iv1|eapply wrap_arg_evals; [exact Hfit|reflexivity]|reflexivity|].
      apply pif_calls_none; unfold chars; assumption.
    - reflexivity.
    - apply unwrap_calls.
  Qed.
End ParseInt.
