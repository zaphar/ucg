(* C16 -- a file builds the same alone, in any batch, in any order, any number of times.
   Stated on the model of one invocation (env/Import.v, env/Batch.v): ONE Environment - opcode cache, value cache,
   shape cache, output locks - threaded through the files in command-line order.  [in_batch fuel proj pre r] is the
   build of r after the files pre in the same Environment; [alone] is a fresh process. *)
From Coq Require Import Permutation.
From Ucg Require Import base.Bytes path.Path env.Import env.Import_Lemmas env.Import_Sim env.Batch env.Batch_Lemmas.

(* same success or failure, same value, and every artifact the stand-alone build writes holds the same
   content after the batch - for every project (cyclic, missing, failing, two-out files included) *)
Theorem batch_equals_alone : forall proj fuel pre r post,
    List.length proj <= fuel ->
    is_ok (snd (in_batch LockPerEvaluation fuel proj pre r)) = is_ok (snd (alone LockPerEvaluation fuel proj r)) /\
    (forall v w, snd (in_batch LockPerEvaluation fuel proj pre r) = Ok v ->
                 snd (alone LockPerEvaluation fuel proj r) = Ok w -> v = w) /\
    (forall k v, last_write k (artifacts (fst (alone LockPerEvaluation fuel proj r))) = Some v ->
                 last_write k (artifacts (fst (batch LockPerEvaluation fuel proj empty_state (pre ++ r :: post)))) = Some v).
Proof. exact batch_equals_alone_current. Qed.

(* the same, read off the result list of the invocation by position *)
Theorem batch_status : forall proj fuel files i r,
    List.length proj <= fuel -> List.nth_error files i = Some r ->
    exists res, List.nth_error (snd (batch LockPerEvaluation fuel proj empty_state files)) i = Some (r, res) /\
                is_ok res = is_ok (snd (alone LockPerEvaluation fuel proj r)) /\
                (forall v w, res = Ok v -> snd (alone LockPerEvaluation fuel proj r) = Ok w -> v = w).
Proof. exact batch_status_current. Qed.

(* in every order of the files *)
Theorem batch_order_independent : forall proj fuel pre r post pre' post',
    List.length proj <= fuel -> Permutation (pre ++ r :: post) (pre' ++ r :: post') ->
    is_ok (snd (in_batch LockPerEvaluation fuel proj pre r)) = is_ok (snd (in_batch LockPerEvaluation fuel proj pre' r)) /\
    (forall v w, snd (in_batch LockPerEvaluation fuel proj pre r) = Ok v ->
                 snd (in_batch LockPerEvaluation fuel proj pre' r) = Ok w -> v = w) /\
    (forall k v, last_write k (artifacts (fst (alone LockPerEvaluation fuel proj r))) = Some v ->
       last_write k (artifacts (fst (batch LockPerEvaluation fuel proj empty_state (pre ++ r :: post)))) = Some v /\
       last_write k (artifacts (fst (batch LockPerEvaluation fuel proj empty_state (pre' ++ r :: post')))) = Some v).
Proof. intros proj fuel pre r post pre' post' L _. apply batch_order_indep_current, L. Qed.

(* repeating the invocation: a second process gives the same results ... *)
Theorem invocation_repeatable : forall md proj fuel files,
    fst (repeat_invocation md fuel proj files) = snd (repeat_invocation md fuel proj files).
Proof. exact batch_repeat. Qed.

(* ... and even naming every file twice in one invocation changes nothing *)
Theorem batch_files_twice : forall proj fuel files pre r post,
    List.length proj <= fuel -> (files ++ files)%list = (pre ++ r :: post)%list ->
    is_ok (snd (in_batch LockPerEvaluation fuel proj pre r)) = is_ok (snd (alone LockPerEvaluation fuel proj r)) /\
    (forall k v, last_write k (artifacts (fst (alone LockPerEvaluation fuel proj r))) = Some v ->
                 last_write k (artifacts (fst (repeat_same_env LockPerEvaluation fuel proj files))) = Some v).
Proof. exact batch_repeat_current. Qed.

(* what the caches hold is what the files denote: sharing is not observable *)
Theorem shared_caches_transparent : forall md proj fuel files st l,
    batch md fuel proj empty_state files = (st, l) ->
    (forall k v, List.In (k, v) (val_cache st) -> exists d, value_of d proj k = Some v) /\
    (forall k v, List.In (k, v) (artifacts st) -> exists d, value_of d proj k = Some v).
Proof. exact caches_transparent. Qed.

(* with the output lock of the original code (held for the whole invocation) the property is false *)
Theorem per_invocation_lock_refuted :
  ~ (forall proj fuel pre r, List.length proj <= fuel ->
       is_ok (snd (in_batch LockPerInvocation fuel proj pre r)) = is_ok (snd (alone LockPerInvocation fuel proj r))).
Proof. exact batch_lock_refuted. Qed.
