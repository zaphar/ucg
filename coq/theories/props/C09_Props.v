(* C09 -- imports resolve against the importing file, run once, and cycles are errors.
   (path normalisation, the AST walker's coverage, the import state machine of env/Import.v) *)
From Ucg Require Import base.Bytes path.Path path.Path_Lemmas walk.Walk walk.Walk_Lemmas.
From UcgGen Require Import WalkTable.

(* every field of every Expression / Statement variant that can hold a sub-expression is descended into
   by the walker that rewrites relative import/include paths (table regenerated from the sources) *)
Theorem walker_covers_all_children : covers walk_table = true.
Proof. vm_compute. reflexivity. Qed.

(* hence the walker visits every node of every AST *)
Theorem rewrite_reaches_every_node :
  forall t, wf_rose walk_table t = true -> visit walk_table t = nodes t.
Proof. exact (walk_visits_all_lemma walk_table walker_covers_all_children). Qed.

(* a relative import joined to the importing file's directory and normalised is the file that
   path denotes from that directory *)
Theorem join_normalize : forall d r, absolute d ->
  normalize (d ++ slash :: r) = render_abs (resolve_from (resolve d) r).
Proof. exact Path_Lemmas.join_normalize. Qed.

(* any two spellings of the same file normalise to the same text (one cache key, one cycle-check entry) *)
Theorem normalize_equiv_iff : forall p q,
  absolute p -> absolute q -> (normalize p = normalize q <-> resolve p = resolve q).
Proof. exact Path_Lemmas.normalize_equiv_iff. Qed.

Theorem normalize_idem : forall p, absolute p -> normalize (normalize p) = normalize p.
Proof. exact Path_Lemmas.normalize_idem. Qed.

From Ucg Require Import env.Import env.Import_Lemmas.

(* building a file evaluates every file it reaches at most once *)
Theorem each_file_evaluated_once : forall md fuel proj root,
    List.NoDup (evaluations (fst (build_file md fuel proj empty_state root))).
Proof. exact import_evaluates_once. Qed.

(* two imports of the same file (any spellings, any moments of the build) see the same value *)
Theorem every_importer_sees_same_value :
  forall md proj fuel1 fuel2 stack1 stack2 st1 st2 p q st1' st2' stack1' stack2' v w,
    cache_ok proj (val_cache st1) -> cache_ok proj (val_cache st2) ->
    Path.normalize p = Path.normalize q ->
    import md fuel1 proj stack1 st1 p = (st1', stack1', Ok v) ->
    import md fuel2 proj stack2 st2 q = (st2', stack2', Ok w) -> v = w.
Proof. exact import_same_value. Qed.

(* the spelling of an import path does not matter *)
Theorem import_spelling_irrelevant : forall md p q,
    Path.absolute p -> Path.absolute q -> Path.resolve p = Path.resolve q ->
    forall fuel proj stack st, import md fuel proj stack st p = import md fuel proj stack st q.
Proof. exact spelling_irrelevant. Qed.

(* a cycle through any spelling is reported as an error - nothing is evaluated, nothing written, no loop *)
Theorem import_cycle_reported : forall md proj fuel st root,
    shape_ok proj (shape_cache st) -> cyclic_from proj root -> List.length proj <= fuel ->
    snd (build_file md fuel proj st root) = Err Cycle /\
    evaluations (fst (build_file md fuel proj st root)) = evaluations st /\
    artifacts (fst (build_file md fuel proj st root)) = artifacts st.
Proof. exact import_cycle_is_error. Qed.

(* the fuel of the model is never the reason for an outcome: builds terminate *)
Theorem import_always_terminates : forall md proj fuel st root,
    List.length proj <= fuel -> snd (build_file md fuel proj st root) <> Err OutOfFuel.
Proof. exact import_terminates. Qed.

(* and a project without cycles, missing or failing files builds, to the value the files denote *)
Theorem acyclic_project_builds : forall md proj fuel root d,
    good d proj root = true -> List.length proj <= fuel ->
    exists v, snd (build_file md fuel proj empty_state root) = Ok v /\ value_of d proj root = Some v.
Proof. exact acyclic_builds. Qed.
