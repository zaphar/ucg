(* C05 -- formatting a file never changes its meaning or loses its comments.
   print/Print.v models the AST printer (byte-exact for comment-free programs), the tokenizer's comment map (on top of the proved
   lexer model) and the printer's comment scheduler.  Proved here: everything the printer writes for a leaf of the AST
   re-tokenizes to the token it came from; expressions of the token-level fragment print to their own token sequence; every
   comment of the source is in the comment map and is emitted exactly once whatever the printer's call sequence; comment text is
   a fixed point.  The parser model and the print / parse round trip follow below; what is only observed (comments inside
   expressions, the fixed point of whole files) is decided against the implementation by props/c05.py. *)
From Coq Require Import List.
From Ucg Require Import base.Bytes prec.Climb sem.Ast lex.Lex_Types lex.Lex lex.Lex_Lemmas lex.Lex_Comments print.Print print.Print_Lemmas.
Import ListNotations.

(* a string literal is written so that it lexes back to the same bytes, for every byte string *)
Theorem string_literal_reads_back : forall s : bytes,
    lex (dq :: escape_quotes s ++ [dq]) =
    Some [ {| typ := QUOTED; frag := s; line := 1%N; col := 1%N; off := 0%N |};
           mk_tok END [] (advance ps0 (dq :: escape_quotes s ++ [dq])) ].
Proof. exact string_literal_roundtrip. Qed.

(* a field name, quoted or not as the printer decides, re-tokenizes as one name token *)
Theorem field_name_reads_back : forall k x,
    strip_lex (field_name k ++ sp :: x) = option_map (cons (name_tok k)) (strip_lex (sp :: x)).
Proof. exact field_name_roundtrip. Qed.

Theorem int_literal_reads_back : forall z, (0 <= z)%Z -> strip_lex (dec_of_Z z) = Some [(DIGIT, dec_of_Z z); tk_end].
Proof. exact int_literal_ok. Qed.

(* every finite non-negative float the parser can produce is written as digits . digits, which lexes as a float literal *)
Theorem float_literal_reads_back : forall bits, parser_float bits = true ->
    exists d1 d2, digit_string d1 /\ digit_string d2 /\ float_text bits = d1 ++ dot :: d2 /\
                  strip_lex (float_text bits) = Some [(DIGIT, d1); (PUNCT, b "."); (DIGIT, d2); tk_end].
Proof. exact finite_float_literal_ok. Qed.

(* an expression of the token-level fragment prints to exactly its own tokens, at any indentation *)
Theorem expression_prints_its_tokens : forall ind cur e,
    frag_ok e = true -> strip_lex (pp_expr ind cur e) = Some (toks e ++ [tk_end]).
Proof. exact pp_tokens_roundtrip. Qed.

(* the scheduler: whatever lines the printer asks about, in whatever order, every comment group is emitted exactly once *)
Theorem scheduler_emits_every_group_once : forall m cs, ascending m ->
    let '(_, _, st) := run_render m cs in emitted st = m /\ pending st = [].
Proof. exact schedule_emits_all_once. Qed.

(* end to end from the source text: the comments emitted are exactly the COMMENT tokens of the source, in order *)
Theorem every_comment_emitted_once : forall src toks m cs,
    lex_all src = Some toks -> comment_map_of src = Some m ->
    let '(_, _, st) := run_render m cs in
    flat_map snd (emitted st) = map frag (filter is_comment_tok toks) /\ pending st = [].
Proof. exact comments_all_emitted_once. Qed.

(* ... and a comment of the source text (// body LF starting at a token boundary, also directly after a keyword) is among them *)
Theorem source_comment_is_emitted : forall src toks m cs t pre body rest,
    lex_all src = Some toks -> comment_map_of src = Some m -> In t toks ->
    src = pre ++ b "//" ++ body ++ nl :: rest -> no_nl body = true -> N.to_nat (off t) = List.length pre ->
    let '(_, _, st) := run_render m cs in In (chomp_cr body) (flat_map snd (emitted st)) /\ pending st = [].
Proof. exact source_comments_all_emitted. Qed.

(* the text of a comment is a fixed point of print-then-lex (blank comments included) *)
Theorem comment_text_is_fixed_point : forall frag0, relex_body (relex_body frag0) = relex_body frag0.
Proof. exact comment_text_fixed. Qed.

(* without comments the positions recorded in the AST do not influence the output *)
Theorem positions_do_not_matter_without_comments : forall stmts,
    render_with_comments [] stmts = join_with [nl] (map snd stmts).
Proof. exact positions_irrelevant_without_comments. Qed.

(* the finiteness hypothesis is needed: infinity would be written inf.0, a selector on a name *)
Theorem infinity_is_not_a_literal_refuted : parser_float f64_pos_inf = false /\ float_text f64_pos_inf = b "inf.0".
Proof. destruct float_infinity_not_a_literal as (H1 & H2 & _). split; assumption. Qed.

(* ---- the parser (parse/Parse.v: src/parse/mod.rs and precedence.rs combinator by combinator, compared with the real parser on
   accept/reject and on the tree for every laid-out text by props/c05.py) and the print / parse round trip ---- *)
From Ucg Require Import parse.Parse parse.Parse_Toks parse.Parse_Lemmas.
From Ucg Require parse.Parse_Lex.
From UcgGen Require Import PrecTable.

(* token level, the WHOLE language: the tokens the printer writes for a program parse back to that program (templates kept as
   the raw text the parser keeps), for every program inside the executable side condition prog_ok *)
Theorem printed_tokens_parse_back : forall ind (p : Ast.prog),
    prog_ok ind p = true -> parse (ptoks ind p ++ [(END, [])]) = Parsed (pnorm ind p).
Proof. exact parse_tokens_of_prog. Qed.

(* every binary tree the parser builds is the tree the precedence table prescribes (so parser-built trees always satisfy the
   side condition of the round trip) *)
Theorem parser_builds_table_conforming_trees : forall fuel ts e r,
    p_expr fuel ts = Ok e r -> Climb.WF code_prec (tree_of e).
Proof. exact parse_produces_wf. Qed.

(* text level: wherever printing then lexing gives the program's tokens, formatting preserves the program ... *)
Theorem formatting_preserves_the_program_given_tokens : forall ind (p : Ast.prog),
    lex_of_print ind p -> prog_ok ind p = true -> parse_src (pp_stmts ind p) = Parsed (pnorm ind p).
Proof. exact fmt_preserves_ast_of_tokens. Qed.

(* ... unconditionally on the fragment where the lexer side is proved (literals, symbols, lists, tuples, groups, all 18 operators;
   let / expression / assert / out statements) *)
Theorem formatting_preserves_the_program : forall ind (p : Ast.prog),
    frag_prog p = true -> prog_ok ind p = true -> parse_src (pp_stmts ind p) = Parsed p.
Proof. exact Parse_Lex.fmt_preserves_ast. Qed.

Theorem formatting_is_a_fixed_point : forall ind (p p' : Ast.prog),
    frag_prog p = true -> prog_ok ind p = true -> parse_src (pp_stmts ind p) = Parsed p' -> pp_stmts ind p' = pp_stmts ind p.
Proof. exact Parse_Lex.fmt_fixed_point. Qed.

(* ---- text level for the WHOLE language (parse/Parse_Lex.v): printing then lexing gives the program's tokens for every construct,
   hence formatting preserves the program and is a fixed point.  [lex_ok_prog] is the executable text-level side condition (names
   are lexable words, floats are finite); [pnorm] keeps a format template as the raw text the parser keeps, and [pp_stmts_raw] is
   the printer writing such a raw template verbatim (as AstPrinter writes FormatDef.template). ---- *)
From Ucg Require Import parse.Parse_Lex.

Theorem printed_text_lexes_to_the_programs_tokens : forall ind (p : Ast.prog),
    lex_ok_prog p = true -> prog_ok ind p = true -> lex_of_print ind p.
Proof. exact lex_of_print_ok. Qed.

Theorem formatting_preserves_every_program : forall ind (p : Ast.prog),
    lex_ok_prog p = true -> prog_ok ind p = true -> parse_src (pp_stmts ind p) = Parsed (pnorm ind p).
Proof. exact fmt_preserves_ast_all. Qed.

Theorem formatting_is_a_fixed_point_for_every_program : forall ind (p p' : Ast.prog),
    lex_ok_prog p = true -> prog_ok ind p = true -> parse_src (pp_stmts ind p) = Parsed p' -> pp_stmts_raw ind p' = pp_stmts ind p.
Proof. exact fmt_fixed_point_all. Qed.
