(* C12 -- XML output is well-formed and mirrors the document the program described.
   data/Xml.v models src/convert/xml.rs (document tuple -> writer events), the xml-rs EventWriter (events -> bytes, with its
   indentation and namespace stack) and an independent XML 1.0 reader.  The model's bytes and error messages are compared with
   the real converter on every generated document by props/c12.py. *)
From Ucg Require Import base.Bytes data.Val data.Xml data.Xml_Lemmas data.Xml_Examples.

(* the events the converter hands to the writer are those of the tree the document describes:
   name = last name field, attributes = non-NULL fields of attrs, children in order, NULL attrs/children/text omitted *)
Theorem converter_writes_described_tree : forall d evs, to_xml d = Some evs -> tree_of_events evs = tree_of_doc d.
Proof. exact doc_to_tree_strong. Qed.

(* the conversion is an error exactly for the documents the DSL cannot express (not a tuple, no root, a node that is neither
   tuple nor string, both name and text, a non-string where a string is needed, a character XML cannot contain) *)
Theorem error_iff_inexpressible : forall d, to_xml d = None <-> inexpressible d.
Proof. exact doc_error_iff. Qed.

(* everything written as character data or attribute value consists of characters an XML document may contain *)
Theorem written_characters_are_xml_chars : forall d evs, to_xml d = Some evs -> forallb ev_chars_ok evs = true.
Proof. exact to_xml_chars_ok. Qed.

(* every markup-significant character is escaped so that a reader gets the original string back *)
Theorem escapes_are_inverted : forall s, xml_char_ok s = true ->
  unescape_text (esc_pcdata s) = Some s /\ unescape_attr (esc_attr s) = Some s.
Proof. exact escapes_invert. Qed.

(* a well-formed tree (valid names, distinct attributes, acceptable namespace declaration, no CR in text, no TAB in
   attribute values) is written as a document that the independent reader reads back as exactly the tree written ... *)
Theorem wellformed_tree_reads_back : forall t,
  xml_tree_wf t = true -> xml_parse (xml_emit (events_of_tree t)) = Some (as_written t).
Proof. exact xml_text_roundtrip. Qed.

Theorem document_reads_back : forall d t,
  tree_of_doc d = Some t -> xml_tree_wf t = true -> to_xml d <> None ->
  exists out, xml_output d = Some out /\ xml_parse out = Some (as_written t).
Proof. exact xml_output_roundtrip. Qed.

(* a document that converts has exactly one root element (a text root is an error: fix 02a5024), so for documents the
   well-formedness condition does not have to ask for it *)
Theorem converted_document_has_one_root_element : forall d t,
  to_xml d <> None -> tree_of_doc d = Some t -> exists name ns attrs kids, x_body t = [XElem name ns attrs kids].
Proof. exact to_xml_body_element. Qed.

Theorem document_reads_back_wf : forall d t,
  tree_of_doc d = Some t -> doc_tree_wf t = true -> to_xml d <> None ->
  exists out, xml_output d = Some out /\ xml_parse out = Some (as_written t).
Proof. exact xml_output_roundtrip_wf. Qed.

(* ... which differs from the described tree only by whitespace-only text nodes put in by the writer's indentation *)
Theorem indentation_adds_only_blank_text : forall n lvl nst,
  node_wf nst n = true -> strip_ws (written_node lvl nst n) = strip_ws n.
Proof. exact strip_written. Qed.

Theorem reads_back_modulo_indentation : forall t,
  xml_tree_wf t = true -> forallb nf (x_body t) = true ->
  exists p, xml_parse (xml_emit (events_of_tree t)) = Some p /\ strip_ws_doc p = strip_ws_doc t.
Proof. exact roundtrip_modulo_indent. Qed.

(* the side conditions are needed (each is a listed known finding, reproduced on the binary):
   CR in text is written raw and read back as LF; TAB in an attribute value is read back as a space;
   a namespace uri is written unescaped *)
Theorem cr_in_text_refuted :
  reread (doc (el "a" [kids [VStr [ "x"%char; cr; "y"%char ]]]))
  = Some (mkdoc dflt [XElem (b "a") [] [] [XText ["x"%char; nl; "y"%char]]]).
Proof. exact Xml_Examples.cr_in_text_refuted. Qed.

Theorem tab_in_attribute_refuted :
  reread (doc (el "a" [attrs [("k", VStr ["x"%char; tab; "y"%char])]; kids [S_ "t"]]))
  = Some (mkdoc dflt [XElem (b "a") [] [(b "k", b "x y")] [T "t"]]).
Proof. exact tab_in_attr_refuted. Qed.

Theorem ns_uri_unescaped_refuted :
  reread (doc (el "a" [(b "ns", S_ "u""&<")])) = None /\ reread (doc (el "a" [(b "ns", S_ "x&y")])) = None.
Proof. destruct Xml_Examples.ns_uri_unescaped_refuted as (_ & H1 & H2). split; assumption. Qed.
