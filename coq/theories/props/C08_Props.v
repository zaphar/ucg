(* C08 -- shell-facing output delivers every value as one unaltered word. *)
From Ucg Require Import data.Val shell.Shell shell.Shell_Lemmas.
From UcgGen Require Import ShellChains.

(* the replacement chains read from src/convert/mod.rs (gen/ShellChains.v) compute the character-wise escapers
   the theorems below are about (all_ascii enumerates all 256 bytes) *)
Theorem source_chains_are_escapers :
  chain_ok gen_sq_chain = true /\ chain_ok gen_dq_chain = true /\
  forallb (fun c => bytes_eqb (subst1 gen_sq_chain c) (esc_sq_char c)) all_ascii = true /\
  forallb (fun c => bytes_eqb (subst1 gen_dq_chain c) (esc_dq_char c)) all_ascii = true.
Proof. vm_compute. repeat split. Qed.

Theorem source_sq_is_esc_sq : forall s, apply_chain gen_sq_chain s = esc_sq s.
Proof.
  destruct source_chains_are_escapers as (H1 & _ & H3 & _). exact (chain_is_flat_map _ _ H1 H3).
Qed.

Theorem source_dq_is_esc_dq : forall s, apply_chain gen_dq_chain s = esc_dq s.
Proof.
  destruct source_chains_are_escapers as (_ & H2 & _ & H4). exact (chain_is_flat_map _ _ H2 H4).
Qed.

(* every string, whatever it contains, arrives as exactly one word; nothing is expanded *)
Theorem sq_word : forall s, sh_words (b "'" ++ esc_sq s ++ b "' ") = Words [s].
Proof. exact Shell_Lemmas.sq_word. Qed.

Theorem sq_words : forall ss, sh_words (List.concat (map sq_piece ss)) = Words ss.
Proof. exact Shell_Lemmas.sq_words. Qed.

Theorem dq_value : forall name s, name_ok name = true ->
  sh_words (name ++ b "=""" ++ esc_dq s ++ b """") = Words [name ++ b "=" ++ s].
Proof. exact Shell_Lemmas.dq_value. Qed.

(* env: every scalar field exactly once, in order; skipped fields swallow nothing *)
Theorem env_fields : forall flds, env_fields_ok flds = true ->
  sh_env (env_emit Fixed (VTuple flds)) = Some (scalar_fields flds).
Proof. exact Shell_Lemmas.env_fields_env. Qed.

Theorem flags_words : forall flds out, flags_emit (VTuple flds) = Some out -> flags_ok flds = true ->
  sh_words out = Words (flags_spec flds).
Proof. exact Shell_Lemmas.flags_words. Qed.

Theorem exec_script : forall t out, exec_emit t = Some out ->
  exists flds st cmd envs,
    t = VTuple flds /\ exec_scan flds (mk_exec_parts None None None) = Some st /\
    ep_cmd st = Some cmd /\ exec_env_spec (opt_list (ep_env st)) = Some envs /\
    (exec_ok st = true ->
     exists argws, exec_args_spec (opt_list (ep_args st)) = Some argws /\
       sh_items out = Some (set_cmd :: map assign_of envs ++ [Cmd (b "exec" :: cmd :: argws)])).
Proof. exact Shell_Lemmas.exec_script. Qed.

(* a converter that returns at the first tuple/NULL field ([Legacy]) loses fields *)
Theorem env_legacy_refuted :
  sh_env (env_emit Legacy (VTuple env_lost)) <> Some (scalar_fields env_lost).
Proof. exact (proj2 (proj2 (proj2 (proj2 Shell_Lemmas.env_fields_refuted)))). Qed.
