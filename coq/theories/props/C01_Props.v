(* C01 -- compiled evaluation equals the language's definitional semantics.
   sem/Sem.v        : definitional big-step evaluator written from the reference
   vm/Translate.v   : model of src/build/opcode/translate.rs
   vm/Vm.v          : model of src/build/opcode/{vm,runtime,pointer,scope}.rs
   The theorems hold for every float interface [fo] (no float laws are used). *)
From Ucg Require Import sem.Sem vm.Ops vm.Translate vm.Vm vm.Compile_Rel vm.Compile_Correct.

Section C01.
  Variable fo : float_ops.

  (* For every program of the fragment (all of: arithmetic, comparison, short-circuit booleans,
     selectors, select with default, functions closing over their definition-time scope, copy with
     self, modules with parameters, out expressions and mod.this, map/filter/reduce over lists, tuples
     and strings, both format forms, ranges, casts, in/is, fail; excluded: import/include/convert/
     out/assert/regex hooks, which the semantics answers Unsup for):
       - if the semantics binds values, the compiled program run by the VM binds related values,
       - if the semantics fails, the compiled program fails. *)
  Theorem compile_correct :
    forall p E strict_ fs, in_fragment p = true ->
      (forall bs, sem_prog fo fs E strict_ true p = Ok bs ->
         exists fv bs', vm_prog fo fv E strict_ (translate p) = VOk bs' /\ represents fo p bs bs') /\
      (sem_prog fo fs E strict_ true p = Err -> exists fv, vm_prog fo fv E strict_ (translate p) = VErr).
  Proof. exact (compile_correct_module fo). Qed.

  (* the compiled form of a well-defined program never reaches unreachable!(), a stack underflow,
     an unwrap on None or an invalid jump *)
  Theorem translate_no_bug :
    forall p E strict_ fs, in_fragment p = true ->
      (exists bs, sem_prog fo fs E strict_ true p = Ok bs) \/ sem_prog fo fs E strict_ true p = Err ->
      forall fv, vm_prog fo fv E strict_ (translate p) <> VBug.
  Proof. exact (Compile_Correct.translate_no_bug fo). Qed.

  (* the same statement for the sub-fragments in which the proof was built up; each follows from
     the one for the whole fragment *)
  Theorem compile_correct_core : compile_correct_for fo in_core.
  Proof. exact (Compile_Correct.compile_correct_core fo). Qed.
  Theorem compile_correct_copy : compile_correct_for fo in_copy.
  Proof. exact (Compile_Correct.compile_correct_copy fo). Qed.
  Theorem compile_correct_func : compile_correct_for fo in_func.
  Proof. exact (Compile_Correct.compile_correct_func fo). Qed.
  Theorem compile_correct_hof : compile_correct_for fo in_hof.
  Proof. exact (Compile_Correct.compile_correct_hof fo). Qed.
  Theorem compile_correct_format : compile_correct_for fo in_format.
  Proof. exact (Compile_Correct.compile_correct_format fo). Qed.
End C01.

Theorem translate_app : forall p1 p2, translate (p1 ++ p2) = translate p1 ++ translate p2.
Proof. exact Compile_Correct.translate_app. Qed.
