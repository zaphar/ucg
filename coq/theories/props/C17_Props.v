(* C17 -- diagnostics point at the statement that causes them.
   Proved here for every source text: the positions the tokenizer attaches to tokens (which are the positions every
   parse error and every opcode carries) are the true line and column of the token, lie inside the line span of any
   byte span that contains the token, move by exactly the number of lines put in front, and do not depend on what follows;
   and the opcodes of a statement do not depend on the neighbouring statements.  The second and third part are about the
   models with positions (pos/): which position every opcode carries, and which positions the evaluator reports; that the
   implementation reports the same is checked by props/c17.py (see DESIGN.md). *)
From Coq Require Import Sorting.Sorted.
From Ucg Require Import base.Bytes lex.Lex_Types lex.Lex lex.Lex_Lemmas lex.Lex_Shift lex.Lex_Span.
From Ucg Require Import sem.Ast vm.Ops vm.Translate vm.Compile_Correct.

(* line, column and offset of every token are those of its first byte *)
Theorem token_positions_exact : forall src toks, lex src = Some toks ->
  Forall (token_ok src) toks /\ StronglySorted off_lt toks.
Proof. exact positions_exact. Qed.

(* a token that starts inside bytes [a, b] of the source is reported on a line of that span *)
Theorem token_line_in_span : forall src toks t a b,
  lex src = Some toks -> In t toks -> a <= N.to_nat (off t) <= b ->
  (line_of src a <= line t <= line_of src b)%N.
Proof. exact token_line_in_span_lemma. Qed.

(* text put in front (ending with a line feed): same tokens, line + lines added, same column *)
Theorem positions_move_by_lines_added_before : forall pre src tp e ts,
  ends_with_newline pre -> lex pre = Some (tp ++ [e]) -> lex src = Some ts ->
  lex (pre ++ src) =
  Some (tp ++ map (shift_tok (N.of_nat (count_nl pre)) (N.of_nat (List.length pre))) ts).
Proof. exact lex_prefix_shift. Qed.

(* a lexical error after the added text is still an error *)
Theorem lexical_error_survives_prefix : forall pre src tpre,
  ends_with_newline pre -> lex pre = Some tpre -> lex src = None -> lex (pre ++ src) = None.
Proof. exact lex_prefix_error. Qed.

(* text put behind does not change any earlier token *)
Theorem positions_unaffected_by_text_after : forall src post ts e l,
  ends_with_newline src -> lex src = Some (ts ++ [e]) -> lex (src ++ post) = Some l ->
  exists rest, l = ts ++ rest.
Proof. exact lex_suffix_prefix_of_any. Qed.

(* without the line feed the statement is false (two words merge): the hypothesis is needed *)
Theorem newline_hypothesis_needed :
  exists pre src tp e ts, lex pre = Some (tp ++ [e]) /\ lex src = Some ts /\
    lex (pre ++ src) <>
    Some (tp ++ map (shift_tok (N.of_nat (count_nl pre)) (N.of_nat (List.length pre))) ts).
Proof. exact lex_prefix_shift_needs_newline_refuted. Qed.

(* the opcodes of a statement are the same whatever statements stand before or after it *)
Theorem statement_ops_independent : forall p1 p2, translate (p1 ++ p2) = translate p1 ++ translate p2.
Proof. exact translate_app. Qed.

(* ---- every opcode is paired with the position of the AST node it came from (pos/PTranslate.v: translate.rs with its
   positions; pos/PTemplate.v: the position tracking of the template parser for @{...} expressions).  The model's
   (op, line, column) list is compared with the real translator's on every generated program by props/c17.py. ---- *)
From Ucg Require Import pos.PAst pos.PTranslate pos.PTranslate_Lemmas pos.PTemplate pos.PTemplate_Lemmas.

(* the positioned translator emits exactly the opcodes of the translator model the compile-correctness proofs are about *)
Theorem positioned_translator_same_ops : forall p : pprog, map fst (ptranslate p) = translate (map erase_stmt p).
Proof. exact ptranslate_erase. Qed.

(* every opcode of a statement carries the position of a node of THAT statement ... *)
Theorem ops_carry_positions_of_their_statement : forall s : pstmt,
  Forall (fun x => In (snd x) (positions_of_stmt s)) (ptranslate_stmt s).
Proof. exact ptranslate_positions_from_statement. Qed.

(* ... hence a line inside the statement's span, whatever surrounds it *)
Theorem ops_point_into_the_statement : forall s lo hi,
  stmt_in_span s lo hi -> Forall (fun x => (lo <= line (snd x) <= hi)%N) (ptranslate_stmt s).
Proof. exact ops_point_into_their_statement. Qed.

(* the same with the span stated on what the FILE's parser produced: nodes inside @{...} lie on the lines of their string *)
Theorem ops_point_into_the_statement_of_the_file : forall s lo hi,
  tpl_placed_stmt s -> src_in_span s lo hi -> Forall (fun x => (lo <= line (snd x) <= hi)%N) (ptranslate_stmt s).
Proof. exact ops_point_into_their_statement_src. Qed.

(* k lines added before a program move every opcode position by exactly k lines and no column *)
Theorem op_positions_move_with_the_text : forall k p,
  ptranslate (map (shift_stmt k) p) = map (fun x => (fst x, shift_pos k (snd x))) (ptranslate p).
Proof. exact ptranslate_shift. Qed.

(* the opcodes of a function body carry positions of the statement that DEFINES the function: a fault in the body is
   reported there, the call site as VIA *)
Theorem function_body_ops_belong_to_the_definition : forall p np name fp ps body,
  let s := PSLet p np name (PEFunc fp ps body) in
  Forall (fun x => In (snd x) (positions_of_stmt s)) (ptranslate_expr body) /\
  (forall lo hi, stmt_in_span s lo hi -> Forall (fun x => (lo <= line (snd x) <= hi)%N) (ptranslate_expr body)).
Proof. intros p np name fp ps body. destruct (func_body_ops_carry_positions_of_the_defining_statement p np name fp ps body) as (_ & H1 & H2). split; assumption. Qed.

(* the template scanner never leaves the lines of its string *)
Theorem template_expressions_stay_on_the_lines_of_their_string : forall p tpl,
  Forall (fun '(_, st, text) => (line p <= line st)%N /\ (line st + count_lf text <= line p + count_lf tpl)%N) (tpl_scan p tpl).
Proof. exact tpl_scan_lines. Qed.

(* ---- errors carry the position of the failing op / operand; call sites are appended as VIA (pos/PVm.v: vm.rs and the runtime
   hooks with the positions the real VM keeps next to every op, stack entry, binding, list element and tuple field).  The model's
   outcome, primary position and whole VIA list equal the real evaluator's on every fault-injected program (props/c17.py). ---- *)
From Ucg Require Import sem.Sem vm.Vm pos.PVm pos.PVm_Erase pos.PVm_Map pos.PVm_Lemmas pos.PVm_Inv pos.PVm_Locality pos.PVm_Scoped.

Section C17_vm.
  Variable fo : float_ops.

  (* forgetting positions, the positioned machine is the machine the compile-correctness theorems (C01) are about *)
  Theorem positioned_vm_is_the_vm : forall fuel envv strict_ (p : pprog),
      erase_out erase_bindings (pvm_prog fo fuel envv strict_ (ptranslate p)) = vm_prog fo fuel envv strict_ (translate (map erase_stmt p)).
  Proof. exact (pvm_erase_translated fo). Qed.

  (* every position an error reports - the primary one and every VIA entry - is the position of a node of some statement of
     the program (never a made-up position; with a process environment the env tuple's dummy 0:0 is the one exception) *)
  Theorem error_positions_come_from_the_program : forall fuel envv strict_ prog e p via,
      pvm_prog fo fuel envv strict_ (ptranslate prog) = PErr e p via ->
      forall q, In q (p :: via) -> (exists s, In s prog /\ In q (positions_of_stmt s)) \/ (q = pos0 /\ envv <> []).
  Proof. exact (pvm_positions_from_program fo). Qed.

  (* hence every reported line lies in the line span of some statement *)
  Theorem error_lines_lie_in_a_statement : forall fuel strict_ prog (span : pstmt -> N * N) e p via,
      (forall s, In s prog -> stmt_in_span s (fst (span s)) (snd (span s))) ->
      pvm_prog fo fuel [] strict_ (ptranslate prog) = PErr e p via ->
      forall q, In q (p :: via) -> exists s, In s prog /\ (fst (span s) <= line q <= snd (span s))%N.
  Proof. exact (pvm_error_lines_in_some_statement fo). Qed.

  (* an error handed to its caller by a function defined in statement d is local to d (its primary position is a node of d) *)
  Theorem function_errors_belong_to_the_defining_statement : forall envv strict_ p1 p2 d f ptr j pf bs snap s e q via,
      let code := ptranslate (p1 ++ [d] ++ p2) in
      let lo := List.length (ptranslate p1) in
      let hi := lo + List.length (ptranslate_stmt d) in
      lo <= ptr < hi -> nth_error code ptr = Some (IFunc j, pf) ->
      Forall (eok fo (Ncode code envv pos0) (Ncode code envv pos0)) s -> Forall (bok fo (Ncode code envv pos0)) snap ->
      p_fcall_impl fo (pvm_run fo code strict_ envv pos0 f) ptr bs snap s = PErr e q via -> stmt_err d e q via.
  Proof. exact (function_body_local_program fo). Qed.

  (* locality: an error of the program [p1 ++ [s] ++ p2] either surfaced before s, or - when the value stack is empty as s starts -
     is an error OF s ([stmt_err]: without VIA its primary position is a node of s, with VIA the outermost call site is), or s
     finished and it surfaced later *)
  Theorem errors_are_local_to_the_executing_statement : forall fuel envv strict_ p1 p2 s e q via,
      let code := ptranslate (p1 ++ [s] ++ p2) in
      let lo := List.length (ptranslate p1) in
      let hi := lo + List.length (ptranslate_stmt s) in
      pvm_prog fo fuel envv strict_ code = PErr e q via ->
      pvm_run_until fo code strict_ envv pos0 lo fuel (pinit_state fo) = PErr e q via \/
      (exists st0 fuel0,
          pvm_run_until fo code strict_ envv pos0 lo fuel (pinit_state fo) = POk st0 /\ ppc st0 = lo /\
          pvm_run fo code strict_ envv pos0 fuel0 st0 = PErr e q via /\
          (pstk st0 = [] ->
           stmt_err s e q via \/
           (exists st1 fuel1,
              pvm_run_until fo code strict_ envv pos0 hi fuel0 st0 = POk st1 /\ ppc st1 = hi /\
              pvm_run fo code strict_ envv pos0 fuel1 st1 = PErr e q via))).
  Proof. exact (pvm_locality_program fo). Qed.

  (* k lines added before the program move the primary position and every VIA entry by exactly k lines *)
  Theorem error_positions_move_with_the_text : forall k fuel strict_ p e q via,
      pvm_prog fo fuel [] strict_ (ptranslate p) = PErr e q via ->
      pvm_prog fo fuel [] strict_ (ptranslate (map (shift_stmt k) p)) =
      PErr e ((fst q + k)%N, snd q) (map (fun v => ((fst v + k)%N, snd v)) via).
  Proof. exact (pvm_shift_error fo). Qed.
End C17_vm.
