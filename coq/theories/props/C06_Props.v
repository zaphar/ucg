(* C06 -- a `::` constraint on a binding admits exactly the conforming values.
   shape/Shape.v models Shape::narrow (with its memo and symbol-table updates), the checker's statement visitor and the VM's
   constraint check; [conforms] is written from the property text and docs/typechecking.md (same_shape, in_range, equality;
   NULL conforms to every exemplar).  The model's verdicts are compared with the real build on every pair by props/c06.py. *)
From Ucg Require Import base.Bytes sem.Sem shape.Shape shape.Shape_Lemmas.

Section C06.
  Variable fo : float_ops.
  Hypothesis float_roundtrip : forall x : F fo, f_of_bits fo (f_to_bits fo x) = x.

  (* the heart: on the property's grammar (literal arms; numeric range bounds of one type) and literal values,
     checker + run-time check accept exactly the conforming values *)
  Theorem constraint_admits_exactly_conforming : forall c v,
      constraint_grammar fo c = true -> literal_value fo v = true -> build_accepts fo c v = conforms fo c v.
  Proof. exact (let_constraint_exact_lit fo). Qed.

  (* `let x :: c = v;` as a statement goes through the same two checks *)
  Theorem let_statement_is_the_two_checks : forall c v,
      constraint_grammar fo c = true -> literal_value fo v = true -> build_accepts_prog fo c v = build_accepts fo c v.
  Proof. exact (build_accepts_prog_eq fo float_roundtrip). Qed.

  (* a named constraint behaves exactly like the same constraint written inline ... *)
  Theorem named_constraint_is_transparent : forall n c v,
      name_ok n = true -> constraint_grammar fo c = true -> literal_value fo v = true ->
      build_accepts_named fo n c v = build_accepts fo c v.
  Proof. exact (named_constraint_transparent fo float_roundtrip). Qed.

  (* ... and so does a let-bound exemplar *)
  Theorem let_bound_exemplar_is_transparent : forall n ex v,
      name_ok n = true -> literal_value fo ex = true -> literal_value fo v = true ->
      build_accepts_let_named fo n ex v = build_accepts fo (VExemplar ex) v.
  Proof. exact (let_bound_exemplar_transparent fo float_roundtrip). Qed.

  (* narrowing two literal shapes succeeds exactly when the values have the same shape, in either order, and changes no state *)
  Theorem narrow_literal_shapes : forall f a c,
      shape_size (shape_of_value fo a) + shape_size (shape_of_value fo c) <= f ->
      literal_value fo a = true -> literal_value fo c = true ->
      pure_at (narrow_f f) (shape_of_value fo a) (shape_of_value fo c) (same_shape fo true a c) /\
      pure_at (narrow_f f) (shape_of_value fo c) (shape_of_value fo a) (same_shape fo true a c).
  Proof. exact (narrow_lit fo). Qed.

  (* if NULL is read as a type of its own the statement is false (let x :: 0 = NULL; builds), and exact again without NULL *)
  Theorem strict_null_reading_refuted :
      exists c v, constraint_grammar fo c = true /\ literal_value fo v = true /\ build_accepts fo c v = true /\ conforms_strict fo c v = false.
  Proof. exact (let_constraint_exact_strict_refuted fo). Qed.

  Theorem exact_without_null : forall c v,
      constraint_grammar fo c = true -> literal_value fo v = true ->
      match c with VExemplar ex => null_free fo ex | VAlt _ => true end = true -> null_free fo v = true ->
      build_accepts fo c v = conforms_strict fo c v.
  Proof. exact (let_constraint_exact_strict_null_free fo). Qed.

  (* outside the grammar: a range with bounds of two numeric types takes the whole alternation with it *)
  Theorem mixed_range_refuted :
      let c := VAlt [VRange (Some (VInt 0)) (Some (VFloat (f_of_bits fo 4612811918334230528))); VExact (VStr (b "x"))] in
      constraint_grammar fo c = false /\ build_accepts fo c (VStr (b "x")) = false /\ conforms fo c (VStr (b "x")) = true.
  Proof. exact (let_constraint_mixed_range_refuted fo). Qed.

  (* an exemplar is also checked against the VALUE when the binding is made (fix 761a6c7): for any data value, however it was
     computed, the run-time check alone is the shape test of the specification ... *)
  Theorem runtime_check_of_an_exemplar_is_same_shape : forall ex v,
      literal_value fo ex = true -> data_value fo v = true -> runtime_ok fo (VExemplar ex) v = same_shape fo true ex v.
  Proof. exact (runtime_exemplar_exact fo). Qed.

  (* ... so `let x :: ex = e` can only bind x to a conforming value, whatever expression e is and whatever evaluates it *)
  Theorem exemplar_binding_binds_only_conforming_values : forall (ev : renv fo -> expr -> res (rval fo)) x ex e re re' v,
      literal_value fo ex = true -> data_value fo v = true -> ev re e = Ok (rv_of_value fo v) ->
      run_let_gen fo ev x (Some (CPlain (lit_expr fo ex))) e re = Ok re' ->
      same_shape fo true ex v = true /\ re' = (x, rv_of_value fo v) :: re.
  Proof. exact (let_exemplar_binds_same_shape fo float_roundtrip). Qed.

  (* the constraint's name must be a legal new binding *)
  Theorem name_clash_refuted :
      build_accepts_named fo (b "x") (VExemplar (VInt 0)) (VInt 1) = false /\ build_accepts fo (VExemplar (VInt 0)) (VInt 1) = true.
  Proof. exact (named_constraint_transparent_refuted fo). Qed.
End C06.
