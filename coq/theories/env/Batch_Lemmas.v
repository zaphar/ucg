(* Proofs about one invocation building several files (Batch.v).  The
   theorems about the current code rest on the simulation of Import_Sim.v
   ([Sim], [build_file_sim]): read that file first. *)
From Coq Require Import Permutation.
From Ucg Require Import base.Bytes base.Bytes_Lemmas path.Path path.Path_Lemmas
     env.Import env.Import_Lemmas env.Import_Sim env.Batch.

(* KNOWN DEFECT CLASS C16 (see batch_lock_refuted): building [r] in the
   invocation [files] needs an output lock that the same invocation takes a
   second time:
   (1) [r] imports (directly or not) a file with an [out] that is also built
       from the command line, or
   (2) [r] has an [out] and is also imported by a file built from the
       command line, or is given twice. *)
Definition Known_C16 (proj : project) (files : list path) (r : path) : Prop :=
  let n := normalize r in
  (exists x, reach1 proj n x /\ has_out proj x /\ In x (map normalize files)) \/
  (has_out proj n /\
   ((exists r', In r' files /\ reach1 proj (normalize r') n) \/
    2 <= count_path n (map normalize files))).

(* every cached file was imported by one of the files built so far *)
Definition cache_src (proj : project) (roots : list path) (st : state) : Prop :=
  forall y, In y (dom (val_cache st)) -> exists r', In r' roots /\ reach1 proj (normalize r') y.

(* the build of [r] at its place in the invocation [pre ++ r :: post] *)
Definition in_batch (md : lock_mode) (fuel : nat) (proj : project) (pre : list path) (r : path)
  : state * result val :=
  build_file md fuel proj (fst (batch md fuel proj empty_state pre)) r.

(* Both lock modes at once ([md] is a section variable); where the mode
   matters a hypothesis [md = LockPerInvocation -> ...] appears. *)
Section Mode.
Variable md : lock_mode.
Local Notation build_file := (Import.build_file md).
Local Notation batch := (Batch.batch md).
Local Notation alone := (Batch.alone md).
Local Notation in_batch := (in_batch md).
Local Notation repeat_invocation := (Batch.repeat_invocation md).

Lemma binv_roots proj roots roots' st :
  incl roots roots' -> binv proj roots st -> binv proj roots' st.
Proof.
  intros I [C [Sh [A L]]]. split; [exact C|split; [exact Sh|split; [exact A|]]].
  intros k Hk. eapply lock_clause_mono; [exact I|apply incl_refl|apply L, Hk].
Qed.

Lemma batch_inv proj fuel : forall files roots st,
  binv proj roots st -> cache_src proj roots st ->
  binv proj (rev files ++ roots) (fst (batch fuel proj st files)) /\
  cache_src proj (rev files ++ roots) (fst (batch fuel proj st files)).
Proof.
  induction files as [|r rs IH]; intros roots st B CS; [auto|]. cbn [Batch.batch].
  destruct (build_file fuel proj st r) as [st1 res] eqn:E1.
  destruct (build_file_inv md E1 B) as [B1 _].
  assert (CS1 : cache_src proj (r :: roots) st1).
  { intros y Hy. destruct (a_cache (build_file_adds md E1) y Hy) as [Hy'|Hy'].
    - destruct (CS y Hy') as [r' [Hr' R]]. exists r'. split; [right; exact Hr'|exact R].
    - exists r. split; [left; reflexivity|exact Hy']. }
  specialize (IH _ _ B1 CS1). destruct (batch fuel proj st1 rs) as [st2 l2].
  cbn [rev fst] in *. rewrite <- app_assoc. exact IH.
Qed.

Lemma batch_empty_inv proj fuel files :
  binv proj (rev files) (fst (batch fuel proj empty_state files)) /\
  cache_src proj (rev files) (fst (batch fuel proj empty_state files)).
Proof.
  rewrite <- (app_nil_r (rev files)). apply batch_inv; [apply binv_empty|intros y []].
Qed.

Lemma batch_arts proj fuel : forall files st,
  incl (artifacts st) (artifacts (fst (batch fuel proj st files))).
Proof.
  induction files as [|r rs IH]; intros st; [apply incl_refl|]. cbn [Batch.batch].
  destruct (build_file fuel proj st r) as [st1 res] eqn:E1. specialize (IH st1).
  destruct (batch fuel proj st1 rs) as [st2 l2].
  eapply incl_tran; [apply (a_arts (build_file_adds md E1))|exact IH].
Qed.

(* C16: every cached value in the Environment after any
   invocation is the isolated value of its path (sharing of imported values
   is unobservable), and so is every artifact ever written *)
Theorem caches_transparent : forall proj fuel files st l,
  batch fuel proj empty_state files = (st, l) ->
  (forall k v, In (k, v) (val_cache st) -> exists d, value_of d proj k = Some v) /\
  (forall k v, In (k, v) (artifacts st) -> exists d, value_of d proj k = Some v).
Proof.
  intros proj fuel files st l H.
  destruct (batch_empty_inv proj fuel files) as [[C [_ [A _]]] _]. rewrite H in C, A. split.
  - intros k v Hin. destruct (C k v Hin) as [_ [d [_ V]]]. eauto.
  - intros k v Hin. destruct (A k v Hin) as [_ [V _]]. exact V.
Qed.

(* two writes of the artifact of one source file, in any two invocations
   over the same project, have the same content *)
Theorem artifacts_deterministic : forall proj fuel1 fuel2 files1 files2 st1 l1 st2 l2 k v w,
  batch fuel1 proj empty_state files1 = (st1, l1) ->
  batch fuel2 proj empty_state files2 = (st2, l2) ->
  In (k, v) (artifacts st1) -> In (k, w) (artifacts st2) -> v = w.
Proof.
  intros proj fuel1 fuel2 files1 files2 st1 l1 st2 l2 k v w H1 H2 I1 I2.
  destruct (caches_transparent _ _ _ _ _ H1) as [_ A1].
  destruct (caches_transparent _ _ _ _ _ H2) as [_ A2].
  destruct (A1 _ _ I1) as [d1 V1]. destruct (A2 _ _ I2) as [d2 V2].
  eapply value_of_fun; eassumption.
Qed.

Lemma count_path_app p l1 l2 : count_path p (l1 ++ l2) = count_path p l1 + count_path p l2.
Proof. induction l1 as [|q l1 IH]; cbn; [reflexivity|]. rewrite IH. lia. Qed.

Lemma count_path_In p l : In p l -> 1 <= count_path p l.
Proof.
  induction l as [|q l IH]; intros []; cbn.
  - subst. rewrite bytes_eqb_refl. lia.
  - specialize (IH H). lia.
Qed.

(* outside the known class the locks that building [r] takes are free *)
Lemma lock_conditions proj roots st pre r post :
  binv proj roots st -> cache_src proj roots st -> incl roots pre ->
  (exists d, good d proj r = true) ->
  (md = LockPerInvocation -> ~ Known_C16 proj (pre ++ r :: post) r) ->
  locks_free md proj st (normalize r) (lock_key r).
Proof.
  intros [C [_ [_ L]]] CS I [d G] NK0 Em. pose proof (NK0 Em) as NK. set (n := normalize r) in *.
  assert (Hpre : forall r', In r' roots -> In (normalize r') (map normalize (pre ++ r :: post))).
  { intros r' Hr'. apply in_map, in_or_app. left. apply I, Hr'. }
  split.
  - intros x fx R Lx Ho Nx Hk.
    assert (Hx : x = normalize x)
      by (eapply reach_normal; [apply reach1_reach, R|apply normalize_normal]).
    apply L in Hk. destruct Hk as [[r' [Hr' E]]|[y [E [Hy|[Hy Hb]]]]].
    + apply NK. left. exists x. split; [exact R|]. split; [exists fx; auto|].
      apply lock_key_norm in E. rewrite <- Hx in E. rewrite E. apply Hpre, Hr'.
    + apply Nx. assert (x = y); [|subst; exact Hy].
      apply lock_key_inj; [exact Hx|eapply cache_ok_normal; eassumption|exact E].
    + assert (x = y) by (apply lock_key_inj; assumption). subst y.
      pose proof (good_reach _ _ _ _ G (reach1_reach _ _ _ R)) as Gx. rewrite Hb in Gx. discriminate.
  - intros f Lf Ho Hk.
    apply L in Hk. destruct Hk as [[r' [Hr' E]]|[y [E [Hy|[Hy Hb]]]]].
    + apply NK. right. split; [exists f; auto|]. right.
      apply lock_key_norm in E. fold n in E.
      rewrite map_app, count_path_app. cbn. fold n. rewrite bytes_eqb_refl.
      assert (1 <= count_path n (map normalize pre)). 2:{ unfold path in *. lia. }
      apply count_path_In. rewrite E. apply in_map, I, Hr'.
    + assert (y = n).
      { apply lock_key_norm in E. fold n in E. rewrite E.
        eapply cache_ok_normal; eassumption. }
      subst y. apply NK. right. split; [exists f; auto|]. left.
      destruct (CS n Hy) as [r' [Hr' R]]. exists r'. split; [|exact R].
      apply in_or_app. left. apply I, Hr'.
    + assert (y = n) by (apply lock_key_norm in E; fold n in E; rewrite E; exact Hy).
      subst y. rewrite <- good_normalize in G. fold n in G. rewrite Hb in G. discriminate.
Qed.

Lemma in_batch_good proj fuel pre r post :
  List.length proj <= fuel -> (md = LockPerInvocation -> ~ Known_C16 proj (pre ++ r :: post) r) ->
  (exists d, good d proj r = true) ->
  exists v, snd (in_batch fuel proj pre r) = Ok v /\
    (forall f, lookup proj (normalize r) = Some f -> outs f = 1 ->
       In (normalize r, v) (artifacts (fst (in_batch fuel proj pre r)))).
Proof.
  intros L NK G. unfold Batch_Lemmas.in_batch.
  destruct (batch_empty_inv proj fuel pre) as [B CS].
  destruct (build_file fuel proj _ r) as [st2 res] eqn:E2.
  apply (build_file_good md E2 B G L).
  apply (lock_conditions proj (rev pre) _ pre r post B CS); auto.
  intros x Hx; apply in_rev, Hx.
Qed.

Lemma in_batch_ok proj fuel pre r v :
  snd (in_batch fuel proj pre r) = Ok v -> witness proj r v.
Proof.
  unfold Batch_Lemmas.in_batch. destruct (batch_empty_inv proj fuel pre) as [B _].
  destruct (build_file fuel proj _ r) as [st2 res] eqn:E2. cbn. intros ->.
  eapply build_ok_good; eassumption.
Qed.

(* C16: outside the known class the file succeeds
   or fails in the batch exactly as alone; with the same value *)
Theorem batch_equals_alone : forall proj fuel pre r post,
  List.length proj <= fuel -> (md = LockPerInvocation -> ~ Known_C16 proj (pre ++ r :: post) r) ->
  is_ok (snd (in_batch fuel proj pre r)) = is_ok (snd (alone fuel proj r)) /\
  (forall v w, snd (in_batch fuel proj pre r) = Ok v -> snd (alone fuel proj r) = Ok w -> v = w).
Proof.
  intros proj fuel pre r post L NK. split.
  - destruct (snd (in_batch fuel proj pre r)) as [v|e] eqn:E.
    + destruct (in_batch_ok _ _ _ _ _ E) as [d [G _]].
      destruct (acyclic_builds md proj fuel r d G L) as [w [Hw _]].
      unfold Batch.alone. rewrite Hw. reflexivity.
    + destruct (snd (alone fuel proj r)) as [w|e'] eqn:Ea; [|reflexivity]. exfalso.
      destruct (in_batch_ok proj fuel [] r w Ea) as [d [G _]].
      destruct (in_batch_good proj fuel pre r post L NK (ex_intro _ d G)) as [v [Ev _]]. congruence.
  - intros v w Hv Hw.
    destruct (in_batch_ok _ _ _ _ _ Hv) as [d1 [_ V1]].
    destruct (in_batch_ok proj fuel [] r w Hw) as [d2 [_ V2]].
    eapply value_of_fun; eassumption.
Qed.

(* one direction needs no side condition: whatever builds in a batch builds alone *)
Theorem batch_ok_alone_ok : forall proj fuel pre r v,
  List.length proj <= fuel -> snd (in_batch fuel proj pre r) = Ok v ->
  snd (alone fuel proj r) = Ok v.
Proof.
  intros proj fuel pre r v L H. destruct (in_batch_ok _ _ _ _ _ H) as [d [G V]].
  destruct (acyclic_builds md proj fuel r d G L) as [w [Hw Vw]].
  unfold Batch.alone. rewrite Hw. congruence.
Qed.

Lemma batch_app fuel proj : forall l1 l2 st,
  batch fuel proj st (l1 ++ l2) =
  let '(st1, a) := batch fuel proj st l1 in
  let '(st2, c) := batch fuel proj st1 l2 in (st2, a ++ c).
Proof.
  induction l1 as [|r l1 IH]; intros l2 st; cbn.
  - destruct (batch fuel proj st l2); reflexivity.
  - destruct (build_file fuel proj st r) as [st1 res]. rewrite IH.
    destruct (batch fuel proj st1 l1) as [st2 a]. destruct (batch fuel proj st2 l2). reflexivity.
Qed.

Lemma last_write_some k a v : last_write k a = Some v -> In (k, v) a.
Proof.
  induction a as [|[k' w] a IH]; cbn; [discriminate|].
  destruct (last_write k a) as [u|].
  - intros E; inversion E; subst. right. apply IH. reflexivity.
  - destruct (bytes_eqb k' k) eqn:E; [|discriminate].
    apply bytes_eqb_spec in E. subst. intros E; inversion E; subst. left; reflexivity.
Qed.

Lemma last_write_in k a v : In (k, v) a -> exists w, last_write k a = Some w.
Proof.
  induction a as [|[k' w] a IH]; cbn; [intros []|].
  intros [E|H].
  - inversion E; subst. destruct (last_write k a); [eauto|]. rewrite bytes_eqb_refl. eauto.
  - destruct (IH H) as [u ->]. eauto.
Qed.

Lemma last_write_art proj a k v : art_ok proj a -> In (k, v) a -> last_write k a = Some v.
Proof.
  intros A H. destruct (last_write_in _ _ _ H) as [w Hw]. rewrite Hw. f_equal.
  apply last_write_some in Hw.
  destruct (A _ _ H) as [_ [[d1 V1] _]]. destruct (A _ _ Hw) as [_ [[d2 V2] _]].
  eapply value_of_fun; eassumption.
Qed.

Lemma last_write_none proj a k f :
  art_ok proj a -> lookup proj k = Some f -> outs f = 0 -> last_write k a = None.
Proof.
  intros A Lf Ho. destruct (last_write k a) as [w|] eqn:E; [|reflexivity].
  apply last_write_some in E. destruct (A _ _ E) as [_ [_ [f' [Lf' Ho']]]].
  rewrite Lf in Lf'. inversion Lf'; subst. lia.
Qed.

Lemma batch_final_arts proj fuel pre r post :
  art_ok proj (artifacts (fst (batch fuel proj empty_state (pre ++ r :: post)))) /\
  incl (artifacts (fst (in_batch fuel proj pre r)))
       (artifacts (fst (batch fuel proj empty_state (pre ++ r :: post)))).
Proof.
  split; [apply batch_empty_inv|].
  rewrite batch_app. unfold Batch_Lemmas.in_batch.
  destruct (batch fuel proj empty_state pre) as [st1 l1]. cbn [Batch.batch fst].
  destruct (build_file fuel proj st1 r) as [st2 res].
  pose proof (batch_arts proj fuel post st2) as M. destruct (batch fuel proj st2 post). exact M.
Qed.

(* the artifact of a file built in a batch is byte-identical to the one it
   produces alone (present in both with the same content, or absent in both) *)
Theorem batch_own_artifact : forall proj fuel pre r post v,
  List.length proj <= fuel -> (md = LockPerInvocation -> ~ Known_C16 proj (pre ++ r :: post) r) ->
  snd (alone fuel proj r) = Ok v ->
  last_write (normalize r) (artifacts (fst (batch fuel proj empty_state (pre ++ r :: post)))) =
  last_write (normalize r) (artifacts (fst (alone fuel proj r))).
Proof.
  intros proj fuel pre r post v L NK Ha.
  destruct (batch_final_arts proj fuel pre r post) as [Af M].
  unfold Batch.alone in *.
  destruct (build_file fuel proj empty_state r) as [sta resa] eqn:Ea. cbn [fst snd] in *. subst resa.
  destruct (build_file_inv md Ea (binv_empty proj)) as [[_ [_ [Aa _]]] [_ W]].
  destruct (W v eq_refl) as [d [G V]].
  destruct (in_batch_good proj fuel pre r post L NK (ex_intro _ d G)) as [v' [Ev' Hart]].
  destruct (build_file_good md Ea (binv_empty proj) (ex_intro _ d G) L
                            (locks_free_empty _ _ _ _)) as [va [Eva Harta]].
  inversion Eva; subst va.
  assert (v' = v) by (destruct (in_batch_ok _ _ _ _ _ Ev') as [d1 [_ V1]]; eapply value_of_fun; eassumption).
  subst v'.
  destruct d as [|d]; [discriminate|]. cbn in G.
  destruct (lookup proj (normalize r)) as [f|] eqn:Lf; [|discriminate].
  apply andb_true_iff in G. destruct G as [G _]. apply andb_true_iff in G. destruct G as [_ Go].
  apply Nat.leb_le in Go.
  destruct (outs f) as [|[|o]] eqn:Ho; [| |lia].
  - rewrite (last_write_none proj _ _ f Af Lf Ho), (last_write_none proj _ _ f Aa Lf Ho). reflexivity.
  - rewrite (last_write_art proj _ _ v Af (M _ (Hart f eq_refl Ho))),
      (last_write_art proj _ _ v Aa (Harta f eq_refl Ho)). reflexivity.
Qed.

Lemma count_path_perm p l l' : Permutation l l' -> count_path p l = count_path p l'.
Proof. induction 1; cbn; try lia. Qed.

Lemma Known_perm proj files files' r :
  Permutation files files' -> Known_C16 proj files r -> Known_C16 proj files' r.
Proof.
  intros P [[x [R [O I]]]|[O [[r' [I R]]|Cn]]].
  - left. exists x. split; [exact R|]. split; [exact O|].
    eapply Permutation_in; [apply Permutation_map, P|exact I].
  - right. split; [exact O|]. left. exists r'. split; [eapply Permutation_in; eassumption|exact R].
  - right. split; [exact O|]. right.
    rewrite <- (count_path_perm _ _ _ (Permutation_map normalize P)). exact Cn.
Qed.

Lemma as_alone_twice {A} (x y z : result A) :
  is_ok x = is_ok z /\ (forall v w, x = Ok v -> z = Ok w -> v = w) ->
  is_ok y = is_ok z /\ (forall v w, y = Ok v -> z = Ok w -> v = w) ->
  is_ok x = is_ok y /\ (forall v w, x = Ok v -> y = Ok w -> v = w).
Proof.
  intros [S1 V1] [S2 V2]. split; [congruence|]. intros v w Hv Hw.
  destruct z as [u|e].
  - rewrite (V1 v u Hv eq_refl), (V2 w u Hw eq_refl). reflexivity.
  - rewrite Hv in S1. discriminate.
Qed.

(* C16: the order of the files on the command line does not matter *)
Theorem batch_order_indep : forall proj fuel pre r post pre' post',
  List.length proj <= fuel ->
  Permutation (pre ++ r :: post) (pre' ++ r :: post') ->
  (md = LockPerInvocation -> ~ Known_C16 proj (pre ++ r :: post) r) ->
  is_ok (snd (in_batch fuel proj pre r)) = is_ok (snd (in_batch fuel proj pre' r)) /\
  (forall v w, snd (in_batch fuel proj pre r) = Ok v -> snd (in_batch fuel proj pre' r) = Ok w -> v = w).
Proof.
  intros proj fuel pre r post pre' post' L P NK.
  apply (as_alone_twice _ _ (snd (alone fuel proj r))).
  - exact (batch_equals_alone proj fuel pre r post L NK).
  - apply (batch_equals_alone proj fuel pre' r post' L).
    intros Em K. apply (NK Em). eapply Known_perm; [apply Permutation_sym, P|exact K].
Qed.

(* "the same invocation repeated" = a second process = a fresh Environment:
   the model is a function, so the two runs agree on everything *)
Theorem batch_repeat : forall proj fuel files,
  fst (repeat_invocation fuel proj files) = snd (repeat_invocation fuel proj files).
Proof. reflexivity. Qed.

End Mode.

(* C16 for the CURRENT code (LockPerEvaluation, commit 0c43338): the
   full statement, no exclusion.

   ARTIFACTS in the model: [artifacts st] is the history of all artifact
   writes of the invocation, oldest first, each entry = (normalised path of
   the SOURCE file whose out statement ran, value written); the artifact
   file is the source path with the converter's extension, so "per artifact
   path" = per source path.  The out statements of imported files write
   too (building main alone also writes lib's artifact).  The content of the
   artifact store at the end is [last_write k (artifacts st)] per path [k]. *)

Local Notation PE := LockPerEvaluation.

Lemma batch_sim_inv proj fuel : List.length proj <= fuel ->
  forall files roots st, binv proj roots st -> Sim proj empty_state st ->
    Sim proj empty_state (fst (batch PE fuel proj st files)).
Proof.
  intros L. induction files as [|r rs IH]; intros roots st B S; [exact S|]. cbn [batch].
  destruct (build_file PE fuel proj st r) as [st1 res] eqn:E1.
  destruct (build_file PE fuel proj empty_state r) as [sa' ra] eqn:Ea.
  destruct (build_file_sim Ea E1 S) as [_ S1];
    [intros k []|apply B|exact L|].
  destruct (build_file_inv PE E1 B) as [B1 _].
  specialize (IH _ _ B1 (Sim_empty_l _ _ _ S1)). destruct (batch PE fuel proj st1 rs). exact IH.
Qed.

(* C16 for the current code: for EVERY project, file list and position,
   the file succeeds or fails in the invocation exactly as alone, with the
   same value, and every artifact path that the file alone writes (its own
   and those of the files it imports) holds the same content after the
   invocation *)
Theorem batch_equals_alone_current : forall proj fuel pre r post,
  List.length proj <= fuel ->
  is_ok (snd (in_batch PE fuel proj pre r)) = is_ok (snd (alone PE fuel proj r)) /\
  (forall v w, snd (in_batch PE fuel proj pre r) = Ok v -> snd (alone PE fuel proj r) = Ok w -> v = w) /\
  (forall k v, last_write k (artifacts (fst (alone PE fuel proj r))) = Some v ->
     last_write k (artifacts (fst (batch PE fuel proj empty_state (pre ++ r :: post)))) = Some v).
Proof.
  intros proj fuel pre r post L.
  destruct (batch_equals_alone PE proj fuel pre r post L) as [Hs Hv]; [discriminate|].
  split; [exact Hs|]. split; [exact Hv|].
  intros k v Hlw. apply last_write_some in Hlw.
  destruct (batch_final_arts PE proj fuel pre r post) as [Af M].
  pose proof (batch_sim_inv proj fuel L pre [] _ (binv_empty proj) (Sim_empty proj)) as S1.
  destruct (batch_empty_inv PE proj fuel pre) as [B _].
  unfold in_batch, alone in *.
  destruct (build_file PE fuel proj (fst (batch PE fuel proj empty_state pre)) r) as [st2 res] eqn:E2.
  destruct (build_file PE fuel proj empty_state r) as [sa' ra] eqn:Ea. cbn [fst] in *.
  destruct (build_file_inv PE Ea (binv_empty proj)) as [[_ [_ [Aa _]]] _].
  destruct (build_file_sim Ea E2 S1) as [_ S2];
    [intros k0 []|apply B|exact L|].
  destruct (s_ar _ _ _ S2 _ _ Hlw) as [w Hw]. apply M in Hw.
  rewrite (last_write_art proj _ _ _ Af Hw). f_equal.
  destruct (Af _ _ Hw) as [_ [[d1 V1] _]]. destruct (Aa _ _ Hlw) as [_ [[d2 V2] _]].
  eapply value_of_fun; eassumption.
Qed.

(* ... hence at any two places in any two invocations, in particular in
   every order of the files ... *)
Corollary batch_order_indep_current : forall proj fuel pre r post pre' post',
  List.length proj <= fuel ->
  is_ok (snd (in_batch PE fuel proj pre r)) = is_ok (snd (in_batch PE fuel proj pre' r)) /\
  (forall v w, snd (in_batch PE fuel proj pre r) = Ok v -> snd (in_batch PE fuel proj pre' r) = Ok w -> v = w) /\
  (forall k v, last_write k (artifacts (fst (alone PE fuel proj r))) = Some v ->
     last_write k (artifacts (fst (batch PE fuel proj empty_state (pre ++ r :: post)))) = Some v /\
     last_write k (artifacts (fst (batch PE fuel proj empty_state (pre' ++ r :: post')))) = Some v).
Proof.
  intros proj fuel pre r post pre' post' L.
  destruct (batch_equals_alone_current proj fuel pre r post L) as [S1 [V1 A1]].
  destruct (batch_equals_alone_current proj fuel pre' r post' L) as [S2 [V2 A2]].
  destruct (as_alone_twice _ _ _ (conj S1 V1) (conj S2 V2)). auto.
Qed.

(* ... and when the list is repeated inside ONE invocation (files ++ files):
   every occurrence, first or second, behaves as alone *)
Corollary batch_repeat_current : forall proj fuel files pre r post,
  List.length proj <= fuel -> files ++ files = pre ++ r :: post ->
  is_ok (snd (in_batch PE fuel proj pre r)) = is_ok (snd (alone PE fuel proj r)) /\
  (forall k v, last_write k (artifacts (fst (alone PE fuel proj r))) = Some v ->
     last_write k (artifacts (fst (repeat_same_env PE fuel proj files))) = Some v).
Proof.
  intros proj fuel files pre r post L E.
  destruct (batch_equals_alone_current proj fuel pre r post L) as [S1 [_ A1]].
  split; [exact S1|]. unfold repeat_same_env. rewrite E. exact A1.
Qed.

Lemma batch_nth md fuel proj : forall files st i r,
  nth_error files i = Some r ->
  exists pre post, files = pre ++ r :: post /\ List.length pre = i /\
    nth_error (snd (batch md fuel proj st files)) i =
    Some (r, snd (build_file md fuel proj (fst (batch md fuel proj st pre)) r)).
Proof.
  induction files as [|r0 rs IH]; intros st i r H; [destruct i; discriminate|].
  destruct i as [|i]; cbn in H.
  - inversion H; subst. exists [], rs. cbn.
    destruct (build_file md fuel proj st r) as [st1 res]. destruct (batch md fuel proj st1 rs). auto.
  - cbn [batch]. destruct (build_file md fuel proj st r0) as [st1 res] eqn:E1.
    destruct (IH st1 i r H) as [pre [post [-> [Hl Hn]]]].
    exists (r0 :: pre), post. cbn [batch app List.length]. rewrite E1.
    destruct (batch md fuel proj st1 (pre ++ r :: post)) as [st2 l2] eqn:E2.
    destruct (batch md fuel proj st1 pre) as [st3 l3] eqn:E3. cbn in *. auto.
Qed.

(* the same, stated on the result list of the invocation *)
Theorem batch_status_current : forall proj fuel files i r,
  List.length proj <= fuel -> nth_error files i = Some r ->
  exists res, nth_error (snd (batch PE fuel proj empty_state files)) i = Some (r, res) /\
    is_ok res = is_ok (snd (alone PE fuel proj r)) /\
    (forall v w, res = Ok v -> snd (alone PE fuel proj r) = Ok w -> v = w).
Proof.
  intros proj fuel files i r L H.
  destruct (batch_nth PE fuel proj files empty_state i r H) as [pre [post [-> [_ Hn]]]].
  eexists. split; [exact Hn|].
  destruct (batch_equals_alone_current proj fuel pre r post L) as [S1 [V1 _]].
  unfold in_batch in *. auto.
Qed.

(* C16 refuted for the old lock: with the lock held for the whole invocation (the
   code before commit 0c43338) the unrestricted statement is FALSE *)

Definition w_lib : path := b "/p/lib.ucg".
Definition w_main : path := b "/p/main.ucg".
(* lib.ucg:  out json {v = 1};
   main.ucg: let l = import "./lib.ucg"; out json {x = l.v};
   (real binary: `ucg build lib.ucg main.ucg` exits 1 with
    "You can only have one output per file" for main.ucg, `ucg build main.ucg`
    and `ucg build lib.ucg` exit 0) *)
Definition w_proj : project :=
  [ (w_lib, mkFile [] 1 false); (w_main, mkFile [w_lib] 1 false) ].

Theorem batch_lock_refuted :
  ~ (forall proj fuel pre r, List.length proj <= fuel ->
       is_ok (snd (in_batch LockPerInvocation fuel proj pre r)) = is_ok (snd (alone LockPerInvocation fuel proj r))).
Proof.
  intros H. specialize (H w_proj 3 [w_lib] w_main ltac:(cbn; lia)).
  vm_compute in H. discriminate.
Qed.

(* the smallest witnesses, both orders: the file that comes second fails,
   although each builds alone *)
Example batch_lock_witness :
  map (fun x => is_ok (snd x)) (snd (batch LockPerInvocation 3 w_proj empty_state [w_lib; w_main])) = [true; false] /\
  map (fun x => is_ok (snd x)) (snd (batch LockPerInvocation 3 w_proj empty_state [w_main; w_lib])) = [true; false] /\
  tl (snd (batch LockPerInvocation 3 w_proj empty_state [w_lib; w_main])) = [(w_main, Err OutLock)] /\
  is_ok (snd (alone LockPerInvocation 3 w_proj w_lib)) = true /\ is_ok (snd (alone LockPerInvocation 3 w_proj w_main)) = true /\
  exit_status (snd (batch LockPerInvocation 3 w_proj empty_state [w_lib; w_main])) = 1.
Proof. vm_compute. repeat split; reflexivity. Qed.

(* ... and the witness is in the class *)
Lemma w_edge : edge w_proj w_main w_lib.
Proof.
  exists (mkFile [w_lib] 1 false), w_lib.
  split; [vm_compute; reflexivity|split; [left; reflexivity|vm_compute; reflexivity]].
Qed.

Example witness_known :
  Known_C16 w_proj [w_lib; w_main] w_main /\ Known_C16 w_proj [w_main; w_lib] w_lib.
Proof.
  assert (Hm : normalize w_main = w_main) by (vm_compute; reflexivity).
  assert (Hl : normalize w_lib = w_lib) by (vm_compute; reflexivity).
  split.
  - left. exists w_lib. unfold Known_C16. rewrite Hm. split; [exists w_lib; split; [apply w_edge|constructor]|].
    split; [exists (mkFile [] 1 false); split; [reflexivity|cbn; lia]|].
    cbn. left. exact Hl.
  - right. rewrite Hl. split; [exists (mkFile [] 1 false); split; [reflexivity|cbn; lia]|].
    left. exists w_main. split; [left; reflexivity|]. rewrite Hm.
    exists w_lib; split; [apply w_edge|constructor].
Qed.

(* the hypothetical repetition inside ONE Environment is not idempotent:
   every file with an out fails the second time *)
Example repeat_same_env_refuted :
  map (fun x => is_ok (snd x)) (snd (repeat_same_env LockPerInvocation 3 w_proj [w_lib])) = [true; false].
Proof. vm_compute. reflexivity. Qed.

(* the class is spelling sensitive: the lock is keyed by the components of
   the command-line spelling, so a ".." spelling of lib escapes the defect
   (real binary: `ucg build sub/../lib.ucg main.ucg` exits 0).  Known_C16
   (which identifies files, not spellings) over-approximates here. *)
Example known_overapproximates :
  let files := [b "/p/sub/../lib.ucg"; w_main] in
  map (fun x => is_ok (snd x)) (snd (batch LockPerInvocation 3 w_proj empty_state files)) = [true; true] /\
  known_c16b 3 w_proj files w_main = true.
Proof. vm_compute. split; reflexivity. Qed.

Lemma deps_sound proj : forall d p x, In x (deps d proj p) -> reach1 proj (normalize p) x.
Proof.
  induction d as [|d IH]; intros p x H; [destruct H|]. cbn in H.
  destruct (lookup proj (normalize p)) as [f|] eqn:Lf; [|destruct H].
  apply in_flat_map in H. destruct H as [i [Hi [E|H]]].
  - exists (normalize i). split; [exists f, i; auto|]. subst. constructor.
  - exists (normalize i). split; [exists f, i; auto|]. apply reach1_reach, IH, H.
Qed.

Lemma deps_complete proj : forall d p x,
  good d proj p = true -> reach1 proj (normalize p) x -> In x (deps d proj p).
Proof.
  induction d as [|d IH]; intros p x G [c [[f [i [Lf [Hi ->]]]] R]]; [discriminate|].
  cbn in *. rewrite Lf in *. apply andb_true_iff in G. destruct G as [_ G].
  rewrite forallb_forall in G. apply in_flat_map. exists i. split; [exact Hi|].
  inversion R as [|a c' e E R']; subst.
  - left; reflexivity.
  - right. apply IH; [apply G, Hi|]. exists c'. auto.
Qed.

Lemma has_outb_spec proj x : has_outb proj x = true <-> has_out proj x.
Proof.
  unfold has_outb, has_out. destruct (lookup proj x) as [f|].
  - rewrite Nat.leb_le. split; [eauto|]. intros [f' [E H]]. inversion E; subst. exact H.
  - split; [discriminate|]. intros [f' [E _]]. discriminate.
Qed.

(* the boolean only reports members of the class ... *)
Theorem known_c16b_sound : forall d proj files r,
  known_c16b d proj files r = true -> Known_C16 proj files r.
Proof.
  intros d proj files r H. unfold known_c16b in H.
  apply orb_true_iff in H. destruct H as [H|H].
  - apply existsb_exists in H. destruct H as [x [Hx H]]. apply andb_true_iff in H.
    destruct H as [Ho Hm]. left. exists x. split; [eapply deps_sound, Hx|].
    split; [apply has_outb_spec, Ho|apply mem_path_In, Hm].
  - apply andb_true_iff in H. destruct H as [Ho H]. right. split; [apply has_outb_spec, Ho|].
    apply orb_true_iff in H. destruct H as [H|H].
    + apply existsb_exists in H. destruct H as [r' [Hr' Hm]]. left. exists r'. split; [exact Hr'|].
      eapply deps_sound. apply mem_path_In, Hm.
    + right. apply Nat.leb_le, H.
Qed.

(* ... and reports all of them when every file of the invocation is good to
   depth [d] (acyclic, complete, nothing fails) *)
Theorem known_c16b_complete : forall d proj files r,
  (forall r', In r' files -> good d proj r' = true) -> In r files ->
  Known_C16 proj files r -> known_c16b d proj files r = true.
Proof.
  intros d proj files r G Hr K. unfold known_c16b. apply orb_true_iff.
  destruct K as [[x [R [O I]]]|[O [[r' [I R]]|Cn]]].
  - left. apply existsb_exists. exists x. split; [apply deps_complete; auto|].
    apply andb_true_iff. split; [apply has_outb_spec, O|apply mem_path_In, I].
  - right. apply andb_true_iff. split; [apply has_outb_spec, O|]. apply orb_true_iff. left.
    apply existsb_exists. exists r'. split; [exact I|]. apply mem_path_In, deps_complete; auto.
  - right. apply andb_true_iff. split; [apply has_outb_spec, O|]. apply orb_true_iff. right.
    apply Nat.leb_le, Cn.
Qed.

(* the executable form of the positive theorem *)
Corollary batch_equals_alone_b : forall md d proj fuel pre r post,
  List.length proj <= fuel ->
  (forall r', In r' (pre ++ r :: post) -> good d proj r' = true) ->
  known_c16b d proj (pre ++ r :: post) r = false ->
  is_ok (snd (in_batch md fuel proj pre r)) = true /\ is_ok (snd (alone md fuel proj r)) = true.
Proof.
  intros md d proj fuel pre r post L G Hb.
  assert (Hr : In r (pre ++ r :: post)) by (apply in_or_app; right; left; reflexivity).
  assert (NK : ~ Known_C16 proj (pre ++ r :: post) r).
  { intros K. rewrite (known_c16b_complete d proj _ r G Hr K) in Hb. discriminate. }
  destruct (batch_equals_alone md proj fuel pre r post L (fun _ => NK)) as [E _].
  destruct (acyclic_builds md proj fuel r d (G r Hr) L) as [v [Hv _]].
  unfold Batch.alone in *. rewrite Hv in *. cbn in E. auto.
Qed.

(* the same witnesses under the current code: everything builds *)
Example batch_lock_witness_current :
  map (fun x => is_ok (snd x)) (snd (batch LockPerEvaluation 3 w_proj empty_state [w_lib; w_main])) = [true; true] /\
  map (fun x => is_ok (snd x)) (snd (batch LockPerEvaluation 3 w_proj empty_state [w_main; w_lib])) = [true; true] /\
  map (fun x => is_ok (snd x)) (snd (repeat_same_env LockPerEvaluation 3 w_proj [w_lib; w_main])) = [true; true; true; true].
Proof. vm_compute. repeat split; reflexivity. Qed.

(* FULL STATEMENT (not proved): every artifact path written by an invocation
   is written, with the same content, by building alone one of its files:
     forall proj fuel files st l k w, List.length proj <= fuel ->
       batch LockPerEvaluation fuel proj empty_state files = (st, l) ->
       In (k, w) (artifacts st) ->
       exists r, In r files /\ In (k, w) (artifacts (fst (alone LockPerEvaluation fuel proj r))).
   PROVED instead (both modes): such an artifact belongs to a file with an out
   statement that is one of the built files or imported (transitively) by
   one (that it holds that file's isolated value is caches_transparent). *)
Theorem batch_no_junk_partial : forall md proj fuel files st0 st l k w,
  batch md fuel proj st0 files = (st, l) -> In (k, w) (artifacts st) ->
  In (k, w) (artifacts st0) \/
  ((exists r, In r files /\ reach proj (normalize r) k) /\ has_out proj k).
Proof.
  intros md proj fuel. induction files as [|r rs IH]; intros st0 st l k w H Hin; cbn in H.
  - inversion H; subst. auto.
  - destruct (build_file md fuel proj st0 r) as [st1 res] eqn:E1.
    destruct (batch md fuel proj st1 rs) as [st2 l2] eqn:E2. inversion H; subst; clear H.
    destruct (IH _ _ _ _ _ E2 Hin) as [H1|[[r' [Hr' R]] Ho]].
    + destruct (a_art (build_file_adds md E1) _ _ H1) as [H0|[R Ho]]; [auto|].
      right. split; [exists r; split; [left; reflexivity|exact R]|exact Ho].
    + right. split; [exists r'; split; [right; exact Hr'|exact R]|exact Ho].
Qed.
