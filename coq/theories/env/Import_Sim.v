(* The CURRENT code (LockPerEvaluation): a run from an Environment that has
   already built other files simulates the run from the empty Environment.
   Used for the unrestricted C16 theorems in Batch_Lemmas.v. *)
From Ucg Require Import base.Bytes base.Bytes_Lemmas path.Path path.Path_Lemmas
     env.Import env.Import_Lemmas.

Local Notation PE := LockPerEvaluation.

(* the cache is closed under imports, and the artifact of every cached file
   that has an out statement has been written *)
Definition closed (proj : project) (st : state) : Prop :=
  forall x y, In x (dom (val_cache st)) -> edge proj x y -> In y (dom (val_cache st)).

Definition artinv (proj : project) (st : state) : Prop :=
  forall x, In x (dom (val_cache st)) -> has_out proj x -> exists w, In (x, w) (artifacts st).

(* [sa]: the run of the file alone; [sb]: the run inside an invocation *)
Record Sim (proj : project) (sa sb : state) : Prop := mkSim {
  s_ca : cache_ok proj (val_cache sa);
  s_cb : cache_ok proj (val_cache sb);
  s_in : incl (dom (val_cache sa)) (dom (val_cache sb));
  s_ar : forall k v, In (k, v) (artifacts sa) -> exists w, In (k, w) (artifacts sb);
  s_cl : closed proj sb;
  s_ai : artinv proj sb }.

Lemma closed_reach proj st x y :
  closed proj st -> In x (dom (val_cache st)) -> reach proj x y -> In y (dom (val_cache st)).
Proof. intros C H R. induction R as [|a c d E R IH]; [exact H|]. apply IH. eapply C; eassumption. Qed.

Lemma Sim_frame proj sa sb sa0 sb0 :
  val_cache sa0 = val_cache sa -> artifacts sa0 = artifacts sa ->
  val_cache sb0 = val_cache sb -> artifacts sb0 = artifacts sb ->
  Sim proj sa sb -> Sim proj sa0 sb0.
Proof.
  intros E1 E2 E3 E4 [A B C D E F].
  constructor; unfold closed, artinv in *; rewrite ?E1, ?E2, ?E3, ?E4; assumption.
Qed.

Lemma Sim_empty proj : Sim proj empty_state empty_state.
Proof.
  constructor.
  - apply cache_ok_empty.
  - apply cache_ok_empty.
  - apply incl_refl.
  - intros k v [].
  - intros x y [].
  - intros x [].
Qed.

Lemma lock_free_pe proj st a : lock_free PE proj st a.
Proof. intros Em. discriminate. Qed.

Lemma run_outs_free k a n st :
  ~ In k (out_lock st) ->
  run_outs k a n st =
  match n with
  | 0 => (st, Ok tt)
  | 1 => (do_out k a st, Ok tt)
  | _ => (do_out k a st, Err OutLock)
  end.
Proof.
  intros H. apply mem_key_nIn in H. destruct n as [|[|n]]; cbn [run_outs]; [reflexivity| |].
  - rewrite H. reflexivity.
  - rewrite H. assert (mem_key k (out_lock (do_out k a st)) = true) as ->
        by (apply mem_key_In; left; reflexivity). reflexivity.
Qed.

(* [p] is already cached inside the invocation: alone it is evaluated, and
   everything this adds is already there *)
Lemma sim_cached_b proj fuel stack sa sb p sa' stack' ra :
  import PE fuel proj stack sa p = (sa', stack', ra) -> Sim proj sa sb ->
  In (normalize p) (dom (val_cache sb)) -> stack_ok proj stack sa (normalize p) ->
  ra <> Err OutOfFuel -> is_ok ra = true /\ Sim proj sa' sb.
Proof.
  intros H [Ca Cb I Ar Cl Ai] Hc SO NF.
  assert (G : exists d, good d proj p = true).
  { apply dom_in in Hc. destruct Hc as [v Hv]. destruct (Cb _ _ Hv) as [_ [d [G _]]].
    exists d. rewrite <- good_normalize. exact G. }
  pose proof (import_live PE proj fuel _ _ _ _ _ _ H Ca G SO (lock_free_pe _ _ _)) as OF.
  destruct (import_adds PE proj fuel _ _ _ _ _ _ H) as [Ad _].
  split; [destruct ra as [v|e]; [reflexivity|]; exfalso; apply NF; rewrite (OF e eq_refl); reflexivity|].
  constructor; try assumption.
  - apply (import_safe PE proj [] fuel _ _ _ _ _ _ H Ca).
  - intros y Hy. destruct (a_cache Ad y Hy) as [Hy'|R]; [apply I, Hy'|].
    eapply closed_reach; eassumption.
  - intros k v Hk. destruct (a_art Ad k v Hk) as [Hk'|[R Ho]]; [eapply Ar, Hk'|].
    apply Ai; [|exact Ho]. eapply closed_reach; eassumption.
Qed.

Definition simH (proj : project) (fuel : nat) : Prop :=
  forall stack_a sa stack_b sb p sa' stack_a' ra sb' stack_b' rb,
    import PE fuel proj stack_a sa p = (sa', stack_a', ra) ->
    import PE fuel proj stack_b sb p = (sb', stack_b', rb) ->
    Sim proj sa sb -> (exists d, sfine d proj p = true) ->
    stack_ok proj stack_a sa (normalize p) -> stack_ok proj stack_b sb (normalize p) ->
    ra <> Err OutOfFuel -> rb <> Err OutOfFuel ->
    is_ok ra = is_ok rb /\ Sim proj sa' sb'.

Lemma run_imports_sim proj fuel : simH proj fuel ->
  forall ps stack_a sa stack_b sb sa' stack_a' ra sb' stack_b' rb,
    run_imports (import PE fuel proj) ps stack_a sa = (sa', stack_a', ra) ->
    run_imports (import PE fuel proj) ps stack_b sb = (sb', stack_b', rb) ->
    Sim proj sa sb -> (forall i, In i ps -> exists d, sfine d proj i = true) ->
    (forall i, In i ps -> stack_ok proj stack_a sa (normalize i)) ->
    (forall i, In i ps -> stack_ok proj stack_b sb (normalize i)) ->
    ra <> Err OutOfFuel -> rb <> Err OutOfFuel ->
    is_ok ra = is_ok rb /\ Sim proj sa' sb'.
Proof.
  intros HS. induction ps as [|p ps IH];
    intros stack_a sa stack_b sb sa' stack_a' ra sb' stack_b' rb Ha Hb S Sf SOa SOb NFa NFb.
  - inversion Ha; inversion Hb; subst. auto.
  - destruct (run_imports_cons Ha) as [sa1 [stack_a1 [r1a [E1a Xa]]]].
    destruct (run_imports_cons Hb) as [sb1 [stack_b1 [r1b [E1b Xb]]]].
    assert (N1a : r1a <> Err OutOfFuel)
      by (intros ->; destruct Xa as [_ [_ ->]]; apply NFa; reflexivity).
    assert (N1b : r1b <> Err OutOfFuel)
      by (intros ->; destruct Xb as [_ [_ ->]]; apply NFb; reflexivity).
    destruct (HS _ _ _ _ _ _ _ _ _ _ _ E1a E1b S (Sf p (or_introl eq_refl))
                 (SOa p (or_introl eq_refl)) (SOb p (or_introl eq_refl)) N1a N1b) as [Eok S1].
    assert (Hso : forall stack st st1 stack1 r1,
              import PE fuel proj stack st p = (st1, stack1, r1) ->
              (forall i, In i (p :: ps) -> stack_ok proj stack st (normalize i)) ->
              forall i, In i ps -> stack_ok proj stack1 st1 (normalize i)).
    { intros stack st st1 stack1 r1 E1 SO i Hi.
      destruct (import_adds PE proj fuel _ _ _ _ _ _ E1) as [Ad [_ [X _]]].
      eapply stack_ok_step; [apply (a_dom Ad)|exact X|apply SO; right; exact Hi]. }
    destruct r1a as [va|ea]; destruct r1b as [vb|eb]; try discriminate.
    + destruct Xa as [r2a [E2a ->]]. destruct Xb as [r2b [E2b ->]]. rewrite !is_ok_cons.
      apply (IH _ _ _ _ _ _ _ _ _ _ E2a E2b S1); eauto.
      * intros i Hi. apply Sf. right; exact Hi.
      * intros ->. apply NFa. reflexivity.
      * intros ->. apply NFb. reflexivity.
    + destruct Xa as [-> [_ ->]]. destruct Xb as [-> [_ ->]]. auto.
Qed.

Lemma eval_body_sim proj fuel : simH proj fuel ->
  forall stack_a sa stack_b sb n k f sa' ra sb' rb,
    eval_body PE (import PE fuel proj) stack_a sa n k f = (sa', ra) ->
    eval_body PE (import PE fuel proj) stack_b sb n k f = (sb', rb) ->
    Sim proj sa sb -> n = normalize n -> lookup proj n = Some f ->
    (exists d, sfine d proj n = true) ->
    (forall i, In i (imports f) -> stack_ok proj stack_a sa (normalize i)) ->
    (forall i, In i (imports f) -> stack_ok proj stack_b sb (normalize i)) ->
    (forall y, y = normalize y -> lock_key y = k -> y = n) ->
    ra <> Err OutOfFuel -> rb <> Err OutOfFuel ->
    is_ok ra = is_ok rb /\ Sim proj sa' sb'.
Proof.
  intros HS stack_a sa stack_b sb n k f sa' ra sb' rb Ha Hb S Hn Lf [d Sf] SOa SOb Hkey NFa NFb.
  destruct (eval_body_inv PE Ha) as [la [sa1 [stack_a1 [r1a [_ [Ka0 [E1a Xa]]]]]]].
  destruct (eval_body_inv PE Hb) as [lb [sb1 [stack_b1 [r1b [_ [Kb0 [E1b Xb]]]]]]].
  assert (S0 : Sim proj (record_eval n (set_out_lock la sa)) (record_eval n (set_out_lock lb sb)))
    by (apply (Sim_frame proj sa sb); auto).
  assert (Acy : ~ reach1 proj n n) by (rewrite Hn; eapply sfine_acyclic, Sf).
  assert (Sfi : forall i, In i (imports f) -> exists d, sfine d proj i = true).
  { intros i Hi. destruct d as [|d]; [discriminate|]. cbn in Sf. rewrite <- Hn, Lf in Sf.
    rewrite forallb_forall in Sf. eauto. }
  assert (N1a : r1a <> Err OutOfFuel) by (intros ->; destruct Xa as [_ ->]; apply NFa; reflexivity).
  assert (N1b : r1b <> Err OutOfFuel) by (intros ->; destruct Xb as [_ ->]; apply NFb; reflexivity).
  destruct (run_imports_sim proj fuel HS _ _ _ _ _ _ _ _ _ _ _ E1a E1b S0 Sfi SOa SOb N1a N1b)
    as [Eok S1].
  destruct r1a as [vsa|ea]; destruct r1b as [vsb|eb]; try discriminate.
  2:{ destruct Xa as [-> ->]. destruct Xb as [-> ->]. auto. }
  destruct Xa as [r2a [E2a ->]]. destruct Xb as [r2b [E2b ->]].
  (* after the reset at the start of an evaluation nobody takes the lock of
     the file before its own outs: these do the same in both runs *)
  pose proof (fun st st1 stack stack1 vs => own_lock_free proj [] _ (import_adds PE proj fuel)
                (import_safe PE proj [] fuel) stack st n k f st1 stack1 vs) as K.
  rewrite (run_outs_free _ _ _ _ (K _ _ _ _ _ E1a (s_ca _ _ _ S0) Lf Acy Hkey (Ka0 eq_refl))) in E2a.
  rewrite (run_outs_free _ _ _ _ (K _ _ _ _ _ E1b (s_cb _ _ _ S0) Lf Acy Hkey (Kb0 eq_refl))) in E2b.
  assert (Sd : forall aa ab, Sim proj (do_out k (n, aa) sa1) (do_out k (n, ab) sb1)).
  { intros aa ab. destruct S1 as [A B C D E F]. constructor; cbn; try assumption.
    - intros k0 v0 Hin. apply in_app_or in Hin. destruct Hin as [Hin|[Ein|[]]].
      + destruct (D _ _ Hin) as [w Hw]. exists w. apply in_or_app; auto.
      + inversion Ein; subst. exists ab. apply in_or_app; right; left; reflexivity.
    - intros x Hx Ho. destruct (F x Hx Ho) as [w Hw]. exists w. cbn. apply in_or_app; auto. }
  destruct (outs f) as [|[|o]]; inversion E2a; inversion E2b; subst;
    (split; [destruct (fails f); reflexivity|auto]).
Qed.

Theorem import_sim proj : forall fuel, simH proj fuel.
Proof.
  (* Cached in [sb]: [sim_cached_b].  Cached in [sa] only: excluded by
     [s_in].  On either stack: excluded by [stack_ok], the path not being
     cached.  Missing: the same error in both runs.  Otherwise both runs
     evaluate the file: [eval_body_sim], and both cache it or neither. *)
  induction fuel as [|fuel IH];
    intros stack_a sa stack_b sb p sa' stack_a' ra sb' stack_b' rb Ha Hb S Sf SOa SOb NFa NFb;
    pose proof Ha as Ha0; pose proof Hb as Hb0; cbn [import] in Ha, Hb;
    set (n := normalize p) in *;
    (destruct (find_val n (val_cache sb)) as [vb|] eqn:Fb;
     [inversion Hb; subst sb' stack_b' rb; clear Hb;
      apply find_val_In, in_dom in Fb;
      destruct (sim_cached_b _ _ _ _ _ _ _ _ _ Ha0 S Fb SOa NFa) as [Hok S']; auto|]);
    (destruct (find_val n (val_cache sa)) as [va|] eqn:Fa;
     [exfalso; apply find_val_In, in_dom in Fa; apply find_val_None in Fb; apply Fb, S, Fa|]);
    apply find_val_None in Fa; apply find_val_None in Fb;
    (destruct (mem_path n stack_a) eqn:Ma;
     [exfalso; apply mem_path_In in Ma; apply Fa, (SOa _ Ma); constructor|]);
    (destruct (mem_path n stack_b) eqn:Mb;
     [exfalso; apply mem_path_In in Mb; apply Fb, (SOb _ Mb); constructor|]);
    (destruct (lookup proj n) as [f|] eqn:Lf;
     [|inversion Ha; inversion Hb; subst; auto]).
  - exfalso. inversion Ha; subst. apply NFa; reflexivity.
  - destruct (record_parse_frame (lock_key n) sa) as [ca Eca]. rewrite Eca in Ha.
    destruct (record_parse_frame (lock_key n) sb) as [cb Ecb]. rewrite Ecb in Hb.
    destruct (eval_body PE _ _ (set_op_cache ca sa) _ _ _) as [sa2 r2a] eqn:EBa.
    destruct (eval_body PE _ _ (set_op_cache cb sb) _ _ _) as [sb2 r2b] eqn:EBb.
    assert (Hn : n = normalize n) by apply normalize_normal.
    assert (Sfn : exists d, sfine d proj n = true)
      by (destruct Sf as [d Sf]; exists d; unfold n; rewrite sfine_normalize; exact Sf).
    assert (Acy : ~ reach1 proj n n)
      by (destruct Sfn as [d Sfn]; rewrite Hn; eapply sfine_acyclic; exact Sfn).
    assert (N2a : r2a <> Err OutOfFuel) by (intros ->; inversion Ha; subst; apply NFa; reflexivity).
    assert (N2b : r2b <> Err OutOfFuel) by (intros ->; inversion Hb; subst; apply NFb; reflexivity).
    destruct (eval_body_sim proj fuel IH _ _ _ _ _ _ _ _ _ _ _ EBa EBb
                (Sim_frame proj sa sb (set_op_cache ca sa) (set_op_cache cb sb)
                   eq_refl eq_refl eq_refl eq_refl S) Hn Lf Sfn
                (fun i Hi => stack_ok_nested proj stack_a sa n f i Lf Hi Acy SOa)
                (fun i Hi => stack_ok_nested proj stack_b sb n f i Lf Hi Acy SOb)
                (fun y Hy E => lock_key_inj y n Hy Hn E) N2a N2b) as [Eok S2].
    destruct r2a as [va|ea]; destruct r2b as [vb|eb]; try discriminate;
      inversion Ha; inversion Hb; subst sa' stack_a' ra sb' stack_b' rb; clear Ha Hb.
    + split; [reflexivity|].
      (* the file just cached: its imports are cached, its artifact is written *)
      destruct (eval_body_adds PE proj _ (import_adds PE proj fuel) _ _ _ _ _ _ _ EBb Lf) as [_ K].
      destruct (K vb eq_refl) as [Xc Xa]. destruct S2 as [A B C D E F].
      constructor.
      * apply (import_safe PE proj [] _ _ _ _ _ _ _ Ha0 (s_ca _ _ _ S)).
      * apply (import_safe PE proj [] _ _ _ _ _ _ _ Hb0 (s_cb _ _ _ S)).
      * cbn. intros y [<-|Hy]; [left; reflexivity|right; apply C, Hy].
      * exact D.
      * intros x y [<-|Hx] Ed.
        -- destruct Ed as [f' [i [Lf' [Hi ->]]]].
           cbn [fst] in Lf'. assert (f' = f) by congruence. subst f'.
           right. apply Xc, Hi.
        -- right. eapply E; eassumption.
      * intros x [<-|Hx] Ho; [|apply F; assumption]. destruct Ho as [f' [Lf' Ho]].
        cbn [fst] in Lf'. assert (f' = f) by congruence. subst f'. eexists. apply Xa, Ho.
    + split; [reflexivity|exact S2].
Qed.

Lemma eval_file_sim proj fuel sa sb r sa' ra sb' rb :
  eval_file PE fuel proj sa r = (sa', ra) -> eval_file PE fuel proj sb r = (sb', rb) ->
  Sim proj sa sb -> (exists d, sfine d proj r = true) ->
  ra <> Err OutOfFuel -> rb <> Err OutOfFuel ->
  is_ok ra = is_ok rb /\ Sim proj sa' sb'.
Proof.
  intros Ha Hb S [d Sf] NFa NFb.
  destruct (eval_file_cases PE Ha) as [[La [-> ->]]|[f [ca [Lf EBa]]]];
    destruct (eval_file_cases PE Hb) as [[Lb [-> ->]]|[f' [cb [Lf' EBb]]]];
    try congruence; [auto|].
  assert (f' = f) by congruence. subst f'.
  rewrite <- sfine_normalize in Sf.
  assert (Acy : ~ reach1 proj (normalize r) (normalize r))
    by (rewrite (normalize_normal r); eapply sfine_acyclic, Sf).
  assert (SOc : forall st i, In i (imports f) -> stack_ok proj [normalize r] st (normalize i))
    by (intros st i Hi; apply (stack_ok_nested proj [] st _ f); auto; intros x []).
  eapply (eval_body_sim proj fuel (import_sim proj fuel)); eauto using normalize_normal.
  - apply (Sim_frame proj sa sb); auto.
  - intros y Hy E. rewrite Hy. apply lock_key_norm, E.
Qed.

Lemma Sim_empty_l proj sa sb : Sim proj sa sb -> Sim proj empty_state sb.
Proof.
  intros [A B C D E F]. constructor; auto.
  - apply cache_ok_empty.
  - intros x [].
  - intros k v [].
Qed.

Theorem build_file_sim {proj fuel sa sb r sa' ra sb' rb} :
  build_file PE fuel proj sa r = (sa', ra) -> build_file PE fuel proj sb r = (sb', rb) ->
  Sim proj sa sb -> shape_ok proj (shape_cache sa) -> shape_ok proj (shape_cache sb) ->
  List.length proj <= fuel ->
  is_ok ra = is_ok rb /\ Sim proj sa' sb'.
Proof.
  intros Ha Hb S Sha Shb L.
  pose proof (import_terminates PE proj fuel sa r L) as NFa. rewrite Ha in NFa. cbn in NFa.
  pose proof (import_terminates PE proj fuel sb r L) as NFb. rewrite Hb in NFb. cbn in NFb.
  rewrite build_file_prelude in Ha, Hb.
  pose proof (prelude_ok proj fuel sa r Sha L) as Oa.
  pose proof (prelude_ok proj fuel sb r Shb L) as Ob.
  pose proof (prelude_sfine proj fuel sa r Sha L) as Sf.
  destruct (prelude_frame proj fuel sa r) as [sca [ca [Ea _]]].
  destruct (prelude_frame proj fuel sb r) as [scb [cb [Eb _]]].
  destruct (prelude fuel proj sa r) as [sa2 ea]. destruct (prelude fuel proj sb r) as [sb2 eb].
  cbn in *. subst sa2 sb2.
  assert (S2 : Sim proj (set_op_cache ca (set_shape_cache sca sa))
                        (set_op_cache cb (set_shape_cache scb sb)))
    by (apply (Sim_frame proj sa sb); auto).
  destruct ea as [ea|]; destruct eb as [eb|].
  - inversion Ha; inversion Hb; subst. auto.
  - exfalso. assert (D : Some ea = None) by (apply Oa, Ob; reflexivity). discriminate.
  - exfalso. assert (D : Some eb = None) by (apply Ob, Oa; reflexivity). discriminate.
  - eapply eval_file_sim; eauto.
Qed.
