(* Proofs about the import / build model of Import.v. *)
From Ucg Require Import base.Bytes base.Bytes_Lemmas path.Path path.Path_Lemmas env.Import.

Definition dom {A B} (c : list (A * B)) : list A := map fst c.

(* the import graph on normalised paths *)
Definition edge (proj : project) (a c : path) : Prop :=
  exists f i, lookup proj a = Some f /\ In i (imports f) /\ c = normalize i.

Inductive reach (proj : project) : path -> path -> Prop :=
| reach_refl a : reach proj a a
| reach_step a c d : edge proj a c -> reach proj c d -> reach proj a d.

(* at least one import step *)
Definition reach1 (proj : project) (a d : path) : Prop :=
  exists c, edge proj a c /\ reach proj c d.

(* a chain of imports from [root] leads to a file that imports itself
   (directly or not) *)
Definition cyclic_from (proj : project) (root : path) : Prop :=
  exists x, reach proj (normalize root) x /\ reach1 proj x x.

Definition has_out (proj : project) (x : path) : Prop :=
  exists f, lookup proj x = Some f /\ 1 <= outs f.

(* [good d proj p]: the import tree below [p] is finite of depth <= d (so
   acyclic), every file in it exists, none fails, none has two outs *)
Fixpoint good (d : nat) (proj : project) (p : path) : bool :=
  match d with
  | O => false
  | S d' =>
      match lookup proj (normalize p) with
      | None => false
      | Some f => negb (fails f) && (outs f <=? 1) && forallb (good d' proj) (imports f)
      end
  end.

(* every cached value is the isolated value of a good normalised path *)
Definition cache_ok (proj : project) (c : list (path * val)) : Prop :=
  forall k v, In (k, v) c ->
    k = normalize k /\ exists d, good d proj k = true /\ value_of d proj k = Some v.

(* the static import tree below [p] is finite (unreadable files are leaves) *)
Fixpoint sfine (d : nat) (proj : project) (p : path) : bool :=
  match d with
  | O => false
  | S d' =>
      match lookup proj (normalize p) with
      | None => true
      | Some f => forallb (sfine d' proj) (imports f)
      end
  end.

Definition shape_ok (proj : project) (sc : list path) : Prop :=
  forall k, In k sc -> k = normalize k /\ exists d, sfine d proj k = true.

(* every artifact ever written for [k] holds the isolated value of [k],
   and [k] has an out statement *)
Definition art_ok (proj : project) (a : list (path * val)) : Prop :=
  forall k v, In (k, v) a ->
    k = normalize k /\ (exists d, value_of d proj k = Some v) /\
    exists f, lookup proj k = Some f /\ 1 <= outs f.

Definition bad (proj : project) (y : path) : Prop :=
  y = normalize y /\ forall d, good d proj y = false.

(* who holds a lock: a file built as a root of this invocation, a cached
   (successfully imported) file, or an imported file that cannot succeed *)
Definition lock_clause proj (roots : list path) (st : state) (k : lkey) : Prop :=
  (exists r, In r roots /\ k = lock_key r) \/
  (exists y, k = lock_key y /\ (In y (dom (val_cache st)) \/ bad proj y)).

Definition lock_inv proj roots st : Prop :=
  forall k, In k (out_lock st) -> lock_clause proj roots st k.

(* the invariant of every Environment reachable in an invocation; [roots]
   are the files built so far *)
Definition binv proj (roots : list path) (st : state) : Prop :=
  cache_ok proj (val_cache st) /\ shape_ok proj (shape_cache st) /\
  art_ok proj (artifacts st) /\ lock_inv proj roots st.

Definition witness (proj : project) (p : path) (v : val) : Prop :=
  exists d, good d proj p = true /\ value_of d proj p = Some v.

Definition only_fuel {A} (r : result A) : Prop := forall e, r = Err e -> e = OutOfFuel.

Lemma mem_path_In p l : mem_path p l = true <-> In p l.
Proof.
  unfold mem_path. rewrite existsb_exists. split.
  - intros [x [Hx E]]. apply bytes_eqb_spec in E. subst. exact Hx.
  - intros H. exists p. split; [exact H|apply bytes_eqb_refl].
Qed.

Lemma mem_path_nIn p l : mem_path p l = false <-> ~ In p l.
Proof. rewrite <- mem_path_In, not_true_iff_false. reflexivity. Qed.

Lemma comp_eqb_spec x y : comp_eqb x y = true <-> x = y.
Proof.
  destruct x, y; cbn; try (split; [discriminate|congruence]); try (split; reflexivity).
  rewrite bytes_eqb_spec. split; congruence.
Qed.

Lemma lkey_eqb_spec x y : lkey_eqb x y = true <-> x = y.
Proof.
  revert y; induction x as [|c x IH]; intros [|d y]; cbn;
    try (split; [discriminate|congruence]); try (split; reflexivity).
  rewrite andb_true_iff, IH, comp_eqb_spec. split.
  - intros [-> ->]; reflexivity.
  - intros H; inversion H; auto.
Qed.

Lemma mem_key_In k l : mem_key k l = true <-> In k l.
Proof.
  unfold mem_key. rewrite existsb_exists. split.
  - intros [x [Hx E]]. apply lkey_eqb_spec in E. subst. exact Hx.
  - intros H. exists k. split; [exact H|apply lkey_eqb_spec; reflexivity].
Qed.

Lemma mem_key_nIn k l : mem_key k l = false <-> ~ In k l.
Proof. rewrite <- mem_key_In, not_true_iff_false. reflexivity. Qed.

(* equal lock keys denote the same file *)
Lemma lock_key_norm a c : lock_key a = lock_key c -> normalize a = normalize c.
Proof. unfold lock_key, normalize. intros ->. reflexivity. Qed.

Lemma lock_key_inj a c :
  a = normalize a -> c = normalize c -> lock_key a = lock_key c -> a = c.
Proof. intros Ha Hc E. rewrite Ha, Hc. apply lock_key_norm, E. Qed.

Lemma normalize_normal p : normalize p = normalize (normalize p).
Proof. symmetry; apply normalize_idem_any. Qed.

Lemma find_val_In p c v : find_val p c = Some v -> In (p, v) c.
Proof.
  induction c as [|[k w] c IH]; cbn; [discriminate|].
  destruct (bytes_eqb k p) eqn:E.
  - apply bytes_eqb_spec in E. intros H; inversion H; subst. left; reflexivity.
  - intros H. right. apply IH, H.
Qed.

Lemma find_val_None p c : find_val p c = None <-> ~ In p (dom c).
Proof.
  induction c as [|[k w] c IH]; cbn; [tauto|].
  destruct (bytes_eqb k p) eqn:E.
  - apply bytes_eqb_spec in E. split; [discriminate|]. intros H; exfalso; apply H; auto.
  - apply bytes_eqb_false in E. rewrite IH. tauto.
Qed.

Lemma find_val_dom p c : In p (dom c) -> exists v, find_val p c = Some v.
Proof.
  intros H. destruct (find_val p c) eqn:E; [eauto|].
  apply find_val_None in E. contradiction.
Qed.

Lemma in_dom {A B} (k : A) (v : B) c : In (k, v) c -> In k (dom c).
Proof. apply (in_map fst). Qed.

Lemma dom_in {A B} (k : A) (c : list (A * B)) : In k (dom c) -> exists v, In (k, v) c.
Proof. intros H. apply in_map_iff in H. destruct H as [[k' v] [E H]]. cbn in E. subst. eauto. Qed.

Lemma lookup_In proj p f : lookup proj p = Some f -> In p (dom proj).
Proof.
  induction proj as [|[k g] proj IH]; cbn; [discriminate|].
  destruct (bytes_eqb k p) eqn:E.
  - apply bytes_eqb_spec in E. auto.
  - intros H. right. apply IH, H.
Qed.

Lemma forallb_false {A} (g : A -> bool) l x : In x l -> g x = false -> forallb g l = false.
Proof.
  intros H E. destruct (forallb g l) eqn:F; [|reflexivity].
  rewrite forallb_forall in F. rewrite (F x H) in E. discriminate.
Qed.

Lemma cache_ok_empty proj : cache_ok proj [].
Proof. intros k v []. Qed.

Lemma binv_empty proj : binv proj [] empty_state.
Proof. split; [intros k v []|split; [intros k []|split; [intros k v []|intros k []]]]. Qed.

Lemma cache_ok_normal proj c y : cache_ok proj c -> In y (dom c) -> y = normalize y.
Proof. intros C H. apply dom_in in H. destruct H as [v H]. apply (C _ _ H). Qed.

Lemma NoDup_app_intro {A} (l1 l2 : list A) :
  NoDup l1 -> NoDup l2 -> (forall x, In x l1 -> In x l2 -> False) -> NoDup (l1 ++ l2).
Proof.
  induction l1 as [|a l1 IH]; intros N1 N2 D; cbn; [exact N2|].
  inversion N1; subst. constructor.
  - intros H. apply in_app_or in H. destruct H as [H|H]; [contradiction|].
    apply (D a); [left; reflexivity|exact H].
  - apply IH; auto. intros x Hx1 Hx2. apply (D x); [right; exact Hx1|exact Hx2].
Qed.

(* the import stack of a file being evaluated holds distinct files of the
   project, so there is room for one that is not on it *)
Lemma stack_room proj stack n f :
  NoDup stack -> incl stack (dom proj) -> ~ In n stack -> lookup proj n = Some f ->
  NoDup (stack ++ [n]) /\ incl (stack ++ [n]) (dom proj) /\
  S (List.length stack) <= List.length proj.
Proof.
  intros N I Hn Lf. apply lookup_In in Lf. split; [|split].
  - apply NoDup_app_intro; [exact N|repeat constructor; intros []|].
    intros y H1 [<-|[]]. contradiction.
  - apply incl_app; [exact I|]. intros x [<-|[]]. exact Lf.
  - unfold dom in *. rewrite <- (map_length fst proj).
    apply (NoDup_incl_length (l := n :: stack)); [constructor; assumption|].
    intros x [<-|Hx]; auto.
Qed.

Lemma map_opt_impl {A B} (g h : A -> option B) l vs :
  (forall x y, In x l -> g x = Some y -> h x = Some y) ->
  map_opt g l = Some vs -> map_opt h l = Some vs.
Proof.
  revert vs; induction l as [|x l IH]; intros vs H; cbn; [auto|].
  destruct (g x) as [y|] eqn:E; [|discriminate].
  destruct (map_opt g l) as [ys|] eqn:E2; [|discriminate].
  rewrite (H x y (or_introl eq_refl) E), (IH ys (fun x' y' Hx' => H x' y' (or_intror Hx')) eq_refl).
  auto.
Qed.

Lemma value_of_mono proj : forall d d' p v,
  value_of d proj p = Some v -> d <= d' -> value_of d' proj p = Some v.
Proof.
  induction d as [|d IH]; intros d' p v H Hle; [discriminate|].
  destruct d' as [|d']; [lia|]. cbn in *.
  destruct (lookup proj (normalize p)) as [f|]; [|discriminate].
  destruct (map_opt (value_of d proj) (imports f)) as [vs|] eqn:E; [|discriminate].
  rewrite (map_opt_impl _ (value_of d' proj) _ _ (fun x y _ Hxy => IH d' x y Hxy ltac:(lia)) E).
  exact H.
Qed.

Lemma good_mono proj : forall d d' p,
  good d proj p = true -> d <= d' -> good d' proj p = true.
Proof.
  induction d as [|d IH]; intros d' p H Hle; [discriminate|].
  destruct d' as [|d']; [lia|]. cbn in *.
  destruct (lookup proj (normalize p)) as [f|]; [|discriminate].
  apply andb_true_iff in H. destruct H as [H1 H2]. rewrite H1. cbn.
  rewrite forallb_forall in *. intros x Hx. apply IH; [auto|lia].
Qed.

Lemma sfine_mono proj : forall d d' p,
  sfine d proj p = true -> d <= d' -> sfine d' proj p = true.
Proof.
  induction d as [|d IH]; intros d' p H Hle; [discriminate|].
  destruct d' as [|d']; [lia|]. cbn in *.
  destruct (lookup proj (normalize p)) as [f|]; [|reflexivity].
  rewrite forallb_forall in *. intros x Hx. apply IH; [auto|lia].
Qed.

Lemma value_of_fun proj d1 d2 p v w :
  value_of d1 proj p = Some v -> value_of d2 proj p = Some w -> v = w.
Proof.
  intros H1 H2.
  apply value_of_mono with (d' := Nat.max d1 d2) in H1; [|lia].
  apply value_of_mono with (d' := Nat.max d1 d2) in H2; [|lia].
  congruence.
Qed.

Lemma value_of_normalize proj d p : value_of d proj (normalize p) = value_of d proj p.
Proof. destruct d; cbn; [reflexivity|]. rewrite normalize_idem_any. reflexivity. Qed.

Lemma good_normalize proj d p : good d proj (normalize p) = good d proj p.
Proof. destruct d; cbn; [reflexivity|]. rewrite normalize_idem_any. reflexivity. Qed.

Lemma sfine_normalize proj d p : sfine d proj (normalize p) = sfine d proj p.
Proof. destruct d; cbn; [reflexivity|]. rewrite normalize_idem_any. reflexivity. Qed.

Lemma witness_normalize proj p v : witness proj (normalize p) v -> witness proj p v.
Proof. intros [d H]. exists d. rewrite <- good_normalize, <- value_of_normalize. exact H. Qed.

Lemma good_value proj : forall d p, good d proj p = true -> exists v, value_of d proj p = Some v.
Proof.
  induction d as [|d IH]; intros p H; [discriminate|]. cbn in *.
  destruct (lookup proj (normalize p)) as [f|]; [|discriminate].
  apply andb_true_iff in H. destruct H as [_ H]. rewrite forallb_forall in H.
  assert (exists vs, map_opt (value_of d proj) (imports f) = Some vs) as [vs ->]; [|eauto].
  induction (imports f) as [|x l IHl]; cbn; [eauto|].
  destruct (IH x) as [v ->]; [apply H; left; reflexivity|].
  destruct IHl as [vs ->]; [intros y Hy; apply H; right; exact Hy|]. eauto.
Qed.

Lemma good_sfine proj : forall d p, good d proj p = true -> sfine d proj p = true.
Proof.
  induction d as [|d IH]; intros p G; [discriminate|]. cbn in *.
  destruct (lookup proj (normalize p)) as [f|]; [|reflexivity].
  apply andb_true_iff in G. destruct G as [_ G].
  rewrite forallb_forall in *. auto.
Qed.

Lemma good_false proj n f :
  n = normalize n -> lookup proj n = Some f -> fails f = true \/ 2 <= outs f ->
  forall d, good d proj n = false.
Proof.
  intros Hn Lf H [|d]; [reflexivity|]. cbn. rewrite <- Hn, Lf.
  destruct H as [->|H]; [reflexivity|].
  apply Nat.leb_gt in H. rewrite H, andb_false_r. reflexivity.
Qed.

(* one depth for the witnesses of all imports of a file *)
Lemma collect_depth proj ps vs :
  Forall2 (witness proj) ps vs ->
  exists d, forallb (good d proj) ps = true /\ map_opt (value_of d proj) ps = Some vs.
Proof.
  induction 1 as [|p v ps vs [d1 [G1 V1]] _ [d2 [G2 V2]]].
  - exists 0. split; reflexivity.
  - exists (Nat.max d1 d2). cbn.
    rewrite (good_mono proj d1 _ p G1), (value_of_mono proj d1 _ p v V1) by lia.
    rewrite (map_opt_impl _ (value_of (Nat.max d1 d2) proj) _ _
               (fun x y _ H => value_of_mono proj d2 (Nat.max d1 d2) x y H ltac:(lia)) V2).
    split; [|reflexivity]. cbn. rewrite forallb_forall in *.
    intros x Hx. apply good_mono with d2; [auto|lia].
Qed.

Lemma collect_sfine proj ps :
  (forall p, In p ps -> exists d, sfine d proj p = true) ->
  exists d, forallb (sfine d proj) ps = true.
Proof.
  induction ps as [|p ps IH]; intros H; [exists 0; reflexivity|].
  destruct (H p) as [d1 G1]; [left; reflexivity|].
  destruct IH as [d2 G2]; [intros q Hq; apply H; right; exact Hq|].
  exists (Nat.max d1 d2). cbn. rewrite (sfine_mono proj d1 _ p G1) by lia. cbn.
  rewrite forallb_forall in *. intros x Hx. apply sfine_mono with d2; [auto|lia].
Qed.

Lemma edge_import proj n f i : lookup proj n = Some f -> In i (imports f) -> edge proj n (normalize i).
Proof. intros L H. exists f, i. auto. Qed.

Lemma edge_normal proj a c : edge proj a c -> c = normalize c.
Proof. intros [f [i [_ [_ ->]]]]. apply normalize_normal. Qed.

Lemma reach_trans proj a c d : reach proj a c -> reach proj c d -> reach proj a d.
Proof. induction 1; intros; auto. econstructor; eauto. Qed.

Lemma reach_edge proj a c d : reach proj a c -> edge proj c d -> reach proj a d.
Proof. intros H E. eapply reach_trans; [exact H|]. econstructor; [exact E|constructor]. Qed.

Lemma reach1_reach proj a d : reach1 proj a d -> reach proj a d.
Proof. intros [c [E R]]. econstructor; eassumption. Qed.

Lemma reach_normal proj a c : reach proj a c -> a = normalize a -> c = normalize c.
Proof.
  induction 1 as [|a c d E R IH]; intros Ha; [exact Ha|]. apply IH. eapply edge_normal, E.
Qed.

Lemma cyclic_root_exists proj root :
  cyclic_from proj root -> exists f, lookup proj (normalize root) = Some f.
Proof.
  intros [x [R [c [[f [i [Lx _]]] _]]]].
  inversion R as [|a c' e [f' [i' [La _]]] R']; subst; eauto.
Qed.

Lemma good_edge proj d p x :
  good (S d) proj p = true -> edge proj (normalize p) x -> good d proj x = true.
Proof.
  cbn. intros G [f [i [L [Hi ->]]]]. rewrite L in G.
  apply andb_true_iff in G. destruct G as [_ G]. rewrite forallb_forall in G.
  rewrite good_normalize. apply G, Hi.
Qed.

Lemma sfine_edge proj d p x :
  sfine (S d) proj p = true -> edge proj (normalize p) x -> sfine d proj x = true.
Proof.
  cbn. intros G [f [i [L [Hi ->]]]]. rewrite L in G.
  rewrite forallb_forall in G. rewrite sfine_normalize. apply G, Hi.
Qed.

Lemma good_reach proj : forall d p x,
  good d proj p = true -> reach proj (normalize p) x -> good d proj x = true.
Proof.
  intros d p x G R. remember (normalize p) as a eqn:Ea. revert d p G Ea.
  induction R as [a|a c e E R IH]; intros d p G ->.
  - rewrite good_normalize. exact G.
  - destruct d as [|d]; [discriminate|].
    apply good_mono with d; [|lia].
    apply (IH d c (good_edge _ _ _ _ G E)). eapply edge_normal, E.
Qed.

Lemma sfine_reach proj : forall d p x,
  sfine d proj p = true -> reach proj (normalize p) x -> sfine d proj x = true.
Proof.
  intros d p x G R. remember (normalize p) as a eqn:Ea. revert d p G Ea.
  induction R as [a|a c e E R IH]; intros d p G ->.
  - rewrite sfine_normalize. exact G.
  - destruct d as [|d]; [discriminate|].
    apply sfine_mono with d; [|lia].
    apply (IH d c (sfine_edge _ _ _ _ G E)). eapply edge_normal, E.
Qed.

Lemma sfine_acyclic proj : forall d p,
  sfine d proj p = true -> ~ reach1 proj (normalize p) (normalize p).
Proof.
  induction d as [|d IH]; intros p G [c [E R]]; [discriminate|].
  apply (IH c (sfine_edge _ _ _ _ G E)). rewrite <- (edge_normal _ _ _ E).
  inversion R as [|a c' e E' R']; subst.
  - exists (normalize p). split; [exact E|constructor].
  - exists c'. split; [exact E'|]. eapply reach_edge; eassumption.
Qed.

Lemma sfine_not_cyclic proj d root : sfine d proj root = true -> ~ cyclic_from proj root.
Proof.
  intros G [x [R C]]. apply (sfine_acyclic _ _ _ (sfine_reach _ _ _ _ G R)).
  rewrite <- (reach_normal _ _ _ R (normalize_normal root)). exact C.
Qed.

Lemma good_acyclic proj d p : good d proj p = true -> ~ reach1 proj (normalize p) (normalize p).
Proof. intros G. eapply sfine_acyclic, good_sfine, G. Qed.

Lemma good_not_cyclic proj d root : good d proj root = true -> ~ cyclic_from proj root.
Proof. intros G. eapply sfine_not_cyclic, good_sfine, G. Qed.

(* New cache entries are files in [C]; new artifacts belong to files in [A]
   that have an out statement; and after a run that succeeded ([ok]) a lock
   that was not taken before is in [extra] or is that of a newly cached file. *)
Record adds proj (C A : path -> Prop) (extra : list lkey) (ok : bool) (st st' : state)
  : Prop := {
  a_dom : incl (dom (val_cache st)) (dom (val_cache st'));
  a_arts : incl (artifacts st) (artifacts st');
  a_cache : forall y, In y (dom (val_cache st')) -> In y (dom (val_cache st)) \/ C y;
  a_art : forall k v, In (k, v) (artifacts st') ->
    In (k, v) (artifacts st) \/ A k /\ has_out proj k;
  a_lock : ok = true -> forall k, In k (out_lock st') ->
    In k (out_lock st) \/ In k extra \/
    exists y, k = lock_key y /\ In y (dom (val_cache st')) /\ ~ In y (dom (val_cache st)) }.
Arguments a_dom {proj C A extra ok st st'} _.
Arguments a_arts {proj C A extra ok st st'} _.
Arguments a_cache {proj C A extra ok st st'} _.
Arguments a_art {proj C A extra ok st st'} _.
Arguments a_lock {proj C A extra ok st st'} _.

Lemma adds_refl proj C A extra ok st : adds proj C A extra ok st st.
Proof. constructor; auto using incl_refl. Qed.

Lemma adds_seq proj C A extra ok st st1 st2 :
  adds proj C A extra true st st1 -> adds proj C A extra ok st1 st2 ->
  adds proj C A extra ok st st2.
Proof.
  intros [D1 R1 C1 A1 L1] [D2 R2 C2 A2 L2]. constructor.
  - eapply incl_tran; eassumption.
  - eapply incl_tran; eassumption.
  - intros y Hy. destruct (C2 y Hy) as [H|H]; auto.
  - intros k v H. destruct (A2 k v H) as [H'|H']; auto.
  - intros Hok k Hk. destruct (L2 Hok k Hk) as [H|[H|[y [E [Hy Ny]]]]]; [|auto|].
    + destruct (L1 eq_refl k H) as [H'|[H'|[y [E [Hy Ny]]]]]; auto.
      right; right. exists y. split; [exact E|]. split; [apply D2, Hy|exact Ny].
    + right; right. exists y. split; [exact E|]. split; [exact Hy|]. intros H. apply Ny, D1, H.
Qed.

Lemma adds_mono proj (C C' A A' : path -> Prop) extra extra' ok st st' :
  (forall y, C y -> C' y) -> (forall y, A y -> A' y) -> incl extra extra' ->
  adds proj C A extra ok st st' -> adds proj C' A' extra' ok st st'.
Proof.
  intros HC HA HX [D R Cc Ar L]. constructor; auto.
  - intros y Hy. destruct (Cc y Hy); auto.
  - intros k v H. destruct (Ar k v H) as [|[]]; auto.
  - intros Hok k Hk. destruct (L Hok k Hk) as [|[|]]; auto.
Qed.

Lemma adds_ok proj C A extra ok st st' :
  adds proj C A extra true st st' -> adds proj C A extra ok st st'.
Proof. intros [D R Cc Ar L]. constructor; auto. Qed.

Lemma adds_from proj C A extra ok st0 st st' :
  val_cache st0 = val_cache st -> artifacts st0 = artifacts st ->
  incl (out_lock st0) (out_lock st) ->
  adds proj C A extra ok st0 st' -> adds proj C A extra ok st st'.
Proof.
  intros E1 E2 Hl [D R Cc Ar L]. rewrite E1 in *. rewrite E2 in *. constructor; auto.
  intros Hok k Hk. destruct (L Hok k Hk) as [H|H]; auto.
Qed.

Lemma adds_out proj (C A : path -> Prop) ok k n v st :
  A n -> has_out proj n -> adds proj C A [k] ok st (do_out k (n, v) st).
Proof.
  intros Hn Ho. constructor; cbn.
  - apply incl_refl.
  - apply incl_appl, incl_refl.
  - auto.
  - intros k0 v0 H. apply in_app_or in H. destruct H as [H|[E|[]]]; [auto|].
    inversion E; subst. auto.
  - intros _ k0 [<-|H]; cbn; auto.
Qed.

Definition below proj (ps : list path) (y : path) : Prop :=
  exists i, In i ps /\ reach proj (normalize i) y.

(* Everything below is proved for BOTH lock modes ([md] is a section
   variable: after the section every lemma that speaks of the machine starts
   with [forall md]); where the mode matters a hypothesis
   [md = LockPerInvocation -> ...] appears. *)
Section Mode.
Variable md : lock_mode.
Local Notation eval_body := (Import.eval_body md).
Local Notation import := (Import.import md).
Local Notation eval_file := (Import.eval_file md).
Local Notation build_file := (Import.build_file md).

Definition hook := list path -> state -> path -> state * list path * result val.

(* parsing touches the opcode cache only, which nothing else reads *)
Lemma record_parses_frame ks st : exists c, record_parses ks st = set_op_cache c st.
Proof.
  unfold record_parses. induction ks as [|k ks [c IH]]; cbn [fold_right].
  - exists (op_cache st). destruct st; reflexivity.
  - rewrite IH. unfold record_parse. destruct (mem_key k (op_cache (set_op_cache c st))); eexists; reflexivity.
Qed.

Lemma record_parse_frame k st : exists c, record_parse k st = set_op_cache c st.
Proof. exact (record_parses_frame [k] st). Qed.

Definition set_out_lock l st :=
  mkState (val_cache st) (shape_cache st) (op_cache st) l (evaluations st) (artifacts st).

Lemma reset_lock_frame k st :
  exists l, reset_lock md k st = set_out_lock l st /\ incl l (out_lock st) /\
            (md = LockPerEvaluation -> ~ In k l).
Proof.
  unfold reset_lock. destruct md.
  - exists (out_lock st). split; [destruct st; reflexivity|]. split; [apply incl_refl|discriminate].
  - eexists. split; [reflexivity|]. split.
    + intros k' H. apply filter_In in H. apply H.
    + intros _ H. apply filter_In in H. destruct H as [_ H].
      rewrite (proj2 (lkey_eqb_spec k k) eq_refl) in H. discriminate.
Qed.

Lemma run_outs_cases {k a n st st' r} :
  run_outs k a n st = (st', r) ->
  st' = st /\ (n = 0 /\ r = Ok tt \/ 1 <= n /\ In k (out_lock st) /\ r = Err OutLock) \/
  st' = do_out k a st /\ ~ In k (out_lock st) /\
    (n = 1 /\ r = Ok tt \/ 2 <= n /\ r = Err OutLock).
Proof.
  destruct n as [|n]; cbn [run_outs]; [intros H; inversion H; auto|].
  destruct (mem_key k (out_lock st)) eqn:M; intros H.
  - apply mem_key_In in M. inversion H; subst. left. split; [reflexivity|].
    right. split; [lia|auto].
  - apply mem_key_nIn in M. right. destruct n as [|n]; cbn [run_outs] in H.
    + inversion H; subst. auto.
    + rewrite (proj2 (mem_key_In k (out_lock (do_out k a st)))) in H by (left; reflexivity).
      inversion H; subst. split; [reflexivity|]. split; [exact M|]. right. split; [lia|reflexivity].
Qed.

Lemma run_outs_ok k a n st st' u : run_outs k a n st = (st', Ok u) -> n <= 1.
Proof.
  intros H.
  destruct (run_outs_cases H) as [[_ [[-> _]|[_ [_ D]]]]|[_ [_ [[-> _]|[_ D]]]]];
    (lia || discriminate).
Qed.

Definition ok_cons (v : val) (r : result (list val)) : result (list val) :=
  match r with Ok vs => Ok (v :: vs) | Err e => Err e end.

Lemma is_ok_cons v r : is_ok (ok_cons v r) = is_ok r.
Proof. destruct r; reflexivity. Qed.

Lemma run_imports_cons {imp : hook} {p ps stack st st' stack' r} :
  run_imports imp (p :: ps) stack st = (st', stack', r) ->
  exists st1 stack1 r1, imp stack st p = (st1, stack1, r1) /\
    match r1 with
    | Err e => st' = st1 /\ stack' = stack1 /\ r = Err e
    | Ok v => exists r2, run_imports imp ps stack1 st1 = (st', stack', r2) /\ r = ok_cons v r2
    end.
Proof.
  cbn. destruct (imp stack st p) as [[st1 stack1] r1]. intros H.
  exists st1, stack1, r1. split; [reflexivity|].
  destruct r1 as [v|e]; [|inversion H; auto].
  destruct (run_imports imp ps stack1 st1) as [[st2 stack2] r2].
  exists r2. destruct r2; inversion H; auto.
Qed.

(* the VM run of a file: the lock of [k] is reset (what is left, [l], was
   held before), the evaluation is recorded, the imports run, then the outs *)
Lemma eval_body_inv {imp : hook} {stack st n k f st' r} :
  eval_body imp stack st n k f = (st', r) ->
  exists l st1 stack1 r1,
    incl l (out_lock st) /\ (md = LockPerEvaluation -> ~ In k l) /\
    run_imports imp (imports f) stack (record_eval n (set_out_lock l st)) = (st1, stack1, r1) /\
    match r1 with
    | Err e => st' = st1 /\ r = Err e
    | Ok vs => exists r2, run_outs k (n, Val n vs) (outs f) st1 = (st', r2) /\
        r = match r2 with
            | Err e => Err e
            | Ok _ => if fails f then Err Fail else Ok (Val n vs)
            end
    end.
Proof.
  unfold Import.eval_body. destruct (reset_lock_frame k st) as [l [-> [Hl Hpe]]].
  destruct (run_imports imp (imports f) stack _) as [[st1 stack1] r1] eqn:E1. intros H.
  exists l, st1, stack1, r1. split; [exact Hl|]. split; [exact Hpe|]. split; [exact E1|].
  destruct r1 as [vs|e]; [|inversion H; auto].
  destruct (run_outs k (n, Val n vs) (outs f) st1) as [st2 r2].
  exists r2. destruct r2; [destruct (fails f)|]; inversion H; auto.
Qed.

(* Induction over the import hook: a property of all its calls follows from
   the four ways it returns at once and, for the evaluation of a file not
   yet cached, from the property of the hook the nested VM uses. *)
Lemma import_ind proj
      (Q : nat -> list path -> state -> path -> state -> list path -> result val -> Prop) :
  (forall fuel (stack : list path) st p v, find_val (normalize p) (val_cache st) = Some v ->
     Q fuel stack st p st stack (Ok v)) ->
  (forall fuel (stack : list path) st p, find_val (normalize p) (val_cache st) = None ->
     In (normalize p) stack -> Q fuel stack st p st stack (Err Cycle)) ->
  (forall fuel (stack : list path) st p, find_val (normalize p) (val_cache st) = None ->
     lookup proj (normalize p) = None -> Q fuel stack st p st stack (Err Missing)) ->
  (forall (stack : list path) st p f, ~ In (normalize p) stack -> lookup proj (normalize p) = Some f ->
     Q 0 stack st p st stack (Err OutOfFuel)) ->
  (forall fuel,
     (forall stack st p st' stack' r,
        import fuel proj stack st p = (st', stack', r) -> Q fuel stack st p st' stack' r) ->
     forall (stack : list path) st p f c st2 r2,
       find_val (normalize p) (val_cache st) = None -> ~ In (normalize p) stack ->
       lookup proj (normalize p) = Some f ->
       eval_body (import fuel proj) (stack ++ [normalize p]) (set_op_cache c st)
                 (normalize p) (lock_key (normalize p)) f = (st2, r2) ->
       Q (S fuel) stack st p
         (match r2 with Ok v => cache_val (normalize p) v st2 | Err _ => st2 end)
         (match r2 with Ok _ => stack ++ [normalize p] | Err _ => stack end) r2) ->
  forall fuel stack st p st' stack' r,
    import fuel proj stack st p = (st', stack', r) -> Q fuel stack st p st' stack' r.
Proof.
  intros Hhit Hcyc Hmiss Hfuel Heval.
  induction fuel as [|fuel IH]; intros stack st p st' stack' r H; cbn [Import.import] in H;
    (destruct (find_val (normalize p) (val_cache st)) as [v|] eqn:Fv;
     [inversion H; subst; apply Hhit, Fv|]);
    (destruct (mem_path (normalize p) stack) eqn:Ms;
     [inversion H; subst; apply mem_path_In in Ms; apply Hcyc; assumption|]);
    apply mem_path_nIn in Ms;
    (destruct (lookup proj (normalize p)) as [f|] eqn:Lf;
     [|inversion H; subst; apply Hmiss; assumption]).
  - inversion H; subst. eapply Hfuel; eassumption.
  - destruct (record_parse_frame (lock_key (normalize p)) st) as [c Ec]. rewrite Ec in H.
    destruct (eval_body _ _ _ _ _ _) as [st2 r2] eqn:EB.
    specialize (Heval fuel IH stack st p f c st2 r2 Fv Ms Lf EB).
    destruct r2; inversion H; subst; exact Heval.
Qed.

Lemma eval_file_cases {fuel proj st r st' res} :
  eval_file fuel proj st r = (st', res) ->
  lookup proj (normalize r) = None /\ st' = st /\ res = Err Missing \/
  exists f c, lookup proj (normalize r) = Some f /\
    eval_body (import fuel proj) [normalize r] (set_op_cache c st) (normalize r) (lock_key r) f
    = (st', res).
Proof.
  unfold Import.eval_file. destruct (lookup proj (normalize r)) as [f|].
  - destruct (record_parse_frame (lock_key r) st) as [c ->]. right. eauto.
  - intros H; inversion H. auto.
Qed.

(* a call of the hook: besides what it adds, the import stack grows by
   cached files only, and a path imported with success is cached *)
Definition call_adds proj (stack : list path) (st : state) (p : path)
           (st' : state) (stack' : list path) (r : result val) : Prop :=
  adds proj (reach proj (normalize p)) (reach proj (normalize p)) [] (is_ok r) st st' /\
  incl stack stack' /\
  (forall x, In x stack' -> In x stack \/ In x (dom (val_cache st'))) /\
  (is_ok r = true -> In (normalize p) (dom (val_cache st'))).

Definition hook_adds proj (imp : hook) : Prop :=
  forall stack st p st' stack' r,
    imp stack st p = (st', stack', r) -> call_adds proj stack st p st' stack' r.

Lemma run_imports_adds proj imp : hook_adds proj imp ->
  forall ps stack st st' stack' r, run_imports imp ps stack st = (st', stack', r) ->
    adds proj (below proj ps) (below proj ps) [] (is_ok r) st st' /\
    incl stack stack' /\
    (forall x, In x stack' -> In x stack \/ In x (dom (val_cache st'))) /\
    (is_ok r = true -> forall i, In i ps -> In (normalize i) (dom (val_cache st'))).
Proof.
  intros HA. induction ps as [|p ps IH]; intros stack st st' stack' r H.
  - inversion H; subst. split; [apply adds_refl|]. split; [apply incl_refl|].
    split; [auto|]. intros _ i [].
  - destruct (run_imports_cons H) as [st1 [stack1 [r1 [E1 X]]]].
    destruct (HA _ _ _ _ _ _ E1) as [A1 [S1 [X1 K1]]].
    assert (A1' : adds proj (below proj (p :: ps)) (below proj (p :: ps)) [] (is_ok r1) st st1).
    { eapply adds_mono; [| |apply incl_refl|exact A1];
        intros y R; exists p; split; auto; left; reflexivity. }
    destruct r1 as [v|e].
    + destruct X as [r2 [E2 ->]]. rewrite is_ok_cons.
      destruct (IH _ _ _ _ _ E2) as [A2 [S2 [X2 K2]]].
      split; [|split; [|split]].
      * eapply adds_seq; [exact A1'|]. eapply adds_mono; [| |apply incl_refl|exact A2];
          intros y [i [Hi R]]; exists i; split; auto; right; exact Hi.
      * eapply incl_tran; eassumption.
      * intros x Hx. destruct (X2 x Hx) as [Hx'|Hx']; [|auto].
        destruct (X1 x Hx') as [Hx''|Hx'']; [auto|right; apply (a_dom A2), Hx''].
      * intros Hok i [<-|Hi]; [apply (a_dom A2), K1; reflexivity|apply K2; assumption].
    + destruct X as [-> [-> ->]].
      split; [exact A1'|]. split; [exact S1|]. split; [exact X1|discriminate].
Qed.

(* a file's own artifact is the only one not below its imports; its own lock
   [k] the only one not of a cached file *)
Lemma eval_body_adds proj imp : hook_adds proj imp ->
  forall stack st n k f st' r,
    eval_body imp stack st n k f = (st', r) -> lookup proj n = Some f ->
    adds proj (reach1 proj n) (reach proj n) [k] (is_ok r) st st' /\
    (forall v, r = Ok v ->
       (forall i, In i (imports f) -> In (normalize i) (dom (val_cache st'))) /\
       (1 <= outs f -> In (n, v) (artifacts st'))).
Proof.
  intros HA stack st n k f st' r H Lf.
  destruct (eval_body_inv H) as [l [st1 [stack1 [r1 [Hl [_ [E1 X]]]]]]].
  destruct (run_imports_adds proj imp HA _ _ _ _ _ _ E1) as [A1 [_ [_ K1]]].
  assert (A1' : adds proj (reach1 proj n) (reach proj n) [k] (is_ok r1) st st1).
  { apply (adds_from _ _ _ _ _ (record_eval n (set_out_lock l st))); [reflexivity|reflexivity|exact Hl|].
    eapply adds_mono; [| |apply incl_nil_l|exact A1]; intros y [i [Hi R]];
      [exists (normalize i); split|econstructor]; eauto using edge_import. }
  destruct r1 as [vs|e]; [|destruct X as [-> ->]; split; [exact A1'|discriminate]].
  destruct X as [r2 [E2 ->]].
  destruct (run_outs_cases E2) as [[-> R]|[-> [_ R]]].
  - split; [apply adds_ok, A1'|]. intros v E. split; [apply K1; reflexivity|].
    intros Ho. destruct R as [[Hn _]|[_ [_ ->]]]; [lia|discriminate E].
  - assert (Ho : 1 <= outs f) by (destruct R as [[-> _]|[? _]]; lia). split.
    + eapply adds_seq; [exact A1'|]. apply adds_out; [constructor|exists f; auto].
    + intros v E. split; [apply K1; reflexivity|]. intros _.
      cbn. apply in_or_app. right. left.
      destruct r2; [destruct (fails f)|]; inversion E. reflexivity.
Qed.

Theorem import_adds proj : forall fuel, hook_adds proj (import fuel proj).
Proof.
  assert (Hidle : forall stack st p r,
            (is_ok r = true -> In (normalize p) (dom (val_cache st))) ->
            call_adds proj stack st p st stack r).
  { intros stack st p r H. split; [apply adds_refl|]. split; [apply incl_refl|]. auto. }
  unfold hook_adds. apply (import_ind proj (fun _ => call_adds proj)).
  - intros _ stack st p v Fv. apply Hidle. intros _. eapply in_dom, find_val_In, Fv.
  - intros. apply Hidle. discriminate.
  - intros. apply Hidle. discriminate.
  - intros. apply Hidle. discriminate.
  - intros fuel IH stack st p f c st2 r2 Fv Ms Lf EB. set (n := normalize p) in *.
    destruct (eval_body_adds proj _ IH _ _ _ _ _ _ _ EB Lf) as [[D R Cc Ar L] _].
    apply find_val_None in Fv.
    assert (Cc' : forall y, In y (dom (val_cache st2)) -> In y (dom (val_cache st)) \/ reach proj n y).
    { intros y Hy. destruct (Cc y Hy) as [H|H]; [auto|right; apply reach1_reach, H]. }
    destruct r2 as [v|e].
    + split; [|split; [apply incl_appl, incl_refl|split; [|intros _; left; reflexivity]]].
      * constructor; cbn [cache_val set_val_cache val_cache artifacts out_lock].
        -- apply incl_tl, D.
        -- exact R.
        -- intros y [<-|Hy]; [right; constructor|auto].
        -- exact Ar.
        -- intros _ k Hk. destruct (L eq_refl k Hk) as [H|[[<-|[]]|[y [E [Hy Ny]]]]]; [auto| |].
           ++ right; right. exists n. split; [reflexivity|]. split; [left; reflexivity|exact Fv].
           ++ right; right. exists y. split; [exact E|]. split; [right; exact Hy|exact Ny].
      * intros x Hx. apply in_app_or in Hx.
        destruct Hx as [Hx|[<-|[]]]; [auto|right; left; reflexivity].
    + split; [|split; [apply incl_refl|split; [auto|discriminate]]].
      constructor; auto. discriminate.
Qed.

Lemma eval_file_adds proj fuel st r st' res :
  eval_file fuel proj st r = (st', res) ->
  adds proj (reach1 proj (normalize r)) (reach proj (normalize r)) [lock_key r] (is_ok res) st st' /\
  (forall f v, lookup proj (normalize r) = Some f -> res = Ok v -> 1 <= outs f ->
     In (normalize r, v) (artifacts st')).
Proof.
  intros H. destruct (eval_file_cases H) as [[L [-> ->]]|[f [c [Lf EB]]]].
  - split; [apply adds_refl|]. intros f v Lf. congruence.
  - destruct (eval_body_adds proj _ (import_adds proj fuel) _ _ _ _ _ _ _ EB Lf) as [A2 K].
    split.
    + apply (adds_from _ _ _ _ _ (set_op_cache c st)); [reflexivity|reflexivity|apply incl_refl|exact A2].
    + intros f' v Lf' E Ho. rewrite Lf in Lf'. inversion Lf'; subst f'. apply (K v E), Ho.
Qed.

(* What a run keeps: cached values are the values of their files, no file
   is evaluated twice, artifacts hold values, locks have an owner *)

(* the evaluations started by a step: each path at most once, none that was
   cached or in progress; all cached afterwards if the step succeeded *)
Definition evs_ok (stack : list path) (st st' : state) (ok : bool) : Prop :=
  exists ev, evaluations st' = evaluations st ++ ev /\ NoDup ev /\
    (forall x, In x ev -> ~ In x (dom (val_cache st)) /\ ~ In x stack) /\
    (ok = true -> incl ev (dom (val_cache st'))).

Lemma evs_ok_refl stack st ok : evs_ok stack st st ok.
Proof.
  exists []. rewrite app_nil_r. repeat split; try constructor; try contradiction.
  intros _ x Hx; contradiction.
Qed.

Lemma evs_ok_seq stack st st1 stack1 st2 ok :
  evs_ok stack st st1 true ->
  incl (dom (val_cache st)) (dom (val_cache st1)) ->
  incl (dom (val_cache st1)) (dom (val_cache st2)) ->
  incl stack stack1 ->
  evs_ok stack1 st1 st2 ok ->
  evs_ok stack st st2 ok.
Proof.
  intros [ev1 [E1 [N1 [D1 C1]]]] I1 I2 Hs [ev2 [E2 [N2 [D2 C2]]]].
  exists (ev1 ++ ev2). split; [rewrite E2, E1, app_assoc; reflexivity|].
  split; [|split].
  - apply NoDup_app_intro; [exact N1|exact N2|].
    intros x H1 H2. apply D2 in H2. apply (proj1 H2). apply C1; auto.
  - intros x Hx. apply in_app_or in Hx. destruct Hx as [Hx|Hx]; [apply D1, Hx|].
    apply D2 in Hx. destruct Hx as [Ha Hb]. split; intros H; [apply Ha, I1, H|apply Hb, Hs, H].
  - intros Hok x Hx. apply in_app_or in Hx. destruct Hx as [Hx|Hx].
    + apply I2, C1; auto.
    + apply C2; auto.
Qed.

Lemma lock_clause_mono proj roots roots' st st' k :
  incl roots roots' -> incl (dom (val_cache st)) (dom (val_cache st')) ->
  lock_clause proj roots st k -> lock_clause proj roots' st' k.
Proof.
  intros R I [[r [Hr E]]|[y [E [H|H]]]]; [left; exists r; auto| |].
  - right. exists y. split; [exact E|left; apply I, H].
  - right. exists y. auto.
Qed.

Definition call_safe proj roots (stack : list path) (st : state) (p : path)
           (st' : state) (stack' : list path) (r : result val) : Prop :=
  cache_ok proj (val_cache st) ->
  cache_ok proj (val_cache st') /\ shape_cache st' = shape_cache st /\
  evs_ok stack st st' (is_ok r) /\
  (forall v, r = Ok v -> find_val (normalize p) (val_cache st') = Some v /\ witness proj p v) /\
  (art_ok proj (artifacts st) -> lock_inv proj roots st ->
   art_ok proj (artifacts st') /\ lock_inv proj roots st').

Definition hook_safe proj roots (imp : hook) : Prop :=
  forall stack st p st' stack' r,
    imp stack st p = (st', stack', r) -> call_safe proj roots stack st p st' stack' r.

Lemma run_imports_safe proj roots imp : hook_adds proj imp -> hook_safe proj roots imp ->
  forall ps stack st st' stack' r,
    run_imports imp ps stack st = (st', stack', r) -> cache_ok proj (val_cache st) ->
    cache_ok proj (val_cache st') /\ shape_cache st' = shape_cache st /\
    evs_ok stack st st' (is_ok r) /\
    (forall vs, r = Ok vs -> Forall2 (witness proj) ps vs) /\
    (art_ok proj (artifacts st) -> lock_inv proj roots st ->
     art_ok proj (artifacts st') /\ lock_inv proj roots st').
Proof.
  intros HA HS. induction ps as [|p ps IH]; intros stack st st' stack' r H C.
  - inversion H; subst. split; [exact C|]. split; [reflexivity|]. split; [apply evs_ok_refl|].
    split; [intros vs E; inversion E; constructor|auto].
  - destruct (run_imports_cons H) as [st1 [stack1 [r1 [E1 X]]]].
    destruct (HS _ _ _ _ _ _ E1 C) as [C1 [S1 [V1 [W1 B1]]]].
    destruct (HA _ _ _ _ _ _ E1) as [A1 [I1 _]].
    destruct r1 as [v|e].
    + destruct X as [r2 [E2 ->]]. rewrite is_ok_cons.
      destruct (IH _ _ _ _ _ E2 C1) as [C2 [S2 [V2 [W2 B2]]]].
      destruct (run_imports_adds proj imp HA _ _ _ _ _ _ E2) as [A2 _].
      split; [exact C2|]. split; [congruence|]. split; [|split].
      * eapply evs_ok_seq; [exact V1|apply (a_dom A1)|apply (a_dom A2)|exact I1|exact V2].
      * intros vs E. destruct r2 as [vs2|]; inversion E.
        constructor; [apply W1; reflexivity|apply W2; reflexivity].
      * intros A L. destruct (B1 A L) as [A' L']. apply B2; assumption.
    + destruct X as [-> [-> ->]]. split; [exact C1|]. split; [exact S1|].
      split; [exact V1|]. split; [discriminate|exact B1].
Qed.

(* The lock [k] of the file may stay taken: then the run succeeded, or the
   file can never succeed. *)
Lemma eval_body_safe proj roots imp : hook_adds proj imp -> hook_safe proj roots imp ->
  forall stack st n k f st' r,
    eval_body imp stack st n k f = (st', r) -> cache_ok proj (val_cache st) ->
    n = normalize n -> lookup proj n = Some f ->
    cache_ok proj (val_cache st') /\ shape_cache st' = shape_cache st /\
    (exists ev, evaluations st' = evaluations st ++ n :: ev /\ NoDup ev /\
       (forall x, In x ev -> ~ In x (dom (val_cache st)) /\ ~ In x stack) /\
       (is_ok r = true -> incl ev (dom (val_cache st')))) /\
    (forall v, r = Ok v -> witness proj n v) /\
    (art_ok proj (artifacts st) -> lock_inv proj roots st ->
     art_ok proj (artifacts st') /\
     forall k', In k' (out_lock st') ->
       k' = k /\ (is_ok r = true \/ forall d, good d proj n = false) \/
       lock_clause proj roots st' k').
Proof.
  intros HA HS stack st n k f st' r H C Hn Lf.
  destruct (eval_body_inv H) as [l [st1 [stack1 [r1 [Hl [_ [E1 X]]]]]]].
  destruct (run_imports_safe proj roots imp HA HS _ _ _ _ _ _ E1 C)
    as [C1 [S1 [[ev [EV [ND [DJ CV]]]] [V1 B1]]]].
  cbn [record_eval set_out_lock evaluations] in EV. rewrite <- app_assoc in EV. cbn [app] in EV.
  assert (B1' : art_ok proj (artifacts st) -> lock_inv proj roots st ->
                art_ok proj (artifacts st1) /\ lock_inv proj roots st1).
  { intros A L. apply B1; [exact A|]. intros k' Hk'. exact (L k' (Hl k' Hk')). }
  destruct r1 as [vs|e].
  2:{ destruct X as [-> ->]. split; [exact C1|]. split; [exact S1|].
      split; [exists ev; auto|]. split; [discriminate|].
      intros A L. destruct (B1' A L) as [A1 L1]. split; [exact A1|].
      intros k' Hk'. right. apply L1, Hk'. }
  destruct X as [r2 [E2 ->]].
  destruct (collect_depth proj _ _ (V1 _ eq_refl)) as [d [G V]].
  assert (Vn : value_of (S d) proj n = Some (Val n vs)) by (cbn; rewrite <- Hn, Lf, V; reflexivity).
  assert (F : val_cache st' = val_cache st1 /\ shape_cache st' = shape_cache st1 /\
              evaluations st' = evaluations st1)
    by (destruct (run_outs_cases E2) as [[-> _]|[-> _]]; auto).
  destruct F as [F1 [F2 F3]]. rewrite F1, F2, F3.
  split; [exact C1|]. split; [exact S1|]. split; [exists ev; auto|]. split.
  - (* success: the file is good to the depth of its imports *)
    intros v E. exists (S d).
    destruct r2 as [u|]; [|discriminate]. apply run_outs_ok, Nat.leb_le in E2.
    destruct (fails f) eqn:Ff; inversion E. split; [|exact Vn].
    cbn. rewrite <- Hn, Lf, Ff, E2, G. reflexivity.
  - intros A L. destruct (B1' A L) as [A1 L1].
    destruct (run_outs_cases E2) as [[-> R]|[-> [_ R]]].
    + split; [exact A1|]. intros k' Hk'. right. apply L1, Hk'.
    + assert (Ho : 1 <= outs f) by (destruct R as [[-> _]|[? _]]; lia). split.
      * intros k0 v0 Hin. cbn in Hin. apply in_app_or in Hin.
        destruct Hin as [Hin|[E|[]]]; [apply A1, Hin|].
        inversion E; subst k0 v0. split; [exact Hn|]. split; eauto.
      * intros k' [<-|Hk']; [left; split; [reflexivity|]|right; apply L1, Hk'].
        destruct R as [[Ho1 ->]|[Ho2 ->]]; [destruct (fails f) eqn:Ff; [|left; reflexivity]|];
          right; eapply good_false; eauto.
Qed.

Theorem import_safe proj roots : forall fuel, hook_safe proj roots (import fuel proj).
Proof.
  assert (Hidle : forall stack st p r,
            (forall v, r = Ok v -> find_val (normalize p) (val_cache st) = Some v) ->
            call_safe proj roots stack st p st stack r).
  { intros stack st p r Hv C. split; [exact C|]. split; [reflexivity|].
    split; [apply evs_ok_refl|]. split; [|auto].
    intros v E. split; [apply Hv, E|]. apply witness_normalize.
    apply Hv, find_val_In in E. apply (C _ _ E). }
  unfold hook_safe. apply (import_ind proj (fun _ => call_safe proj roots)).
  - intros _ stack st p v Fv. apply Hidle. intros v' E. inversion E; subst. exact Fv.
  - intros. apply Hidle. discriminate.
  - intros. apply Hidle. discriminate.
  - intros. apply Hidle. discriminate.
  - intros fuel IH stack st p f c st2 r2 Fv Ms Lf EB C. set (n := normalize p) in *.
    assert (Hn : n = normalize n) by apply normalize_normal.
    destruct (eval_body_safe proj roots _ (import_adds proj fuel) IH _ _ _ _ _ _ _ EB C Hn Lf)
      as [C2 [S2 [[ev [EV [ND [DJ CV]]]] [W B]]]].
    apply find_val_None in Fv.
    assert (Nn : NoDup (n :: ev)).
    { constructor; [|exact ND]. intros Hin. apply (proj2 (DJ _ Hin)), in_or_app.
      right; left; reflexivity. }
    assert (Dn : forall x, In x (n :: ev) -> ~ In x (dom (val_cache st)) /\ ~ In x stack).
    { intros x [<-|Hx]; [split; assumption|]. destruct (DJ _ Hx) as [Ha Hb].
      split; [exact Ha|]. intros Hs; apply Hb, in_or_app; auto. }
    destruct r2 as [v|e].
    + split; [|split; [exact S2|split; [|split]]].
      * intros k w [E|Hin]; [inversion E; subst; split; [exact Hn|apply W; reflexivity]|apply C2, Hin].
      * exists (n :: ev). split; [exact EV|]. split; [exact Nn|]. split; [exact Dn|].
        intros _ x [<-|Hx]; [left; reflexivity|right; apply CV; auto].
      * intros v' E; inversion E; subst v'. split; [cbn; rewrite bytes_eqb_refl; reflexivity|].
        apply witness_normalize, W; reflexivity.
      * intros A L. destruct (B A L) as [A2 L2]. split; [exact A2|]. intros k Hk.
        destruct (L2 k Hk) as [[-> _]|Hk'].
        -- right. exists n. split; [reflexivity|left; left; reflexivity].
        -- eapply lock_clause_mono; [apply incl_refl|apply incl_tl, incl_refl|exact Hk'].
    + split; [exact C2|split; [exact S2|split; [|split; [discriminate|]]]].
      * exists (n :: ev). split; [exact EV|]. split; [exact Nn|]. split; [exact Dn|discriminate].
      * intros A L. destruct (B A L) as [A2 L2]. split; [exact A2|]. intros k Hk.
        destruct (L2 k Hk) as [[-> [D|D]]|Hk']; [discriminate D| |exact Hk'].
        right. exists n. split; [reflexivity|right; split; assumption].
Qed.

(* the VM run of a root file; the root itself may be cached (built after
   being imported): it is evaluated again all the same *)
Lemma eval_file_safe proj roots fuel st r st' res :
  eval_file fuel proj st r = (st', res) -> cache_ok proj (val_cache st) ->
  cache_ok proj (val_cache st') /\ shape_cache st' = shape_cache st /\
  (exists ev, evaluations st' = evaluations st ++ ev /\ NoDup ev) /\
  (forall v, res = Ok v -> witness proj r v) /\
  (art_ok proj (artifacts st) -> lock_inv proj roots st ->
   art_ok proj (artifacts st') /\ lock_inv proj (r :: roots) st').
Proof.
  intros H C. destruct (eval_file_cases H) as [[_ [-> ->]]|[f [c [Lf EB]]]].
  - split; [exact C|]. split; [reflexivity|].
    split; [exists []; rewrite app_nil_r; split; [reflexivity|constructor]|]. split; [discriminate|].
    intros A L. split; [exact A|]. intros k Hk.
    eapply lock_clause_mono; [apply incl_tl, incl_refl|apply incl_refl|apply L, Hk].
  - destruct (eval_body_safe proj roots _ (import_adds proj fuel) (import_safe proj roots fuel)
                _ _ _ _ _ _ _ EB C (normalize_normal r) Lf)
      as [C2 [S2 [[ev [EV [ND [DJ _]]]] [W B]]]].
    split; [exact C2|]. split; [exact S2|]. split; [|split].
    + exists (normalize r :: ev). split; [exact EV|]. constructor; [|exact ND].
      intros Hin. apply (proj2 (DJ _ Hin)). left; reflexivity.
    + intros v E. apply witness_normalize, W, E.
    + intros A L. destruct (B A L) as [A2 L2]. split; [exact A2|]. intros k Hk.
      destruct (L2 k Hk) as [[-> _]|Hk'].
      * left. exists r. split; [left; reflexivity|reflexivity].
      * eapply lock_clause_mono; [apply incl_tl, incl_refl|apply incl_refl|exact Hk'].
Qed.

(* one VM run of a root from the empty Environment evaluates every file at
   most once *)
Theorem eval_evaluates_once : forall fuel proj root,
  NoDup (evaluations (fst (eval_file fuel proj empty_state root))).
Proof.
  intros fuel proj root.
  destruct (eval_file fuel proj empty_state root) as [st' res] eqn:E.
  destruct (eval_file_safe proj [] _ _ _ _ _ E (cache_ok_empty proj)) as [_ [_ [[ev [EV ND]] _]]].
  cbn in *. rewrite EV. exact ND.
Qed.

(* every import that succeeds returns the isolated value of the path; two
   imports of spellings of the same file, at any two moments of any builds
   over the same project, return the same value *)
Theorem import_same_value : forall proj fuel1 fuel2 stack1 stack2 st1 st2 p q
                                   st1' st2' stack1' stack2' v w,
  cache_ok proj (val_cache st1) -> cache_ok proj (val_cache st2) ->
  normalize p = normalize q ->
  import fuel1 proj stack1 st1 p = (st1', stack1', Ok v) ->
  import fuel2 proj stack2 st2 q = (st2', stack2', Ok w) ->
  v = w.
Proof.
  intros proj fuel1 fuel2 stack1 stack2 st1 st2 p q st1' st2' stack1' stack2' v w C1 C2 E H1 H2.
  destruct (import_safe proj [] fuel1 _ _ _ _ _ _ H1 C1) as [_ [_ [_ [W1 _]]]].
  destruct (import_safe proj [] fuel2 _ _ _ _ _ _ H2 C2) as [_ [_ [_ [W2 _]]]].
  destruct (W1 v eq_refl) as [_ [d1 [_ V1]]]. destruct (W2 w eq_refl) as [_ [d2 [_ V2]]].
  rewrite <- value_of_normalize in V1, V2. rewrite E in V1.
  eapply value_of_fun; eassumption.
Qed.

(* spellings: the import hook is a function of [normalize p] only, hence two
   spellings of one file hit the same cache entry *)
Lemma import_normalize : forall fuel proj stack st p,
  import fuel proj stack st (normalize p) = import fuel proj stack st p.
Proof. intros. destruct fuel; cbn [Import.import]; rewrite normalize_idem_any; reflexivity. Qed.

Theorem spelling_irrelevant : forall p q, absolute p -> absolute q -> resolve p = resolve q ->
  forall fuel proj stack st, import fuel proj stack st p = import fuel proj stack st q.
Proof.
  intros p q Hp Hq E fuel proj stack st.
  rewrite <- (import_normalize _ _ _ _ p), <- (import_normalize _ _ _ _ q).
  rewrite (normalize_equiv p q Hp Hq E). reflexivity.
Qed.

(* ... in particular after one spelling has been imported, any other spelling
   is served from the value cache without a new evaluation *)
Theorem spelling_cache_hit : forall p q, absolute p -> absolute q -> resolve p = resolve q ->
  forall fuel fuel' proj stack st st' stack' v stack2,
    cache_ok proj (val_cache st) ->
    import fuel proj stack st p = (st', stack', Ok v) ->
    import fuel' proj stack2 st' q = (st', stack2, Ok v).
Proof.
  intros p q Hp Hq E fuel fuel' proj stack st st' stack' v stack2 C H.
  destruct (import_safe proj [] fuel _ _ _ _ _ _ H C) as [_ [_ [_ [W _]]]].
  destruct (W v eq_refl) as [Fv _].
  rewrite (normalize_equiv p q Hp Hq E) in Fv.
  destruct fuel'; cbn [Import.import]; rewrite Fv; reflexivity.
Qed.

(* Fuel.  Measure: number of files minus length of the import stack *)

Definition call_fuel (proj : project) (m : nat) (stack : list path) (st : state) (p : path)
           (st' : state) (stack' : list path) (r : result val) : Prop :=
  NoDup stack -> incl stack (dom proj) -> m <= List.length stack ->
  r <> Err OutOfFuel /\ NoDup stack' /\ incl stack' (dom proj) /\
  List.length stack <= List.length stack'.

Definition hook_fuel proj (m : nat) (imp : hook) : Prop :=
  forall stack st p st' stack' r,
    imp stack st p = (st', stack', r) -> call_fuel proj m stack st p st' stack' r.

Lemma run_imports_fuel proj imp m : hook_fuel proj m imp ->
  forall ps stack st st' stack' r,
    run_imports imp ps stack st = (st', stack', r) ->
    NoDup stack -> incl stack (dom proj) -> m <= List.length stack ->
    r <> Err OutOfFuel /\ NoDup stack' /\ incl stack' (dom proj) /\
    List.length stack <= List.length stack'.
Proof.
  intros HF. induction ps as [|p ps IH]; intros stack st st' stack' r H N I L.
  - inversion H; subst. repeat split; auto; discriminate.
  - destruct (run_imports_cons H) as [st1 [stack1 [r1 [E1 X]]]].
    destruct (HF _ _ _ _ _ _ E1 N I L) as [R1 [N1 [I1 L1]]].
    destruct r1 as [v|e].
    + destruct X as [r2 [E2 ->]].
      destruct (IH _ _ _ _ _ E2 N1 I1 ltac:(lia)) as [R2 [N2 [I2 L2]]].
      repeat split; auto; [|lia]. destruct r2; [discriminate|exact R2].
    + destruct X as [-> [-> ->]]. repeat split; auto.
      intros D; inversion D; subst. apply R1; reflexivity.
Qed.

Lemma eval_body_fuel proj imp m : hook_fuel proj m imp ->
  forall stack st n k f st' r,
    eval_body imp stack st n k f = (st', r) ->
    NoDup stack -> incl stack (dom proj) -> m <= List.length stack ->
    r <> Err OutOfFuel.
Proof.
  intros HF stack st n k f st' r H N I L.
  destruct (eval_body_inv H) as [l [st1 [stack1 [r1 [_ [_ [E1 X]]]]]]].
  destruct (run_imports_fuel proj imp m HF _ _ _ _ _ _ E1 N I L) as [R1 _].
  destruct r1 as [vs|e].
  - destruct X as [r2 [E2 ->]].
    destruct (run_outs_cases E2) as [[_ [[_ ->]|[_ [_ ->]]]]|[_ [_ [[_ ->]|[_ ->]]]]];
      try discriminate; destruct (fails f); discriminate.
  - destruct X as [_ ->]. intros D; inversion D; subst. apply R1; reflexivity.
Qed.

Lemma import_fuel proj : forall fuel, hook_fuel proj (List.length proj - fuel) (import fuel proj).
Proof.
  assert (Hidle : forall m stack st p r, r <> Err OutOfFuel -> call_fuel proj m stack st p st stack r)
    by (intros; intros N I L; auto).
  unfold hook_fuel.
  apply (import_ind proj (fun fuel => call_fuel proj (List.length proj - fuel))).
  - intros. apply Hidle. discriminate.
  - intros. apply Hidle. discriminate.
  - intros. apply Hidle. discriminate.
  - intros stack st p f Ms Lf N I L. destruct (stack_room _ _ _ _ N I Ms Lf) as [_ [_ Hlen]]. lia.
  - intros fuel IH stack st p f c st2 r2 _ Ms Lf EB N I L.
    destruct (stack_room _ _ _ _ N I Ms Lf) as [N' [I' Hlen]].
    apply (eval_body_fuel proj _ _ IH) in EB; auto; [|rewrite app_length; cbn; lia].
    destruct r2; repeat split; auto. rewrite app_length; lia.
Qed.

(* fuel: the number of files suffices, from any Environment *)
Theorem eval_terminates : forall proj fuel st root,
  List.length proj <= S fuel -> snd (eval_file fuel proj st root) <> Err OutOfFuel.
Proof.
  intros proj fuel st root L.
  destruct (eval_file fuel proj st root) as [st' res] eqn:E. cbn.
  destruct (eval_file_cases E) as [[_ [_ ->]]|[f [c [Lf EB]]]]; [discriminate|].
  apply (eval_body_fuel proj _ _ (import_fuel proj fuel)) in EB; auto.
  - repeat constructor. intros [].
  - intros x [<-|[]]. eapply lookup_In, Lf.
  - cbn. lia.
Qed.

(* a reachable import cycle: the VM run never succeeds, and (previous
   theorem) does not diverge *)
Theorem eval_cycle_is_error : forall proj fuel st root,
  cache_ok proj (val_cache st) -> cyclic_from proj root ->
  exists e, snd (eval_file fuel proj st root) = Err e.
Proof.
  intros proj fuel st root C Cy.
  destruct (eval_file fuel proj st root) as [st' res] eqn:E. cbn.
  destruct res as [v|e]; [|eauto]. exfalso.
  destruct (eval_file_safe proj [] _ _ _ _ _ E C) as [_ [_ [_ [W _]]]].
  destruct (W v eq_refl) as [d [G _]]. eapply good_not_cyclic; eassumption.
Qed.

(* Importing a GOOD path cannot fail (except for fuel), from any
   Environment in which the locks of its uncached files are free *)

Lemma mode_cases (m : lock_mode) : m = LockPerInvocation \/ m = LockPerEvaluation.
Proof. destruct m; auto. Qed.

(* whatever is on the import stack below [a] is cached already: importing
   [a] will not run into the stack *)
Definition stack_ok proj (stack : list path) (st : state) (a : path) : Prop :=
  forall x, In x stack -> reach proj a x -> In x (dom (val_cache st)).

(* only needed when locks live for the whole invocation: the locks that
   importing [a] will take are free ... *)
Definition lock_free proj (st : state) (a : path) : Prop :=
  md = LockPerInvocation ->
  forall x f, reach proj a x -> lookup proj x = Some f -> 1 <= outs f ->
    ~ In x (dom (val_cache st)) -> ~ In (lock_key x) (out_lock st).

(* ... and those that the VM run of the file [n] under the key [k] will take *)
Definition locks_free proj (st : state) (n : path) (k : lkey) : Prop :=
  md = LockPerInvocation ->
  (forall x f, reach1 proj n x -> lookup proj x = Some f -> 1 <= outs f ->
     ~ In x (dom (val_cache st)) -> ~ In (lock_key x) (out_lock st)) /\
  (forall f, lookup proj n = Some f -> 1 <= outs f -> ~ In k (out_lock st)).

Lemma locks_free_empty proj n k : locks_free proj empty_state n k.
Proof. intros _. split; [intros x f _ _ _ _ []|intros f _ _ []]. Qed.

Lemma stack_ok_step proj stack st stack1 st1 a :
  incl (dom (val_cache st)) (dom (val_cache st1)) ->
  (forall x, In x stack1 -> In x stack \/ In x (dom (val_cache st1))) ->
  stack_ok proj stack st a -> stack_ok proj stack1 st1 a.
Proof. intros I X SO x Hx R. destruct (X x Hx) as [H|H]; [apply I, (SO x H R)|exact H]. Qed.

Lemma stack_ok_nested proj stack st n f i :
  lookup proj n = Some f -> In i (imports f) -> ~ reach1 proj n n ->
  stack_ok proj stack st n -> stack_ok proj (stack ++ [n]) st (normalize i).
Proof.
  intros Lf Hi Acy SO x Hx R. pose proof (edge_import _ _ _ _ Lf Hi) as E.
  apply in_app_or in Hx. destruct Hx as [Hx|[<-|[]]].
  - apply (SO x Hx). econstructor; eassumption.
  - exfalso. apply Acy. exists (normalize i). auto.
Qed.

(* a lock taken by a successful step belongs to a file it cached *)
Lemma lock_free_step proj C A st st1 a :
  a = normalize a -> adds proj C A [] true st st1 -> cache_ok proj (val_cache st1) ->
  lock_free proj st a -> lock_free proj st1 a.
Proof.
  intros Ha Ad C1 LF Em x fx R Lx Ho Nx Hk.
  destruct (a_lock Ad eq_refl _ Hk) as [Hk'|[[]|[y [Ek [Hy _]]]]].
  - eapply (LF Em); eauto. intros Hc. apply Nx, (a_dom Ad), Hc.
  - apply Nx. replace x with y; [exact Hy|]. symmetry.
    apply lock_key_inj; [eapply reach_normal; eassumption|eapply cache_ok_normal; eassumption|exact Ek].
Qed.

Definition call_live proj (stack : list path) (st : state) (p : path)
           (st' : state) (stack' : list path) (r : result val) : Prop :=
  cache_ok proj (val_cache st) -> (exists d, good d proj p = true) ->
  stack_ok proj stack st (normalize p) -> lock_free proj st (normalize p) -> only_fuel r.

Definition hook_live proj (imp : hook) : Prop :=
  forall stack st p st' stack' r,
    imp stack st p = (st', stack', r) -> call_live proj stack st p st' stack' r.

Lemma run_imports_live proj roots imp :
  hook_adds proj imp -> hook_safe proj roots imp -> hook_live proj imp ->
  forall ps stack st st' stack' r,
    run_imports imp ps stack st = (st', stack', r) -> cache_ok proj (val_cache st) ->
    (forall i, In i ps -> exists d, good d proj i = true) ->
    (forall i, In i ps -> stack_ok proj stack st (normalize i)) ->
    (forall i, In i ps -> lock_free proj st (normalize i)) ->
    only_fuel r.
Proof.
  intros HA HS HL. induction ps as [|p ps IH]; intros stack st st' stack' r H C G SO LF.
  - inversion H. intros e E; discriminate.
  - destruct (run_imports_cons H) as [st1 [stack1 [r1 [E1 X]]]].
    pose proof (HL _ _ _ _ _ _ E1 C (G p (or_introl eq_refl)) (SO p (or_introl eq_refl))
                   (LF p (or_introl eq_refl))) as F1.
    destruct r1 as [v|e].
    + destruct X as [r2 [E2 ->]].
      destruct (HA _ _ _ _ _ _ E1) as [A1 [_ [X1 _]]]. destruct (HS _ _ _ _ _ _ E1 C) as [C1 _].
      assert (F2 : only_fuel r2).
      { apply (IH _ _ _ _ _ E2 C1); intros i Hi; [apply G; right; exact Hi| |].
        - eapply stack_ok_step; [apply (a_dom A1)|exact X1|apply SO; right; exact Hi].
        - eapply lock_free_step; [apply normalize_normal|exact A1|exact C1|apply LF; right; exact Hi]. }
      intros e E. destruct r2; [discriminate|]. inversion E; subst. apply F2; reflexivity.
    + destruct X as [_ [_ ->]]. intros e' E; inversion E; subst. apply F1; reflexivity.
Qed.

(* While the imports of a file [n] that is not on a cycle run, nobody takes
   the lock of [n]: a lock taken belongs to a file cached meanwhile, and [n]
   is not below its own imports. *)
Lemma own_lock_free proj roots imp :
  hook_adds proj imp -> hook_safe proj roots imp ->
  forall stack st n k f st1 stack1 vs,
    run_imports imp (imports f) stack st = (st1, stack1, Ok vs) ->
    cache_ok proj (val_cache st) -> lookup proj n = Some f -> ~ reach1 proj n n ->
    (forall y, y = normalize y -> lock_key y = k -> y = n) ->
    ~ In k (out_lock st) -> ~ In k (out_lock st1).
Proof.
  intros HA HS stack st n k f st1 stack1 vs E1 C Lf Acy Hkey Hk Hin.
  destruct (run_imports_adds proj imp HA _ _ _ _ _ _ E1) as [A1 _].
  destruct (run_imports_safe proj roots imp HA HS _ _ _ _ _ _ E1 C) as [C1 _].
  destruct (a_lock A1 eq_refl _ Hin) as [Hin'|[[]|[y [Ek [Hy Ny]]]]]; [exact (Hk Hin')|].
  assert (y = n) by (apply Hkey; [eapply cache_ok_normal; eassumption|auto]). subst y.
  destruct (a_cache A1 _ Hy) as [Hy'|[i [Hi R]]]; [exact (Ny Hy')|].
  apply Acy. exists (normalize i). split; [eapply edge_import; eassumption|exact R].
Qed.

Lemma eval_body_live proj roots imp :
  hook_adds proj imp -> hook_safe proj roots imp -> hook_live proj imp ->
  forall stack st n k f st' r,
    eval_body imp stack st n k f = (st', r) -> cache_ok proj (val_cache st) ->
    n = normalize n -> lookup proj n = Some f ->
    (exists d, good d proj n = true) ->
    (forall i, In i (imports f) -> stack_ok proj stack st (normalize i)) ->
    locks_free proj st n k ->
    (forall y, y = normalize y -> lock_key y = k -> y = n) ->
    only_fuel r.
Proof.
  intros HA HS HL stack st n k f st' r H C Hn Lf [d G] SO LF Hkey.
  destruct d as [|d]; [discriminate|].
  pose proof (good_acyclic _ _ _ G) as Acy. rewrite <- Hn in Acy.
  cbn in G. rewrite <- Hn, Lf in G.
  apply andb_true_iff in G. destruct G as [G Gi]. apply andb_true_iff in G. destruct G as [Gf Go].
  apply negb_true_iff in Gf. apply Nat.leb_le in Go. rewrite forallb_forall in Gi.
  destruct (eval_body_inv H) as [l [st1 [stack1 [r1 [Hl [Hpe [E1 X]]]]]]].
  assert (F1 : only_fuel r1).
  { apply (run_imports_live proj roots imp HA HS HL _ _ _ _ _ _ E1 C).
    - intros i Hi. exists d. apply Gi, Hi.
    - exact SO.
    - intros i Hi Em x fx R Lx Ho Nx Hin. apply (proj1 (LF Em) x fx); auto.
      exists (normalize i). split; [eapply edge_import; eassumption|exact R]. }
  destruct r1 as [vs|e]; [|destruct X as [_ ->]; intros e' E; inversion E; subst; apply F1; reflexivity].
  destruct X as [r2 [E2 ->]].
  assert (K1 : 1 <= outs f -> ~ In k (out_lock st1)).
  { intros Ho. apply (own_lock_free proj roots imp HA HS _ _ _ _ _ _ _ _ E1 C Lf Acy Hkey).
    intros Hin. destruct (mode_cases md) as [Em|Em];
      [exact (proj2 (LF Em) f Lf Ho (Hl _ Hin))|exact (Hpe Em Hin)]. }
  destruct (run_outs_cases E2) as [[_ [[_ ->]|[Ho [Hin _]]]]|[_ [_ [[_ ->]|[Ho _]]]]];
    [|exact (False_ind _ (K1 Ho Hin))| |lia]; rewrite Gf; intros e E; discriminate.
Qed.

Theorem import_live proj : forall fuel, hook_live proj (import fuel proj).
Proof.
  unfold hook_live. apply (import_ind proj (fun _ => call_live proj)).
  - intros _ stack st p v _ _ _ _ _ e E. discriminate.
  - intros _ stack st p Fv Ms _ _ SO _. exfalso.
    apply find_val_None in Fv. apply Fv, (SO _ Ms). constructor.
  - intros _ stack st p _ Lf _ [d G]. destruct d; [discriminate|]. cbn in G. rewrite Lf in G. discriminate.
  - intros stack st p f _ _ _ _ _ _ e E. inversion E. reflexivity.
  - intros fuel IH stack st p f c st2 r2 Fv Ms Lf EB C [d G] SO LF. set (n := normalize p) in *.
    apply find_val_None in Fv.
    assert (Hn : n = normalize n) by apply normalize_normal.
    assert (Gn : good d proj n = true) by (unfold n; rewrite good_normalize; exact G).
    assert (Acy : ~ reach1 proj n n) by (rewrite Hn; eapply good_acyclic; exact Gn).
    assert (F : only_fuel r2).
    { apply (eval_body_live proj [] _ (import_adds proj fuel) (import_safe proj [] fuel) IH
               _ _ _ _ _ _ _ EB C Hn Lf); eauto.
      - intros i Hi. eapply stack_ok_nested; eassumption.
      - intros Em. split.
        + intros x fx R. apply (LF Em). apply reach1_reach, R.
        + intros f' Lf' Ho. eapply (LF Em); [constructor|exact Lf'|exact Ho|exact Fv].
      - intros y Hy E. apply lock_key_inj; assumption. }
    destruct r2; [intros e E; discriminate|exact F].
Qed.

Lemma eval_file_live proj fuel st r st' res :
  eval_file fuel proj st r = (st', res) -> cache_ok proj (val_cache st) ->
  (exists d, good d proj r = true) -> locks_free proj st (normalize r) (lock_key r) ->
  only_fuel res.
Proof.
  intros H C [d G] LF.
  assert (Gn : good d proj (normalize r) = true) by (rewrite good_normalize; exact G).
  destruct (eval_file_cases H) as [[L _]|[f [c [Lf EB]]]].
  - destruct d; [discriminate|]. cbn in G. rewrite L in G. discriminate.
  - apply (eval_body_live proj [] _ (import_adds proj fuel) (import_safe proj [] fuel)
             (import_live proj fuel) _ _ _ _ _ _ _ EB C (normalize_normal r) Lf); eauto.
    + intros i Hi. apply (stack_ok_nested proj [] _ _ f); auto; [|intros x []].
      rewrite (normalize_normal r). eapply good_acyclic, Gn.
    + intros y Hy E. rewrite Hy. apply lock_key_norm, E.
Qed.

Definition shook := list path -> path -> list path * sres.

(* [chk], the checker whose import stack is [sstack], given [m] files'
   worth of fuel less than the project has files *)
Definition shook_spec proj (m : nat) (chk : shook) (sstack : list path) : Prop :=
  forall sc p sc' r, chk sc p = (sc', r) ->
    (NoDup sstack -> incl sstack (dom proj) -> m <= List.length sstack -> r <> SFuel) /\
    (shape_ok proj sc ->
     shape_ok proj sc' /\
     (r = SOk -> exists d, sfine d proj p = true) /\
     ((exists d, sfine d proj p = true) ->
      (forall x, In x sstack -> ~ reach proj (normalize p) x) -> r <> SCycle)).

Lemma sres_and_ok a c : sres_and a c = SOk -> a = SOk /\ c = SOk.
Proof. destruct a, c; cbn; intros; try discriminate; auto. Qed.

Lemma sres_and_cycle a c : sres_and a c = SCycle -> a = SCycle \/ c = SCycle.
Proof. destruct a, c; cbn; intros; try discriminate; auto. Qed.

Lemma sres_and_fuel a c : sres_and a c = SFuel -> a = SFuel \/ c = SFuel.
Proof. destruct a, c; cbn; intros; try discriminate; auto. Qed.

Lemma scheck_list_spec proj m chk sstack : shook_spec proj m chk sstack ->
  forall ps sc sc' r, scheck_list chk ps sc = (sc', r) ->
    (NoDup sstack -> incl sstack (dom proj) -> m <= List.length sstack -> r <> SFuel) /\
    (shape_ok proj sc ->
     shape_ok proj sc' /\
     (r = SOk -> forall p, In p ps -> exists d, sfine d proj p = true) /\
     ((forall p, In p ps -> (exists d, sfine d proj p = true) /\
                            (forall x, In x sstack -> ~ reach proj (normalize p) x)) ->
      r <> SCycle)).
Proof.
  intros HS. induction ps as [|p ps IH]; intros sc sc' r H; cbn in H.
  - inversion H; subst. split; [discriminate|]. intros C. split; [exact C|].
    split; [intros _ p []|discriminate].
  - destruct (chk sc p) as [sc1 r1] eqn:E1.
    destruct (scheck_list chk ps sc1) as [sc2 r2] eqn:E2.
    inversion H; subst; clear H.
    destruct (HS _ _ _ _ E1) as [F1 P1]. destruct (IH _ _ _ E2) as [F2 P2]. split.
    + intros N I L E. apply sres_and_fuel in E. destruct E; [apply F1|apply F2]; auto.
    + intros C. destruct (P1 C) as [C1 [O1 N1]]. destruct (P2 C1) as [C2 [O2 N2]].
      split; [exact C2|]. split.
      * intros E q [<-|Hq]; apply sres_and_ok in E; destruct E as [Ea Eb]; auto.
      * intros Hall E. apply sres_and_cycle in E. destruct E as [E|E].
        -- destruct (Hall p (or_introl eq_refl)) as [Ha Hb]. exact (N1 Ha Hb E).
        -- apply N2; [|exact E]. intros q Hq. apply Hall. right; exact Hq.
Qed.

Theorem scheck_spec proj : forall fuel sstack,
  shook_spec proj (List.length proj - fuel) (scheck fuel proj sstack) sstack.
Proof.
  (* the returns without recursion, for both shapes of the fuel: checked
     before (in the shape cache), on the checker's stack (a cycle),
     unreadable (a leaf); then out of fuel, and the check of the file *)
  induction fuel as [|fuel IH]; intros sstack sc p sc' r H; cbn [scheck] in H;
    (destruct (mem_path (normalize p) sc) eqn:Mc;
     [inversion H; subst; split; [discriminate|]; intros C; split; [exact C|];
      split; [|discriminate]; intros _; apply mem_path_In, C in Mc;
      destruct Mc as [_ [d G]]; exists d; rewrite <- sfine_normalize; exact G|]);
    (destruct (mem_path (normalize p) sstack) eqn:Ms;
     [inversion H; subst; split; [discriminate|]; intros C; split; [exact C|];
      split; [discriminate|]; intros _ Hd _; apply mem_path_In in Ms;
      apply (Hd _ Ms); constructor|]);
    apply mem_path_nIn in Ms;
    (destruct (lookup proj (normalize p)) as [f|] eqn:Lf;
     [|inversion H; subst; split; [discriminate|]; intros C; split; [exact C|];
       split; [|discriminate]; intros _; exists 1; cbn; rewrite Lf; reflexivity]).
  - inversion H; subst. split.
    + intros N I L. destruct (stack_room _ _ _ _ N I Ms Lf) as [_ [_ Hlen]]. lia.
    + intros C. split; [exact C|]. split; discriminate.
  - set (n := normalize p) in *.
    destruct (scheck_list (scheck fuel proj (sstack ++ [n])) (imports f) sc) as [sc1 r1] eqn:E1.
    destruct (scheck_list_spec proj _ _ _ (IH (sstack ++ [n])) _ _ _ _ E1) as [F1 P1].
    assert (Er : r = r1) by (destruct r1; inversion H; reflexivity). subst r. split.
    + intros N I L. destruct (stack_room _ _ _ _ N I Ms Lf) as [N' [I' Hlen]].
      apply F1; auto. rewrite app_length; cbn; lia.
    + intros C. destruct (P1 C) as [C1 [O1 N1]].
      assert (Hcyc : (exists d, sfine d proj p = true) ->
                     (forall x, In x sstack -> ~ reach proj n x) -> r1 <> SCycle).
      { intros [d G] Hd. apply N1. intros q Hq.
        pose proof (edge_import _ _ _ _ Lf Hq) as Eq.
        destruct d as [|d]; [discriminate|].
        split; [exists d; rewrite <- sfine_normalize; eapply sfine_edge; eassumption|].
        intros x Hx R. apply in_app_or in Hx. destruct Hx as [Hx|[<-|[]]].
        - apply (Hd x Hx). econstructor; eassumption.
        - eapply sfine_acyclic; [exact G|]. exists (normalize q). split; [exact Eq|exact R]. }
      destruct r1; inversion H; subst; clear H.
      * destruct (collect_sfine proj (imports f) (O1 eq_refl)) as [d G].
        assert (Gp : sfine (S d) proj p = true) by (cbn; fold n; rewrite Lf; exact G).
        split; [|split; [eauto|discriminate]].
        intros k [<-|Hk]; [|apply C1, Hk]. split; [apply normalize_normal|].
        exists (S d). unfold n. rewrite sfine_normalize. exact Gp.
      * split; [exact C1|]. split; [discriminate|exact Hcyc].
      * split; [exact C1|]. split; discriminate.
Qed.

Lemma scheck_root_spec proj fuel sc f sc' sr :
  scheck_root fuel proj sc f = (sc', sr) ->
  (List.length proj <= fuel -> sr <> SFuel) /\
  (shape_ok proj sc ->
   shape_ok proj sc' /\
   (sr = SOk -> forall p, In p (imports f) -> exists d, sfine d proj p = true) /\
   ((forall p, In p (imports f) -> exists d, sfine d proj p = true) -> sr <> SCycle)).
Proof.
  unfold scheck_root. intros H.
  destruct (scheck_list_spec proj _ _ _ (scheck_spec proj fuel []) _ _ _ _ H) as [F P]. split.
  - intros L. apply F; [constructor|intros x []|cbn; lia].
  - intros C. destruct (P C) as [C1 [O1 N1]]. split; [exact C1|]. split; [exact O1|].
    intros Hall. apply N1. intros p Hp. split; [apply Hall, Hp|intros x []].
Qed.

Definition lhook := list path -> path -> list path * result unit.

(* [walk], short of the project's size by [m] files' worth of fuel, fails
   only on a file that is missing, hence not good *)
Definition lhook_spec proj (m : nat) (walk : lhook) : Prop :=
  forall found p found' r, walk found p = (found', r) ->
    NoDup found -> incl found (dom proj) -> m <= List.length found ->
    NoDup found' /\ incl found' (dom proj) /\ List.length found <= List.length found' /\
    (forall e, r = Err e -> e = Missing /\ forall d, good d proj p = false).

Lemma lwalk_list_spec proj m walk : lhook_spec proj m walk ->
  forall ps found found' r, lwalk_list walk ps found = (found', r) ->
    NoDup found -> incl found (dom proj) -> m <= List.length found ->
    NoDup found' /\ incl found' (dom proj) /\ List.length found <= List.length found' /\
    (forall e, r = Err e -> e = Missing /\ exists q, In q ps /\ forall d, good d proj q = false).
Proof.
  intros HW. induction ps as [|q ps IH]; intros found found' r H N I L; cbn in H.
  - inversion H; subst. repeat split; auto; discriminate.
  - destruct (walk found q) as [found1 r1] eqn:E1.
    destruct (HW _ _ _ _ E1 N I L) as [N1 [I1 [L1 R1]]].
    destruct r1 as [u|e1].
    + destruct (IH _ _ _ H N1 I1 ltac:(lia)) as [N2 [I2 [L2 R2]]].
      split; [exact N2|]. split; [exact I2|]. split; [lia|].
      intros e E. destruct (R2 e E) as [-> [q' [Hq' G]]].
      split; [reflexivity|]. exists q'. split; [right; exact Hq'|exact G].
    + inversion H; subst. split; [exact N1|]. split; [exact I1|]. split; [exact L1|].
      intros e E. inversion E; subst. destruct (R1 _ eq_refl) as [-> G].
      split; [reflexivity|]. exists q. split; [left; reflexivity|exact G].
Qed.

Lemma lwalk_spec proj : forall fuel, lhook_spec proj (List.length proj - fuel) (lwalk fuel proj).
Proof.
  (* found before; missing; then out of fuel, and the walk below the file *)
  induction fuel as [|fuel IH]; intros found p found' r H N I L; cbn [lwalk] in H;
    (destruct (mem_path (normalize p) found) eqn:Ms;
     [inversion H; subst; repeat split; auto; discriminate|]);
    apply mem_path_nIn in Ms;
    (destruct (lookup proj (normalize p)) as [f|] eqn:Lf;
     [|inversion H; subst; split; [exact N|]; split; [exact I|]; split; [lia|];
       intros e E; inversion E; split; [reflexivity|];
       intros [|d]; cbn; [|rewrite Lf]; reflexivity]);
    destruct (stack_room _ _ _ _ N I Ms Lf) as [_ [_ Hlen]].
  - lia.
  - apply (lwalk_list_spec proj _ _ IH) in H.
    + destruct H as [N' [I' [L' R']]]. split; [exact N'|]. split; [exact I'|].
      split; [cbn in L'; lia|].
      intros e E. destruct (R' e E) as [-> [q [Hq G]]]. split; [reflexivity|].
      intros [|d]; [reflexivity|]. cbn. rewrite Lf, (forallb_false _ _ q Hq (G d)).
      apply andb_false_r.
    + constructor; assumption.
    + intros x [<-|Hx]; [eapply lookup_In, Lf|auto].
    + cbn; lia.
Qed.

Lemma link_ops_spec proj fuel f found lr :
  link_ops fuel proj f = (found, lr) -> List.length proj <= fuel ->
  forall e, lr = Err e -> e = Missing /\ exists q, In q (imports f) /\ forall d, good d proj q = false.
Proof.
  unfold link_ops. intros H L.
  apply (lwalk_list_spec proj _ _ (lwalk_spec proj fuel)) in H;
    [apply H|constructor|intros x []|cbn; lia].
Qed.

(* the build up to the start of the VM: the Environment the VM starts from,
   and the error, if any, that ends the build before it *)
Definition prelude (fuel : nat) (proj : project) (st : state) (r : path) : state * option error :=
  match lookup proj (normalize r) with
  | None => (st, Some Missing)
  | Some f =>
      let '(sc, sr) := scheck_root fuel proj (shape_cache st) f in
      let st1 := set_shape_cache sc st in
      match sr with
      | SCycle => (st1, Some Cycle)
      | SFuel => (st1, Some OutOfFuel)
      | SOk =>
          let '(found, lr) := link_ops fuel proj f in
          (record_parses (map lock_key found) st1,
           match lr with Err e => Some e | Ok _ => None end)
      end
  end.

Lemma build_file_prelude fuel proj st r :
  build_file fuel proj st r =
  let '(st2, e) := prelude fuel proj st r in
  match e with Some e => (st2, Err e) | None => eval_file fuel proj st2 r end.
Proof.
  unfold Import.build_file, prelude. destruct (lookup proj (normalize r)); [|reflexivity].
  destruct (scheck_root _ _ _ _) as [sc []]; try reflexivity.
  destruct (link_ops _ _ _) as [found [|]]; reflexivity.
Qed.

Lemma prelude_frame proj fuel st r :
  exists sc c, fst (prelude fuel proj st r) = set_op_cache c (set_shape_cache sc st) /\
    (shape_ok proj (shape_cache st) -> shape_ok proj sc).
Proof.
  unfold prelude. destruct (lookup proj (normalize r)) as [f|].
  2:{ exists (shape_cache st), (op_cache st). destruct st; auto. }
  destruct (scheck_root fuel proj (shape_cache st) f) as [sc sr] eqn:ES.
  destruct (scheck_root_spec _ _ _ _ _ _ ES) as [_ P].
  destruct sr; [|exists sc, (op_cache st); split; [reflexivity|apply P]..].
  destruct (link_ops fuel proj f) as [found lr].
  destruct (record_parses_frame (map lock_key found) (set_shape_cache sc st)) as [c E].
  exists sc, c. split; [exact E|apply P].
Qed.

Lemma prelude_fuel proj fuel st r :
  List.length proj <= fuel -> snd (prelude fuel proj st r) <> Some OutOfFuel.
Proof.
  intros L. unfold prelude. destruct (lookup proj (normalize r)) as [f|]; [|discriminate].
  destruct (scheck_root fuel proj (shape_cache st) f) as [sc sr] eqn:ES.
  destruct (scheck_root_spec _ _ _ _ _ _ ES) as [Fu _].
  destruct sr; [|discriminate|exfalso; apply (Fu L); reflexivity].
  destruct (link_ops fuel proj f) as [found lr] eqn:EL. destruct lr as [|e]; [discriminate|].
  destruct (link_ops_spec _ _ _ _ _ EL L e eq_refl) as [-> _]. discriminate.
Qed.

(* given fuel, whether the VM starts does not depend on the Environment *)
Lemma prelude_ok proj fuel st r :
  shape_ok proj (shape_cache st) -> List.length proj <= fuel ->
  (snd (prelude fuel proj st r) = None <->
   exists f, lookup proj (normalize r) = Some f /\
     (forall i, In i (imports f) -> exists d, sfine d proj i = true) /\
     snd (link_ops fuel proj f) = Ok tt).
Proof.
  intros Sh L. unfold prelude. destruct (lookup proj (normalize r)) as [f|].
  2:{ split; [discriminate|]. intros [f [E _]]. discriminate. }
  destruct (scheck_root fuel proj (shape_cache st) f) as [sc sr] eqn:ES.
  destruct (scheck_root_spec _ _ _ _ _ _ ES) as [Fu P]. destruct (P Sh) as [_ [O N]].
  destruct sr; [|split; [discriminate|]|exfalso; apply (Fu L); reflexivity].
  - destruct (link_ops fuel proj f) as [found lr] eqn:EL. cbn. split.
    + intros H. exists f. split; [reflexivity|]. split; [apply O; reflexivity|].
      rewrite EL. destruct lr as [[]|]; [reflexivity|discriminate].
    + intros [f' [E [_ Hl]]]. inversion E; subst f'. rewrite EL in Hl. cbn in Hl.
      rewrite Hl. reflexivity.
  - intros [f' [E [Hs _]]]. inversion E; subst f'. exfalso. apply N; [exact Hs|reflexivity].
Qed.

Lemma prelude_sfine proj fuel st r :
  shape_ok proj (shape_cache st) -> List.length proj <= fuel ->
  snd (prelude fuel proj st r) = None -> exists d, sfine d proj r = true.
Proof.
  intros Sh L H. apply (prelude_ok proj fuel st r Sh L) in H. destruct H as [f [Lf [Hs _]]].
  destruct (collect_sfine proj _ Hs) as [d G]. exists (S d). cbn. rewrite Lf. exact G.
Qed.

Lemma prelude_good proj fuel st r :
  shape_ok proj (shape_cache st) -> List.length proj <= fuel ->
  (exists d, good d proj r = true) -> snd (prelude fuel proj st r) = None.
Proof.
  intros Sh L [d G]. apply (prelude_ok proj fuel st r Sh L).
  destruct d as [|d]; [discriminate|]. cbn in G.
  destruct (lookup proj (normalize r)) as [f|]; [|discriminate].
  apply andb_true_iff in G. destruct G as [_ Gi]. rewrite forallb_forall in Gi.
  exists f. split; [reflexivity|]. split; [intros i Hi; exists d; apply good_sfine, Gi, Hi|].
  destruct (link_ops fuel proj f) as [found lr] eqn:EL. destruct lr as [[]|e]; [reflexivity|].
  destruct (link_ops_spec _ _ _ _ _ EL L e eq_refl) as [_ [q [Hq Gq]]].
  specialize (Gq d). rewrite (Gi q Hq) in Gq. discriminate.
Qed.

Lemma prelude_cyclic proj fuel st r :
  shape_ok proj (shape_cache st) -> List.length proj <= fuel -> cyclic_from proj r ->
  snd (prelude fuel proj st r) = Some Cycle.
Proof.
  intros Sh L Cy. unfold prelude. destruct (cyclic_root_exists _ _ Cy) as [f Lf]. rewrite Lf.
  destruct (scheck_root fuel proj (shape_cache st) f) as [sc sr] eqn:ES.
  destruct (scheck_root_spec _ _ _ _ _ _ ES) as [Fu P]. destruct (P Sh) as [_ [O _]].
  destruct sr; [exfalso|reflexivity|exfalso; apply (Fu L); reflexivity].
  destruct (collect_sfine proj (imports f) (O eq_refl)) as [d G].
  apply (sfine_not_cyclic proj (S d) r); [cbn; rewrite Lf; exact G|exact Cy].
Qed.

Lemma build_file_adds {proj fuel st r st' res} :
  build_file fuel proj st r = (st', res) ->
  adds proj (reach1 proj (normalize r)) (reach proj (normalize r)) [lock_key r] (is_ok res) st st'.
Proof.
  rewrite build_file_prelude. destruct (prelude_frame proj fuel st r) as [sc [c [E _]]].
  destruct (prelude fuel proj st r) as [st2 e]. cbn in E. subst st2.
  destruct e as [e|]; intros H.
  - inversion H; subst. eapply adds_from; [| | |apply adds_refl]; [reflexivity..|apply incl_refl].
  - apply eval_file_adds in H. destruct H as [A2 _].
    eapply adds_from; [| | |exact A2]; [reflexivity..|apply incl_refl].
Qed.

Theorem build_file_inv {proj roots fuel st r st' res} :
  build_file fuel proj st r = (st', res) -> binv proj roots st ->
  binv proj (r :: roots) st' /\
  (exists ev, evaluations st' = evaluations st ++ ev /\ NoDup ev) /\
  (forall v, res = Ok v -> witness proj r v).
Proof.
  rewrite build_file_prelude. intros H [C [S [A L]]].
  destruct (prelude_frame proj fuel st r) as [sc [c [E Hsc]]].
  destruct (prelude fuel proj st r) as [st2 e]. cbn in E. subst st2.
  destruct e as [e|].
  - inversion H; subst.
    split; [|split; [exists []; rewrite app_nil_r; split; [reflexivity|constructor]|discriminate]].
    split; [exact C|]. split; [apply Hsc, S|]. split; [exact A|]. intros k Hk.
    eapply lock_clause_mono; [apply incl_tl, incl_refl|apply incl_refl|apply L, Hk].
  - destruct (eval_file_safe proj roots _ _ _ _ _ H C) as [C' [S' [EV [W B]]]].
    destruct (B A L) as [A' L'].
    split; [|split; [exact EV|exact W]].
    split; [exact C'|]. split; [rewrite S'; apply Hsc, S|]. split; assumption.
Qed.

Theorem import_evaluates_once : forall fuel proj root,
  NoDup (evaluations (fst (build_file fuel proj empty_state root))).
Proof.
  intros fuel proj root.
  destruct (build_file fuel proj empty_state root) as [st' res] eqn:E.
  destruct (build_file_inv E (binv_empty proj)) as [_ [[ev [EV ND]] _]].
  cbn in *. rewrite EV. exact ND.
Qed.

Theorem import_terminates : forall proj fuel st root,
  List.length proj <= fuel -> snd (build_file fuel proj st root) <> Err OutOfFuel.
Proof.
  intros proj fuel st root L. rewrite build_file_prelude.
  pose proof (prelude_fuel proj fuel st root L) as F.
  destruct (prelude fuel proj st root) as [st2 [e|]]; cbn in *.
  - intros E. inversion E; subst. apply F; reflexivity.
  - apply eval_terminates. lia.
Qed.

(* a reachable import cycle ends the build with the cycle diagnostic (it is
   the static phase that reports it, before anything is evaluated) *)
Theorem import_cycle_is_error : forall proj fuel st root,
  shape_ok proj (shape_cache st) -> cyclic_from proj root -> List.length proj <= fuel ->
  snd (build_file fuel proj st root) = Err Cycle /\
  evaluations (fst (build_file fuel proj st root)) = evaluations st /\
  artifacts (fst (build_file fuel proj st root)) = artifacts st.
Proof.
  intros proj fuel st root Sh Cy L. rewrite build_file_prelude.
  pose proof (prelude_cyclic proj fuel st root Sh L Cy) as E.
  destruct (prelude_frame proj fuel st root) as [sc [c [F _]]].
  destruct (prelude fuel proj st root) as [st2 e]. cbn in E, F. subst. cbn. auto.
Qed.

(* building a good root from an Environment in which the locks it needs are
   free succeeds and writes the root's artifact *)
Theorem build_file_good {proj roots fuel st r st' res} :
  build_file fuel proj st r = (st', res) -> binv proj roots st ->
  (exists d, good d proj r = true) -> List.length proj <= fuel ->
  locks_free proj st (normalize r) (lock_key r) ->
  exists v, res = Ok v /\
    (forall f, lookup proj (normalize r) = Some f -> outs f = 1 ->
               In (normalize r, v) (artifacts st')).
Proof.
  intros H [C [S _]] G L LF.
  pose proof (import_terminates proj fuel st r L) as HT. rewrite H in HT. cbn in HT.
  rewrite build_file_prelude in H.
  pose proof (prelude_good proj fuel st r S L G) as E.
  destruct (prelude_frame proj fuel st r) as [sc [c [F _]]].
  destruct (prelude fuel proj st r) as [st2 e]. cbn in E, F. subst.
  destruct (eval_file_adds proj _ _ _ _ _ H) as [_ K].
  apply eval_file_live in H; [|exact C|exact G|exact LF].
  destruct res as [v|e]; [|exfalso; apply HT; rewrite (H e eq_refl); reflexivity].
  exists v. split; [reflexivity|]. intros f Lf Ho. apply (K f v Lf eq_refl). lia.
Qed.

(* acyclic from the root, every reachable file exists, none fails, none has
   two outs (= [good]): the build succeeds with the isolated value *)
Theorem acyclic_builds : forall proj fuel root d,
  good d proj root = true -> List.length proj <= fuel ->
  exists v, snd (build_file fuel proj empty_state root) = Ok v /\
            value_of d proj root = Some v.
Proof.
  intros proj fuel root d G L.
  destruct (build_file fuel proj empty_state root) as [st' res] eqn:E.
  destruct (build_file_inv E (binv_empty proj)) as [_ [_ W]].
  destruct (build_file_good E (binv_empty proj) (ex_intro _ d G) L
                            (locks_free_empty _ _ _)) as [v [-> _]].
  exists v. split; [reflexivity|]. destruct (W v eq_refl) as [d' [_ V']].
  destruct (good_value _ _ _ G) as [w V]. rewrite V. f_equal. eapply value_of_fun; eassumption.
Qed.

(* conversely, a successful build certifies a good root *)
Theorem build_ok_good : forall proj roots fuel st r st' v,
  binv proj roots st -> build_file fuel proj st r = (st', Ok v) -> witness proj r v.
Proof.
  intros proj roots fuel st r st' v B H.
  destruct (build_file_inv H B) as [_ [_ W]]. apply W. reflexivity.
Qed.

End Mode.

(* FULL STATEMENT (not proved), at the VM level (no static phase): if a cycle
   is reachable from [root] and no reachable file is missing, fails, or has
   two outs, then
     snd (eval_file md fuel proj empty_state root) = Err Cycle   (fuel >= #files).
   PROVED instead: the VM run ends in an error (eval_cycle_is_error), never
   OutOfFuel (eval_terminates); the build-level theorem import_cycle_is_error gives
   exactly [Err Cycle], unconditionally, because the static phase runs first. *)
Definition eval_cycle_is_cycle_partial := eval_cycle_is_error.

(* FULL STATEMENT (not proved): the depth witness of [good] can be bounded by
   the number of files (pigeonhole):
     forall d proj p, good d proj p = true -> good (S (List.length proj)) proj p = true.
   Only needed to run [known_c16b]/[good] at the fixed depth [default_fuel]. *)
Definition good_depth_bound_partial := good_mono.
