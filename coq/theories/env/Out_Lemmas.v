From Ucg Require Import env.Out base.Bytes_Lemmas.

Lemma fs_get_set_same fs p c : fs_get (fs_set fs p c) p = Some c.
Proof. cbn. now rewrite bytes_eqb_refl. Qed.

Lemma fs_get_set_other fs p q c : p <> q -> fs_get (fs_set fs p c) q = fs_get fs q.
Proof.
  intros H. cbn. destruct (bytes_eqb p q) eqn:E; [|reflexivity].
  apply bytes_eqb_spec in E. contradiction.
Qed.

Section Proofs.
  Variable fmt : Type.
  Variable value : Type.
  Variable ext_of : fmt -> option bytes.
  Variable convert_bytes : fmt -> value -> option bytes.
  Notation out_step := (out_step fmt value ext_of convert_bytes).
  Notation build_outs := (build_outs fmt value ext_of convert_bytes).
  Notation convert_expr := (convert_expr fmt value ext_of convert_bytes).

  Lemma locked_take st src fs : locked {| files := fs; locks := src :: locks st |} src = true.
  Proof. unfold locked. cbn. now rewrite bytes_eqb_refl. Qed.

  Lemma out_step_ok atomic st src f v st' :
    out_step atomic st src f v = (st', OOk) ->
    locked st src = false /\ exists ext bs,
      ext_of f = Some ext /\ convert_bytes f v = Some bs /\
      st' = {| files := fs_set (files st) (with_extension src ext) bs; locks := src :: locks st |}.
  Proof.
    unfold Out.out_step. destruct (locked st src); [discriminate|].
    destruct (ext_of f) as [ext|]; [|discriminate].
    destruct (convert_bytes f v) as [bs|]; [|destruct atomic; discriminate].
    intros H; inversion H. eauto 6.
  Qed.

  (* right name, same bytes as `convert`, nothing else touched *)
  Lemma out_eq_convert_lemma atomic st src f v bs ext :
    locked st src = false -> ext_of f = Some ext -> convert_expr f v = Some bs ->
    let '(st', r) := out_step atomic st src f v in
    r = OOk /\
    fs_get (files st') (with_extension src ext) = Some bs /\
    (forall q, q <> with_extension src ext -> fs_get (files st') q = fs_get (files st) q) /\
    locked st' src = true.
  Proof.
    intros Hl He Hc. unfold Out.out_step, Out.convert_expr in *. rewrite Hl, He in *. rewrite Hc.
    split; [reflexivity|]. split; [apply fs_get_set_same|].
    split; [|apply locked_take]. intros q Hq. apply fs_get_set_other. congruence.
  Qed.

  Lemma second_out_err_lemma atomic st src f v :
    locked st src = true -> out_step atomic st src f v = (st, OErr OneOutputPerFile).
  Proof. intros H. unfold Out.out_step. now rewrite H. Qed.

  (* all or nothing: a failed conversion leaves every file exactly as it was *)
  Lemma out_atomic_lemma st src f v e :
    snd (out_step true st src f v) = OErr e ->
    forall q, fs_get (files (fst (out_step true st src f v))) q = fs_get (files st) q.
  Proof.
    unfold Out.out_step. destruct (locked st src); [reflexivity|].
    destruct (ext_of f) as [ext|]; [|reflexivity].
    destruct (convert_bytes f v); [cbn; discriminate|reflexivity].
  Qed.

  Lemma build_outs_two_lemma atomic st src o1 o2 rest :
    locked st src = false ->
    snd (build_outs atomic st src (o1 :: o2 :: rest)) <> OOk.
  Proof.
    intros Hl. destruct o1 as [f1 v1], o2 as [f2 v2]. cbn [Out.build_outs].
    destruct (out_step atomic st src f1 v1) as [st1 r1] eqn:E1.
    destruct r1; [|cbn; discriminate].
    destruct (out_step_ok _ _ _ _ _ _ E1) as [_ [ext [bs [_ [_ ->]]]]].
    rewrite second_out_err_lemma by apply locked_take. cbn. discriminate.
  Qed.

  Lemma build_outs_atomic_lemma st src outs e :
    snd (build_outs true st src outs) = OErr e ->
    (* files written by the successful out statements before the failing one stay; the failing one adds nothing *)
    forall q, fs_get (files (fst (build_outs true st src outs))) q = fs_get (files st) q \/
              exists f v bs ext, In (f, v) outs /\ ext_of f = Some ext /\ convert_bytes f v = Some bs /\
                                 q = with_extension src ext /\
                                 fs_get (files (fst (build_outs true st src outs))) q = Some bs.
  Proof.
    revert st. induction outs as [|[f v] rest IH]; intros st H q; [cbn in H; discriminate|].
    cbn [Out.build_outs] in *.
    destruct (out_step true st src f v) as [st1 r1] eqn:E1. destruct r1 as [|e1].
    - destruct (IH st1 H q) as [Hq|(f' & v' & bs & ext & Hin & He & Hc & -> & Hg)].
      + destruct (out_step_ok _ _ _ _ _ _ E1) as [_ [ext [bs [He [Hc ->]]]]]. cbn [files] in Hq.
        rewrite Hq. destruct (bytes_eqb (with_extension src ext) q) eqn:Eq.
        * apply bytes_eqb_spec in Eq. subst q. right. exists f, v, bs, ext.
          rewrite fs_get_set_same. repeat split; auto. now left.
        * left. apply fs_get_set_other. intros E. apply bytes_eqb_spec in E. congruence.
      + right. exists f', v', bs, ext. repeat split; auto. now right.
    - left. cbn. pose proof (out_atomic_lemma st src f v e1) as Ha. rewrite E1 in Ha. cbn in Ha. now apply Ha.
  Qed.
End Proofs.

(* creating the file before converting ([atomic = false]) destroys an existing
   artifact when the conversion fails *)
Definition wit_ext (f : nat) : option bytes := Some (b "toml").
Definition wit_conv (f : nat) (v : nat) : option bytes := None.
Lemma create_before_convert_refuted :
  let st := {| files := [(b "/d/a.toml", b "old")]; locks := [] |} in
  fs_get (files (fst (out_step nat nat wit_ext wit_conv false st (b "/d/a.ucg") 0 0))) (b "/d/a.toml") = Some [] /\
  fs_get (files (fst (out_step nat nat wit_ext wit_conv true st (b "/d/a.ucg") 0 0))) (b "/d/a.toml") = Some (b "old").
Proof. vm_compute. split; reflexivity. Qed.

Example with_extension_examples :
  with_extension (b "/d/a.ucg") (b "json") = b "/d/a.json" /\
  with_extension (b "/d.x/a") (b "json") = b "/d.x/a.json" /\
  with_extension (b "/d/a.b.ucg") (b "yaml") = b "/d/a.b.yaml" /\
  with_extension (b "/d/.hidden") (b "sh") = b "/d/.hidden.sh".
Proof. vm_compute. repeat split. Qed.
