From Ucg Require Import env.Collector.
From Coq Require Import Permutation.

Lemma fold_record_summary l c :
  summary (fold_left record l c) = summary c ++ number_from (counter c) l.
Proof.
  revert c; induction l as [|a l IH]; intros c; cbn [fold_left number_from].
  - now rewrite app_nil_r.
  - rewrite IH. cbn. now rewrite <- app_assoc.
Qed.

Lemma fold_record_success l c :
  success (fold_left record l c) = success c && forallb assert_ok l.
Proof.
  revert c; induction l as [|a l IH]; intros c; cbn [fold_left forallb].
  - now rewrite andb_true_r.
  - rewrite IH. cbn. now rewrite andb_assoc.
Qed.

Lemma validate_perfile c f :
  snd (validate_file PerFile c f) = {| rverdict := file_spec f; rlog := log_spec f |}.
Proof.
  unfold validate_file, file_spec, log_spec.
  destruct (build_err f); cbn [snd negb andb]; [reflexivity|].
  rewrite fold_record_success, fold_record_summary. cbn. reflexivity.
Qed.

Lemma test_run_from_perfile fs : forall c,
  test_run_from PerFile c fs = map (fun f => {| rverdict := file_spec f; rlog := log_spec f |}) fs.
Proof.
  induction fs as [|f fs IH]; intros c; cbn [test_run_from map]; [reflexivity|].
  pose proof (validate_perfile c f) as H.
  destruct (validate_file PerFile c f) as [c' r]. cbn in H. subst r. now rewrite IH.
Qed.

Lemma test_run_perfile fs :
  test_run PerFile fs = map (fun f => {| rverdict := file_spec f; rlog := log_spec f |}) fs.
Proof. apply test_run_from_perfile. Qed.

Lemma verdict_exact_lemma fs i f :
  nth_error fs i = Some f ->
  option_map rverdict (nth_error (test_run PerFile fs) i) = Some (file_spec f).
Proof.
  intros H. rewrite test_run_perfile, nth_error_map, H. reflexivity.
Qed.

Lemma log_once_lemma fs i f :
  nth_error fs i = Some f ->
  option_map rlog (nth_error (test_run PerFile fs) i) = Some (log_spec f).
Proof.
  intros H. rewrite test_run_perfile, nth_error_map, H. reflexivity.
Qed.

(* the verdict reported for a file does not depend on the other files or their order *)
Lemma verdict_order_indep_lemma fs fs' :
  Permutation fs fs' ->
  forall f, In f fs ->
    (exists i, nth_error fs i = Some f /\
               option_map rverdict (nth_error (test_run PerFile fs) i) = Some (file_spec f)) /\
    (exists j, nth_error fs' j = Some f /\
               option_map rverdict (nth_error (test_run PerFile fs') j) = Some (file_spec f)).
Proof.
  intros HP f Hin. split.
  - destruct (In_nth_error _ _ Hin) as [i Hi]. exists i. split; [exact Hi|].
    now apply verdict_exact_lemma.
  - assert (Hin' : In f fs') by (eapply Permutation_in; eauto).
    destruct (In_nth_error _ _ Hin') as [j Hj]. exists j. split; [exact Hj|].
    now apply verdict_exact_lemma.
Qed.

Lemma forallb_map' (X Y : Type) (g : X -> Y) (p : Y -> bool) l :
  forallb p (map g l) = forallb (fun x => p (g x)) l.
Proof. induction l as [|x l IH]; cbn; [reflexivity|now rewrite IH]. Qed.

Lemma forallb_false_ex (X : Type) (g : X -> bool) l :
  forallb g l = false -> exists x, In x l /\ g x = false.
Proof.
  induction l as [|x l IH]; cbn; [discriminate|]. destruct (g x) eqn:E; [|eauto].
  intros H. destruct (IH H) as [y [Hy Gy]]. eauto.
Qed.

Lemma exit_status_lemma fs :
  exit_code (test_run PerFile fs) <> 0%N <-> exists f, In f fs /\ file_spec f = Fail.
Proof.
  rewrite test_run_perfile. unfold exit_code. rewrite forallb_map'. cbn [rverdict].
  destruct (forallb (fun f => verdict_eqb (file_spec f) Pass) fs) eqn:E.
  - split; [congruence|]. intros (f & Hin & Hf).
    rewrite forallb_forall in E. specialize (E _ Hin). rewrite Hf in E. discriminate.
  - split; [|discriminate]. intros _. destruct (forallb_false_ex _ _ _ E) as [f [Hin Hf]].
    exists f. split; [exact Hin|]. destruct (file_spec f); [discriminate|reflexivity].
Qed.

Lemma malformed_is_failure_lemma f tag :
  In (AMal tag) (asserts f) -> file_spec f = Fail.
Proof.
  intros Hin. unfold file_spec.
  destruct (forallb assert_ok (asserts f)) eqn:E; [|now rewrite andb_false_r].
  rewrite forallb_forall in E. specialize (E _ Hin). discriminate.
Qed.

Lemma pass_iff f :
  file_spec f = Pass <-> build_err f = false /\ forall a, In a (asserts f) -> assert_ok a = true.
Proof.
  unfold file_spec. destruct (build_err f); cbn.
  - split; [discriminate|intros [? _]; discriminate].
  - destruct (forallb assert_ok (asserts f)) eqn:E.
    + rewrite forallb_forall in E. tauto.
    + split; [discriminate|]. intros [_ H]. apply forallb_forall in H. congruence.
Qed.

(* the log lists the assertions themselves, each once, in evaluation order *)
Lemma number_from_map n l : map (fun x => snd x) (number_from n l) = l.
Proof. revert n; induction l as [|a l IH]; intros n; cbn; [reflexivity|now rewrite IH]. Qed.

(* the shared collector of the unrepaired code does not have the property *)
Definition wit_a : tfile := {| fname := b "a_test.ucg"; asserts := [AWell (b "x") false]; build_err := false |}.
Definition wit_b : tfile := {| fname := b "b_test.ucg"; asserts := [AWell (b "y") true]; build_err := false |}.

Lemma shared_collector_refuted :
  map rverdict (test_run Shared [wit_a; wit_b]) = [Fail; Fail] /\
  map rverdict (test_run Shared [wit_b; wit_a]) = [Pass; Fail] /\
  file_spec wit_b = Pass.
Proof. vm_compute. repeat split. Qed.
