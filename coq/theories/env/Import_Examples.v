(* Projects that were run through the real binary
   (/verif/.cache/target/debug/ucg build ... in a scratch directory); the
   observed behaviour is quoted next to each Example.
   Part 1 (run1/run2, LockPerInvocation): observed on the binary built
   BEFORE commit 0c43338.  Part 2 (cur1/cur2, LockPerEvaluation): observed on
   the binary built from 0c43338 (the current code). *)
From Ucg Require Import base.Bytes path.Path env.Import env.Batch.
Open Scope string_scope.

Definition F imps o fl := mkFile (map b imps) o fl.
Definition statuses (x : state * list (path * result val)) :=
  map (fun y => match snd y with Ok _ => None | Err e => Some e end) (snd x).
Definition arts (x : state * list (path * result val)) := map fst (artifacts (fst x)).
Definition evals (x : state * list (path * result val)) := evaluations (fst x).

(* x1:  lib.ucg  = let v = TRACE 1; out json {v = v};
        main.ucg = let l = import "./lib.ucg"; out json {x = l.v};
        m2.ucg   = let l = import "lib.ucg"; out json {y = l.v};
        fl.ucg   = out json {y = 1}; let z = 1 / 0;
        m3.ucg / m4.ucg = let l = import "fl.ucg"; out json {..};
        cyc_a.ucg = import lib.ucg; import cyc_b.ucg   cyc_b.ucg = import cyc_a.ucg
        m5.ucg   = import lib.ucg; import nothere.ucg *)
Definition x1 : project :=
  [ (b "/x/lib.ucg",  F [] 1 false);
    (b "/x/main.ucg", F ["/x/./lib.ucg"] 1 false);
    (b "/x/m2.ucg",   F ["/x/lib.ucg"] 1 false);
    (b "/x/fl.ucg",   F [] 1 true);
    (b "/x/m3.ucg",   F ["/x/fl.ucg"] 1 false);
    (b "/x/m4.ucg",   F ["/x/fl.ucg"] 1 false);
    (b "/x/cyc_a.ucg", F ["/x/lib.ucg"; "/x/cyc_b.ucg"] 0 false);
    (b "/x/cyc_b.ucg", F ["/x/cyc_a.ucg"] 0 false);
    (b "/x/m5.ucg",   F ["/x/lib.ucg"; "/x/nothere.ucg"] 0 false) ].
Definition run1 files := batch LockPerInvocation (default_fuel x1) x1 empty_state (map b files).
Definition cur1 files := batch LockPerEvaluation (default_fuel x1) x1 empty_state (map b files).

(* ucg build lib.ucg: ok, lib.json *)
Example x1_lib : statuses (run1 ["/x/lib.ucg"]) = [None]
  /\ arts (run1 ["/x/lib.ucg"]) = [b "/x/lib.ucg"].
Proof. vm_compute. auto. Qed.
(* ucg build main.ucg: ok, lib.json and main.json, lib evaluated once *)
Example x1_main : statuses (run1 ["/x/main.ucg"]) = [None]
  /\ arts (run1 ["/x/main.ucg"]) = [b "/x/lib.ucg"; b "/x/main.ucg"]
  /\ evals (run1 ["/x/main.ucg"]) = [b "/x/main.ucg"; b "/x/lib.ucg"].
Proof. vm_compute. auto. Qed.
(* ucg build lib.ucg main.ucg: exit 1; main: "You can only have one output
   per file at /x/lib.ucg"; lib.json only; lib TRACEd twice *)
Example x1_lib_main : statuses (run1 ["/x/lib.ucg"; "/x/main.ucg"]) = [None; Some OutLock]
  /\ arts (run1 ["/x/lib.ucg"; "/x/main.ucg"]) = [b "/x/lib.ucg"]
  /\ count_path (b "/x/lib.ucg") (evals (run1 ["/x/lib.ucg"; "/x/main.ucg"])) = 2
  /\ exit_status (snd (run1 ["/x/lib.ucg"; "/x/main.ucg"])) = 1.
Proof. vm_compute. auto. Qed.
(* ucg build main.ucg lib.ucg: exit 1; lib fails with the same message;
   lib.json main.json *)
Example x1_main_lib : statuses (run1 ["/x/main.ucg"; "/x/lib.ucg"]) = [None; Some OutLock]
  /\ arts (run1 ["/x/main.ucg"; "/x/lib.ucg"]) = [b "/x/lib.ucg"; b "/x/main.ucg"].
Proof. vm_compute. auto. Qed.
(* ucg build sub/../lib.ucg main.ucg: exit 0 (the lock is keyed by the
   spelling's components), lib.json main.json *)
Example x1_dotdot : statuses (run1 ["/x/sub/../lib.ucg"; "/x/main.ucg"]) = [None; None]
  /\ arts (run1 ["/x/sub/../lib.ucg"; "/x/main.ucg"]) = [b "/x/lib.ucg"; b "/x/lib.ucg"; b "/x/main.ucg"].
Proof. vm_compute. auto. Qed.
(* ucg build ./lib.ucg main.ucg: exit 1 as lib.ucg main.ucg *)
Example x1_dot : statuses (run1 ["/x/./lib.ucg"; "/x/main.ucg"]) = [None; Some OutLock].
Proof. vm_compute. auto. Qed.
(* ucg build lib.ucg lib.ucg: exit 1, second fails *)
Example x1_lib_lib : statuses (run1 ["/x/lib.ucg"; "/x/lib.ucg"]) = [None; Some OutLock].
Proof. vm_compute. auto. Qed.
(* ucg build lib.ucg sub/../lib.ucg: exit 0 *)
Example x1_lib_lib' : statuses (run1 ["/x/lib.ucg"; "/x/sub/../lib.ucg"]) = [None; None].
Proof. vm_compute. auto. Qed.
(* ucg build main.ucg m2.ucg: exit 0; lib TRACEd once; lib.json m2.json main.json *)
Example x1_main_m2 : statuses (run1 ["/x/main.ucg"; "/x/m2.ucg"]) = [None; None]
  /\ count_path (b "/x/lib.ucg") (evals (run1 ["/x/main.ucg"; "/x/m2.ucg"])) = 1
  /\ arts (run1 ["/x/main.ucg"; "/x/m2.ucg"]) = [b "/x/lib.ucg"; b "/x/main.ucg"; b "/x/m2.ucg"].
Proof. vm_compute. auto. Qed.
(* ucg build main.ucg lib.ucg m2.ucg: exit 1; only lib fails *)
Example x1_main_lib_m2 : statuses (run1 ["/x/main.ucg"; "/x/lib.ucg"; "/x/m2.ucg"]) = [None; Some OutLock; None].
Proof. vm_compute. auto. Qed.
(* ucg build m3.ucg: Division by zero (in fl.ucg), fl.json written *)
Example x1_m3 : statuses (run1 ["/x/m3.ucg"]) = [Some Fail] /\ arts (run1 ["/x/m3.ucg"]) = [b "/x/fl.ucg"].
Proof. vm_compute. auto. Qed.
(* ucg build m3.ucg m4.ucg: m3 Division by zero, m4 "only one output per file" (fl.ucg) *)
Example x1_m3_m4 : statuses (run1 ["/x/m3.ucg"; "/x/m4.ucg"]) = [Some Fail; Some OutLock].
Proof. vm_compute. auto. Qed.
(* ucg build cyc_a.ucg: "Type error ... Import cycle detected", lib NOT evaluated, no artifact *)
Example x1_cyc : statuses (run1 ["/x/cyc_a.ucg"]) = [Some Cycle] /\ evals (run1 ["/x/cyc_a.ucg"]) = []
  /\ arts (run1 ["/x/cyc_a.ucg"]) = [].
Proof. vm_compute. auto. Qed.
(* ... whereas the VM level alone would have evaluated lib first *)
Example x1_cyc_vm : statuses (batch_eval LockPerInvocation (default_fuel x1) x1 empty_state [b "/x/cyc_a.ucg"]) = [Some Cycle]
  /\ arts (batch_eval LockPerInvocation (default_fuel x1) x1 empty_state [b "/x/cyc_a.ucg"]) = [b "/x/lib.ucg"].
Proof. vm_compute. auto. Qed.
(* ucg build m5.ucg: "OSError: Path not found", lib not evaluated *)
Example x1_m5 : statuses (run1 ["/x/m5.ucg"]) = [Some Missing] /\ evals (run1 ["/x/m5.ucg"]) = [].
Proof. vm_compute. auto. Qed.

(* x2: lib.ucg = let v = TRACE 1;
       a.ucg = import "./lib.ucg"; import "d/../lib.ucg"; out
       b.ucg = import "lib.ucg"; out
       main.ucg = import "a.ucg"; import "./d/../b.ucg"; import "./a.ucg"; out
       c1.ucg = import "c2.ucg"   c2.ucg = import "./d/../c1.ucg"   self.ucg = import "self.ucg"
       bad.ucg = 1/0   usebad.ucg = import lib; import bad; out   two.ucg = out; out *)
Definition x2 : project :=
  [ (b "/y/lib.ucg", F [] 0 false);
    (b "/y/a.ucg", F ["/y/./lib.ucg"; "/y/d/../lib.ucg"] 1 false);
    (b "/y/b.ucg", F ["/y/lib.ucg"] 1 false);
    (b "/y/main.ucg", F ["/y/a.ucg"; "/y/./d/../b.ucg"; "/y/./a.ucg"] 1 false);
    (b "/y/c1.ucg", F ["/y/c2.ucg"] 0 false);
    (b "/y/c2.ucg", F ["/y/./d/../c1.ucg"] 0 false);
    (b "/y/self.ucg", F ["/y/self.ucg"] 0 false);
    (b "/y/bad.ucg", F [] 0 true);
    (b "/y/usebad.ucg", F ["/y/lib.ucg"; "/y/bad.ucg"] 1 false);
    (b "/y/two.ucg", F [] 2 false);
    (b "/y/two_i.ucg", F ["/y/two.ucg"] 1 false) ].
Definition run2 files := batch LockPerInvocation (default_fuel x2) x2 empty_state (map b files).
Definition cur2 files := batch LockPerEvaluation (default_fuel x2) x2 empty_state (map b files).

(* ucg build main.ucg: exit 0, lib TRACEd once, a.json b.json main.json *)
Example x2_main : statuses (run2 ["/y/main.ucg"]) = [None]
  /\ evals (run2 ["/y/main.ucg"]) = [b "/y/main.ucg"; b "/y/a.ucg"; b "/y/lib.ucg"; b "/y/b.ucg"]
  /\ arts (run2 ["/y/main.ucg"]) = [b "/y/a.ucg"; b "/y/b.ucg"; b "/y/main.ucg"].
Proof. vm_compute. auto. Qed.
(* ucg build a.ucg b.ucg main.ucg: exit 1, main fails (a.ucg's out), lib TRACEd once *)
Example x2_a_b_main : statuses (run2 ["/y/a.ucg"; "/y/b.ucg"; "/y/main.ucg"]) = [None; None; Some OutLock]
  /\ count_path (b "/y/lib.ucg") (evals (run2 ["/y/a.ucg"; "/y/b.ucg"; "/y/main.ucg"])) = 1.
Proof. vm_compute. auto. Qed.
(* ucg build main.ucg a.ucg: exit 1, a fails *)
Example x2_main_a : statuses (run2 ["/y/main.ucg"; "/y/a.ucg"]) = [None; Some OutLock].
Proof. vm_compute. auto. Qed.
(* c1 / self: import cycle; bad: fails; usebad: fails, lib evaluated; two: OutLock alone, two.json written once *)
Example x2_misc : statuses (run2 ["/y/c1.ucg"]) = [Some Cycle] /\ statuses (run2 ["/y/self.ucg"]) = [Some Cycle]
  /\ statuses (run2 ["/y/bad.ucg"]) = [Some Fail]
  /\ statuses (run2 ["/y/usebad.ucg"]) = [Some Fail] /\ evals (run2 ["/y/usebad.ucg"]) = [b "/y/usebad.ucg"; b "/y/lib.ucg"; b "/y/bad.ucg"]
  /\ statuses (run2 ["/y/two.ucg"]) = [Some OutLock] /\ arts (run2 ["/y/two.ucg"]) = [b "/y/two.ucg"]
  /\ statuses (run2 ["/y/bad.ucg"; "/y/b.ucg"]) = [Some Fail; None]
  /\ statuses (run2 ["/y/c1.ucg"; "/y/b.ucg"; "/y/c2.ucg"]) = [Some Cycle; None; Some Cycle].
Proof. vm_compute. repeat split; reflexivity. Qed.

(* ---------- the computed defect class on the validated runs *)
Definition known1 files := map (known_c16b (default_fuel x1) x1 (map b files)) (map b files).

(* lib.ucg main.ucg / main.ucg lib.ucg: both files are in the class (the
   second one is the one that fails) *)
Example k1_lib_main : known1 ["/x/lib.ucg"; "/x/main.ucg"] = [true; true]. Proof. vm_compute. reflexivity. Qed.
(* main.ucg m2.ucg (both import lib, lib not built): nobody in the class, exit 0 *)
Example k1_main_m2 : known1 ["/x/main.ucg"; "/x/m2.ucg"] = [false; false]. Proof. vm_compute. reflexivity. Qed.
(* main.ucg lib.ucg m2.ucg: all three in the class; really only lib fails
   (m2 finds lib in the value cache): Known_C16 over-approximates *)
Example k1_main_lib_m2 : known1 ["/x/main.ucg"; "/x/lib.ucg"; "/x/m2.ucg"] = [true; true; true]. Proof. vm_compute. reflexivity. Qed.
(* lib.ucg lib.ucg: built twice *)
Example k1_lib_lib : known1 ["/x/lib.ucg"; "/x/lib.ucg"] = [true; true]. Proof. vm_compute. reflexivity. Qed.
(* x2: a.ucg b.ucg main.ucg: all in the class (a and b have an out, are built and are
   imported by main); really only main, which comes last, fails *)
Example k2_a_b_main :
  map (known_c16b (default_fuel x2) x2 (map b ["/y/a.ucg"; "/y/b.ucg"; "/y/main.ucg"]))
      (map b ["/y/a.ucg"; "/y/b.ucg"; "/y/main.ucg"]) = [true; true; true].
Proof. vm_compute. reflexivity. Qed.

(* the current code (binary of commit 0c43338) *)

(* ucg build lib.ucg main.ucg: exit 0, lib TRACEd twice, lib.json main.json *)
Example c1_lib_main : statuses (cur1 ["/x/lib.ucg"; "/x/main.ucg"]) = [None; None]
  /\ count_path (b "/x/lib.ucg") (evals (cur1 ["/x/lib.ucg"; "/x/main.ucg"])) = 2
  /\ arts (cur1 ["/x/lib.ucg"; "/x/main.ucg"]) = [b "/x/lib.ucg"; b "/x/lib.ucg"; b "/x/main.ucg"]
  /\ exit_status (snd (cur1 ["/x/lib.ucg"; "/x/main.ucg"])) = 0.
Proof. vm_compute. repeat split; reflexivity. Qed.
(* ucg build main.ucg lib.ucg: exit 0, TRACE twice *)
Example c1_main_lib : statuses (cur1 ["/x/main.ucg"; "/x/lib.ucg"]) = [None; None]
  /\ count_path (b "/x/lib.ucg") (evals (cur1 ["/x/main.ucg"; "/x/lib.ucg"])) = 2.
Proof. vm_compute. split; reflexivity. Qed.
(* ucg build lib.ucg lib.ucg: exit 0, TRACE twice *)
Example c1_lib_lib : statuses (cur1 ["/x/lib.ucg"; "/x/lib.ucg"]) = [None; None]
  /\ count_path (b "/x/lib.ucg") (evals (cur1 ["/x/lib.ucg"; "/x/lib.ucg"])) = 2.
Proof. vm_compute. split; reflexivity. Qed.
(* ucg build main.ucg lib.ucg m2.ucg: exit 0, TRACE twice (m2 is served from the cache) *)
Example c1_main_lib_m2 : statuses (cur1 ["/x/main.ucg"; "/x/lib.ucg"; "/x/m2.ucg"]) = [None; None; None]
  /\ count_path (b "/x/lib.ucg") (evals (cur1 ["/x/main.ucg"; "/x/lib.ucg"; "/x/m2.ucg"])) = 2.
Proof. vm_compute. split; reflexivity. Qed.
(* ucg build m3.ucg m4.ucg: both "Division by zero" (in fl.ucg), fl.json *)
Example c1_m3_m4 : statuses (cur1 ["/x/m3.ucg"; "/x/m4.ucg"]) = [Some Fail; Some Fail].
Proof. vm_compute. reflexivity. Qed.
(* ucg build sub/../lib.ucg main.ucg: exit 0 *)
Example c1_dotdot : statuses (cur1 ["/x/sub/../lib.ucg"; "/x/main.ucg"]) = [None; None].
Proof. vm_compute. reflexivity. Qed.
(* cyc_a / m5: unchanged (static phase / link_ops, nothing evaluated) *)
Example c1_cyc_m5 : statuses (cur1 ["/x/cyc_a.ucg"; "/x/m5.ucg"]) = [Some Cycle; Some Missing]
  /\ evals (cur1 ["/x/cyc_a.ucg"; "/x/m5.ucg"]) = [].
Proof. vm_compute. split; reflexivity. Qed.
(* x2.  two.ucg: still "only one output per file", two.json written once;
   two_i.ucg (imports two.ucg): fails the same way; two.ucg two_i.ucg: both fail *)
Example c2_two : statuses (cur2 ["/y/two.ucg"]) = [Some OutLock] /\ arts (cur2 ["/y/two.ucg"]) = [b "/y/two.ucg"]
  /\ statuses (cur2 ["/y/two_i.ucg"]) = [Some OutLock]
  /\ statuses (cur2 ["/y/two.ucg"; "/y/two_i.ucg"]) = [Some OutLock; Some OutLock].
Proof. vm_compute. repeat split; reflexivity. Qed.
(* ucg build a.ucg b.ucg main.ucg: exit 0, lib TRACEd once; main.ucg a.ucg: exit 0; main.ucg: exit 0 *)
Example c2_a_b_main : statuses (cur2 ["/y/a.ucg"; "/y/b.ucg"; "/y/main.ucg"]) = [None; None; None]
  /\ count_path (b "/y/lib.ucg") (evals (cur2 ["/y/a.ucg"; "/y/b.ucg"; "/y/main.ucg"])) = 1
  /\ statuses (cur2 ["/y/main.ucg"; "/y/a.ucg"]) = [None; None]
  /\ statuses (cur2 ["/y/main.ucg"]) = [None]
  /\ count_path (b "/y/lib.ucg") (evals (cur2 ["/y/main.ucg"])) = 1.
Proof. vm_compute. repeat split; reflexivity. Qed.
(* ucg build c1.ucg b.ucg c2.ucg: cycle, ok, cycle;  usebad.ucg: fails (bad.ucg) after lib was evaluated;
   lib.ucg b.ucg lib.ucg: exit 0, lib TRACEd three times *)
Example c2_misc : statuses (cur2 ["/y/c1.ucg"; "/y/b.ucg"; "/y/c2.ucg"]) = [Some Cycle; None; Some Cycle]
  /\ statuses (cur2 ["/y/usebad.ucg"]) = [Some Fail]
  /\ evals (cur2 ["/y/usebad.ucg"]) = [b "/y/usebad.ucg"; b "/y/lib.ucg"; b "/y/bad.ucg"]
  /\ statuses (cur2 ["/y/lib.ucg"; "/y/b.ucg"; "/y/lib.ucg"]) = [None; None; None]
  /\ count_path (b "/y/lib.ucg") (evals (cur2 ["/y/lib.ucg"; "/y/b.ucg"; "/y/lib.ucg"])) = 3.
Proof. vm_compute. repeat split; reflexivity. Qed.
