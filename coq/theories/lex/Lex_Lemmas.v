(* Proofs about the tokenizer model Lex.v (property C11).  Each recogniser gets one inversion
   lemma ([run_rec_inv]); the loop is described once, without fuel, by [lexA] (equations) and by
   the relation [lexed] (what the tokens and their positions are); the finite facts about the
   generated table are evaluated where they are used. *)
From Coq Require Import Sorting.Sorted.
From Ucg Require Import base.Bytes base.Bytes_Lemmas lex.Lex_Types lex.Vocab lex.Lex.
From UcgGen Require Import LexVocab.
Local Open Scope list_scope.

(** * Lists *)

Lemma StronglySorted_snoc {A} (R : A -> A -> Prop) l e :
  StronglySorted R l -> Forall (fun t => R t e) l -> StronglySorted R (l ++ [e]).
Proof.
  induction 1 as [|a l Hs IH Ha]; intros He; cbn; [repeat constructor|].
  inversion He; subst. constructor; [auto|]. apply Forall_app. split; [exact Ha|repeat constructor; assumption].
Qed.

Lemma StronglySorted_filter {A} (R : A -> A -> Prop) (p : A -> bool) l :
  StronglySorted R l -> StronglySorted R (filter p l).
Proof.
  induction 1 as [|a l Hs IH Hall]; cbn; [constructor|].
  destruct (p a); [|exact IH]. constructor; [exact IH|].
  exact (incl_Forall (incl_filter p l) Hall).
Qed.

Lemma skipn_app_exact {A} (a c : list A) : skipn (List.length a) (a ++ c) = c.
Proof. rewrite skipn_app, Nat.sub_diag, skipn_all. reflexivity. Qed.

Lemma removelast_length {A} (l : list A) : l <> [] -> List.length (removelast l) = List.length l - 1.
Proof.
  intros H. destruct (exists_last H) as (l' & x & ->). rewrite removelast_last, app_length. cbn. lia.
Qed.

Lemma last_app_ne {A} (x y : list A) d : y <> [] -> last (x ++ y) d = last y d.
Proof.
  intros Hy. induction x as [|a x IH]; [reflexivity|]. cbn [app last].
  destruct (x ++ y) eqn:E; [|exact IH]. apply app_eq_nil in E as [_ ->]. congruence.
Qed.

Lemma option_map_app_nil {A} (o : option (list A)) : option_map (app []) o = o.
Proof. destruct o; reflexivity. Qed.

Lemma option_map_app_app {A} (x y : list A) o :
  option_map (app x) (option_map (app y) o) = option_map (app (x ++ y)) o.
Proof. destruct o; cbn; [now rewrite app_assoc|reflexivity]. Qed.

(** * The 256 bytes *)

Definition all_bytes : list ascii := map ascii_of_nat (seq 0 256).

Lemma all_bytes_complete : forall c : ascii, In c all_bytes.
Proof.
  intros c. unfold all_bytes. apply in_map_iff. exists (nat_of_ascii c). split.
  - apply ascii_nat_embedding.
  - apply in_seq. pose proof (nat_ascii_bounded c). lia.
Qed.

Lemma forall_bytes (P : ascii -> bool) :
  forallb P all_bytes = true -> forall c, P c = true.
Proof. intros H c. rewrite forallb_forall in H. apply H, all_bytes_complete. Qed.

Definition head_is (p : ascii -> bool) (s : bytes) : bool :=
  match s with c :: _ => p c | [] => false end.

(* x does not begin with a byte of class bad *)
Definition may_follow (bad : ascii -> bool) (x : bytes) : bool :=
  match x with [] => true | c :: _ => negb (bad c) end.

Lemma is_alpha_symbol c : is_alpha c = true -> is_symbol_char c = true.
Proof. unfold is_symbol_char; intros ->; reflexivity. Qed.

(* the documented escapes: \n \r \t are line feed, carriage return, tab; \<c> is <c> for
   every other byte c *)
Definition doc_escape (c : ascii) : ascii :=
  match c with
  | "n"%char => nl
  | "r"%char => cr
  | "t"%char => tab
  | _ => c
  end.

(* one sweep for what is needed of single bytes: the classes the recognisers start from exclude
   one another, and the model's escapes are the documented ones *)
Lemma byte_facts :
  forallb (fun c => implb (is_symbol_char c) (negb (is_ws c) && negb (Ascii.eqb slash c) && negb (Ascii.eqb c dq))
                    && implb (is_alpha c) (negb (is_digit c))
                    && Ascii.eqb (unescape c) (doc_escape c))%bool all_bytes = true.
Proof. vm_compute. reflexivity. Qed.

Lemma symbol_facts c : is_symbol_char c = true ->
  is_ws c = false /\ Ascii.eqb slash c = false /\ Ascii.eqb c dq = false.
Proof.
  intros Hc. pose proof (forall_bytes _ byte_facts c) as H. cbn beta in H.
  apply andb_true_iff in H as [H _]. apply andb_true_iff in H as [H _]. rewrite Hc in H. cbn [implb] in H.
  apply andb_true_iff in H as [H H3]. apply andb_true_iff in H as [H1 H2].
  apply negb_true_iff in H1, H2, H3. auto.
Qed.

Lemma alpha_not_digit c : is_alpha c = true -> is_digit c = false.
Proof.
  intros Hc. pose proof (forall_bytes _ byte_facts c) as H. cbn beta in H.
  apply andb_true_iff in H as [H _]. apply andb_true_iff in H as [_ H]. rewrite Hc in H.
  now apply negb_true_iff in H.
Qed.

Lemma unescape_doc c : unescape c = doc_escape c.
Proof.
  pose proof (forall_bytes _ byte_facts c) as H. cbn beta in H.
  apply andb_true_iff in H as [_ H]. now apply Ascii.eqb_eq.
Qed.

(** * The scanners: what a successful scan says about its input *)

Lemma span_inv p s a r : span p s = (a, r) ->
  s = a ++ r /\ forallb p a = true /\ match r with [] => True | c :: _ => p c = false end.
Proof.
  revert a r; induction s as [|c s IH]; cbn; intros a r H.
  - inversion H; auto.
  - destruct (p c) eqn:Ep.
    + destruct (span p s) as [a' r'] eqn:E. inversion H; subst.
      destruct (IH _ _ eq_refl) as (-> & Ha & Hr). cbn. rewrite Ep. auto.
    + inversion H; subst. auto.
Qed.

Lemma span_app p s a r : span p s = (a, r) -> s = a ++ r.
Proof. intros H. now apply span_inv in H. Qed.

Lemma span_all p s a r : span p s = (a, r) -> forallb p a = true.
Proof. intros H. now apply span_inv in H. Qed.

Lemma span_stop p s a r : span p s = (a, r) ->
  match r with [] => True | c :: _ => p c = false end.
Proof. intros H. now apply span_inv in H. Qed.

Lemma span_head p c s : p c = true -> exists a r, span p (c :: s) = (c :: a, r).
Proof. intros H; cbn; rewrite H. destruct (span p s) as [a r]; eauto. Qed.

Lemma span_spec p a r :
  forallb p a = true -> match r with [] => True | c :: _ => p c = false end ->
  span p (a ++ r) = (a, r).
Proof.
  intros Ha Hr; induction a as [|c a IH]; cbn in *.
  - destruct r as [|c r]; [reflexivity|]. cbn. rewrite Hr; reflexivity.
  - apply andb_true_iff in Ha as [Hc Ha]. rewrite Hc, (IH Ha). reflexivity.
Qed.

(* one byte of class p, then the longest run of class q *)
Lemma span_from_inv (p q : ascii -> bool) s a r :
  (forall c, p c = true -> q c = true) -> head_is p s = true -> span q s = (a, r) ->
  s = a ++ r /\ a <> [] /\ head_is p a = true /\ forallb q a = true /\ may_follow q r = true.
Proof.
  intros Hpq Hs E. destruct s as [|c s]; [discriminate|]. cbn in Hs.
  destruct (span_head q c s (Hpq c Hs)) as (a' & r' & E'). rewrite E' in E. inversion E; subst a r.
  repeat split; [eapply span_app; eauto|discriminate|exact Hs|eapply span_all; eauto|].
  pose proof (span_stop _ _ _ _ E') as H. destruct r'; [reflexivity|]. cbn. now rewrite H.
Qed.

Definition is_nl (c : ascii) : bool := Ascii.eqb c nl.
Definition no_nl (f : bytes) : bool := forallb (fun c => negb (is_nl c)) f.

Definition at_line_end (s : bytes) : Prop :=
  match s with
  | [] => True
  | c :: r => c = nl \/ (c = cr /\ starts_with_nl r = true)
  end.

Lemma until_eol_cons c s :
  until_eol (c :: s) =
  if (Ascii.eqb c nl || (Ascii.eqb c cr && starts_with_nl s))%bool then ([], c :: s)
  else let (a, r) := until_eol s in (c :: a, r).
Proof. reflexivity. Qed.

Lemma until_eol_inv s a r :
  until_eol s = (a, r) -> s = a ++ r /\ no_nl a = true /\ at_line_end r.
Proof.
  revert a r; induction s as [|c s IH]; intros a r H.
  - cbn in H. inversion H; subst. cbn; auto.
  - rewrite until_eol_cons in H. destruct (Ascii.eqb c nl) eqn:E1; cbn [orb] in H.
    + inversion H; subst. repeat split. left. now apply Ascii.eqb_eq.
    + destruct (Ascii.eqb c cr && starts_with_nl s)%bool eqn:E2.
      * inversion H; subst. repeat split. right.
        apply andb_true_iff in E2 as [E2 E3]. apply Ascii.eqb_eq in E2. auto.
      * destruct (until_eol s) as [a' r'] eqn:E. inversion H; subst.
        destruct (IH _ _ eq_refl) as (-> & Ha & Hr). repeat split; [|exact Hr].
        cbn. unfold is_nl. rewrite E1. exact Ha.
Qed.

Lemma eat_eol_inv s e r :
  eat_eol s = (e, r) -> s = e ++ r /\ (e = [] \/ e = [nl] \/ e = [cr; nl]).
Proof.
  unfold eat_eol. destruct s as [|c s]; [intros H; inversion H; auto|].
  destruct (Ascii.eqb c nl) eqn:E1.
  { apply Ascii.eqb_eq in E1; subst. intros H; inversion H; auto. }
  destruct (Ascii.eqb c cr) eqn:E2; [|intros H; inversion H; auto].
  apply Ascii.eqb_eq in E2; subst. destruct s as [|d s]; [intros H; inversion H; auto|].
  destruct (Ascii.eqb d nl) eqn:E3; [|intros H; inversion H; auto].
  apply Ascii.eqb_eq in E3; subst. intros H; inversion H; auto.
Qed.

Lemma ws_run_inv s k r : ws_run s = Some (k, r) ->
  s = k ++ r /\ k <> [] /\ forallb is_ws k = true.
Proof.
  unfold ws_run. destruct s as [|c s]; [discriminate|].
  destruct (is_ws c) eqn:E; [|discriminate]. intros H; injection H as H.
  destruct (span_from_inv is_ws is_ws (c :: s) k r (fun _ H => H) E H) as (? & ? & _ & ? & _). auto.
Qed.

Lemma comment_run_inv s body k r : comment_run s = Some (body, k, r) ->
  exists eol, k = b "//" ++ body ++ eol /\ s = k ++ r /\ no_nl body = true /\
              (eol = [] \/ eol = [nl] \/ eol = [cr; nl]) /\ at_line_end (eol ++ r).
Proof.
  unfold comment_run. destruct (strip_prefix (b "//") s) as [r0|] eqn:E; [|discriminate].
  apply strip_prefix_some in E.
  destruct (until_eol r0) as [bd r1] eqn:E1. destruct (eat_eol r1) as [eol r2] eqn:E2.
  intros H; inversion H; subst. apply until_eol_inv in E1 as (-> & Hn & Hl).
  apply eat_eol_inv in E2 as (-> & He). exists eol.
  split; [reflexivity|]. split; [cbn; now rewrite <- app_assoc|]. auto.
Qed.

Lemma comment_run_total x : exists bd k r, comment_run (b "//" ++ x) = Some (bd, k, r).
Proof.
  unfold comment_run. rewrite strip_prefix_app. destruct (until_eol x) as [a r1].
  destruct (eat_eol r1) as [e r2]. eauto.
Qed.

(** ** The string scanner against the documented escapes *)

(* An independent, one-pass, look-ahead decoder: the documented escapes are decoded, all other
   bytes are copied. *)
Fixpoint decode_doc (s : bytes) : bytes :=
  match s with
  | [] => []
  | c :: r =>
      if Ascii.eqb c bsl then
        match r with
        | [] => []                                  (* dangling backslash: not a body *)
        | d :: r' => doc_escape d :: decode_doc r'
        end
      else c :: decode_doc r
  end.

(* [closed_body s]: s can stand between two quotes: it contains no unescaped
   quote and does not end in the middle of an escape *)
Fixpoint closed_body (s : bytes) : bool :=
  match s with
  | [] => true
  | c :: r =>
      if Ascii.eqb c bsl then
        match r with
        | [] => false
        | _ :: r' => closed_body r'
        end
      else if Ascii.eqb c dq then false
      else closed_body r
  end.

(* one step of each function, stated so that rewriting does not unfold the byte comparisons *)
Lemma escq_false_cons c s :
  escq false (c :: s) =
  if Ascii.eqb c bsl then
    match escq true s with Some (f, k, r) => Some (f, c :: k, r) | None => None end
  else if Ascii.eqb c dq then Some ([], [c], s)
  else match escq false s with Some (f, k, r) => Some (c :: f, c :: k, r) | None => None end.
Proof. reflexivity. Qed.

Lemma escq_true_cons c s :
  escq true (c :: s) =
  match escq false s with Some (f, k, r) => Some (unescape c :: f, c :: k, r) | None => None end.
Proof. reflexivity. Qed.

Lemma decode_doc_cons c r :
  decode_doc (c :: r) =
  if Ascii.eqb c bsl then match r with [] => [] | d :: r' => doc_escape d :: decode_doc r' end
  else c :: decode_doc r.
Proof. reflexivity. Qed.

Lemma closed_body_cons c r :
  closed_body (c :: r) =
  if Ascii.eqb c bsl then match r with [] => false | _ :: r' => closed_body r' end
  else if Ascii.eqb c dq then false else closed_body r.
Proof. reflexivity. Qed.

(* The model's flag-driven scanner runs through a closed body and carries on behind it.  The
   flag [e] of the scanner corresponds to a backslash in front of the body. *)
Lemma escq_body body t : forall e : bool,
  closed_body (if e then bsl :: body else body) = true ->
  escq e (body ++ t) =
  match escq false t with
  | Some (f, k, r) => Some (decode_doc (if e then bsl :: body else body) ++ f, body ++ k, r)
  | None => None
  end.
Proof.
  induction body as [|c body IH]; intros [|] H; cbv iota in H |- *.
  - discriminate.
  - cbn [app]. destruct (escq false t) as [[[? ?] ?]|]; reflexivity.
  - cbn [app]. rewrite escq_true_cons, (IH false H), unescape_doc.
    destruct (escq false t) as [[[? ?] ?]|]; reflexivity.
  - rewrite closed_body_cons in H. cbn [app]. rewrite escq_false_cons, decode_doc_cons.
    destruct (Ascii.eqb c bsl) eqn:Eb.
    + apply Ascii.eqb_eq in Eb; subst c. rewrite (IH true H).
      destruct (escq false t) as [[[? ?] ?]|]; reflexivity.
    + destruct (Ascii.eqb c dq); [discriminate|]. rewrite (IH false H).
      destruct (escq false t) as [[[? ?] ?]|]; reflexivity.
Qed.

Lemma escq_closed body rest :
  closed_body body = true ->
  escq false (body ++ dq :: rest) = Some (decode_doc body, body ++ [dq], rest).
Proof. intros H. rewrite (escq_body body _ false H). cbn. now rewrite app_nil_r. Qed.

(* and conversely every successful scan has that shape *)
Lemma escq_inv s : forall e f k r, escq e s = Some (f, k, r) ->
  s = k ++ r /\
  if e then exists d body, k = d :: body ++ [dq] /\ closed_body body = true
                           /\ f = doc_escape d :: decode_doc body
  else exists body, k = body ++ [dq] /\ closed_body body = true /\ f = decode_doc body.
Proof.
  induction s as [|c s IH]; intros e f k r H; cbn in H; [discriminate|].
  destruct e.
  - destruct (escq false s) as [[[f' k'] r']|] eqn:E; [|discriminate]. inversion H; subst.
    destruct (IH _ _ _ _ E) as (-> & body & -> & Hc & ->). split; [reflexivity|].
    exists c, body. rewrite unescape_doc. auto.
  - destruct (Ascii.eqb c bsl) eqn:Eb.
    + destruct (escq true s) as [[[f' k'] r']|] eqn:E; [|discriminate]. inversion H; subst.
      destruct (IH _ _ _ _ E) as (-> & d & body & -> & Hc & ->). split; [reflexivity|].
      exists (c :: d :: body). cbn. rewrite Eb. auto.
    + destruct (Ascii.eqb c dq) eqn:Eq.
      * inversion H; subst. apply Ascii.eqb_eq in Eq; subst. split; [reflexivity|]. exists []. auto.
      * destruct (escq false s) as [[[f' k'] r']|] eqn:E; [|discriminate]. inversion H; subst.
        destruct (IH _ _ _ _ E) as (-> & body & -> & Hc & ->). split; [reflexivity|].
        exists (c :: body). cbn. rewrite Eb, Eq. auto.
Qed.

(** * The recognisers *)

(* a letter followed by symbol characters *)
Definition is_word (w : bytes) : bool :=
  match w with c :: w' => (is_alpha c && forallb is_symbol_char w')%bool | [] => false end.

(* literals begin with a byte that is not whitespace (so they are not empty); keywords are
   BAREWORD tokens, the other literals are not *)
Definition rec_wf (r : recogniser) : bool :=
  match r with
  | RText t lit =>
      (head_is (fun c => negb (is_ws c)) (b lit) && match t with EMPTY | BOOLEAN | PUNCT => true | _ => false end)%bool
  | RTextWS t lit =>
      (head_is (fun c => negb (is_ws c)) (b lit) && match t with BAREWORD => true | _ => false end)%bool
  | _ => true
  end.

(* the value of the generated flag, for the proofs that hold only of the look-ahead variant *)
Lemma kw_looks_ahead : kw_lookahead_only = true.
Proof. reflexivity. Qed.

Lemma recognisers_wf : forallb rec_wf recognisers = true.
Proof. vm_compute. reflexivity. Qed.

(* What a completed recogniser says about its result.  A keyword consumes its literal and,
   unless it only looks ahead, the blank or comment k' behind it. *)
Lemma run_rec_inv r s ty f k rest : run_rec r s = RComplete ty f k rest ->
  s = k ++ rest /\
  match r with
  | RStr => ty = QUOTED /\ exists body, k = dq :: body ++ [dq] /\ closed_body body = true /\ f = decode_doc body
  | RText t lit => ty = t /\ f = b lit /\ k = b lit
  | RTextWS t lit => ty = t /\ f = b lit /\ exists k', k = b lit ++ k' /\ (kw_lookahead_only = true -> k' = [])
  | RDigit => ty = DIGIT /\ f = k /\ k <> [] /\ forallb is_digit k = true /\ may_follow is_digit rest = true
  | RComment => ty = COMMENT /\ exists eol, k = b "//" ++ f ++ eol /\ no_nl f = true /\
                  (eol = [] \/ eol = [nl] \/ eol = [cr; nl]) /\ at_line_end (eol ++ rest)
  | RBareword => ty = BAREWORD /\ f = k /\ is_word k = true /\ may_follow is_symbol_char rest = true
  | RWhitespace => ty = WS /\ f = [] /\ k <> [] /\ forallb is_ws k = true
  | REoi => ty = END /\ f = [] /\ k = [] /\ rest = []
  end.
Proof.
  destruct r; cbn [run_rec].
  - destruct s as [|c s]; [discriminate|]. destruct (Ascii.eqb c dq) eqn:Ec; [|discriminate].
    destruct (escq false s) as [[[f' k'] r']|] eqn:E; [|discriminate].
    intros H; inversion H; subst. apply Ascii.eqb_eq in Ec; subst c.
    apply escq_inv in E as (-> & body & -> & Hc & ->).
    split; [reflexivity|]. split; [reflexivity|]. exists body. auto.
  - destruct (strip_prefix (b lit) s) eqn:E; [|discriminate].
    intros H; inversion H; subst. apply strip_prefix_some in E. auto.
  - destruct (strip_prefix (b lit) s) as [r1|] eqn:E; [|discriminate]. apply strip_prefix_some in E.
    assert (G : forall k' r', r1 = k' ++ r' ->
              (if kw_lookahead_only then RComplete t (b lit) (b lit) r1
               else RComplete t (b lit) (b lit ++ k') r') = RComplete ty f k rest ->
              s = k ++ rest /\ ty = t /\ f = b lit /\
              exists k', k = b lit ++ k' /\ (kw_lookahead_only = true -> k' = [])).
    { intros k' r' ->. destruct kw_lookahead_only; intros H; inversion H; subst.
      - repeat split. exists []. now rewrite app_nil_r.
      - rewrite app_assoc. repeat split. exists k'. split; [reflexivity|discriminate]. }
    destruct (ws_run r1) as [[k' r']|] eqn:E1; [apply ws_run_inv in E1 as [E1 _]; exact (G _ _ E1)|].
    destruct (comment_run r1) as [[[bd k'] r']|] eqn:E2; [|discriminate].
    apply comment_run_inv in E2 as (? & _ & E2 & _). exact (G _ _ E2).
  - destruct s as [|c s]; [discriminate|]. destruct (is_digit c) eqn:Ec; [|discriminate].
    destruct (span is_digit (c :: s)) as [d r'] eqn:E. intros H; inversion H; subst.
    destruct (span_from_inv is_digit _ (c :: s) _ _ (fun _ H => H) Ec E) as (? & ? & _ & ? & ?). repeat split; assumption.
  - destruct (comment_run s) as [[[bd k'] r']|] eqn:E; [|discriminate].
    intros H; inversion H; subst. apply comment_run_inv in E as (eol & -> & -> & ?).
    split; [reflexivity|]. split; [reflexivity|]. exists eol. auto.
  - destruct s as [|c s]; [discriminate|]. destruct (is_alpha c) eqn:Ec; [|discriminate].
    destruct (span is_symbol_char (c :: s)) as [d r'] eqn:E. intros H; inversion H; subst.
    destruct (span_from_inv is_alpha _ (c :: s) _ _ is_alpha_symbol Ec E) as (? & _ & Hh & Hall & ?).
    repeat split; auto. destruct k as [|c' k]; [discriminate|]. cbn in Hh, Hall |- *.
    apply andb_true_iff in Hall as [_ Hall]. now rewrite Hh.
  - destruct (ws_run s) as [[k' r']|] eqn:E; [|discriminate].
    intros H; inversion H; subst. apply ws_run_inv in E as (? & ? & ?). auto.
  - destruct s; [|discriminate]. intros H; inversion H; auto.
Qed.

Lemma alt_cons r rs s :
  alt (r :: rs) s = match run_rec r s with RFail => alt rs s | x => x end.
Proof. reflexivity. Qed.

(* the recogniser that decides, and those before it, which failed *)
Lemma alt_complete rs s ty f k rest :
  alt rs s = RComplete ty f k rest ->
  exists rs1 r rs2, rs = rs1 ++ r :: rs2 /\ run_rec r s = RComplete ty f k rest /\
                    Forall (fun r' => run_rec r' s = RFail) rs1.
Proof.
  induction rs as [|r rs IH]; cbn; [discriminate|].
  destruct (run_rec r s) eqn:E; intros H.
  - inversion H; subst. exists [], r, rs. auto.
  - destruct (IH H) as (rs1 & r' & rs2 & -> & Hr & Hf). exists (r :: rs1), r', rs2. auto.
  - discriminate.
Qed.

Lemma first_raw_rec s ty f k rest :
  first_raw s = RComplete ty f k rest ->
  exists r, In r recognisers /\ rec_wf r = true /\ run_rec r s = RComplete ty f k rest.
Proof.
  intros H. apply alt_complete in H as (rs1 & r & rs2 & E & H & _).
  assert (Hin : In r recognisers) by (rewrite E; apply in_elt).
  pose proof recognisers_wf as W. rewrite forallb_forall in W. eauto.
Qed.

Lemma rec_wf_lit t lit :
  rec_wf (RText t lit) = true \/ rec_wf (RTextWS t lit) = true -> b lit <> [].
Proof. cbn. destruct (b lit); [intros [?|?]; discriminate|discriminate]. Qed.

(* the first token of a non-empty input is not empty: the loop terminates *)
Lemma first_raw_shorter s ty f k rest :
  s <> [] -> first_raw s = RComplete ty f k rest ->
  s = k ++ rest /\ k <> [] /\ List.length rest < List.length s.
Proof.
  intros Hs H. apply first_raw_rec in H as (r & _ & W & H). apply run_rec_inv in H as [Happ H].
  assert (Hk : k <> []).
  { intros ->. destruct r.
    - destruct H as (_ & body & E & _). discriminate.
    - destruct H as (_ & _ & E). now apply (rec_wf_lit _ _ (or_introl W)).
    - destruct H as (_ & _ & k' & E & _). symmetry in E. apply app_eq_nil in E as [E _].
      now apply (rec_wf_lit _ _ (or_intror W)).
    - tauto.
    - destruct H as (_ & eol & E & _). discriminate.
    - destruct H as (_ & _ & H & _). discriminate.
    - tauto.
    - destruct H as (_ & _ & _ & ->). contradiction. }
  repeat split; auto. rewrite Happ, app_length. destruct k; [congruence|cbn; lia].
Qed.

Lemma first_raw_app s ty f k rest :
  first_raw s = RComplete ty f k rest -> s = k ++ rest.
Proof. intros H. apply first_raw_rec in H as (r & _ & _ & H). now apply run_rec_inv in H. Qed.

(** * The loop *)

Lemma lex_from_fuel_enough fuel ps s :
  List.length s < fuel -> lex_from fuel ps s <> OutOfFuel.
Proof.
  revert ps s; induction fuel as [|fuel IH]; intros ps s Hlen; [lia|].
  destruct s as [|c s]; cbn [lex_from]; [discriminate|].
  unfold first_tok. destruct (first_raw (c :: s)) as [ty f k rest| |] eqn:E; try discriminate.
  destruct (first_raw_shorter (c :: s) _ _ _ _ ltac:(discriminate) E) as (_ & _ & Hlt). cbn in Hlen, Hlt.
  specialize (IH (advance ps k) rest ltac:(lia)).
  destruct (lex_from fuel (advance ps k) rest); congruence.
Qed.

Theorem lex_total : forall s, lex_fuel (List.length s + 1) s <> OutOfFuel.
Proof. intros s. apply lex_from_fuel_enough. lia. Qed.

(* consequently lex_all / lex return None exactly when the real tokenizer errs
   (LexErr), never for lack of fuel *)
Corollary lex_all_none_is_error s : lex_all s = None <-> lex_fuel (List.length s + 1) s = LexErr.
Proof.
  unfold lex_all. pose proof (lex_total s).
  destruct (lex_fuel (List.length s + 1) s); split; congruence.
Qed.

Lemma lex_from_fuel_mono fuel fuel' ps s :
  List.length s < fuel -> List.length s < fuel' -> lex_from fuel ps s = lex_from fuel' ps s.
Proof.
  revert fuel' ps s; induction fuel as [|fuel IH]; intros fuel' ps s H1 H2; [lia|].
  destruct fuel' as [|fuel']; [lia|].
  destruct s as [|c s]; cbn [lex_from]; [reflexivity|].
  unfold first_tok. destruct (first_raw (c :: s)) as [ty f k rest| |] eqn:E; try reflexivity.
  destruct (first_raw_shorter (c :: s) _ _ _ _ ltac:(discriminate) E) as (_ & _ & Hlt).
  cbn in Hlt, H1, H2. rewrite (IH fuel' (advance ps k) rest) by lia. reflexivity.
Qed.

(* The loop without its fuel: [lexA] and its two equations are what the proofs below use. *)
Definition lexA (ps : pos_state) (s : bytes) : lex_result := lex_from (List.length s + 1) ps s.

Definition res_cons (t : token) (r : lex_result) : lex_result :=
  match r with LexOk l => LexOk (t :: l) | LexErr => LexErr | OutOfFuel => OutOfFuel end.

Lemma lex_from_cons fuel ps c s :
  lex_from (S fuel) ps (c :: s) =
  match first_raw (c :: s) with
  | RComplete ty f k rest => res_cons (mk_tok ty f ps) (lex_from fuel (advance ps k) rest)
  | _ => LexErr
  end.
Proof. cbn [lex_from]. unfold first_tok. destruct (first_raw (c :: s)); reflexivity. Qed.

Lemma lexA_nil ps : lexA ps [] = LexOk [mk_tok END [] ps].
Proof. reflexivity. Qed.

Lemma lexA_step ps s : s <> [] ->
  lexA ps s =
  match first_raw s with
  | RComplete ty f k rest => res_cons (mk_tok ty f ps) (lexA (advance ps k) rest)
  | _ => LexErr
  end.
Proof.
  intros Hs. unfold lexA. rewrite Nat.add_1_r. destruct s as [|c s]; [congruence|].
  cbn [lex_from]. unfold first_tok.
  destruct (first_raw (c :: s)) as [ty f k rest| |] eqn:E; try reflexivity.
  destruct (first_raw_shorter _ _ _ _ _ Hs E) as (_ & _ & Hlt).
  rewrite (lex_from_fuel_mono (List.length (c :: s)) (List.length rest + 1) _ rest) by lia.
  reflexivity.
Qed.

Definition res_all (r : lex_result) : option (list token) :=
  match r with LexOk l => Some l | _ => None end.

Lemma lex_all_lexA s : lex_all s = res_all (lexA ps0 s).
Proof. reflexivity. Qed.

(** * String literals *)

(* the table starts with strtok: a source starting with a quote is decided by escq *)
Lemma first_raw_str s :
  first_raw (dq :: s) =
  match escq false s with
  | Some (f, k, rest) => RComplete QUOTED f (dq :: k) rest
  | None => RIncomplete
  end.
Proof.
  unfold first_raw. assert (H : recognisers = RStr :: tl recognisers) by reflexivity.
  rewrite H, alt_cons. cbn [run_rec]. rewrite Ascii.eqb_refl.
  destruct (escq false s) as [[[? ?] ?]|]; reflexivity.
Qed.

Lemma lex_single s ty f :
  s <> [] -> first_raw s = RComplete ty f s [] ->
  match ty with WS | COMMENT => False | _ => True end ->
  lex s = Some [mk_tok ty f ps0; mk_tok END [] (advance ps0 s)].
Proof.
  intros Hs H Hty. unfold lex. rewrite lex_all_lexA, (lexA_step _ _ Hs), H, lexA_nil. cbn.
  unfold is_trivia. cbn. destruct ty; try reflexivity; contradiction.
Qed.

(* decode_spec: the value of a literal is the documented decoding of its body *)
Theorem decode_spec : forall body, closed_body body = true ->
  lex (dq :: body ++ [dq]) =
  Some [ mk_tok QUOTED (decode_doc body) ps0
       ; mk_tok END [] (advance ps0 (dq :: body ++ [dq])) ].
Proof.
  intros body Hc. apply lex_single; [discriminate| |exact I].
  rewrite first_raw_str, (escq_closed body [] Hc). reflexivity.
Qed.

(* the same inside any source: one recogniser step *)
Theorem decode_spec_step : forall ps body rest, closed_body body = true ->
  first_tok ps (dq :: body ++ dq :: rest) =
  Some (mk_tok QUOTED (decode_doc body) ps, rest, advance ps (dq :: body ++ [dq])).
Proof.
  intros ps body rest Hc. unfold first_tok.
  rewrite first_raw_str, (escq_closed body rest Hc). reflexivity.
Qed.

(* an unterminated literal is an error *)
Theorem unterminated_string_is_error : forall body,
  closed_body body = true -> lex (dq :: body) = None.
Proof.
  intros body Hc. unfold lex. rewrite lex_all_lexA, lexA_step, first_raw_str by discriminate.
  rewrite <- (app_nil_r body), (escq_body body [] false Hc). reflexivity.
Qed.

(* string_decode: every byte string survives a round trip through a literal *)
Definition encode_byte (c : ascii) : bytes :=
  if Ascii.eqb c bsl then [bsl; bsl]
  else if Ascii.eqb c dq then [bsl; dq]
  else if Ascii.eqb c nl then [bsl; "n"%char]
  else if Ascii.eqb c cr then [bsl; "r"%char]
  else if Ascii.eqb c tab then [bsl; "t"%char]
  else [c].

Definition encode_str (v : bytes) : bytes := flat_map encode_byte v.

(* minimal variant: only backslash and quote are escaped, everything else
   (line feeds, tabs, non-ASCII bytes ...) is written raw *)
Definition encode_byte_min (c : ascii) : bytes :=
  if Ascii.eqb c bsl then [bsl; bsl]
  else if Ascii.eqb c dq then [bsl; dq]
  else [c].
Definition encode_str_min (v : bytes) : bytes := flat_map encode_byte_min v.

(* an encoder of single bytes that a body can be built from *)
Definition encodes (enc : ascii -> bytes) : Prop := forall c s,
  closed_body (enc c ++ s) = closed_body s /\ decode_doc (enc c ++ s) = c :: decode_doc s.

Lemma encode_raw c s : Ascii.eqb c bsl = false -> Ascii.eqb c dq = false ->
  closed_body ([c] ++ s) = closed_body s /\ decode_doc ([c] ++ s) = c :: decode_doc s.
Proof. intros E1 E2. cbn [app]. rewrite closed_body_cons, decode_doc_cons, E1, E2. auto. Qed.

Lemma encode_byte_ok : encodes encode_byte.
Proof.
  intros c s. unfold encode_byte.
  destruct (Ascii.eqb c bsl) eqn:E1; [apply Ascii.eqb_eq in E1; subst; split; reflexivity|].
  destruct (Ascii.eqb c dq) eqn:E2; [apply Ascii.eqb_eq in E2; subst; split; reflexivity|].
  destruct (Ascii.eqb c nl) eqn:E3; [apply Ascii.eqb_eq in E3; subst; split; reflexivity|].
  destruct (Ascii.eqb c cr) eqn:E4; [apply Ascii.eqb_eq in E4; subst; split; reflexivity|].
  destruct (Ascii.eqb c tab) eqn:E5; [apply Ascii.eqb_eq in E5; subst; split; reflexivity|].
  now apply encode_raw.
Qed.

Lemma encode_byte_min_ok : encodes encode_byte_min.
Proof.
  intros c s. unfold encode_byte_min.
  destruct (Ascii.eqb c bsl) eqn:E1; [apply Ascii.eqb_eq in E1; subst; split; reflexivity|].
  destruct (Ascii.eqb c dq) eqn:E2; [apply Ascii.eqb_eq in E2; subst; split; reflexivity|].
  now apply encode_raw.
Qed.

Lemma flat_map_encodes enc v : encodes enc ->
  closed_body (flat_map enc v) = true /\ decode_doc (flat_map enc v) = v.
Proof.
  intros He. induction v as [|c v [IH1 IH2]]; [auto|]. cbn [flat_map].
  destruct (He c (flat_map enc v)) as [-> ->]. rewrite IH2. auto.
Qed.

Lemma encode_str_ok v : closed_body (encode_str v) = true /\ decode_doc (encode_str v) = v.
Proof. apply flat_map_encodes, encode_byte_ok. Qed.

Lemma encode_str_min_ok v :
  closed_body (encode_str_min v) = true /\ decode_doc (encode_str_min v) = v.
Proof. apply flat_map_encodes, encode_byte_min_ok. Qed.

Lemma literal_roundtrip enc v : encodes enc ->
  lex (dq :: flat_map enc v ++ [dq]) =
  Some [mk_tok QUOTED v ps0; mk_tok END [] (advance ps0 (dq :: flat_map enc v ++ [dq]))].
Proof. intros He. destruct (flat_map_encodes enc v He) as [Hc Hd]. now rewrite (decode_spec _ Hc), Hd. Qed.

Theorem string_decode : forall v,
  lex (b """" ++ encode_str v ++ b """") =
  Some [ mk_tok QUOTED v ps0
       ; mk_tok END [] (advance ps0 (b """" ++ encode_str v ++ b """")) ].
Proof. intros v. exact (literal_roundtrip _ v encode_byte_ok). Qed.

Theorem string_decode_min : forall v,
  lex (b """" ++ encode_str_min v ++ b """") =
  Some [ mk_tok QUOTED v ps0
       ; mk_tok END [] (advance ps0 (b """" ++ encode_str_min v ++ b """")) ].
Proof. intros v. exact (literal_roundtrip _ v encode_byte_min_ok). Qed.

(** * Positions *)

(* Specification-level notions, independent of the iterator state machine *)
(* number of line feeds in s *)
Definition count_nl (s : bytes) : nat := List.length (filter is_nl s).
(* number of bytes after the last line feed of s (all of s if there is none) *)
Definition since_nl (s : bytes) : nat :=
  List.length (fst (span (fun c => negb (is_nl c)) (rev s))).

Definition pos_of (pre : bytes) : pos_state :=
  {| p_line := N.of_nat (1 + count_nl pre);
     p_col := N.of_nat (1 + since_nl pre);
     p_off := N.of_nat (List.length pre) |}.

Lemma pos_of_nil : ps0 = pos_of [].
Proof. reflexivity. Qed.

Lemma count_nl_app a c : count_nl (a ++ c) = count_nl a + count_nl c.
Proof. unfold count_nl. now rewrite filter_app, app_length. Qed.

Lemma since_nl_snoc pre c :
  since_nl (pre ++ [c]) = if is_nl c then 0 else S (since_nl pre).
Proof.
  unfold since_nl. rewrite rev_app_distr. cbn. destruct (is_nl c); cbn; [reflexivity|].
  destruct (span _ (rev pre)); reflexivity.
Qed.

Lemma pos_of_snoc pre c : advance1 (pos_of pre) c = pos_of (pre ++ [c]).
Proof.
  unfold advance1, pos_of. cbn [p_line p_col p_off].
  rewrite count_nl_app, since_nl_snoc, app_length. unfold count_nl, is_nl. cbn [List.length filter].
  destruct (Ascii.eqb c nl); cbn [List.length]; f_equal; lia.
Qed.

Lemma advance_app ps a c : advance (advance ps a) c = advance ps (a ++ c).
Proof. unfold advance. now rewrite fold_left_app. Qed.

Lemma advance_pos_of k : forall pre, advance (pos_of pre) k = pos_of (pre ++ k).
Proof.
  induction k as [|c k IH]; intros pre.
  - now rewrite app_nil_r.
  - unfold advance. cbn [fold_left]. rewrite pos_of_snoc. fold (advance (pos_of (pre ++ [c])) k).
    rewrite IH, <- app_assoc. reflexivity.
Qed.

(* the iterator state after any prefix is the specified position of that prefix *)
Lemma advance_spec pre : advance ps0 pre = pos_of pre.
Proof. rewrite pos_of_nil, advance_pos_of. reflexivity. Qed.

(* What "the token's text really starts at this place" means, per token type.
   [s] is the source from the token's offset on. *)
Definition text_at (ty : ttype) (f : bytes) (s : bytes) : Prop :=
  match ty with
  | QUOTED =>   (* opening quote at the offset; value = decoded body *)
      exists body rest, s = dq :: body ++ dq :: rest /\ closed_body body = true /\ f = decode_doc body
  | COMMENT =>  (* "//" at the offset; fragment = text up to the line end *)
      exists rest, s = b "//" ++ f ++ rest /\ no_nl f = true /\ at_line_end rest
  | WS =>       (* a whitespace byte at the offset; fragment empty *)
      f = [] /\ exists c r, s = c :: r /\ is_ws c = true
  | END =>      (* end of the source *)
      f = [] /\ s = []
  | PIPEQUOTE => False
  | EMPTY | BOOLEAN | DIGIT | BAREWORD | PUNCT =>   (* the fragment itself, verbatim *)
      f <> [] /\ exists rest, s = f ++ rest
  end.

Lemma first_raw_text s ty f k rest :
  first_raw s = RComplete ty f k rest -> text_at ty f s.
Proof.
  intros H. apply first_raw_rec in H as (r & _ & W & H). apply run_rec_inv in H as [-> H].
  destruct r.
  - destruct H as (-> & body & -> & Hc & ->). exists body, rest. cbn. now rewrite <- app_assoc.
  - destruct H as (-> & -> & ->). pose proof (rec_wf_lit _ _ (or_introl W)). cbn in W.
    apply andb_true_iff in W as [_ W]. destruct t; try discriminate; cbn; eauto.
  - destruct H as (-> & -> & k' & -> & _). pose proof (rec_wf_lit _ _ (or_intror W)). cbn in W.
    apply andb_true_iff in W as [_ W]. rewrite <- app_assoc. destruct t; try discriminate; cbn; eauto.
  - destruct H as (-> & -> & Hne & _). cbn. eauto.
  - destruct H as (-> & eol & -> & Hn & _ & Hl). exists (eol ++ rest). now rewrite <- !app_assoc.
  - destruct H as (-> & -> & Hw & _). split; [intros ->; discriminate|eauto].
  - destruct H as (-> & -> & Hne & Hall). destruct k as [|c k]; [congruence|].
    cbn in Hall. apply andb_true_iff in Hall as [Hc _]. cbn. eauto.
  - destruct H as (-> & -> & -> & ->). cbn. auto.
Qed.

Definition token_ok (src : bytes) (t : token) : Prop :=
  let o := N.to_nat (off t) in
  o <= List.length src /\
  line t = N.of_nat (1 + count_nl (firstn o src)) /\
  col t = N.of_nat (1 + since_nl (firstn o src)) /\
  text_at (typ t) (frag t) (skipn o src).

Definition off_lt (t1 t2 : token) : Prop := (off t1 < off t2)%N.

(* What the loop computes, without fuel and iterator states.  [lexed pre s body]: the tokens
   before END of a text s that stands behind pre are body; each is what `token` recognises
   where the previous one ended, and is placed at the specified position of that point. *)
Inductive lexed : bytes -> bytes -> list token -> Prop :=
| lexed_nil pre : lexed pre [] []
| lexed_cons pre ty f k rest body :
    k <> [] -> first_raw (k ++ rest) = RComplete ty f k rest -> lexed (pre ++ k) rest body ->
    lexed pre (k ++ rest) (mk_tok ty f (pos_of pre) :: body).

Lemma lexed_nil_inv pre body : lexed pre [] body -> body = [].
Proof.
  inversion 1 as [|? ? ? k ? ? Hk _ _ E]; [reflexivity|]. destruct k; [congruence|discriminate].
Qed.

Lemma lex_from_lexed fuel : forall pre s l,
  lex_from fuel (pos_of pre) s = LexOk l ->
  exists body, l = body ++ [mk_tok END [] (pos_of (pre ++ s))] /\ lexed pre s body.
Proof.
  assert (Hnil : forall pre, exists body,
            [mk_tok END [] (pos_of pre)] = body ++ [mk_tok END [] (pos_of (pre ++ []))] /\ lexed pre [] body).
  { intros pre. exists []. rewrite app_nil_r. split; [reflexivity|constructor]. }
  induction fuel as [|fuel IH]; intros pre s l H; destruct s as [|c s]; cbn [lex_from] in H;
    try discriminate; try (inversion H; apply Hnil).
  unfold first_tok in H. destruct (first_raw (c :: s)) as [ty f k rest| |] eqn:E; try discriminate.
  rewrite advance_pos_of in H.
  destruct (lex_from fuel (pos_of (pre ++ k)) rest) as [l'| |] eqn:El; try discriminate.
  inversion H; subst l. destruct (IH _ _ _ El) as (body & -> & Hb).
  destruct (first_raw_shorter (c :: s) _ _ _ _ ltac:(discriminate) E) as (Happ & Hk & _).
  rewrite Happ in E |- *. rewrite app_assoc. eexists. split; [apply app_comm_cons|].
  now constructor.
Qed.

Lemma lex_all_lexed src toks : lex_all src = Some toks ->
  exists body, toks = body ++ [mk_tok END [] (pos_of src)] /\ lexed [] src body.
Proof.
  rewrite lex_all_lexA. unfold lexA. rewrite pos_of_nil.
  destruct (lex_from _ (pos_of []) src) as [l| |] eqn:E; try discriminate.
  intros H; inversion H; subst. exact (lex_from_lexed _ _ _ _ E).
Qed.

Lemma lexed_positions pre s body : lexed pre s body ->
  Forall (fun t => token_ok (pre ++ s) t /\
                   List.length pre <= N.to_nat (off t) < List.length (pre ++ s)) body /\
  StronglySorted off_lt body.
Proof.
  induction 1 as [pre|pre ty f k rest body Hk E _ [Hall Hs]]; [split; constructor|].
  rewrite <- app_assoc in Hall.
  assert (Hlen : List.length pre < List.length (pre ++ k)).
  { rewrite app_length. destruct k; [congruence|cbn; lia]. }
  split; constructor.
  - cbn [mk_tok off pos_of p_off]. rewrite Nnat.Nat2N.id. split; [|rewrite !app_length in *; lia].
    unfold token_ok. cbn [mk_tok off line col typ frag pos_of p_off p_line p_col].
    rewrite Nnat.Nat2N.id, firstn_app, Nat.sub_diag, firstn_all, firstn_O, app_nil_r.
    rewrite skipn_app, Nat.sub_diag, skipn_all. cbn [skipn app].
    repeat split; [rewrite app_length; lia|exact (first_raw_text _ _ _ _ _ E)].
  - eapply Forall_impl; [|exact Hall]. cbn. intros t [Hok Hoff]. split; [exact Hok|lia].
  - exact Hs.
  - eapply Forall_impl; [|exact Hall]. cbn. intros t [_ Hoff]. unfold off_lt.
    cbn [mk_tok off pos_of p_off]. lia.
Qed.

(* positions_exact, for the stream with WS/COMMENT tokens ... *)
Theorem positions_exact_all : forall src toks, lex_all src = Some toks ->
  Forall (token_ok src) toks /\ StronglySorted off_lt toks.
Proof.
  intros src toks H. apply lex_all_lexed in H as (body & -> & H).
  apply lexed_positions in H as [Hall Hs]. cbn [app] in Hall. split.
  - apply Forall_app. split; [eapply Forall_impl; [|exact Hall]; cbn; tauto|].
    constructor; [|constructor]. unfold token_ok.
    cbn [mk_tok off line col typ frag pos_of p_off p_line p_col].
    rewrite Nnat.Nat2N.id, firstn_all, skipn_all. cbn. auto 10.
  - apply StronglySorted_snoc; [exact Hs|]. eapply Forall_impl; [|exact Hall].
    cbn. intros t [_ Hoff]. unfold off_lt. cbn [mk_tok off pos_of p_off]. lia.
Qed.

(* ... and for what tokenize(.., None) returns.  It also holds of the END token. *)
Theorem positions_exact : forall src toks, lex src = Some toks ->
  Forall (token_ok src) toks /\ StronglySorted off_lt toks.
Proof.
  intros src toks H. unfold lex in H. destruct (lex_all src) as [l|] eqn:E; [|discriminate].
  inversion H; subst. apply positions_exact_all in E as [Hall Hs]. split.
  - exact (incl_Forall (incl_filter _ l) Hall).
  - now apply StronglySorted_filter.
Qed.

(** * Deciding recognisers from a finite prefix *)

(* [lit_mismatch l p]: l and p differ at a position inside both, so l is not a
   prefix of any extension of p *)
Fixpoint lit_mismatch (l p : bytes) : bool :=
  match l, p with
  | c :: l', d :: p' => if Ascii.eqb c d then lit_mismatch l' p' else true
  | _, _ => false
  end.

Lemma lit_mismatch_sound l : forall p rest,
  lit_mismatch l p = true -> strip_prefix l (p ++ rest) = None.
Proof.
  induction l as [|c l IH]; intros [|d p] rest; cbn; try discriminate.
  destruct (Ascii.eqb c d); [apply IH|reflexivity].
Qed.

Lemma strip_prefix_ext l : forall p q rest,
  strip_prefix l p = Some q -> strip_prefix l (p ++ rest) = Some (q ++ rest).
Proof.
  induction l as [|c l IH]; intros p q rest; cbn.
  - intros H; inversion H; reflexivity.
  - destruct p as [|d p]; [discriminate|]. cbn. destruct (Ascii.eqb c d); [apply IH|discriminate].
Qed.

Lemma strip_prefix_app_app p l x : strip_prefix (p ++ l) (p ++ x) = strip_prefix l x.
Proof. induction p as [|c p IH]; cbn; [reflexivity|]. now rewrite Ascii.eqb_refl. Qed.

(* The recognisers are decided from a known prefix p of the input and a set [bad] of bytes
   that are known not to come next. *)
(* literal l is no prefix of p ++ x: it differs from p inside both, or continues p with a bad byte *)
Definition lit_fails (bad : ascii -> bool) (l p : bytes) : bool :=
  (lit_mismatch l p || match strip_prefix p l with Some (c :: _) => bad c | _ => false end)%bool.

Lemma lit_fails_sound bad l p x :
  lit_fails bad l p = true -> may_follow bad x = true -> strip_prefix l (p ++ x) = None.
Proof.
  intros H Hx. apply orb_true_iff in H as [H|H]; [now apply lit_mismatch_sound|].
  destruct (strip_prefix p l) as [[|c l']|] eqn:E; try discriminate.
  apply strip_prefix_some in E. subst l. rewrite strip_prefix_app_app.
  destruct x as [|d x]; [reflexivity|]. cbn in Hx |- *.
  destruct (Ascii.eqb c d) eqn:Ec; [|reflexivity].
  apply Ascii.eqb_eq in Ec. subst d. now rewrite H in Hx.
Qed.

(* [rec_fails bad r p = true]: recogniser r fails on every input p ++ x with [may_follow bad x] *)
Definition rec_fails (bad : ascii -> bool) (r : recogniser) (p : bytes) : bool :=
  match r with
  | RStr => head_is (fun c => negb (Ascii.eqb c dq)) p
  | RText _ lit | RTextWS _ lit => lit_fails bad (b lit) p
  | RDigit => head_is (fun c => negb (is_digit c)) p
  | RComment => lit_fails bad (b "//") p
  | RBareword => head_is (fun c => negb (is_alpha c)) p
  | RWhitespace => head_is (fun c => negb (is_ws c)) p
  | REoi => head_is (fun _ => true) p
  end.

Lemma rec_fails_sound bad r p x :
  rec_fails bad r p = true -> may_follow bad x = true -> run_rec r (p ++ x) = RFail.
Proof.
  intros H Hx. destruct r; cbn [rec_fails run_rec] in H |- *.
  - destruct p as [|c p]; [discriminate|]. cbn in H |- *. destruct (Ascii.eqb c dq); [discriminate|reflexivity].
  - now rewrite (lit_fails_sound _ _ _ _ H Hx).
  - now rewrite (lit_fails_sound _ _ _ _ H Hx).
  - destruct p as [|c p]; [discriminate|]. cbn in H |- *. destruct (is_digit c); [discriminate|reflexivity].
  - unfold comment_run. now rewrite (lit_fails_sound _ _ _ _ H Hx).
  - destruct p as [|c p]; [discriminate|]. cbn in H |- *. destruct (is_alpha c); [discriminate|reflexivity].
  - destruct p as [|c p]; [discriminate|]. unfold ws_run. cbn in H |- *. destruct (is_ws c); [discriminate|reflexivity].
  - destruct p as [|c p]; [discriminate|]. reflexivity.
Qed.

(* drop the leading recognisers that are certain to fail *)
Fixpoint skip_failed (bad : ascii -> bool) (rs : list recogniser) (p : bytes) : list recogniser :=
  match rs with
  | [] => []
  | r :: rs' => if rec_fails bad r p then skip_failed bad rs' p else rs
  end.

Lemma skip_failed_sound bad rs p x :
  may_follow bad x = true -> alt rs (p ++ x) = alt (skip_failed bad rs p) (p ++ x).
Proof.
  intros Hx. induction rs as [|r rs IH]; [reflexivity|]. cbn [skip_failed].
  destruct (rec_fails bad r p) eqn:E; [|reflexivity].
  rewrite alt_cons, (rec_fails_sound _ _ _ _ E Hx). exact IH.
Qed.

(* nothing is known of the rest *)
Definition any_byte : ascii -> bool := fun _ => false.

Lemma may_follow_any x : may_follow any_byte x = true.
Proof. destruct x; reflexivity. Qed.

(* the first recogniser left after skipping decides, unless it fails too *)
Lemma first_raw_reach bad p x r rs' :
  skip_failed bad recognisers p = r :: rs' -> may_follow bad x = true ->
  run_rec r (p ++ x) <> RFail -> first_raw (p ++ x) = run_rec r (p ++ x).
Proof.
  intros E Hx H. unfold first_raw. rewrite (skip_failed_sound bad _ _ _ Hx), E, alt_cons.
  destruct (run_rec r (p ++ x)); congruence.
Qed.

Lemma first_raw_literal bad ty lit rs' x :
  skip_failed bad recognisers (b lit) = RText ty lit :: rs' -> may_follow bad x = true ->
  first_raw (b lit ++ x) = RComplete ty (b lit) (b lit) x.
Proof.
  intros E Hx. rewrite (first_raw_reach _ _ _ _ _ E Hx); cbn [run_rec]; rewrite strip_prefix_app;
    [reflexivity|discriminate].
Qed.

(** * longest_operator *)

Definition op_first (o : string) : bool :=
  match skip_failed any_byte recognisers (b o) with
  | RText PUNCT lit :: _ => String.eqb lit o
  | _ => false
  end.

Lemma multi_ops_first : forallb op_first multi_ops = true.
Proof. vm_compute. reflexivity. Qed.

Lemma first_raw_operator o rest :
  In o multi_ops -> first_raw (b o ++ rest) = RComplete PUNCT (b o) (b o) rest.
Proof.
  intros Hin. pose proof multi_ops_first as H. rewrite forallb_forall in H.
  specialize (H o Hin). unfold op_first in H.
  destruct (skip_failed any_byte recognisers (b o)) as [|[ | ty lit | | | | | | ] rs'] eqn:E; try discriminate.
  destruct ty; try discriminate. apply String.eqb_eq in H; subst lit.
  exact (first_raw_literal _ _ _ _ rest E (may_follow_any rest)).
Qed.

(* For each multi-character operator o and EVERY continuation (in particular
   every following byte c and every rest), the first token is o itself: no byte
   makes a different or longer token, and the one-character operator that is a
   prefix of o is never chosen. *)
Theorem longest_operator : forall o, In o multi_ops -> forall ps rest,
  first_tok ps (b o ++ rest) = Some (mk_tok PUNCT (b o) ps, rest, advance ps (b o)).
Proof. intros o Hin ps rest. unfold first_tok. now rewrite first_raw_operator. Qed.

Corollary longest_operator_byte : forall o, In o multi_ops -> forall ps (c : ascii) rest,
  first_tok ps (b o ++ [c] ++ rest) = Some (mk_tok PUNCT (b o) ps, c :: rest, advance ps (b o)).
Proof. intros o Hin ps c rest. apply (longest_operator o Hin ps (c :: rest)). Qed.

(* the same fact in enumerated form, over the 11 x 256 inputs o ++ [c] *)
Definition rres_eqb_complete (x : rres) (ty : ttype) (f k rest : bytes) : bool :=
  match x with
  | RComplete ty' f' k' rest' =>
      (match ty, ty' with PUNCT, PUNCT => true | _, _ => false end
       && bytes_eqb f f' && bytes_eqb k k' && bytes_eqb rest rest')%bool
  | _ => false
  end.

Lemma longest_operator_enumerated :
  forallb (fun o => forallb (fun c =>
     rres_eqb_complete (first_raw (b o ++ [c])) PUNCT (b o) (b o) [c]) all_bytes) multi_ops = true.
Proof.
  apply forallb_forall. intros o Hin. apply forallb_forall. intros c _.
  rewrite (first_raw_operator o [c] Hin). cbn [rres_eqb_complete]. now rewrite !bytes_eqb_refl.
Qed.

(** * Token kinds and separability *)

(* a token without its position *)
Definition tk := (ttype * bytes)%type.
Definition strip (t : token) : tk := (typ t, frag t).
Definition tk_end : tk := (END, []).

(* the canonical source text of a token: a QUOTED value is written as a
   literal with the escapes of [encode_str]; every other token is its fragment *)
Definition src_of (a : tk) : bytes :=
  match fst a with
  | QUOTED => dq :: encode_str (snd a) ++ [dq]
  | _ => snd a
  end.

(* the literal tokens of the vocabulary, read off the recogniser table *)
Definition vocab_tokens : list tk :=
  flat_map (fun r => match r with RText t l | RTextWS t l => [(t, b l)] | _ => [] end) recognisers.

Definition punct_lits : list bytes :=
  flat_map (fun r => match r with RText PUNCT l => [b l] | _ => [] end) recognisers.

(* [needs_sep_byte a c]: token a must not be followed DIRECTLY by byte c,
   because the two would merge into a longer bareword / number / operator, or
   start a comment.  Everything else may be glued on. *)
Definition needs_sep_byte (a : tk) (c : ascii) : bool :=
  match fst a with
  | BAREWORD => is_symbol_char c
  | DIGIT => is_digit c
  | PUNCT => existsb (bytes_eqb (snd a ++ [c])) (b "//" :: punct_lits)
  | _ => false
  end.

(* [needs_sep a b]: a separator is REQUIRED between adjacent tokens a and b;
   [separable a b]: they may be written with nothing in between *)
Definition needs_sep (a b0 : tk) : bool :=
  match src_of b0 with c :: _ => needs_sep_byte a c | [] => false end.
Definition separable (a b0 : tk) : bool := negb (needs_sep a b0).

Definition strip_lex (s : bytes) : option (list tk) := option_map (map strip) (lex s).

Definition ttype_eqb (x y : ttype) : bool :=
  match x, y with
  | EMPTY, EMPTY | BOOLEAN, BOOLEAN | END, END | WS, WS | COMMENT, COMMENT | QUOTED, QUOTED
  | PIPEQUOTE, PIPEQUOTE | DIGIT, DIGIT | BAREWORD, BAREWORD | PUNCT, PUNCT => true
  | _, _ => false
  end.

Lemma ttype_eqb_eq x y : ttype_eqb x y = true <-> x = y.
Proof. destruct x, y; cbn; split; congruence. Qed.

Definition tk_eqb (x y : tk) : bool := (ttype_eqb (fst x) (fst y) && bytes_eqb (snd x) (snd y))%bool.

Lemma tk_eqb_eq x y : tk_eqb x y = true <-> x = y.
Proof.
  destruct x as [t f], y as [t' f']. unfold tk_eqb. cbn.
  rewrite andb_true_iff, ttype_eqb_eq, bytes_eqb_spec. split; [intros [-> ->]; auto|].
  intros H; inversion H; auto.
Qed.

(* tokens that are not literals of the table: barewords, numbers, strings
   (plain, empty, with every escape form, with non-ASCII bytes) *)
Definition sample_tokens : list tk :=
  [ (BAREWORD, b "foo"); (BAREWORD, b "x1"); (BAREWORD, b "a-b_c"); (BAREWORD, b "T");
    (BAREWORD, b "inx"); (BAREWORD, b "lets"); (BAREWORD, b "nulL");
    (DIGIT, b "0"); (DIGIT, b "42"); (DIGIT, b "007");
    (QUOTED, []); (QUOTED, b "s"); (QUOTED, b "a""b\c");
    (QUOTED, [nl; cr; tab; "n"%char]);
    (QUOTED, [ascii_of_nat 195; ascii_of_nat 169; ascii_of_nat 240; ascii_of_nat 159;
              ascii_of_nat 152; ascii_of_nat 128; ascii_of_nat 133; ascii_of_nat 160]) ].

Definition pair_vocab : list tk := vocab_tokens ++ sample_tokens.

Lemma pair_vocab_size : List.length pair_vocab = 68 /\ List.length vocab_tokens = 53.
Proof. vm_compute. auto. Qed.

(** * The position-free token stream *)

Definition trivia_ty (ty : ttype) : bool := match ty with WS | COMMENT => true | _ => false end.

Definition res_strip (r : lex_result) : option (list tk) :=
  match r with
  | LexOk l => Some (map strip (filter (fun t => negb (is_trivia t)) l))
  | _ => None
  end.

Lemma strip_lex_res s : strip_lex s = res_strip (lexA ps0 s).
Proof. unfold strip_lex, lex. rewrite lex_all_lexA. destruct (lexA ps0 s); reflexivity. Qed.

Lemma res_strip_cons ty f ps r :
  res_strip (res_cons (mk_tok ty f ps) r) =
  if trivia_ty ty then res_strip r else option_map (cons (ty, f)) (res_strip r).
Proof.
  destruct r; cbn [res_cons res_strip]; try (destruct (trivia_ty ty); reflexivity).
  cbn [filter]. unfold is_trivia at 1. cbn [typ mk_tok]. destruct ty; reflexivity.
Qed.

(* positions do not influence which tokens are produced *)
Lemma lex_from_strip_indep fuel : forall ps ps' s,
  res_strip (lex_from fuel ps s) = res_strip (lex_from fuel ps' s).
Proof.
  induction fuel as [|fuel IH]; intros ps ps' s; destruct s as [|c s]; try reflexivity.
  rewrite !lex_from_cons. destruct (first_raw (c :: s)) as [ty f k rest| |]; try reflexivity.
  now rewrite !res_strip_cons, (IH _ (advance ps' k)).
Qed.

Lemma strip_lex_nil : strip_lex [] = Some [tk_end].
Proof. reflexivity. Qed.

Lemma strip_lex_step s ty f k rest :
  s <> [] -> first_raw s = RComplete ty f k rest ->
  strip_lex s =
  if trivia_ty ty then strip_lex rest else option_map (cons (ty, f)) (strip_lex rest).
Proof.
  intros Hs H. rewrite !strip_lex_res, (lexA_step _ _ Hs), H, res_strip_cons. unfold lexA.
  now rewrite (lex_from_strip_indep _ (advance ps0 k) ps0).
Qed.

Lemma strip_lex_fail s :
  s <> [] -> (first_raw s = RFail \/ first_raw s = RIncomplete) -> strip_lex s = None.
Proof.
  intros Hs H. rewrite strip_lex_res, (lexA_step _ _ Hs). destruct H as [-> | ->]; reflexivity.
Qed.

(** * Whitespace and comments are skipped *)

Definition starts_nonws (s : bytes) : bool :=
  match s with [] => true | c :: _ => negb (is_ws c) end.

(* finite facts about the table: where a first byte of a given class leads *)
Lemma first_byte_reaches :
  forallb (fun c =>
     implb (is_ws c) match skip_failed any_byte recognisers [c] with RWhitespace :: _ => true | _ => false end
     && implb (is_digit c) match skip_failed any_byte recognisers [c] with RDigit :: _ => true | _ => false end)%bool
    all_bytes = true.
Proof. vm_compute. reflexivity. Qed.

Lemma slashes_reach_comment :
  match skip_failed any_byte recognisers (b "//") with RComment :: _ => true | _ => false end = true.
Proof. vm_compute. reflexivity. Qed.

Lemma first_raw_ws s k rest :
  ws_run s = Some (k, rest) -> first_raw s = RComplete WS [] k rest.
Proof.
  intros Hw. destruct s as [|c s]; [discriminate|].
  assert (Hc : is_ws c = true) by (unfold ws_run in Hw; destruct (is_ws c); [reflexivity|discriminate]).
  pose proof (forall_bytes _ first_byte_reaches c) as H. cbn beta in H.
  apply andb_true_iff in H as [H _]. rewrite Hc in H. cbn [implb] in H.
  destruct (skip_failed any_byte recognisers [c]) as [|[] rs'] eqn:E; try discriminate.
  change (c :: s) with ([c] ++ s).
  rewrite (first_raw_reach _ [c] s _ _ E (may_follow_any s)); cbn [run_rec app]; rewrite Hw;
    [reflexivity|discriminate].
Qed.

Lemma first_raw_comment s body k rest :
  comment_run s = Some (body, k, rest) -> first_raw s = RComplete COMMENT body k rest.
Proof.
  intros Hc. pose proof slashes_reach_comment as H.
  destruct (skip_failed any_byte recognisers (b "//")) as [|[] rs'] eqn:E; try discriminate.
  assert (Hs : exists s', s = b "//" ++ s').
  { unfold comment_run in Hc. destruct (strip_prefix (b "//") s) as [r|] eqn:Ep; [|discriminate].
    apply strip_prefix_some in Ep. eauto. }
  destruct Hs as [s' ->].
  rewrite (first_raw_reach _ _ s' _ _ E (may_follow_any s')); cbn [run_rec]; rewrite Hc;
    [reflexivity|discriminate].
Qed.

(* a blank or a comment at the head of the text is invisible in the stream *)
Lemma strip_lex_trivia s ty f k rest :
  first_raw s = RComplete ty f k rest -> trivia_ty ty = true -> strip_lex s = strip_lex rest.
Proof.
  intros H Ht. destruct s as [|c s].
  - exfalso. apply first_raw_text in H. destruct ty; try discriminate; cbn in H.
    + destruct H as (_ & ? & ? & E & _). discriminate E.
    + destruct H as (? & E & _). discriminate E.
  - now rewrite (strip_lex_step (c :: s) _ _ _ _ ltac:(discriminate) H), Ht.
Qed.

Lemma strip_lex_ws_block w y :
  forallb is_ws w = true -> starts_nonws y = true -> strip_lex (w ++ y) = strip_lex y.
Proof.
  intros Hw Hy. destruct w as [|c w]; [reflexivity|].
  apply (strip_lex_trivia _ WS [] (c :: w) y); [|reflexivity]. apply first_raw_ws.
  unfold ws_run. cbn [app]. cbn in Hw. apply andb_true_iff in Hw as [Hc Hw']. rewrite Hc.
  change (c :: w ++ y) with ((c :: w) ++ y). rewrite span_spec; [reflexivity| |].
  - cbn. now rewrite Hc, Hw'.
  - destruct y as [|d y]; [exact I|]. cbn in Hy. now destruct (is_ws d).
Qed.

(* layout: what may stand between two tokens *)
Inductive sep_item := SSp | STab | SLf | SCrLf | SCmt (body : bytes).

Definition render_item (i : sep_item) : bytes :=
  match i with
  | SSp => [sp]
  | STab => [tab]
  | SLf => [nl]
  | SCrLf => [cr; nl]
  | SCmt body => b "//" ++ body ++ [nl]
  end.

Definition sep := list sep_item.
Definition render_sep (l : sep) : bytes := flat_map render_item l.

(* a comment body must not contain a line feed (it would end the comment early) *)
Definition item_ok (i : sep_item) : bool :=
  match i with SCmt body => no_nl body | _ => true end.
Definition sep_ok (l : sep) : bool := forallb item_ok l.

Lemma until_eol_body body : forall r, no_nl body = true ->
  exists a r1, until_eol (body ++ nl :: r) = (a, r1) /\ (r1 = nl :: r \/ r1 = cr :: nl :: r).
Proof.
  induction body as [|c body IH]; intros r Hn.
  - exists [], (nl :: r). split; [|auto]. cbn [app]. rewrite until_eol_cons, Ascii.eqb_refl. reflexivity.
  - cbn in Hn. apply andb_true_iff in Hn as [Hc Hn]. unfold is_nl in Hc.
    cbn [app]. rewrite until_eol_cons. destruct (Ascii.eqb c nl); [discriminate|]. cbn [orb].
    destruct (Ascii.eqb c cr && starts_with_nl (body ++ nl :: r))%bool eqn:E.
    + apply andb_true_iff in E as [E1 E2]. apply Ascii.eqb_eq in E1; subst c.
      destruct body as [|d body].
      * exists [], (cr :: nl :: r). auto.
      * cbn [app starts_with_nl] in E2. unfold no_nl in Hn. cbn [forallb] in Hn.
        unfold is_nl in Hn at 1. rewrite E2 in Hn. discriminate.
    + destruct (IH r Hn) as (a & r1 & -> & Hr). eauto.
Qed.

Lemma comment_item_run body r : no_nl body = true ->
  exists bd k, comment_run (b "//" ++ body ++ nl :: r) = Some (bd, k, r).
Proof.
  intros Hn. unfold comment_run. rewrite strip_prefix_app.
  destruct (until_eol_body body r Hn) as (a & r1 & -> & [-> | ->]).
  - cbn [eat_eol]. rewrite Ascii.eqb_refl. eauto.
  - cbn [eat_eol]. replace (Ascii.eqb cr nl) with false by reflexivity.
    rewrite !Ascii.eqb_refl. eauto.
Qed.

Lemma render_item_ws i : match i with SCmt _ => True | _ => forallb is_ws (render_item i) = true end.
Proof. destruct i; try exact I; reflexivity. Qed.

(* a separator (preceded by any block of whitespace) is invisible *)
Lemma strip_lex_skip_sep (l : sep) : forall w y,
  sep_ok l = true -> forallb is_ws w = true -> starts_nonws y = true ->
  strip_lex (w ++ render_sep l ++ y) = strip_lex y.
Proof.
  induction l as [|i l IH]; intros w y Hl Hw Hy.
  - cbn [render_sep flat_map app]. now apply strip_lex_ws_block.
  - cbn in Hl. apply andb_true_iff in Hl as [Hi Hl].
    cbn [render_sep flat_map]. fold (render_sep l). rewrite <- app_assoc.
    destruct i as [ | | | |body].
    1-4: rewrite app_assoc; apply IH; auto; rewrite forallb_app, Hw; reflexivity.
    cbn [render_item]. rewrite strip_lex_ws_block; [|exact Hw|reflexivity].
    rewrite <- !app_assoc. cbn [app].
    destruct (comment_item_run body (render_sep l ++ y) Hi) as (bd & k & Hc).
    rewrite (strip_lex_trivia _ _ _ _ _ (first_raw_comment _ _ _ _ Hc) eq_refl).
    apply (IH [] y Hl eq_refl Hy).
Qed.

Corollary strip_lex_sep l y :
  sep_ok l = true -> starts_nonws y = true -> strip_lex (render_sep l ++ y) = strip_lex y.
Proof. intros Hl Hy. apply (strip_lex_skip_sep l [] y Hl eq_refl Hy). Qed.

(** * One token followed by an admissible continuation *)

Definition is_prefix (l s : bytes) : bool :=
  match strip_prefix l s with Some _ => true | None => false end.

(* some plain text token of the table that starts with a letter (NULL, true,
   false) is a prefix of w: the tokenizer would cut w there *)
Definition reserved_prefix (w : bytes) : bool :=
  existsb (fun r => match r with
                    | RText _ lit => (head_is is_alpha (b lit) && is_prefix (b lit) w)%bool
                    | _ => false
                    end) recognisers.

Lemma reserved_prefix_true w : reserved_prefix w = true ->
  exists t lit, In (RText t lit) recognisers /\ head_is is_alpha (b lit) = true /\ is_prefix (b lit) w = true.
Proof.
  intros H. apply existsb_exists in H as (r & Hr & H). destruct r; try discriminate.
  apply andb_true_iff in H. eauto.
Qed.

Lemma reserved_prefix_false w : reserved_prefix w = false -> forall t lit,
  In (RText t lit) recognisers -> head_is is_alpha (b lit) = true -> is_prefix (b lit) w = false.
Proof.
  intros H t lit Hin Ha. destruct (is_prefix (b lit) w) eqn:Ep; [|reflexivity].
  enough (reserved_prefix w = true) by congruence.
  apply existsb_exists. exists (RText t lit). now rewrite Ha, Ep.
Qed.

Definition text_tokens : list tk :=
  flat_map (fun r => match r with RText t l => [(t, b l)] | _ => [] end) recognisers.

(* the (type, text) pairs the tokenizer can produce, END/WS/COMMENT aside *)
Definition wf_tk (a : tk) : bool :=
  match fst a with
  | QUOTED => true
  | DIGIT => (negb (bytes_eqb (snd a) []) && forallb is_digit (snd a))%bool
  | BAREWORD => (is_word (snd a) && negb (reserved_prefix (snd a)))%bool
  | EMPTY | BOOLEAN | PUNCT => existsb (tk_eqb a) text_tokens
  | _ => false
  end.

(* what may directly follow token a *)
Definition follow_ok (a : tk) (x : bytes) : bool :=
  match x with [] => true | c :: _ => negb (needs_sep_byte a c) end.

(** ** Plain text tokens *)
(* every recogniser ahead of a literal in the table fails on it outright, or is a longer
   literal whose next byte is one that [needs_sep_byte] excludes *)
Definition text_tok_check (r : recogniser) : bool :=
  match r with
  | RText ty lit =>
      match skip_failed (needs_sep_byte (ty, b lit)) recognisers (b lit) with
      | RText ty' lit' :: _ => (ttype_eqb ty ty' && String.eqb lit lit')%bool
      | _ => false
      end
  | _ => true
  end.

Lemma text_toks_checked : forallb text_tok_check recognisers = true.
Proof. vm_compute. reflexivity. Qed.

Lemma step_text ty lit x :
  In (RText ty lit) recognisers -> follow_ok (ty, b lit) x = true ->
  first_raw (b lit ++ x) = RComplete ty (b lit) (b lit) x.
Proof.
  intros Hin Hf. pose proof text_toks_checked as H. rewrite forallb_forall in H.
  specialize (H _ Hin). cbn [text_tok_check] in H.
  destruct (skip_failed _ recognisers (b lit)) as [|[ | ty' lit' | | | | | | ] rs'] eqn:E; try discriminate.
  apply andb_true_iff in H as [Ht Hl]. apply ttype_eqb_eq in Ht. apply String.eqb_eq in Hl. subst.
  exact (first_raw_literal _ _ _ _ x E Hf).
Qed.

Lemma wf_text ty f : existsb (tk_eqb (ty, f)) text_tokens = true ->
  exists lit, f = b lit /\ In (RText ty lit) recognisers.
Proof.
  intros H. apply existsb_exists in H as (a & Hin & He). apply tk_eqb_eq in He; subst a.
  unfold text_tokens in Hin. rewrite in_flat_map in Hin. destruct Hin as (r & Hr & Ha).
  destruct r; cbn in Ha; try contradiction. destruct Ha as [Ha|[]]. inversion Ha; subst. eauto.
Qed.

(** ** Numbers *)
Lemma step_digit d x :
  d <> [] -> forallb is_digit d = true -> follow_ok (DIGIT, d) x = true ->
  first_raw (d ++ x) = RComplete DIGIT d d x.
Proof.
  intros Hd Hall Hf. destruct d as [|c d]; [congruence|].
  cbn in Hall. apply andb_true_iff in Hall as [Hc Hall].
  pose proof (forall_bytes _ first_byte_reaches c) as H. cbn beta in H.
  apply andb_true_iff in H as [_ H]. rewrite Hc in H. cbn [implb] in H.
  destruct (skip_failed any_byte recognisers [c]) as [|[] rs'] eqn:E; try discriminate.
  assert (Hr : run_rec RDigit ((c :: d) ++ x) = RComplete DIGIT (c :: d) (c :: d) x).
  { cbn [run_rec app]. rewrite Hc. change (c :: d ++ x) with ((c :: d) ++ x). rewrite span_spec; [reflexivity| |].
    - cbn. now rewrite Hc, Hall.
    - destruct x as [|e x]; [exact I|]. cbn in Hf. now destruct (is_digit e). }
  change ((c :: d) ++ x) with ([c] ++ d ++ x) in Hr |- *.
  rewrite (first_raw_reach _ _ _ _ _ E (may_follow_any (d ++ x))); rewrite Hr; [reflexivity|discriminate].
Qed.

(** ** Barewords and keywords *)
(* a literal made of symbol characters can only match inside the word *)
Lemma strip_prefix_in_word l : forall w x r1,
  forallb is_symbol_char l = true -> may_follow is_symbol_char x = true ->
  strip_prefix l (w ++ x) = Some r1 -> exists w2, w = l ++ w2 /\ r1 = w2 ++ x.
Proof.
  induction l as [|c l IH]; intros w x r1 Hl Hx H.
  - cbn in H. inversion H; subst. exists w. auto.
  - cbn in Hl. apply andb_true_iff in Hl as [Hc Hl].
    destruct w as [|d w].
    + cbn [app] in H. destruct x as [|e x]; [discriminate|]. cbn in H.
      destruct (Ascii.eqb c e) eqn:E; [|discriminate]. apply Ascii.eqb_eq in E; subst e.
      cbn in Hx. rewrite Hc in Hx. discriminate.
    + cbn in H. destruct (Ascii.eqb c d) eqn:E; [|discriminate]. apply Ascii.eqb_eq in E; subst d.
      destruct (IH w x r1 Hl Hx H) as (w2 & -> & ->). exists w2. auto.
Qed.

Definition rec_word_ok (r : recogniser) : bool :=
  match r with
  | RText _ lit => (negb (head_is is_alpha (b lit)) || forallb is_symbol_char (b lit))%bool
  | RTextWS ty lit => (ttype_eqb ty BAREWORD && forallb is_symbol_char (b lit))%bool
  | _ => true
  end.

Lemma recognisers_word_ok : forallb rec_word_ok recognisers = true.
Proof. vm_compute. reflexivity. Qed.

(* A keyword in front of x fails, or completes and leaves x or what the first trivia token of x
   leaves (whatever it swallows behind its literal is exactly that token of the main loop, so
   the remaining stream is the same). *)
Lemma run_rec_kw t lit x :
  run_rec (RTextWS t lit) (b lit ++ x) = RFail \/
  exists k x', run_rec (RTextWS t lit) (b lit ++ x) = RComplete t (b lit) k x' /\ strip_lex x' = strip_lex x.
Proof.
  cbn [run_rec]. rewrite strip_prefix_app. destruct (ws_run x) as [[k rest]|] eqn:Ew.
  - right. destruct kw_lookahead_only; eexists _, _; split; try reflexivity.
    symmetry. exact (strip_lex_trivia _ _ _ _ _ (first_raw_ws _ _ _ Ew) eq_refl).
  - destruct (comment_run x) as [[[bd k] rest]|] eqn:Ec; [right|left; reflexivity].
    destruct kw_lookahead_only; eexists _, _; split; try reflexivity.
    symmetry. exact (strip_lex_trivia _ _ _ _ _ (first_raw_comment _ _ _ _ Ec) eq_refl).
Qed.

Lemma run_rec_kw_symbol t lit d x :
  is_symbol_char d = true -> run_rec (RTextWS t lit) (b lit ++ d :: x) = RFail.
Proof.
  intros Hd. destruct (symbol_facts d Hd) as (Hw & Hs & _). cbn [run_rec]. rewrite strip_prefix_app.
  unfold ws_run, comment_run. cbn [b list_ascii_of_string strip_prefix]. fold slash. now rewrite Hw, Hs.
Qed.

Definition is_bareword_rec (r : recogniser) : bool := match r with RBareword => true | _ => false end.

(* a word that no literal cuts goes through the table to its keyword or to barewordtok *)
Lemma alt_word rs w x :
  forallb rec_wf rs = true -> forallb rec_word_ok rs = true ->
  (forall t lit, In (RText t lit) rs -> head_is is_alpha (b lit) = true -> is_prefix (b lit) w = false) ->
  existsb is_bareword_rec rs = true -> is_word w = true -> may_follow is_symbol_char x = true ->
  exists k x', alt rs (w ++ x) = RComplete BAREWORD w k x' /\ strip_lex x' = strip_lex x.
Proof.
  intros Hwf Hok Hres Hin Hw Hx. destruct w as [|c w]; [discriminate|].
  cbn in Hw. apply andb_true_iff in Hw as [Hc Hw].
  pose proof (is_alpha_symbol c Hc) as Fsym. pose proof (alpha_not_digit c Hc) as Fdig.
  destruct (symbol_facts c Fsym) as (Fws & Fsl & Fdq).
  assert (Hall : forallb is_symbol_char (c :: w) = true) by (cbn; now rewrite Fsym, Hw).
  induction rs as [|r rs IH]; [discriminate|].
  cbn [forallb existsb] in Hwf, Hok, Hin.
  apply andb_true_iff in Hwf as [Wr Hwf]. apply andb_true_iff in Hok as [Or Hok].
  pose proof (fun t lit H => Hres t lit (or_intror H)) as Hres'. rewrite alt_cons.
  assert (Hnext : is_bareword_rec r = false -> run_rec r ((c :: w) ++ x) = RFail ->
          exists k x', match run_rec r ((c :: w) ++ x) with RFail => alt rs ((c :: w) ++ x) | y => y end
                       = RComplete BAREWORD (c :: w) k x' /\ strip_lex x' = strip_lex x).
  { intros Hne ->. rewrite Hne in Hin. now apply IH. }
  (* strtok, plain literal, keyword, digittok, comment, barewordtok, whitespace, eoi *)
  destruct r as [ | ty lit | ty lit | | | | | ].
  - apply Hnext; [reflexivity|]. cbn. now rewrite Fdq.
  - (* plain text token: if it matched, it would lie inside the word and reserve it *)
    apply Hnext; [reflexivity|]. cbn [run_rec].
    destruct (strip_prefix (b lit) ((c :: w) ++ x)) as [r1|] eqn:E; [exfalso|reflexivity].
    assert (Ha : head_is is_alpha (b lit) = true).
    { pose proof (rec_wf_lit _ _ (or_introl Wr)). destruct (b lit) as [|l0 l]; [congruence|]. cbn in E |- *.
      destruct (Ascii.eqb l0 c) eqn:E0; [|discriminate]. apply Ascii.eqb_eq in E0. now subst. }
    cbn [rec_word_ok] in Or. rewrite Ha in Or. cbn [negb orb] in Or.
    pose proof (Hres _ _ (or_introl eq_refl) Ha) as Rr.
    destruct (strip_prefix_in_word _ _ _ _ Or Hx E) as (w2 & Hw2 & _).
    unfold is_prefix in Rr. rewrite Hw2, strip_prefix_app in Rr. discriminate.
  - cbn [rec_word_ok] in Or. apply andb_true_iff in Or as [Hty Hsym]. apply ttype_eqb_eq in Hty; subst ty.
    destruct (strip_prefix (b lit) ((c :: w) ++ x)) as [r1|] eqn:E.
    2:{ apply Hnext; [reflexivity|]. cbn [run_rec]. now rewrite E. }
    destruct (strip_prefix_in_word _ _ _ _ Hsym Hx E) as (w2 & Hw2 & _).
    rewrite Hw2 in Hall, Hnext |- *. destruct w2 as [|d w2].
    + (* the word is the keyword *)
      rewrite app_nil_r in Hnext |- *.
      destruct (run_rec_kw BAREWORD lit x) as [F|(k & x' & R & Hx')]; [now apply Hnext|].
      rewrite R. eauto.
    + rewrite <- app_assoc in Hnext |- *. apply Hnext; [reflexivity|]. apply run_rec_kw_symbol.
      rewrite forallb_app in Hall. apply andb_true_iff in Hall as [_ Hall]. cbn in Hall.
      now apply andb_true_iff in Hall as [? _].
  - apply Hnext; [reflexivity|]. cbn. now rewrite Fdig.
  - apply Hnext; [reflexivity|]. cbn [run_rec]. unfold comment_run.
    cbn [app b list_ascii_of_string strip_prefix]. fold slash. now rewrite Fsl.
  - cbn [run_rec app]. rewrite Hc.
    change (c :: w ++ x) with ((c :: w) ++ x). rewrite span_spec.
    + eexists _, x. split; reflexivity.
    + exact Hall.
    + destruct x as [|e x]; [exact I|]. cbn in Hx. now destruct (is_symbol_char e).
  - apply Hnext; [reflexivity|]. cbn [run_rec]. unfold ws_run. cbn [app]. now rewrite Fws.
  - apply Hnext; [reflexivity|]. reflexivity.
Qed.

Lemma bareword_in_table : existsb is_bareword_rec recognisers = true.
Proof. vm_compute. reflexivity. Qed.

(** ** Any well-formed token, followed by anything it may be glued to *)
Lemma step_token a x :
  wf_tk a = true -> follow_ok a x = true ->
  exists k x', first_raw (src_of a ++ x) = RComplete (fst a) (snd a) k x'
               /\ strip_lex x' = strip_lex x.
Proof.
  destruct a as [ty f]. unfold wf_tk, src_of. cbn [fst snd]. intros Hwf Hf.
  assert (Htxt : existsb (tk_eqb (ty, f)) text_tokens = true ->
                 exists k x', first_raw (f ++ x) = RComplete ty f k x' /\ strip_lex x' = strip_lex x).
  { intros H. apply wf_text in H as (lit & -> & Hin). eexists _, x. split; [now apply step_text|reflexivity]. }
  destruct ty; try discriminate; auto.
  - destruct (encode_str_ok f) as [Hc Hd].
    cbn [app]. rewrite <- app_assoc. cbn [app].
    rewrite first_raw_str, (escq_closed _ x Hc), Hd. eexists _, x. split; reflexivity.
  - apply andb_true_iff in Hwf as [Hne Hall].
    eexists _, x. split; [apply step_digit; auto|reflexivity].
    intros ->. discriminate.
  - apply andb_true_iff in Hwf as [Hw Hres]. apply negb_true_iff in Hres.
    exact (alt_word _ f x recognisers_wf recognisers_word_ok (reserved_prefix_false f Hres) bareword_in_table Hw Hf).
Qed.

(* words and numbers are their own source text and begin with a symbol character *)
Lemma word_src a : wf_tk a = true -> fst a = BAREWORD \/ fst a = DIGIT ->
  src_of a = snd a /\ head_is is_symbol_char (snd a) = true.
Proof.
  destruct a as [ty f]. unfold wf_tk. cbn [fst snd]. intros W [-> | ->]; (split; [reflexivity|]);
    apply andb_true_iff in W as [W1 W2]; destruct f as [|c f]; try discriminate; cbn [head_is].
  - cbn [is_word] in W1. apply andb_true_iff in W1 as [W1 _]. now apply is_alpha_symbol.
  - cbn [forallb] in W2. apply andb_true_iff in W2 as [W2 _]. unfold is_symbol_char. rewrite W2, orb_true_r. reflexivity.
Qed.

Lemma wf_tk_src a : wf_tk a = true ->
  src_of a <> [] /\ starts_nonws (src_of a) = true /\ trivia_ty (fst a) = false.
Proof.
  intros Hwf.
  assert (Hword : fst a = BAREWORD \/ fst a = DIGIT -> src_of a <> [] /\ starts_nonws (src_of a) = true).
  { intros Hty. destruct (word_src a Hwf Hty) as [-> Hh]. destruct (snd a) as [|c r]; [discriminate|].
    destruct (symbol_facts c Hh) as (Hw & _). cbn. now rewrite Hw. }
  destruct a as [ty f]. unfold wf_tk, src_of in *. cbn [fst snd] in *.
  assert (Htxt : existsb (tk_eqb (ty, f)) text_tokens = true -> f <> [] /\ starts_nonws f = true).
  { intros H. apply wf_text in H as (lit & -> & Hin).
    pose proof recognisers_wf as W. rewrite forallb_forall in W. specialize (W _ Hin). cbn in W.
    apply andb_true_iff in W as [W _]. destruct (b lit); [discriminate|]. split; [discriminate|exact W]. }
  destruct ty; try discriminate; cbn [trivia_ty]; try (destruct (Htxt Hwf); now auto);
    try (destruct Hword; now auto).
  repeat split. discriminate.
Qed.

Lemma strip_lex_token a x :
  wf_tk a = true -> follow_ok a x = true ->
  strip_lex (src_of a ++ x) = option_map (cons a) (strip_lex x).
Proof.
  intros Hwf Hf. destruct (step_token a x Hwf Hf) as (k & x' & H & Hx).
  destruct (wf_tk_src a Hwf) as (Hne & _ & Hty).
  assert (Hs : src_of a ++ x <> []) by (destruct (src_of a); [congruence|discriminate]).
  rewrite (strip_lex_step _ _ _ _ _ Hs H), Hty, Hx. destruct a; reflexivity.
Qed.

(** ** Two tokens glued together *)

(* they lex to themselves if no separator is needed ... *)
Corollary glue_ok a b0 : wf_tk a = true -> wf_tk b0 = true -> needs_sep a b0 = false ->
  strip_lex (src_of a ++ src_of b0) = Some [a; b0; tk_end].
Proof.
  intros Ha Hb Hs.
  rewrite (strip_lex_token a _ Ha), <- (app_nil_r (src_of b0)), (strip_lex_token b0 [] Hb eq_refl);
    [reflexivity|].
  unfold needs_sep in Hs. unfold follow_ok. destruct (src_of b0); [reflexivity|now rewrite Hs].
Qed.

(* ... and, if the first is a word or a number, only then: *)

(* a word or a number is never cut in front of a byte that could continue it *)
Lemma first_raw_munch f x ty k rest :
  first_raw (f ++ x) = RComplete ty f k rest -> ty = BAREWORD \/ ty = DIGIT ->
  follow_ok (ty, f) x = true.
Proof.
  intros H Hty. apply first_raw_rec in H as (r & _ & W & Hrun).
  destruct (run_rec_inv _ _ _ _ _ _ Hrun) as [Happ H]. destruct r.
  - destruct H as (-> & _). destruct Hty; discriminate.
  - destruct H as (-> & _). cbn in W. apply andb_true_iff in W as [_ W]. destruct Hty as [-> | ->]; discriminate.
  - (* a keyword fails in front of a symbol character *)
    destruct H as (-> & -> & _). cbn in W. apply andb_true_iff in W as [_ W]. destruct t; try discriminate.
    destruct x as [|d x]; [reflexivity|]. cbn [follow_ok needs_sep_byte fst].
    destruct (is_symbol_char d) eqn:Es; [|reflexivity].
    rewrite (run_rec_kw_symbol _ _ _ _ Es) in Hrun. discriminate.
  - destruct H as (-> & -> & _ & _ & Hfol). apply app_inv_head in Happ. now subst x.
  - destruct H as (-> & _). destruct Hty; discriminate.
  - destruct H as (-> & -> & _ & Hfol). apply app_inv_head in Happ. now subst x.
  - destruct H as (-> & _). destruct Hty; discriminate.
  - destruct H as (-> & _). destruct Hty; discriminate.
Qed.

Lemma glue_word_needs_no_sep a b0 ts :
  wf_tk a = true -> fst a = BAREWORD \/ fst a = DIGIT ->
  strip_lex (src_of a ++ src_of b0) = Some (a :: ts) -> needs_sep a b0 = false.
Proof.
  intros Wa Hty H. destruct (word_src a Wa Hty) as [Hsrc Hh].
  assert (Hs : src_of a ++ src_of b0 <> []) by (rewrite Hsrc; destruct (snd a); discriminate).
  destruct (first_raw (src_of a ++ src_of b0)) as [ty f k rest| |] eqn:E.
  2,3: rewrite strip_lex_fail in H by auto; discriminate.
  rewrite (strip_lex_step _ _ _ _ _ Hs E) in H. destruct (trivia_ty ty) eqn:Et.
  - (* the text begins with a letter or a digit: no blank, no comment *)
    exfalso. pose proof (first_raw_text _ _ _ _ _ E) as Ht. rewrite Hsrc in Ht.
    destruct (snd a) as [|c r]; [discriminate|]. destruct (symbol_facts c Hh) as (Hw & Hsl & _).
    destruct ty; try discriminate; cbn in Ht.
    + destruct Ht as (_ & c' & r' & Ht & Hc'). inversion Ht; subst. congruence.
    + destruct Ht as (rest' & Ht & _). inversion Ht; subst. now rewrite Ascii.eqb_refl in Hsl.
  - destruct (strip_lex rest); inversion H; subst. cbn [fst snd] in *. rewrite Hsrc in E. cbn [snd] in E.
    apply first_raw_munch in E; [|exact Hty]. unfold needs_sep. unfold follow_ok in E.
    destruct (src_of b0); [reflexivity|]. now apply negb_true_iff in E.
Qed.

(** * layout_irrelevant *)

(* A layout gives the separator in front of the first token and the separator
   after each token (missing entries mean "nothing"). *)
Definition layout := (sep * list sep)%type.

Fixpoint render_toks (ts : list tk) (l : list sep) : bytes :=
  match ts with
  | [] => []
  | a :: ts' => src_of a ++ render_sep (hd [] l) ++ render_toks ts' (tl l)
  end.

Definition render (ts : list tk) (l : layout) : bytes :=
  render_sep (fst l) ++ render_toks ts (snd l).

(* A layout is valid when comment bodies contain no line feed and no token is
   DIRECTLY followed by a byte it must not be glued to ([needs_sep_byte]): if the
   separator after token a is empty that byte is the first byte of the next
   token (i.e. [needs_sep a next] must be false); if it starts with a comment
   the byte is '/', which only the token "/" must avoid; blanks are always fine. *)
Fixpoint valid_toks (ts : list tk) (l : list sep) : bool :=
  match ts with
  | [] => true
  | a :: ts' =>
      (sep_ok (hd [] l)
       && follow_ok a (render_sep (hd [] l) ++ render_toks ts' (tl l))
       && valid_toks ts' (tl l))%bool
  end.

Definition valid_layout (ts : list tk) (l : layout) : bool :=
  (sep_ok (fst l) && valid_toks ts (snd l))%bool.

Lemma render_toks_nonws ts l :
  forallb wf_tk ts = true -> starts_nonws (render_toks ts l) = true.
Proof.
  destruct ts as [|a ts]; [reflexivity|]. cbn. intros H. apply andb_true_iff in H as [Ha _].
  destruct (wf_tk_src a Ha) as (Hne & Hws & _).
  destruct (src_of a); [congruence|exact Hws].
Qed.

Lemma strip_lex_render_toks ts : forall l,
  forallb wf_tk ts = true -> valid_toks ts l = true ->
  strip_lex (render_toks ts l) = Some (ts ++ [tk_end]).
Proof.
  induction ts as [|a ts IH]; intros l Hwf Hv; [reflexivity|].
  cbn in Hwf, Hv. apply andb_true_iff in Hwf as [Ha Hwf].
  apply andb_true_iff in Hv as [Hv Hv3]. apply andb_true_iff in Hv as [Hv1 Hv2].
  cbn [render_toks]. rewrite (strip_lex_token a _ Ha Hv2).
  rewrite (strip_lex_sep _ _ Hv1 (render_toks_nonws ts (tl l) Hwf)).
  rewrite (IH (tl l) Hwf Hv3). reflexivity.
Qed.

Theorem layout_canonical : forall ts l,
  forallb wf_tk ts = true -> valid_layout ts l = true ->
  strip_lex (render ts l) = Some (ts ++ [tk_end]).
Proof.
  intros ts [l0 l] Hwf Hv. unfold valid_layout in Hv. cbn [fst snd] in Hv.
  apply andb_true_iff in Hv as [Hv0 Hv]. unfold render. cbn [fst snd].
  rewrite (strip_lex_sep _ _ Hv0 (render_toks_nonws ts l Hwf)).
  now apply strip_lex_render_toks.
Qed.

(* layout_irrelevant: whitespace and comments between tokens never change the
   token sequence: any two valid layouts of the same tokens lex to the same
   sequence, namely the tokens themselves (followed by END). *)
Theorem layout_irrelevant : forall ts l1 l2,
  forallb wf_tk ts = true -> valid_layout ts l1 = true -> valid_layout ts l2 = true ->
  option_map (map strip) (lex (render ts l1)) = option_map (map strip) (lex (render ts l2)) /\
  option_map (map strip) (lex (render ts l1)) = Some (ts ++ [tk_end]).
Proof.
  intros ts l1 l2 Hwf H1 H2. fold (strip_lex (render ts l1)). fold (strip_lex (render ts l2)).
  rewrite (layout_canonical ts l1 Hwf H1), (layout_canonical ts l2 Hwf H2). auto.
Qed.

(** ** The hypotheses are the right ones *)

Lemma in_text_tokens ty lit : In (RText ty lit) recognisers -> In (ty, b lit) text_tokens.
Proof. intros H. unfold text_tokens. apply in_flat_map. exists (RText ty lit). cbn; auto. Qed.

(* a blank may follow any well-formed token; so may a comment unless the token is "/" *)
Definition blank_bytes : list ascii := [sp; tab; nl; cr].

Lemma blank_ok_text :
  forallb (fun a => forallb (fun c => negb (needs_sep_byte a c)) blank_bytes) text_tokens = true.
Proof. vm_compute. reflexivity. Qed.

Lemma blank_follows_any a c : wf_tk a = true -> In c blank_bytes -> needs_sep_byte a c = false.
Proof.
  intros Hwf Hc. destruct a as [ty f]. unfold wf_tk in Hwf. cbn [fst snd] in Hwf.
  assert (Htxt : existsb (tk_eqb (ty, f)) text_tokens = true -> needs_sep_byte (ty, f) c = false).
  { intros H. apply existsb_exists in H as (a' & Hin & He). apply tk_eqb_eq in He; subst a'.
    pose proof blank_ok_text as B. rewrite forallb_forall in B. specialize (B _ Hin).
    rewrite forallb_forall in B. specialize (B _ Hc). now apply negb_true_iff in B. }
  assert (Hb : is_symbol_char c = false /\ is_digit c = false).
  { cbn in Hc. destruct Hc as [<-|[<-|[<-|[<-|[]]]]]; split; reflexivity. }
  destruct Hb as [Hb1 Hb2].
  destruct ty; try discriminate; auto; unfold needs_sep_byte; cbn [fst]; auto.
Qed.

Lemma comment_follows a : wf_tk a = true -> a <> (PUNCT, b "/") -> needs_sep_byte a slash = false.
Proof.
  intros Hwf Hne. destruct a as [ty f]. unfold wf_tk in Hwf. cbn [fst snd] in Hwf.
  destruct ty; try discriminate; unfold needs_sep_byte; cbn [fst snd]; auto.
  apply existsb_exists in Hwf as (a' & Hin & He). apply tk_eqb_eq in He; subst a'.
  assert (H : forallb (fun a => (tk_eqb a (PUNCT, b "/") || negb (needs_sep_byte a slash))%bool)
                text_tokens = true) by (vm_compute; reflexivity).
  rewrite forallb_forall in H. specialize (H _ Hin). apply orb_true_iff in H as [H|H].
  - apply tk_eqb_eq in H. congruence.
  - now apply negb_true_iff in H.
Qed.

(* the one-blank layout is valid for every well-formed token list: the theorem
   is not vacuous, and every well-formed list is a fixed point of lex . render *)
Definition blank_layout (ts : list tk) : layout := ([], map (fun _ => [SSp]) ts).

Lemma blank_layout_valid ts : forallb wf_tk ts = true -> valid_layout ts (blank_layout ts) = true.
Proof.
  intros Hwf. unfold valid_layout, blank_layout. cbn [fst snd sep_ok forallb andb].
  induction ts as [|a ts IH]; [reflexivity|].
  cbn in Hwf. apply andb_true_iff in Hwf as [Ha Hwf].
  cbn [map valid_toks hd tl sep_ok forallb item_ok andb render_sep flat_map render_item app follow_ok].
  rewrite (blank_follows_any a sp Ha (or_introl eq_refl)). cbn [negb andb]. apply IH, Hwf.
Qed.

Corollary wf_tokens_are_producible ts : forallb wf_tk ts = true ->
  strip_lex (render ts (blank_layout ts)) = Some (ts ++ [tk_end]).
Proof. intros H. apply layout_canonical; auto using blank_layout_valid. Qed.

(** * Every token the tokenizer produces is well formed *)

(* so the hypothesis [forallb wf_tk ts] of layout_irrelevant covers every token
   list that the lexer can produce *)

Definition alpha_text (r : recogniser) : bool :=
  match r with RText _ lit => head_is is_alpha (b lit) | _ => false end.

(* the table from barewordtok on *)
Fixpoint from_bareword (rs : list recogniser) : list recogniser :=
  match rs with
  | [] => []
  | RBareword :: _ => rs
  | _ :: rs' => from_bareword rs'
  end.

Lemma from_bareword_incl rs1 rs2 :
  incl (RBareword :: rs2) (from_bareword (rs1 ++ RBareword :: rs2)).
Proof.
  induction rs1 as [|r rs1 IH]; [apply incl_refl|]. destruct r; cbn [app from_bareword]; try exact IH.
  intros x Hx. right. apply in_or_app. now right.
Qed.

(* table facts: no letter-initial plain text token stands behind barewordtok;
   every literal token of the table is itself well formed *)
Lemma table_alpha_before_bareword : existsb alpha_text (from_bareword recognisers) = false.
Proof. vm_compute. reflexivity. Qed.

Lemma table_literals_wf :
  forallb (fun r => match r with RText ty lit | RTextWS ty lit => wf_tk (ty, b lit) | _ => true end)
          recognisers = true.
Proof. vm_compute. reflexivity. Qed.

Lemma first_raw_wf s ty f k rest :
  first_raw s = RComplete ty f k rest -> trivia_ty ty = false -> ty <> END ->
  wf_tk (ty, f) = true.
Proof.
  intros H Htriv Hend. unfold first_raw in H.
  apply alt_complete in H as (rs1 & r & rs2 & Hsplit & Hr & Hfail).
  assert (Hin : In r recognisers) by (rewrite Hsplit; apply in_elt).
  pose proof table_literals_wf as TL. rewrite forallb_forall in TL. specialize (TL _ Hin).
  apply run_rec_inv in Hr as [Happ Hr]. destruct r.
  - destruct Hr as (-> & _). reflexivity.
  - destruct Hr as (-> & -> & _). exact TL.
  - destruct Hr as (-> & -> & _). exact TL.
  - destruct Hr as (-> & -> & Hne & Hall & _). unfold wf_tk. cbn [fst snd]. rewrite Hall.
    destruct k; [congruence|reflexivity].
  - destruct Hr as (-> & _). discriminate.
  - (* barewordtok: a reserved prefix of the word is a literal that would have matched before
       it, had it stood there; and none stands behind it *)
    destruct Hr as (-> & -> & Hw & _). unfold wf_tk. cbn [fst snd]. rewrite Hw. cbn [andb].
    apply negb_true_iff. destruct (reserved_prefix k) eqn:Ex; [exfalso|reflexivity].
    apply reserved_prefix_true in Ex as (ty0 & lit0 & Hr0 & Hp1 & Hp2).
    rewrite Hsplit in Hr0. apply in_app_or in Hr0 as [Hr0|[Hr0|Hr0]]; [|discriminate|].
    + rewrite Forall_forall in Hfail. specialize (Hfail _ Hr0). cbn [run_rec] in Hfail.
      unfold is_prefix in Hp2. destruct (strip_prefix (b lit0) k) eqn:Ep; [|discriminate].
      rewrite Happ, (strip_prefix_ext _ _ _ rest Ep) in Hfail. discriminate.
    + pose proof table_alpha_before_bareword as T. rewrite Hsplit in T.
      assert (existsb alpha_text (from_bareword (rs1 ++ RBareword :: rs2)) = true); [|congruence].
      apply existsb_exists. exists (RText ty0 lit0). split; [apply from_bareword_incl; now right|exact Hp1].
  - destruct Hr as (-> & _). discriminate.
  - destruct Hr as (-> & _). congruence.
Qed.

Lemma lexed_wf pre s body : lexed pre s body ->
  Forall (fun t => is_trivia t = true \/ wf_tk (strip t) = true) body.
Proof.
  induction 1 as [|pre ty f k rest body Hk E _ IH]; constructor; [|exact IH].
  unfold is_trivia, strip. cbn [typ frag mk_tok].
  destruct (trivia_ty ty) eqn:Et.
  - left. destruct ty; cbn in Et; try discriminate; reflexivity.
  - right. apply (first_raw_wf _ _ _ _ _ E Et). intros ->.
    apply first_raw_text in E as [_ E]. apply app_eq_nil in E as [E _]. contradiction.
Qed.

(* what tokenize returns is a list of well-formed tokens followed by END *)
Theorem lex_tokens_wf : forall src toks, lex src = Some toks ->
  exists body e, toks = body ++ [e] /\ strip e = tk_end /\
                 forallb wf_tk (map strip body) = true.
Proof.
  intros src toks H. unfold lex in H. destruct (lex_all src) as [l|] eqn:E; [|discriminate].
  inversion H; subst toks; clear H. apply lex_all_lexed in E as (body & -> & Hb).
  apply lexed_wf in Hb. rewrite filter_app. eexists _, _. split; [reflexivity|]. split; [reflexivity|].
  induction body as [|t body IH]; [reflexivity|].
  inversion Hb as [|? ? Ht Hb']; subst. cbn [filter].
  destruct (is_trivia t) eqn:Et; cbn [negb]; [now apply IH|].
  cbn [map forallb]. destruct Ht as [Ht|Ht]; [congruence|]. rewrite Ht. now apply IH.
Qed.

(* layout does not matter, stated on sources: take any source the tokenizer
   accepts, write its tokens with ANY valid layout: the token sequence is the same *)
Theorem relayout : forall src toks, lex src = Some toks ->
  forall l, valid_layout (removelast (map strip toks)) l = true ->
  strip_lex (render (removelast (map strip toks)) l) = Some (map strip toks).
Proof.
  intros src toks H l Hv. destruct (lex_tokens_wf _ _ H) as (body & e & -> & He & Hwf).
  rewrite map_app in *. cbn [map] in *. rewrite He in *.
  rewrite removelast_last in *. now apply layout_canonical.
Qed.

(** * pairs_exhaustive *)

(* the literals are well formed by [table_literals_wf]; the samples are evaluated *)
Lemma pair_vocab_wf a : In a pair_vocab -> wf_tk a = true.
Proof.
  unfold pair_vocab, vocab_tokens. rewrite in_app_iff, in_flat_map. intros [(r & Hr & Ha)|Ha].
  - pose proof table_literals_wf as T. rewrite forallb_forall in T. specialize (T r Hr).
    destruct r; cbn in Ha; try contradiction; destruct Ha as [<-|[]]; exact T.
  - revert a Ha. apply forallb_forall. vm_compute. reflexivity.
Qed.

(* an operator in front of a token whose first byte extends it to another literal of the table
   (or to "//"): the glued text does not begin with the operator *)
Lemma glued_operators_merge :
  forallb (fun a => match fst a with
    | PUNCT => forallb (fun l => match strip_prefix (snd a) l with
         | Some [c] => forallb (fun b0 => implb (head_is (Ascii.eqb c) (src_of b0))
                          match strip_lex (src_of a ++ src_of b0) with
                          | Some (t :: _) => negb (tk_eqb t a)
                          | _ => true
                          end) pair_vocab
         | _ => true
         end) (b "//" :: punct_lits)
    | _ => true
    end) pair_vocab = true.
Proof. vm_compute. reflexivity. Qed.

(* Both "if" halves hold of all well-formed tokens ([glue_ok], [strip_lex_token]), and so does
   "only if" unless the first token is an operator ([glue_word_needs_no_sep]). *)
Theorem pairs_exhaustive : forall a b0, In a pair_vocab -> In b0 pair_vocab ->
  (strip_lex (src_of a ++ src_of b0) = Some [a; b0; tk_end] <-> needs_sep a b0 = false) /\
  strip_lex (src_of a ++ sp :: src_of b0) = Some [a; b0; tk_end].
Proof.
  intros a b0 Ha Hb. pose proof (pair_vocab_wf a Ha) as Wa. pose proof (pair_vocab_wf b0 Hb) as Wb. split.
  - split; [|now apply glue_ok].
    intros H. destruct (fst a) eqn:Ety;
      try (unfold needs_sep, needs_sep_byte; rewrite Ety; now destruct (src_of b0)).
    + exact (glue_word_needs_no_sep a b0 _ Wa (or_intror Ety) H).
    + exact (glue_word_needs_no_sep a b0 _ Wa (or_introl Ety) H).
    + destruct (needs_sep a b0) eqn:E; [exfalso|reflexivity].
      unfold needs_sep in E. destruct (src_of b0) as [|c y] eqn:Eb; [discriminate|].
      unfold needs_sep_byte in E. rewrite Ety in E. apply existsb_exists in E as (l & Hl & El).
      apply bytes_eqb_spec in El. subst l.
      pose proof glued_operators_merge as M. rewrite forallb_forall in M. specialize (M a Ha).
      rewrite Ety, forallb_forall in M. specialize (M _ Hl).
      rewrite strip_prefix_app, forallb_forall in M. specialize (M b0 Hb).
      rewrite Eb, H in M. cbn [head_is implb] in M. rewrite Ascii.eqb_refl in M. cbn [implb] in M.
      apply negb_true_iff in M. now rewrite (proj2 (tk_eqb_eq a a) eq_refl) in M.
  - destruct (wf_tk_src b0 Wb) as (_ & Hnw & _).
    rewrite (strip_lex_token a (sp :: src_of b0) Wa).
    + change (sp :: src_of b0) with ([sp] ++ src_of b0). rewrite (strip_lex_ws_block [sp] _ eq_refl Hnw).
      rewrite <- (app_nil_r (src_of b0)), (strip_lex_token b0 [] Wb eq_refl). reflexivity.
    + cbn [follow_ok]. now rewrite (blank_follows_any a sp Wa (or_introl eq_refl)).
Qed.
