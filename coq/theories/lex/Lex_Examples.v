(* Non-vacuity examples for the tokenizer model and its theorems (C11).
   Every expected value below was also observed on the real tokenizer
   (differential harness). *)
From Ucg Require Import base.Bytes lex.Lex_Types lex.Vocab lex.Lex lex.Lex_Lemmas.
Local Open Scope string_scope.
Local Open Scope list_scope.

(* (type, fragment, (line, column, byte offset)) *)
Definition show_tok (t : token) := (typ t, string_of_list_ascii (frag t), (line t, col t, off t)).
Definition show (s : bytes) := option_map (map show_tok) (lex s).
Definition show_all (s : bytes) := option_map (map show_tok) (lex_all s).
Definition LF : string := String nl EmptyString.
Definition CRLF : string := String cr (String nl EmptyString).

(* a statement; the escape \n inside the literal is decoded, positions are bytes *)
Example ex_statement :
  show (b "let x = ""a\nb"";") =
  Some [ (BAREWORD, "let", (1, 1, 0)); (BAREWORD, "x", (1, 5, 4)); (PUNCT, "=", (1, 7, 6));
         (QUOTED, ("a" ++ LF ++ "b")%string, (1, 9, 8)); (PUNCT, ";", (1, 15, 14)); (END, "", (1, 16, 15)) ]%N.
Proof. vm_compute. reflexivity. Qed.

(* CRLF and LF line ends; a two-byte character advances the column by two *)
Example ex_lines_and_bytes :
  show (b ("a" ++ CRLF ++ "  b" ++ LF)%string
        ++ [dq; ascii_of_nat 195; ascii_of_nat 169; dq] ++ b " c") =
  Some [ (BAREWORD, "a", (1, 1, 0)); (BAREWORD, "b", (2, 3, 5));
         (QUOTED, String (ascii_of_nat 195) (String (ascii_of_nat 169) ""), (3, 1, 7));
         (BAREWORD, "c", (3, 6, 12)); (END, "", (3, 7, 13)) ]%N.
Proof. vm_compute. reflexivity. Qed.

(* longest operators, glued *)
Example ex_operators :
  option_map (map (fun t => string_of_list_ascii (frag t))) (lex (b "x=>==..&&|||%%%::!=!~>=<=")) =
  Some [ "x"; "=>"; "=="; ".."; "&&"; "||"; "|"; "%%"; "%"; "::"; "!="; "!~"; ">="; "<="; "" ].
Proof. vm_compute. reflexivity. Qed.

(* lex_all keeps WS and COMMENT tokens; WS has an empty fragment; the comment
   text excludes "//" and the line end *)
Example ex_lex_all :
  show_all (b ("a // c" ++ CRLF ++ "b")%string) =
  Some [ (BAREWORD, "a", (1, 1, 0)); (WS, "", (1, 2, 1)); (COMMENT, " c", (1, 3, 2));
         (BAREWORD, "b", (2, 1, 8)); (END, "", (2, 2, 9)) ]%N.
Proof. vm_compute. reflexivity. Qed.

(* ---- behaviours of the real tokenizer worth knowing (all reproduced on it) ---- *)

(* DEFECT: `true`, `false` and `NULL` have no word-boundary check: they split identifiers.
   (keywords like `in` do have one: `index` stays whole) *)
Example ex_keyword_prefix_splits :
  show (b "trueish NULLABLE falsey index") =
  Some [ (BOOLEAN, "true", (1, 1, 0)); (BAREWORD, "ish", (1, 5, 4));
         (EMPTY, "NULL", (1, 9, 8)); (BAREWORD, "ABLE", (1, 13, 12));
         (BOOLEAN, "false", (1, 18, 17)); (BAREWORD, "y", (1, 23, 22));
         (BAREWORD, "index", (1, 25, 24)); (END, "", (1, 30, 29)) ]%N.
Proof. vm_compute. reflexivity. Qed.

(* Since source commit b648ec7 the keyword recogniser only looks ahead (before it, a comment
   glued to a keyword was consumed by the recogniser: no COMMENT token, nothing in the comment
   map): the comment is a token like after any other word, and the whitespace after a keyword
   is an ordinary WS token of lex_all. *)
Example ex_comment_after_keyword :
  show_all (b ("let//c" ++ LF ++ "x")%string) =
  Some [ (BAREWORD, "let", (1, 1, 0)); (COMMENT, "c", (1, 4, 3)); (BAREWORD, "x", (2, 1, 7));
         (END, "", (2, 2, 8)) ]%N
  /\
  show_all (b ("lex//c" ++ LF ++ "x")%string) =
  Some [ (BAREWORD, "lex", (1, 1, 0)); (COMMENT, "c", (1, 4, 3)); (BAREWORD, "x", (2, 1, 7));
         (END, "", (2, 2, 8)) ]%N
  /\
  show_all (b "let  x") =
  Some [ (BAREWORD, "let", (1, 1, 0)); (WS, "", (1, 4, 3)); (BAREWORD, "x", (1, 6, 5));
         (END, "", (1, 7, 6)) ]%N.
Proof. repeat split; vm_compute; reflexivity. Qed.

(* the bytes 0x85 and 0xA0 are whitespace for ascii_ws, even alone *)
Example ex_latin1_whitespace :
  show ([ascii_of_nat 133] ++ b "x" ++ [ascii_of_nat 160]) =
  Some [ (BAREWORD, "x", (1, 2, 1)); (END, "", (1, 4, 3)) ]%N.
Proof. vm_compute. reflexivity. Qed.

(* errors: a lone '&', a lone '!', an identifier starting with '_', an
   unterminated string, any non-ASCII character outside a string or comment *)
Example ex_errors :
  lex (b "a & b") = None /\ lex (b "!x") = None /\ lex (b "_x") = None /\
  lex (b """abc") = None /\ lex [ascii_of_nat 195; ascii_of_nat 169] = None.
Proof. repeat split; vm_compute; reflexivity. Qed.

(* "/" directly followed by a comment is swallowed into the comment *)
Example ex_slash_comment :
  strip_lex (b "a///x") = Some [ (BAREWORD, b "a"); tk_end ] /\
  strip_lex (b "a/ //x") = Some [ (BAREWORD, b "a"); (PUNCT, b "/"); tk_end ].
Proof. split; vm_compute; reflexivity. Qed.

(* instances of the theorems *)
Example ex_string_decode :
  lex (b """" ++ encode_str [nl; "\"%char; dq; ascii_of_nat 195; ascii_of_nat 169] ++ b """") =
  Some [ mk_tok QUOTED [nl; "\"%char; dq; ascii_of_nat 195; ascii_of_nat 169] ps0;
         {| typ := END; frag := []; line := 1; col := 11; off := 10 |} ].
Proof. rewrite string_decode. vm_compute. reflexivity. Qed.

Example ex_positions : exists toks, lex (b ("a" ++ LF ++ " ""s""")%string) = Some toks /\
  Forall (token_ok (b ("a" ++ LF ++ " ""s""")%string)) toks /\ List.length toks = 3.
Proof.
  eexists. split; [vm_compute; reflexivity|]. split; [|reflexivity].
  apply (positions_exact (b ("a" ++ LF ++ " ""s""")%string)). vm_compute. reflexivity.
Qed.

Example ex_needs_sep :
  needs_sep (BAREWORD, b "a") (BAREWORD, b "b") = true /\
  needs_sep (BAREWORD, b "a") (DIGIT, b "1") = true /\
  needs_sep (DIGIT, b "1") (BAREWORD, b "a") = false /\
  needs_sep (PUNCT, b "=") (PUNCT, b "=") = true /\
  needs_sep (PUNCT, b ".") (PUNCT, b ".") = true /\
  needs_sep (PUNCT, b "/") (PUNCT, b "/") = true /\
  needs_sep (PUNCT, b "==") (PUNCT, b "=") = false /\
  needs_sep (BAREWORD, b "let") (PUNCT, b "-") = true /\
  needs_sep (BAREWORD, b "let") (PUNCT, b "(") = false /\
  needs_sep (BOOLEAN, b "true") (BAREWORD, b "x") = false /\
  needs_sep (QUOTED, b "s") (QUOTED, b "t") = false.
Proof. repeat split; vm_compute; reflexivity. Qed.

(* layout_irrelevant, instantiated: `let x=1;` written tightly, and with
   blanks, CRLF and comments (one of them glued to the keyword) *)
Definition ex_ts : list tk :=
  [ (BAREWORD, b "let"); (BAREWORD, b "x"); (PUNCT, b "="); (DIGIT, b "1"); (PUNCT, b "/");
    (QUOTED, [nl; dq]); (PUNCT, b ";") ].
Definition ex_l1 : layout := ([], [ [SSp]; []; []; []; []; []; [] ]).
Definition ex_l2 : layout :=
  ([SCmt (b " header"); SCrLf],
   [ [SCmt (b "glued to let")]; [STab; SLf]; [SSp]; [SCmt (b "x")]; [SSp; SCmt (b "after slash")];
     []; [SCrLf; SCmt (b "end // really")] ]).

Example ex_render_1 : string_of_list_ascii (render ex_ts ex_l1) = "let x=1/""\n\"""";".
Proof. vm_compute. reflexivity. Qed.

Example ex_layouts_valid :
  forallb wf_tk ex_ts = true /\ valid_layout ex_ts ex_l1 = true /\ valid_layout ex_ts ex_l2 = true.
Proof. repeat split; vm_compute; reflexivity. Qed.

Example ex_layout_irrelevant :
  option_map (map strip) (lex (render ex_ts ex_l1)) = option_map (map strip) (lex (render ex_ts ex_l2))
  /\ option_map (map strip) (lex (render ex_ts ex_l1)) = Some (ex_ts ++ [tk_end]).
Proof. apply layout_irrelevant; vm_compute; reflexivity. Qed.

(* the validity conditions are needed: glued barewords merge, "/" followed by a
   comment disappears into it, "= =" glued is "==" *)
Example ex_invalid_layouts :
  valid_layout [(BAREWORD, b "a"); (BAREWORD, b "b")] ([], []) = false /\
  strip_lex (render [(BAREWORD, b "a"); (BAREWORD, b "b")] ([], [])) = Some [(BAREWORD, b "ab"); tk_end] /\
  valid_layout [(PUNCT, b "/")] ([], [[SCmt (b "c")]]) = false /\
  strip_lex (render [(PUNCT, b "/")] ([], [[SCmt (b "c")]])) = Some [tk_end] /\
  valid_layout [(PUNCT, b "="); (PUNCT, b "=")] ([], []) = false /\
  strip_lex (render [(PUNCT, b "="); (PUNCT, b "=")] ([], [])) = Some [(PUNCT, b "=="); tk_end].
Proof. repeat split; vm_compute; reflexivity. Qed.

(* tokens the lexer can never produce are not well formed *)
Example ex_not_wf :
  wf_tk (BAREWORD, b "trueish") = false /\ wf_tk (BAREWORD, b "NULL") = false /\
  wf_tk (BAREWORD, b "1a") = false /\ wf_tk (PUNCT, b "&") = false /\ wf_tk (DIGIT, b "1a") = false /\
  wf_tk (BAREWORD, b "index") = true /\ wf_tk (BAREWORD, b "let") = true.
Proof. repeat split; vm_compute; reflexivity. Qed.

Print Assumptions lex_total.
Print Assumptions string_decode.
Print Assumptions string_decode_min.
Print Assumptions decode_spec.
Print Assumptions decode_spec_step.
Print Assumptions unterminated_string_is_error.
Print Assumptions positions_exact.
Print Assumptions positions_exact_all.
Print Assumptions longest_operator.
Print Assumptions longest_operator_byte.
Print Assumptions longest_operator_enumerated.
Print Assumptions pairs_exhaustive.
Print Assumptions layout_canonical.
Print Assumptions layout_irrelevant.
Print Assumptions lex_tokens_wf.
Print Assumptions relayout.
Print Assumptions glue_ok.
Print Assumptions blank_layout_valid.
