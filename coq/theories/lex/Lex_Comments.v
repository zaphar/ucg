(* Every byte of the source belongs to exactly one token of [lex_all]; a non-trivia token covers
   only its own text.  In particular (source commit b648ec7, [kw_looks_ahead]) a keyword does
   not swallow the whitespace or the comment that follows it: a comment glued to a keyword
   is a COMMENT token of lex_all like any other comment. *)
From Ucg Require Import base.Bytes base.Bytes_Lemmas lex.Lex_Types lex.Vocab lex.Lex lex.Lex_Lemmas lex.Lex_Shift.
From UcgGen Require Import LexVocab.
Local Open Scope list_scope.

(** * the text of a comment *)

(* the comment text is the line without its line end: a CR directly before the LF belongs to
   the line end *)
Fixpoint chomp_cr (s : bytes) : bytes :=
  match s with
  | [] => []
  | c :: s' => match s' with
               | [] => if Ascii.eqb c cr then [] else [c]
               | _ :: _ => c :: chomp_cr s'
               end
  end.

Lemma until_eol_body_exact body : forall r, no_nl body = true ->
  exists r1, until_eol (body ++ nl :: r) = (chomp_cr body, r1) /\
             chomp_cr body ++ r1 = body ++ nl :: r /\ (r1 = nl :: r \/ r1 = cr :: nl :: r).
Proof.
  induction body as [|c body IH]; intros r Hn.
  - exists (nl :: r). cbn [app chomp_cr]. rewrite until_eol_cons, Ascii.eqb_refl. auto.
  - unfold no_nl in Hn. cbn [forallb] in Hn. apply andb_true_iff in Hn as [Hc Hn]. unfold is_nl in Hc.
    cbn [app]. rewrite until_eol_cons. destruct (Ascii.eqb c nl) eqn:E0; [discriminate|]. cbn [orb].
    destruct body as [|d body].
    + cbn [app starts_with_nl chomp_cr]. rewrite Ascii.eqb_refl, andb_true_r.
      destruct (Ascii.eqb c cr) eqn:E1.
      * apply Ascii.eqb_eq in E1; subst c. exists (cr :: nl :: r). auto.
      * rewrite until_eol_cons, Ascii.eqb_refl. cbn [orb]. exists (nl :: r). auto.
    + assert (Hd : Ascii.eqb d nl = false).
      { unfold no_nl in Hn. cbn [forallb] in Hn. apply andb_true_iff in Hn as [Hd _].
        unfold is_nl in Hd. now apply negb_true_iff in Hd. }
      cbn [app starts_with_nl]. rewrite Hd, andb_false_r.
      destruct (IH r Hn) as (r1 & E & Happ & Hr1). cbn [app] in E. rewrite E.
      exists r1. split; [reflexivity|]. split; [|exact Hr1].
      change (chomp_cr (c :: d :: body)) with (c :: chomp_cr (d :: body)).
      cbn [app]. now rewrite Happ.
Qed.

Lemma comment_item_run_exact body r : no_nl body = true ->
  comment_run (b "//" ++ body ++ nl :: r) = Some (chomp_cr body, b "//" ++ body ++ [nl], r).
Proof.
  intros Hn. unfold comment_run. rewrite strip_prefix_app.
  destruct (until_eol_body_exact body r Hn) as (r1 & E & Happ & Hr).
  revert E Happ. generalize (chomp_cr body) as ch. intros ch E Happ. rewrite E.
  destruct Hr as [-> | ->].
  - apply app_inv_tail in Happ. subst ch. cbn [eat_eol]. rewrite Ascii.eqb_refl. reflexivity.
  - assert (Hb : ch ++ [cr] = body).
    { apply (app_inv_tail (nl :: r)). rewrite <- app_assoc. exact Happ. }
    subst body. cbn [eat_eol]. replace (Ascii.eqb cr nl) with false by reflexivity.
    rewrite !Ascii.eqb_refl. now rewrite <- app_assoc.
Qed.

(** * the tokens of lex_all tile the source *)

(* [covers ty f k]: a token of type ty and fragment f covers exactly the source text k *)
Definition covers (ty : ttype) (f k : bytes) : Prop :=
  match ty with
  | COMMENT => exists eol, k = b "//" ++ f ++ eol /\ (eol = [] \/ eol = [nl] \/ eol = [cr; nl])
  | WS => f = [] /\ k <> [] /\ forallb is_ws k = true
  | QUOTED => exists body, k = dq :: body ++ [dq] /\ closed_body body = true /\ f = decode_doc body
  | _ => k = f          (* keywords included: nothing after the literal is consumed *)
  end.

Lemma first_raw_covers s ty f k rest : first_raw s = RComplete ty f k rest -> covers ty f k.
Proof.
  intros H. apply first_raw_rec in H as (r & _ & W & H). apply run_rec_inv in H as [_ H].
  destruct r.
  - destruct H as (-> & H). exact H.
  - destruct H as (-> & -> & ->). cbn in W. apply andb_true_iff in W as [_ W].
    destruct t; try discriminate; reflexivity.
  - (* the keyword only looks ahead *)
    destruct H as (-> & -> & k' & -> & Hk'). rewrite (Hk' kw_looks_ahead), app_nil_r. clear Hk'.
    cbn in W. apply andb_true_iff in W as [_ W]. destruct t; try discriminate; reflexivity.
  - destruct H as (-> & -> & _). reflexivity.
  - destruct H as (-> & eol & -> & _ & He & _). exists eol. auto.
  - destruct H as (-> & -> & _). reflexivity.
  - destruct H as (-> & -> & Hne & Hall). cbn. auto.
  - destruct H as (-> & -> & -> & _). reflexivity.
Qed.

(** * a keyword only looks at what follows it *)

(* the keyword token covers exactly the literal; what follows is left in the input *)
Theorem first_raw_keyword : forall ty lit x,
  In (RTextWS ty lit) recognisers ->
  head_is is_ws x = true \/ (exists x', x = b "//" ++ x') ->
  first_raw (b lit ++ x) = RComplete ty (b lit) (b lit) x.
Proof.
  intros ty lit x Hin Hx.
  pose proof recognisers_word_ok as W. rewrite forallb_forall in W. specialize (W _ Hin).
  cbn in W. apply andb_true_iff in W as [W _]. apply ttype_eqb_eq in W. subst ty.
  pose proof table_literals_wf as T. rewrite forallb_forall in T. specialize (T _ Hin). cbn beta iota in T.
  assert (Hf : follow_ok (BAREWORD, b lit) x = true).
  { destruct Hx as [Hx|[x' ->]]; [|reflexivity].
    destruct x as [|c x]; [discriminate|]. cbn in Hx |- *.
    destruct (is_symbol_char c) eqn:Es; [|reflexivity]. destruct (symbol_facts c Es) as (Hw & _). congruence. }
  (* the keyword is a well-formed word followed by something it may be glued to; that it
     consumes nothing more is [covers] *)
  destruct (step_token _ x T Hf) as (k & x' & H & _). cbn [src_of fst snd] in H.
  pose proof (first_raw_covers _ _ _ _ _ H) as Hc. cbn in Hc. subst k.
  pose proof (first_raw_app _ _ _ _ _ H) as Ha. apply app_inv_head in Ha. now subst x'.
Qed.

(** * lex_all_keeps_glued_comment *)

(* keyword, comment glued to it, rest of the file:  the stream is the keyword token, a COMMENT
   token with the comment's text at the byte right after the keyword, then the tokens of the
   rest moved down one line *)
Theorem lex_all_keeps_glued_comment : forall ty lit body rest,
  In (RTextWS ty lit) recognisers -> no_nl body = true ->
  let K := b lit ++ b "//" ++ body ++ [nl] in
  lex_all (K ++ rest) =
  option_map (fun l => mk_tok ty (b lit) ps0
                       :: mk_tok COMMENT (chomp_cr body) (advance ps0 (b lit))
                       :: map (shift_tok (N.of_nat (count_nl K)) (N.of_nat (List.length K))) l)
             (lex_all rest).
Proof.
  intros ty lit body rest Hin Hn K.
  assert (HK : K ++ rest = b lit ++ b "//" ++ body ++ nl :: rest).
  { unfold K. rewrite <- !app_assoc. reflexivity. }
  assert (Hend : ends_with_newline K).
  { exists (b lit ++ b "//" ++ body). unfold K. now rewrite <- !app_assoc. }
  rewrite !lex_all_lexA, lexA_step by (apply ends_nl_nonempty in Hend; now destruct K).
  rewrite HK, (first_raw_keyword ty lit _ Hin (or_intror (ex_intro _ _ eq_refl))).
  rewrite lexA_step by discriminate.
  rewrite (first_raw_comment _ _ _ _ (comment_item_run_exact body rest Hn)).
  rewrite advance_app. change (b lit ++ b "//" ++ body ++ [nl]) with K. rewrite (advance_spec K).
  unfold lexA at 1. rewrite (lex_from_shift _ _ _ _ _ rest (pos_rel_after K Hend)).
  fold (lexA ps0 rest). destruct (lexA ps0 rest); reflexivity.
Qed.

(* the comment also reaches the filtered stream's complement: it is not lost, whatever follows *)
Corollary glued_comment_is_token : forall ty lit body rest toks,
  In (RTextWS ty lit) recognisers -> no_nl body = true ->
  lex_all (b lit ++ b "//" ++ body ++ [nl] ++ rest) = Some toks ->
  exists tl, toks = mk_tok ty (b lit) ps0
                    :: mk_tok COMMENT (chomp_cr body) (advance ps0 (b lit)) :: tl.
Proof.
  intros ty lit body rest toks Hin Hn H.
  replace (b lit ++ b "//" ++ body ++ [nl] ++ rest) with ((b lit ++ b "//" ++ body ++ [nl]) ++ rest) in H
    by (now rewrite <- !app_assoc).
  pose proof (lex_all_keeps_glued_comment ty lit body rest Hin Hn) as E. cbv zeta in E.
  rewrite E in H. destruct (lex_all rest); [|discriminate]. inversion H. eauto.
Qed.

(* token t starts at byte o of src, is what `token` recognises there, and covers the text k *)
Definition tok_step (src : bytes) (o : nat) (t : token) (k : bytes) : Prop :=
  N.to_nat (off t) = o /\
  first_raw (skipn o src) = RComplete (typ t) (frag t) k (skipn (o + List.length k) src) /\
  covers (typ t) (frag t) k.

Fixpoint tiles (src : bytes) (o : nat) (body : list token) (ks : list bytes) : Prop :=
  match body, ks with
  | [], [] => True
  | t :: body', k :: ks' => tok_step src o t k /\ tiles src (o + List.length k) body' ks'
  | _, _ => False
  end.

Lemma lexed_tiles pre s body : lexed pre s body ->
  exists ks, List.concat ks = s /\ tiles (pre ++ s) (List.length pre) body ks.
Proof.
  induction 1 as [pre|pre ty f k rest body Hk E _ (ks & Hc & Ht)].
  - exists []. split; [reflexivity|exact I].
  - rewrite <- app_assoc, app_length in Ht. exists (k :: ks). split; [cbn; now rewrite Hc|].
    split; [|exact Ht]. repeat split.
    + cbn [mk_tok off pos_of p_off]. apply Nnat.Nat2N.id.
    + cbn [mk_tok typ frag]. rewrite skipn_app_exact, app_assoc, <- app_length, skipn_app_exact. exact E.
    + eapply first_raw_covers; eauto.
Qed.

(* lex_all_tiles: the consumed texts of the tokens, in order, are the source: no byte is
   skipped, no byte belongs to two tokens; each token is what `token` recognises at its offset;
   the final END sits at the end. *)
Theorem lex_all_tiles : forall src toks, lex_all src = Some toks ->
  exists body e ks, toks = body ++ [e] /\ e = mk_tok END [] (pos_of src) /\
                    List.concat ks = src /\ tiles src 0 body ks.
Proof.
  intros src toks H. apply lex_all_lexed in H as (body & -> & Hb).
  apply lexed_tiles in Hb as (ks & Hc & Ht). eexists body, _, ks. repeat split; assumption.
Qed.

Lemma tiles_in src : forall body o ks t, tiles src o body ks -> In t body ->
  exists o' k, tok_step src o' t k.
Proof.
  induction body as [|t0 body IH]; intros o ks t Ht Hin; [contradiction|].
  destruct ks as [|k ks]; [contradiction|]. destruct Ht as [Hs Ht].
  destruct Hin as [<-|Hin]; [eauto|]. eapply IH; eauto.
Qed.

(* every token of lex_all is what `token` recognises at its own offset *)
Corollary lex_all_token_at_offset : forall src toks t, lex_all src = Some toks -> In t toks ->
  typ t <> END ->
  exists k, first_raw (skipn (N.to_nat (off t)) src) =
            RComplete (typ t) (frag t) k (skipn (N.to_nat (off t) + List.length k) src)
            /\ covers (typ t) (frag t) k.
Proof.
  intros src toks t H Hin Hty. destruct (lex_all_tiles _ _ H) as (body & e & ks & -> & He & _ & Ht).
  apply in_app_or in Hin as [Hin|[<-|[]]]; [|subst e; cbn in Hty; congruence].
  destruct (tiles_in _ _ _ _ _ Ht Hin) as (o & k & Ho & Hf & Hc). subst o. eauto.
Qed.

(* COMMENT completeness at token boundaries: a token that starts where the source reads
   "//" body LF is a COMMENT token whose fragment is that comment's text -- after a keyword
   as after anything else *)
Theorem comment_at_boundary_is_token : forall src toks t pre body rest,
  lex_all src = Some toks -> In t toks ->
  src = pre ++ b "//" ++ body ++ nl :: rest -> no_nl body = true ->
  N.to_nat (off t) = List.length pre ->
  typ t = COMMENT /\ frag t = chomp_cr body.
Proof.
  intros src toks t pre body rest H Hin Hsrc Hn Hoff.
  assert (Hty : typ t <> END).
  { intros Hend. pose proof (positions_exact_all _ _ H) as [Hall _]. rewrite Forall_forall in Hall.
    destruct (Hall t Hin) as (_ & _ & _ & Htxt). rewrite Hend in Htxt. cbn in Htxt.
    destruct Htxt as [_ Hs]. rewrite Hoff, Hsrc, skipn_app_exact in Hs. discriminate. }
  destruct (lex_all_token_at_offset _ _ _ H Hin Hty) as (k & Hf & _).
  rewrite Hoff, Hsrc, skipn_app_exact in Hf.
  rewrite (first_raw_comment _ _ _ _ (comment_item_run_exact body rest Hn)) in Hf.
  inversion Hf. auto.
Qed.

Print Assumptions first_raw_keyword.
Print Assumptions lex_all_keeps_glued_comment.
Print Assumptions glued_comment_is_token.
Print Assumptions lex_all_tiles.
Print Assumptions lex_all_token_at_offset.
Print Assumptions comment_at_boundary_is_token.
