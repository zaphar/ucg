(* C17 support: how token positions move when text is put in front of / behind
   a source.  If [pre] ends with a line feed and lexes on its own, then lexing
   [pre ++ src] gives the tokens of [pre] (without its END) followed by the tokens
   of [src] with line + (number of LF in pre), the SAME column, and
   offset + length pre.  Text added behind a source that ends with a line feed
   does not change the earlier tokens at all. *)
From Ucg Require Import base.Bytes base.Bytes_Lemmas lex.Lex_Types lex.Vocab lex.Lex lex.Lex_Lemmas.
From UcgGen Require Import LexVocab.
Local Open Scope list_scope.

Definition shift_tok (dl doff : N) (t : token) : token :=
  {| typ := typ t; frag := frag t; line := (line t + dl)%N; col := col t; off := (off t + doff)%N |}.

Definition ends_with_newline (p : bytes) : Prop := exists q, p = q ++ [nl].

(* the END token that [lex pre] puts at the end *)
Definition end_tok_of (pre : bytes) : token := mk_tok END [] (advance ps0 pre).

Definition nt (t : token) : bool := negb (is_trivia t).

Definition res_filter (r : lex_result) : option (list token) :=
  match r with LexOk l => Some (filter nt l) | _ => None end.

Lemma lex_lexA s : lex s = res_filter (lexA ps0 s).
Proof. unfold lex. rewrite lex_all_lexA. destruct (lexA ps0 s); reflexivity. Qed.

Lemma res_filter_cons t r :
  res_filter (res_cons t r) = option_map (app (filter nt [t])) (res_filter r).
Proof. destruct r; cbn; try reflexivity. destruct (nt t); reflexivity. Qed.

(* the filtered stream of a source that lexes: its non-trivia tokens, then END *)
Lemma lex_lexed src toks : lex src = Some toks ->
  exists body, toks = filter nt body ++ [mk_tok END [] (pos_of src)] /\ lexed [] src body.
Proof.
  unfold lex. destruct (lex_all src) as [l|] eqn:E; [|discriminate]. intros H; inversion H; subst.
  apply lex_all_lexed in E as (body & -> & Hb). exists body. now rewrite filter_app.
Qed.

(** * positions shift uniformly *)

Definition pos_rel (dl doff : N) (ps ps' : pos_state) : Prop :=
  p_line ps' = (p_line ps + dl)%N /\ p_col ps' = p_col ps /\ p_off ps' = (p_off ps + doff)%N.

Lemma pos_rel_advance dl doff k : forall ps ps',
  pos_rel dl doff ps ps' -> pos_rel dl doff (advance ps k) (advance ps' k).
Proof.
  induction k as [|c k IH]; intros ps ps' H; [exact H|].
  unfold advance. cbn [fold_left]. apply IH. destruct H as (H1 & H2 & H3).
  unfold advance1, pos_rel. destruct (Ascii.eqb c nl); cbn [p_line p_col p_off];
    rewrite ?H1, ?H2, ?H3; repeat split; lia.
Qed.

Lemma mk_tok_shift dl doff ty f ps ps' :
  pos_rel dl doff ps ps' -> mk_tok ty f ps' = shift_tok dl doff (mk_tok ty f ps).
Proof. intros (H1 & H2 & H3). unfold mk_tok, shift_tok. cbn. now rewrite H1, H2, H3. Qed.

Definition res_map (g : token -> token) (r : lex_result) : lex_result :=
  match r with LexOk l => LexOk (map g l) | e => e end.

Lemma lex_from_shift dl doff fuel : forall ps ps' s,
  pos_rel dl doff ps ps' ->
  lex_from fuel ps' s = res_map (shift_tok dl doff) (lex_from fuel ps s).
Proof.
  induction fuel as [|fuel IH]; intros ps ps' s H; destruct s as [|c s];
    try reflexivity; try (cbn; now rewrite (mk_tok_shift dl doff _ _ ps ps' H)).
  rewrite !lex_from_cons. destruct (first_raw (c :: s)) as [ty f k rest| |]; try reflexivity.
  rewrite (IH _ _ rest (pos_rel_advance dl doff k _ _ H)), (mk_tok_shift dl doff _ _ ps ps' H).
  destruct (lex_from fuel (advance ps k) rest); reflexivity.
Qed.

Lemma filter_nt_shift dl doff l :
  filter nt (map (shift_tok dl doff) l) = map (shift_tok dl doff) (filter nt l).
Proof.
  induction l as [|t l IH]; [reflexivity|]. cbn [map filter].
  change (nt (shift_tok dl doff t)) with (nt t). destruct (nt t); cbn [map]; now rewrite IH.
Qed.

Lemma pos_rel_after pre :
  ends_with_newline pre ->
  pos_rel (N.of_nat (count_nl pre)) (N.of_nat (List.length pre)) ps0 (pos_of pre).
Proof.
  intros [q ->]. unfold pos_rel, pos_of. cbn [p_line p_col p_off ps0].
  rewrite since_nl_snoc. unfold is_nl. rewrite Ascii.eqb_refl. repeat split; lia.
Qed.

(** * extending an input that ends with a line feed *)

Lemma ends_nl_suffix p k rest :
  ends_with_newline p -> p = k ++ rest -> rest = [] \/ ends_with_newline rest.
Proof.
  intros [q Hq] Hp. destruct rest as [|a rest']; [left; reflexivity|right].
  assert (Hne : a :: rest' <> []) by discriminate.
  destruct (exists_last Hne) as (r' & c & E).
  rewrite E in Hp. rewrite Hp, app_assoc in Hq. apply app_inj_tail in Hq as [_ ->]. exists r'. exact E.
Qed.

Lemma ends_nl_nonempty p : ends_with_newline p -> p <> [].
Proof. intros [q ->]. destruct q; discriminate. Qed.

Lemma no_nl_ends p : ends_with_newline p -> no_nl p = false.
Proof.
  intros [q ->]. unfold no_nl. rewrite forallb_app. cbn [forallb]. unfold is_nl at 2.
  rewrite Ascii.eqb_refl. cbn [negb andb]. apply andb_false_r.
Qed.

(* literals of the table contain no line feed *)
Definition lit_no_nl (r : recogniser) : bool :=
  match r with RText _ l | RTextWS _ l => no_nl (b l) | _ => true end.

Lemma recognisers_no_nl : forallb lit_no_nl recognisers = true.
Proof. vm_compute. reflexivity. Qed.

(* a literal is no prefix of p because they differ, or because p is too short *)
Lemma strip_prefix_none l : forall p,
  strip_prefix l p = None -> lit_mismatch l p = true \/ exists l', l = p ++ l'.
Proof.
  induction l as [|c l IH]; intros [|d p]; cbn; try discriminate; [right; eauto|].
  destruct (Ascii.eqb c d) eqn:E; [|auto]. apply Ascii.eqb_eq in E; subst d.
  intros H. destruct (IH _ H) as [?|[l' ->]]; eauto.
Qed.

Lemma strip_prefix_none_ext l p x :
  no_nl l = true -> ends_with_newline p -> strip_prefix l p = None -> strip_prefix l (p ++ x) = None.
Proof.
  intros Hl Hp H. destruct (strip_prefix_none _ _ H) as [H1|[l' ->]]; [now apply lit_mismatch_sound|].
  unfold no_nl in Hl. rewrite forallb_app in Hl. apply andb_true_iff in Hl as [Hl _].
  apply no_nl_ends in Hp. unfold no_nl in Hp. congruence.
Qed.

(* a run that stops inside s is not changed by what comes after s; one that reaches the end
   of s goes on *)
Lemma span_ext f s x a r : span f s = (a, r) -> r <> [] -> span f (s ++ x) = (a, r ++ x).
Proof.
  intros E Hr. rewrite (span_app _ _ _ _ E), <- app_assoc.
  apply span_spec; [eapply span_all; eauto|]. pose proof (span_stop _ _ _ _ E).
  destruct r; [congruence|assumption].
Qed.

Lemma span_ext_end f s x a :
  span f s = (a, []) -> span f (s ++ x) = (a ++ fst (span f x), snd (span f x)).
Proof.
  intros E. rewrite (span_app _ _ _ _ E), app_nil_r. destruct (span f x) as [a' r'] eqn:Ex. cbn [fst snd].
  rewrite (span_app _ _ _ _ Ex), app_assoc. apply span_spec; [|eapply span_stop; eauto].
  rewrite forallb_app, (span_all _ _ _ _ E). eapply span_all; eauto.
Qed.

Lemma escq_ext s x f k r :
  escq false s = Some (f, k, r) -> escq false (s ++ x) = Some (f, k, r ++ x).
Proof.
  intros H. apply escq_inv in H as (-> & body & -> & Hc & ->).
  rewrite <- !app_assoc. cbn [app]. now apply escq_closed.
Qed.

Lemma until_eol_ext s x : forall a r,
  until_eol s = (a, r) -> r <> [] -> until_eol (s ++ x) = (a, r ++ x).
Proof.
  induction s as [|c s IH]; intros a r H Hr.
  - cbn in H. inversion H; subst. congruence.
  - rewrite until_eol_cons in H. cbn [app]. rewrite until_eol_cons.
    destruct (Ascii.eqb c nl) eqn:E1; cbn [orb] in H |- *; [inversion H; reflexivity|].
    destruct (Ascii.eqb c cr) eqn:E2; cbn [andb] in H |- *.
    + destruct s as [|d s].
      * cbn in H. inversion H; subst. congruence.
      * cbn [app starts_with_nl] in H |- *. destruct (Ascii.eqb d nl); [inversion H; reflexivity|].
        destruct (until_eol (d :: s)) as [a' r'] eqn:E. inversion H; subst.
        change (d :: s ++ x) with ((d :: s) ++ x). now rewrite (IH _ _ eq_refl Hr).
    + destruct (until_eol s) as [a' r'] eqn:E. inversion H; subst. now rewrite (IH _ _ eq_refl Hr).
Qed.

Lemma eat_eol_ext r x e r2 :
  r <> [] -> at_line_end r -> eat_eol r = (e, r2) -> eat_eol (r ++ x) = (e, r2 ++ x).
Proof.
  intros Hr Hl H. destruct r as [|c r]; [congruence|]. cbn [at_line_end] in Hl.
  unfold eat_eol in H |- *. cbn [app].
  destruct (Ascii.eqb c nl) eqn:E1; [inversion H; reflexivity|].
  destruct Hl as [->|[-> Hs]]; [rewrite Ascii.eqb_refl in E1; discriminate|].
  rewrite Ascii.eqb_refl in H |- *. destruct r as [|d r]; [discriminate|]. cbn [starts_with_nl] in Hs. rewrite Hs in H.
  cbn [app]. rewrite Hs. inversion H; reflexivity.
Qed.

Lemma comment_run_ext s x : ends_with_newline s ->
  comment_run (s ++ x) =
  match comment_run s with Some (bd, k, rest) => Some (bd, k, rest ++ x) | None => None end.
Proof.
  intros Hs. unfold comment_run.
  destruct (strip_prefix (b "//") s) as [r0|] eqn:E.
  2:{ now rewrite (strip_prefix_none_ext (b "//") s x eq_refl Hs E). }
  rewrite (strip_prefix_ext _ _ _ x E). apply strip_prefix_some in E.
  destruct (until_eol r0) as [a r] eqn:E1. destruct (eat_eol r) as [eol r2] eqn:E2.
  destruct (until_eol_inv _ _ _ E1) as (Ha & Hn & Hl).
  (* the comment text stops before the final line feed *)
  assert (Hr : r <> []).
  { intros ->. rewrite app_nil_r in Ha. subst r0.
    destruct (ends_nl_suffix s (b "//") a Hs E) as [->|Hea]; [|apply no_nl_ends in Hea; congruence].
    rewrite app_nil_r in E. subst s. destruct Hs as [q Hq]. destruct q as [|? [|? [|? ?]]]; discriminate. }
  rewrite (until_eol_ext _ x _ _ E1 Hr), (eat_eol_ext _ x _ _ Hr Hl E2). reflexivity.
Qed.

Lemma ws_run_ext s x k rest : ws_run s = Some (k, rest) ->
  ws_run (s ++ x) = Some (k, rest ++ x) \/
  (rest = [] /\ ws_run (s ++ x) = Some (k ++ fst (span is_ws x), snd (span is_ws x))).
Proof.
  unfold ws_run. destruct s as [|c s]; [discriminate|]. cbn [app].
  destruct (is_ws c) eqn:Ec; [|discriminate]. intros H. injection H as H.
  change (c :: s ++ x) with ((c :: s) ++ x). destruct rest as [|d rest].
  - right. split; [reflexivity|]. now rewrite (span_ext_end is_ws (c :: s) x _ H).
  - left. rewrite (span_ext is_ws (c :: s) x _ _ H); [reflexivity|discriminate].
Qed.

Lemma ws_run_none_ext s x : s <> [] -> ws_run s = None -> ws_run (s ++ x) = None.
Proof.
  unfold ws_run. destruct s as [|c s]; [congruence|]. cbn [app]. intros _.
  destruct (is_ws c); [discriminate|reflexivity].
Qed.

(* how the outcome on p relates to the outcome on p ++ x: the same token, unless it is a
   run of whitespace that reaches the end of p *)
Definition ext_ok (r0 rx : rres) (x : bytes) : Prop :=
  match r0 with
  | RFail => rx = RFail
  | RIncomplete => True
  | RComplete ty f k rest =>
      rx = RComplete ty f k (rest ++ x) \/
      (rest = [] /\ rx = RComplete ty f (k ++ fst (span is_ws x)) (snd (span is_ws x)))
  end.

Lemma span_rest_nonempty f s a r :
  ends_with_newline s -> f nl = false -> span f s = (a, r) -> r <> [].
Proof.
  intros [q ->] Hf H Hr. subst r. pose proof (span_app _ _ _ _ H) as Ha. rewrite app_nil_r in Ha.
  pose proof (span_all _ _ _ _ H) as Hall. rewrite <- Ha, forallb_app in Hall. cbn [forallb] in Hall.
  rewrite Hf in Hall. cbn [andb] in Hall. now rewrite andb_false_r in Hall.
Qed.

Lemma run_rec_ext r p x :
  ends_with_newline p -> lit_no_nl r = true -> ext_ok (run_rec r p) (run_rec r (p ++ x)) x.
Proof.
  intros Hp Hl. pose proof (ends_nl_nonempty p Hp) as Hne.
  (* strtok, plain literal, keyword, digittok, comment, barewordtok, whitespace, eoi *)
  destruct r; cbn [run_rec].
  - destruct p as [|c p]; [congruence|]. cbn [app]. destruct (Ascii.eqb c dq); [|reflexivity].
    destruct (escq false p) as [[[f k] r]|] eqn:E; [|exact I].
    rewrite (escq_ext _ x _ _ _ E). left. reflexivity.
  - destruct (strip_prefix (b lit) p) as [r|] eqn:E.
    + rewrite (strip_prefix_ext _ _ _ x E). left. reflexivity.
    + cbn in Hl. now rewrite (strip_prefix_none_ext _ _ x Hl Hp E).
  - cbn in Hl. destruct (strip_prefix (b lit) p) as [r1|] eqn:E.
    2:{ now rewrite (strip_prefix_none_ext _ _ x Hl Hp E). }
    rewrite (strip_prefix_ext _ _ _ x E). apply strip_prefix_some in E.
    assert (Hr1 : ends_with_newline r1).
    { destruct (ends_nl_suffix p (b lit) r1 Hp E) as [->|]; [|assumption].
      rewrite app_nil_r in E. subst p. apply no_nl_ends in Hp. congruence. }
    destruct (ws_run r1) as [[k rest]|] eqn:Ew.
    + destruct kw_lookahead_only.
      * (* only looked at: the keyword token ends inside p whatever follows *)
        destruct (ws_run_ext _ x _ _ Ew) as [->|[_ ->]]; left; reflexivity.
      * destruct (ws_run_ext _ x _ _ Ew) as [->|[-> ->]].
        -- left. reflexivity.
        -- right. split; [reflexivity|]. now rewrite app_assoc.
    + rewrite (ws_run_none_ext _ x (ends_nl_nonempty _ Hr1) Ew), (comment_run_ext _ x Hr1).
      destruct (comment_run r1) as [[[bd k] rest]|]; [|reflexivity].
      destruct kw_lookahead_only; left; reflexivity.
  - destruct p as [|c p]; [congruence|]. cbn [app]. destruct (is_digit c) eqn:Ec; [|reflexivity].
    destruct (span is_digit (c :: p)) as [d r] eqn:E.
    change (c :: p ++ x) with ((c :: p) ++ x).
    rewrite (span_ext _ _ x _ _ E (span_rest_nonempty _ _ _ _ Hp eq_refl E)). left. reflexivity.
  - rewrite (comment_run_ext _ x Hp). destruct (comment_run p) as [[[bd k] rest]|]; [left|]; reflexivity.
  - destruct p as [|c p]; [congruence|]. cbn [app]. destruct (is_alpha c) eqn:Ec; [|reflexivity].
    destruct (span is_symbol_char (c :: p)) as [d r] eqn:E.
    change (c :: p ++ x) with ((c :: p) ++ x).
    rewrite (span_ext _ _ x _ _ E (span_rest_nonempty _ _ _ _ Hp eq_refl E)). left. reflexivity.
  - destruct (ws_run p) as [[k rest]|] eqn:Ew.
    + destruct (ws_run_ext _ x _ _ Ew) as [->|[-> ->]]; [left|right]; auto.
    + now rewrite (ws_run_none_ext _ x Hne Ew).
  - destruct p as [|c p]; [congruence|]. reflexivity.
Qed.

Lemma first_raw_ext p x :
  ends_with_newline p -> ext_ok (first_raw p) (first_raw (p ++ x)) x.
Proof.
  intros Hp. unfold first_raw. pose proof recognisers_no_nl as Hrs. revert Hrs.
  induction recognisers as [|r rs IH]; intros Hrs; [reflexivity|].
  cbn in Hrs. apply andb_true_iff in Hrs as [Hr Hrs]. rewrite !alt_cons.
  pose proof (run_rec_ext r p x Hp Hr) as H.
  destruct (run_rec r p) as [ty f k rest| |]; cbn [ext_ok] in H |- *.
  - destruct H as [->|[-> ->]]; [left|right]; auto.
  - rewrite H. now apply IH.
  - exact I.
Qed.

(** * concatenation *)

(* leading whitespace of the second part may be absorbed by the last trivia of the first *)
Lemma lexA_skip_ws ps src :
  res_filter (lexA ps src) =
  res_filter (lexA (advance ps (fst (span is_ws src))) (snd (span is_ws src))).
Proof.
  destruct (span is_ws src) as [w x'] eqn:E. cbn [fst snd].
  pose proof (span_app _ _ _ _ E) as Ha.
  destruct w as [|c w]; [cbn in Ha; now subst|].
  pose proof (span_all _ _ _ _ E) as Hall. cbn in Hall. apply andb_true_iff in Hall as [Hc _].
  assert (Hw : ws_run src = Some (c :: w, x')).
  { unfold ws_run. rewrite Ha. cbn [app]. rewrite Hc. change (c :: w ++ x') with ((c :: w) ++ x').
    now rewrite <- Ha, E. }
  rewrite (lexA_step ps src) by (intros ->; discriminate).
  rewrite (first_raw_ws _ _ _ Hw), res_filter_cons.
  change (filter nt [mk_tok WS [] ps]) with (@nil token). now rewrite option_map_app_nil.
Qed.

Lemma lex_concat pre0 p body : lexed pre0 p body -> p = [] \/ ends_with_newline p ->
  forall src, res_filter (lexA (pos_of pre0) (p ++ src)) =
              option_map (app (filter nt body)) (res_filter (lexA (pos_of (pre0 ++ p)) src)).
Proof.
  induction 1 as [pre0|pre0 ty f k rest body Hk E Hb IH]; intros Hp src.
  - rewrite app_nil_r. cbn [filter app]. now rewrite option_map_app_nil.
  - destruct Hp as [Hp|Hp]; [apply app_eq_nil in Hp as [? _]; congruence|].
    pose proof (first_raw_ext _ src Hp) as Hext. rewrite E in Hext. cbn [ext_ok] in Hext.
    rewrite lexA_step by (destruct k; [congruence|discriminate]).
    destruct Hext as [Hext|[-> Hext]]; rewrite Hext, res_filter_cons, advance_pos_of.
    + (* the token ends inside (or exactly at the end of) p *)
      rewrite (IH (ends_nl_suffix _ _ _ Hp eq_refl)), option_map_app_app, app_assoc.
      change (mk_tok ty f (pos_of pre0) :: body) with ([mk_tok ty f (pos_of pre0)] ++ body).
      now rewrite filter_app.
    + (* a whitespace run reaches the end of p and continues into src *)
      apply lexed_nil_inv in Hb. subst body. rewrite !app_nil_r.
      rewrite (lexA_skip_ws (pos_of (pre0 ++ k)) src), advance_pos_of, app_assoc. reflexivity.
Qed.

(* General form: covers success and failure of [src].
   Side conditions: [pre] ends with LF and lexes on its own. *)
Theorem lex_prefix_general : forall pre src tpre,
  ends_with_newline pre -> lex pre = Some tpre ->
  lex (pre ++ src) =
  option_map (fun ts => removelast tpre ++
                        map (shift_tok (N.of_nat (count_nl pre)) (N.of_nat (List.length pre))) ts)
             (lex src).
Proof.
  intros pre src tpre Hp Hpre. apply lex_lexed in Hpre as (body & -> & Hb).
  rewrite !lex_lexA, pos_of_nil, (lex_concat _ _ _ Hb (or_intror Hp) src), removelast_last.
  unfold lexA at 1. cbn [app]. rewrite (lex_from_shift _ _ _ _ _ src (pos_rel_after pre Hp)).
  fold (lexA ps0 src). rewrite <- pos_of_nil. destruct (lexA ps0 src); cbn; try reflexivity.
  now rewrite filter_nt_shift.
Qed.

(* C17, prefix: statements put in front (ending with a line feed) move every later
   token down by the number of line feeds added, keep its column, and move its
   byte offset by the number of bytes added. *)
Theorem lex_prefix_shift : forall pre src tp e ts,
  ends_with_newline pre ->
  lex pre = Some (tp ++ [e]) ->
  lex src = Some ts ->
  lex (pre ++ src) =
  Some (tp ++ map (shift_tok (N.of_nat (count_nl pre)) (N.of_nat (List.length pre))) ts).
Proof.
  intros pre src tp e ts Hp Hpre Hsrc.
  rewrite (lex_prefix_general pre src _ Hp Hpre), Hsrc. cbn. now rewrite removelast_last.
Qed.

(* the dropped token [e] is necessarily the END token of pre *)
Lemma lex_last_is_end : forall pre tp e, lex pre = Some (tp ++ [e]) -> e = end_tok_of pre.
Proof.
  intros pre tp e H. apply lex_lexed in H as (body & H & _). apply app_inj_tail in H as [_ ->].
  unfold end_tok_of. now rewrite advance_spec.
Qed.

(* src fails => pre ++ src fails; and conversely every token list of pre ++ src splits *)
Corollary lex_prefix_error : forall pre src tpre,
  ends_with_newline pre -> lex pre = Some tpre -> lex src = None -> lex (pre ++ src) = None.
Proof. intros pre src tpre Hp Hpre Hs. now rewrite (lex_prefix_general pre src _ Hp Hpre), Hs. Qed.

Corollary lex_prefix_inv : forall pre src tpre l,
  ends_with_newline pre -> lex pre = Some tpre -> lex (pre ++ src) = Some l ->
  exists ts, lex src = Some ts /\
    l = removelast tpre ++ map (shift_tok (N.of_nat (count_nl pre)) (N.of_nat (List.length pre))) ts.
Proof.
  intros pre src tpre l Hp Hpre H. rewrite (lex_prefix_general pre src _ Hp Hpre) in H.
  destruct (lex src) as [ts|]; [|discriminate]. inversion H. eauto.
Qed.

(* C17, suffix: text added AFTER a source that ends with a line feed does not
   move or change any earlier token (the old END token is replaced by the
   shifted tokens of the added text). *)
Theorem lex_suffix_irrelevant : forall src post ts e tpost,
  ends_with_newline src -> lex src = Some (ts ++ [e]) -> lex post = Some tpost ->
  lex (src ++ post) =
  Some (ts ++ map (shift_tok (N.of_nat (count_nl src)) (N.of_nat (List.length src))) tpost).
Proof. intros src post ts e tpost Hs H1 H2. eapply lex_prefix_shift; eauto. Qed.

Corollary lex_suffix_irrelevant_ex : forall src post ts e tpost,
  ends_with_newline src -> lex src = Some (ts ++ [e]) -> lex post = Some tpost ->
  exists rest, lex (src ++ post) = Some (ts ++ rest).
Proof. intros. eexists. eapply lex_suffix_irrelevant; eauto. Qed.

(* even when the added text does not lex, nothing else can happen: *)
Corollary lex_suffix_prefix_of_any : forall src post ts e l,
  ends_with_newline src -> lex src = Some (ts ++ [e]) -> lex (src ++ post) = Some l ->
  exists rest, l = ts ++ rest.
Proof.
  intros src post ts e l Hs H1 H2. destruct (lex_prefix_inv _ _ _ _ Hs H1 H2) as (tp & _ & ->).
  rewrite removelast_last. eauto.
Qed.

(* the line-feed condition is needed: without it tokens merge across the seam and
   a trailing comment swallows the next line *)
Lemma lex_prefix_shift_needs_newline_refuted :
  exists pre src tp e ts, lex pre = Some (tp ++ [e]) /\ lex src = Some ts /\
    lex (pre ++ src) <>
    Some (tp ++ map (shift_tok (N.of_nat (count_nl pre)) (N.of_nat (List.length pre))) ts).
Proof.
  exists (b "a"), (b "b"), [mk_tok BAREWORD (b "a") ps0], (end_tok_of (b "a")),
         [mk_tok BAREWORD (b "b") ps0; end_tok_of (b "b")].
  repeat split; vm_compute; congruence.
Qed.

Example ex_prefix_shift :
  let pre := b "let a = 1;" ++ [nl] ++ b "// note" ++ [cr; nl] in
  let src := b "  let b = nosuch;" ++ [nl] in
  map (fun t => (line t, col t, off t)) (filter (fun t => bytes_eqb (frag t) (b "nosuch")) 
     (match lex src with Some l => l | None => [] end)) = [(1, 11, 10)%N] /\
  map (fun t => (line t, col t, off t)) (filter (fun t => bytes_eqb (frag t) (b "nosuch")) 
     (match lex (pre ++ src) with Some l => l | None => [] end)) = [(3, 11, 30)%N].
Proof. split; vm_compute; reflexivity. Qed.

Print Assumptions lex_prefix_general.
Print Assumptions lex_prefix_shift.
Print Assumptions lex_last_is_end.
Print Assumptions lex_prefix_error.
Print Assumptions lex_prefix_inv.
Print Assumptions lex_suffix_irrelevant.
Print Assumptions lex_suffix_irrelevant_ex.
Print Assumptions lex_suffix_prefix_of_any.
Print Assumptions lex_prefix_shift_needs_newline_refuted.
