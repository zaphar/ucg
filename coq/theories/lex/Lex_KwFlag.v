(* lex_filtered_unchanged: whether the keyword recognisers consume the whitespace / comment
   after the keyword (source before commit b648ec7, flag false) or only look at it (current
   source, flag true) makes no difference to what tokenize(.., None) returns -- types, fragments
   AND positions.  Only lex_all (the comment-map path) differs. *)
From Ucg Require Import base.Bytes base.Bytes_Lemmas lex.Lex_Types lex.Vocab lex.Lex lex.Lex_Lemmas lex.Lex_Shift.
From UcgGen Require Import LexVocab.
Local Open Scope list_scope.

(* the model with the flag as a parameter *)
Definition run_rec_g (kw : bool) (r : recogniser) (s : bytes) : rres :=
  match r with
  | RTextWS ty lit =>
      let l := b lit in
      match strip_prefix l s with
      | Some r1 =>
          match ws_run r1 with
          | Some (k, rest) => if kw then RComplete ty l l r1 else RComplete ty l (l ++ k) rest
          | None =>
              match comment_run r1 with
              | Some (_, k, rest) => if kw then RComplete ty l l r1 else RComplete ty l (l ++ k) rest
              | None => RFail
              end
          end
      | None => RFail
      end
  | _ => run_rec r s
  end.

Fixpoint alt_g (kw : bool) (rs : list recogniser) (s : bytes) : rres :=
  match rs with
  | [] => RFail
  | r :: rs' => match run_rec_g kw r s with RFail => alt_g kw rs' s | x => x end
  end.

Fixpoint lex_from_g (kw : bool) (fuel : nat) (ps : pos_state) (s : bytes) : lex_result :=
  match s with
  | [] => LexOk [mk_tok END [] ps]
  | _ :: _ =>
      match fuel with
      | O => OutOfFuel
      | S f =>
          match alt_g kw recognisers s with
          | RComplete ty fr k rest =>
              match lex_from_g kw f (advance ps k) rest with
              | LexOk l => LexOk (mk_tok ty fr ps :: l)
              | e => e
              end
          | _ => LexErr
          end
      end
  end.

Definition lex_g (kw : bool) (s : bytes) : option (list token) :=
  res_filter (lex_from_g kw (List.length s + 1) ps0 s).

(* the parametrised copy IS the model at the generated flag *)
Lemma run_rec_g_model r s : run_rec_g kw_lookahead_only r s = run_rec r s.
Proof. destruct r; reflexivity. Qed.

Lemma alt_g_model rs s : alt_g kw_lookahead_only rs s = alt rs s.
Proof. induction rs as [|r rs IH]; [reflexivity|]. cbn [alt_g alt]. now rewrite run_rec_g_model, IH. Qed.

Lemma lex_from_g_model fuel : forall ps s, lex_from_g kw_lookahead_only fuel ps s = lex_from fuel ps s.
Proof.
  induction fuel as [|fuel IH]; intros ps s; destruct s as [|c s]; try reflexivity.
  cbn [lex_from_g lex_from]. unfold first_tok, first_raw. rewrite alt_g_model.
  destruct (alt recognisers (c :: s)); try reflexivity. now rewrite IH.
Qed.

Lemma lex_g_model s : lex_g kw_lookahead_only s = lex s.
Proof. unfold lex_g. rewrite lex_from_g_model. symmetry. apply lex_lexA. Qed.

(* how the two variants of one recogniser step relate *)
Definition kw_rel (x_model x_cons : rres) : Prop :=
  x_cons = x_model \/
  exists ty l r1 k rest,
    x_model = RComplete ty l l r1 /\ x_cons = RComplete ty l (l ++ k) rest /\
    (ws_run r1 = Some (k, rest) \/ exists bd, ws_run r1 = None /\ comment_run r1 = Some (bd, k, rest)).

Lemma run_rec_kw_rel r s : kw_rel (run_rec_g true r s) (run_rec_g false r s).
Proof.
  destruct r; try (left; reflexivity). cbn [run_rec_g].
  destruct (strip_prefix (b lit) s) as [r1|]; [|left; reflexivity].
  destruct (ws_run r1) as [[k rest]|] eqn:Ew.
  - right. exists t, (b lit), r1, k, rest. auto.
  - destruct (comment_run r1) as [[[bd k] rest]|] eqn:Ec; [|left; reflexivity].
    right. exists t, (b lit), r1, k, rest. eauto 6.
Qed.

Lemma alt_kw_rel rs s : kw_rel (alt_g true rs s) (alt_g false rs s).
Proof.
  induction rs as [|r rs IH]; [left; reflexivity|]. cbn [alt_g].
  destruct (run_rec_kw_rel r s) as [E|(ty & l & r1 & k & rest & E1 & E2 & H)].
  - rewrite E. destruct (run_rec_g true r s); [left; reflexivity|exact IH|left; reflexivity].
  - rewrite E1, E2. right. exists ty, l, r1, k, rest. auto.
Qed.

Lemma lex_from_g_cons kw fuel ps c s :
  lex_from_g kw (S fuel) ps (c :: s) =
  match alt_g kw recognisers (c :: s) with
  | RComplete ty f k rest => res_cons (mk_tok ty f ps) (lex_from_g kw fuel (advance ps k) rest)
  | _ => LexErr
  end.
Proof. cbn [lex_from_g]. destruct (alt_g kw recognisers (c :: s)); reflexivity. Qed.

(* the consuming variant (flag false) against the model *)
Lemma lex_from_consume_same fuel : forall ps s,
  List.length s < fuel -> res_filter (lex_from_g false fuel ps s) = res_filter (lexA ps s).
Proof.
  induction fuel as [|fuel IH]; intros ps s Hlen; [lia|].
  destruct s as [|c s]; [reflexivity|].
  rewrite lex_from_g_cons, lexA_step by discriminate.
  pose proof (alt_g_model recognisers (c :: s)) as Htrue. rewrite kw_looks_ahead in Htrue.
  fold (first_raw (c :: s)) in Htrue.
  destruct (alt_kw_rel recognisers (c :: s)) as [E|(ty & l & r1 & k & rest & E1 & E2 & H)].
  - rewrite E, Htrue. destruct (first_raw (c :: s)) as [ty f k rest| |] eqn:Ea; try reflexivity.
    destruct (first_raw_shorter (c :: s) _ _ _ _ ltac:(discriminate) Ea) as (_ & _ & Hlt).
    cbn in Hlen, Hlt. now rewrite !res_filter_cons, IH by lia.
  - rewrite E2. rewrite Htrue in E1. rewrite E1.
    destruct (first_raw_shorter (c :: s) _ _ _ _ ltac:(discriminate) E1) as (_ & _ & Hlt).
    (* the model lexes one trivia token here: exactly what the other variant swallowed *)
    assert (Hf : exists tty tf, first_raw r1 = RComplete tty tf k rest /\ trivia_ty tty = true).
    { destruct H as [H|(bd & _ & H)].
      - exists WS, []. split; [now apply first_raw_ws|reflexivity].
      - exists COMMENT, bd. split; [now apply first_raw_comment|reflexivity]. }
    destruct Hf as (tty & tf & Hf & Htriv).
    assert (Hne : r1 <> []) by (destruct H as [H|(bd & _ & H)]; intros ->; discriminate).
    destruct (first_raw_shorter _ _ _ _ _ Hne Hf) as (_ & _ & Hlt2). cbn in Hlen, Hlt.
    rewrite (lexA_step _ r1 Hne), Hf, !res_filter_cons, IH, advance_app by lia.
    assert (Hnil : filter nt [mk_tok tty tf (advance ps l)] = []).
    { cbn. unfold nt, is_trivia. cbn [typ mk_tok]. destruct tty; cbn in Htriv; try discriminate; reflexivity. }
    now rewrite Hnil, option_map_app_nil.
Qed.

Theorem lex_filtered_unchanged : forall kw s, lex_g kw s = lex s.
Proof.
  intros kw s. destruct kw.
  - rewrite <- kw_looks_ahead. apply lex_g_model.
  - unfold lex_g. rewrite lex_from_consume_same by lia. symmetry. apply lex_lexA.
Qed.

Corollary lex_flag_irrelevant : forall s, lex_g true s = lex_g false s.
Proof. intros s. now rewrite !lex_filtered_unchanged. Qed.

Print Assumptions lex_filtered_unchanged.
Print Assumptions lex_flag_irrelevant.
