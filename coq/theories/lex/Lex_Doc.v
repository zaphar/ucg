(* C20/C17 support: token positions are positions of the document, in the tokenizer's units
   (1-based line, 1-based column in BYTES), for a notion of "line" and "valid position" that
   is defined without any reference to the lexer. *)
From Coq Require Import Sorting.Sorted.
From Ucg Require Import base.Bytes base.Bytes_Lemmas lex.Lex_Types lex.Vocab lex.Lex lex.Lex_Lemmas
                        lex.Lex_Shift lex.Lex_Comments.
From UcgGen Require Import LexVocab.
Local Open Scope list_scope.

(** * lines and valid positions of a byte string *)

(* split at LF; the LF is not part of a line, a CR is kept; a text ending in LF has a last,
   empty line; the empty text has one empty line *)
Fixpoint lines_of (s : bytes) : list bytes :=
  match s with
  | [] => [[]]
  | c :: s' =>
      if is_nl c then [] :: lines_of s'
      else match lines_of s' with
           | l :: ls => (c :: l) :: ls
           | [] => [[c]]
           end
  end.

(* the text of 1-based line l *)
Definition line_text (src : bytes) (l : nat) : bytes := nth (l - 1) (lines_of src) [].

(* (l, c), both 1-based, c in bytes, is a position of src; c may be one past the end of the
   line (the END token, a token directly before the LF ends there) *)
Definition valid_pos (src : bytes) (l c : nat) : Prop :=
  1 <= l <= List.length (lines_of src) /\ 1 <= c <= List.length (line_text src l) + 1.

(* the part of a text before its first LF *)
Definition first_line (k : bytes) : bytes := hd [] (lines_of k).

Lemma lines_of_nonempty s : lines_of s <> [].
Proof. destruct s as [|c s]; cbn; [discriminate|]. destruct (is_nl c); [discriminate|]. destruct (lines_of s); discriminate. Qed.

Lemma lines_of_cons c s :
  lines_of (c :: s) = if is_nl c then [] :: lines_of s
                      else (c :: hd [] (lines_of s)) :: tl (lines_of s).
Proof.
  cbn [lines_of]. destruct (is_nl c); [reflexivity|].
  pose proof (lines_of_nonempty s). destruct (lines_of s); [congruence|reflexivity].
Qed.

Lemma lines_of_length s : List.length (lines_of s) = S (count_nl s).
Proof.
  induction s as [|c s IH]; [reflexivity|]. rewrite lines_of_cons. unfold count_nl in *. cbn [filter].
  destruct (is_nl c); cbn [List.length]; [now rewrite IH|].
  pose proof (lines_of_nonempty s). destruct (lines_of s); [congruence|]. cbn in IH |- *. exact IH.
Qed.

(* appending: the last line of a is continued by the first line of b *)
Lemma lines_of_app a : forall b0,
  lines_of (a ++ b0) =
  removelast (lines_of a) ++ (last (lines_of a) [] ++ hd [] (lines_of b0)) :: tl (lines_of b0).
Proof.
  induction a as [|c a IH]; intros b0.
  - cbn. pose proof (lines_of_nonempty b0). destruct (lines_of b0); [congruence|reflexivity].
  - cbn [app]. rewrite !lines_of_cons, IH. pose proof (lines_of_nonempty a) as Hne.
    destruct (is_nl c).
    + destruct (lines_of a) as [|l ls] eqn:E; [congruence|]. reflexivity.
    + destruct (lines_of a) as [|l ls] eqn:E; [congruence|]. cbn [hd tl].
      destruct ls as [|l2 ls]; reflexivity.
Qed.

Lemma last_line_length a : List.length (last (lines_of a) []) = since_nl a.
Proof.
  induction a as [|c a IH] using rev_ind; [reflexivity|].
  rewrite since_nl_snoc, lines_of_app. rewrite last_app_ne by discriminate.
  cbn [lines_of]. destruct (is_nl c); cbn [hd tl last].
  - reflexivity.
  - rewrite app_length, IH. cbn. lia.
Qed.

(* the line on which a prefix ends: its own last line followed by the first line of the rest *)
Lemma line_at_prefix a b0 :
  nth (count_nl a) (lines_of (a ++ b0)) [] = last (lines_of a) [] ++ first_line b0.
Proof.
  rewrite lines_of_app.
  assert (Hl : List.length (removelast (lines_of a)) = count_nl a).
  { rewrite (removelast_length _ (lines_of_nonempty a)), lines_of_length. lia. }
  rewrite app_nth2 by lia. rewrite Hl, Nat.sub_diag. reflexivity.
Qed.

Lemma first_line_cons c k :
  first_line (c :: k) = if is_nl c then [] else c :: first_line k.
Proof. unfold first_line. rewrite lines_of_cons. destruct (is_nl c); reflexivity. Qed.

Lemma first_line_app_le k r : List.length (first_line k) <= List.length (first_line (k ++ r)).
Proof.
  induction k as [|c k IH]; [cbn; lia|]. cbn [app]. rewrite !first_line_cons.
  destruct (is_nl c); cbn; lia.
Qed.

Lemma first_line_no_nl k : no_nl k = true -> first_line k = k.
Proof.
  induction k as [|c k IH]; [reflexivity|]. unfold no_nl. cbn [forallb]. intros H.
  apply andb_true_iff in H as [Hc Hk]. rewrite first_line_cons.
  apply negb_true_iff in Hc. rewrite Hc. now rewrite (IH Hk).
Qed.

(* a position computed from a prefix (what token_ok states) is a valid position, and the text
   that follows the prefix up to the next LF lies on that line *)
Lemma prefix_position_valid pre rest :
  valid_pos (pre ++ rest) (1 + count_nl pre) (1 + since_nl pre) /\
  List.length (line_text (pre ++ rest) (1 + count_nl pre)) =
  since_nl pre + List.length (first_line rest).
Proof.
  assert (Hlen : List.length (line_text (pre ++ rest) (1 + count_nl pre)) =
                 since_nl pre + List.length (first_line rest)).
  { unfold line_text. replace (1 + count_nl pre - 1) with (count_nl pre) by lia.
    now rewrite line_at_prefix, app_length, last_line_length. }
  split; [|exact Hlen]. unfold valid_pos. rewrite Hlen, lines_of_length, count_nl_app. lia.
Qed.

(** * (1) every token position is a valid position of the document *)

Theorem token_position_in_document : forall src toks t,
  lex_all src = Some toks -> In t toks ->
  valid_pos src (N.to_nat (line t)) (N.to_nat (col t)).
Proof.
  intros src toks t H Hin. pose proof (positions_exact_all _ _ H) as [Hall _].
  rewrite Forall_forall in Hall. destruct (Hall t Hin) as (Ho & Hl & Hc & _).
  rewrite Hl, Hc, !Nnat.Nat2N.id.
  rewrite <- (firstn_skipn (N.to_nat (off t)) src) at 1.
  apply prefix_position_valid.
Qed.

Corollary token_position_in_document_lex : forall src toks t,
  lex src = Some toks -> In t toks ->
  valid_pos src (N.to_nat (line t)) (N.to_nat (col t)).
Proof.
  intros src toks t H Hin. unfold lex in H. destruct (lex_all src) as [l|] eqn:E; [|discriminate].
  inversion H; subst. apply filter_In in Hin as [Hin _]. eapply token_position_in_document; eauto.
Qed.

(** * (2) the extent of a token on its line *)

(* General form, for every token but END: k is the text the token covers (lex_all_tiles /
   covers); the part of k before its first LF lies on the token's line, i.e. ends at most one
   past the end of the line. *)
Theorem token_first_line_on_line : forall src toks t,
  lex_all src = Some toks -> In t toks -> typ t <> END ->
  exists k,
    first_raw (skipn (N.to_nat (off t)) src) =
      RComplete (typ t) (frag t) k (skipn (N.to_nat (off t) + List.length k) src) /\
    covers (typ t) (frag t) k /\
    N.to_nat (col t) + List.length (first_line k)
      <= List.length (line_text src (N.to_nat (line t))) + 1.
Proof.
  intros src toks t H Hin Hty.
  destruct (lex_all_token_at_offset _ _ _ H Hin Hty) as (k & Hf & Hc).
  exists k. split; [exact Hf|]. split; [exact Hc|].
  pose proof (positions_exact_all _ _ H) as [Hall _].
  rewrite Forall_forall in Hall. destruct (Hall t Hin) as (Ho & Hl & Hcol & _).
  pose proof (first_raw_app _ _ _ _ _ Hf) as Happ.
  rewrite Hl, Hcol, !Nnat.Nat2N.id.
  rewrite <- (firstn_skipn (N.to_nat (off t)) src) at 2.
  destruct (prefix_position_valid (firstn (N.to_nat (off t)) src) (skipn (N.to_nat (off t)) src)) as [_ ->].
  rewrite Happ. pose proof (first_line_app_le k (skipn (N.to_nat (off t) + List.length k) src)). lia.
Qed.

(* a token whose covered text contains no LF lies on its line as a whole *)
Corollary token_extent_on_line_k : forall src toks t,
  lex_all src = Some toks -> In t toks -> typ t <> END ->
  exists k, covers (typ t) (frag t) k /\
    (no_nl k = true ->
     N.to_nat (col t) + List.length k <= List.length (line_text src (N.to_nat (line t))) + 1).
Proof.
  intros src toks t H Hin Hty. destruct (token_first_line_on_line _ _ _ H Hin Hty) as (k & _ & Hc & Hle).
  exists k. split; [exact Hc|]. intros Hn. now rewrite (first_line_no_nl k Hn) in Hle.
Qed.

(* which tokens are those?  every token except QUOTED, WS, COMMENT covers exactly its
   fragment, and that fragment has no LF *)
Lemma wf_plain_no_nl ty f :
  wf_tk (ty, f) = true -> ty <> QUOTED -> no_nl f = true.
Proof.
  unfold wf_tk. cbn [fst snd]. intros Hwf Hq.
  assert (Htxt : existsb (tk_eqb (ty, f)) text_tokens = true -> no_nl f = true).
  { intros He. apply wf_text in He as (lit & -> & Hin).
    pose proof recognisers_no_nl as R. rewrite forallb_forall in R. exact (R _ Hin). }
  assert (Hall : forall p (g : bytes), (forall c, p c = true -> is_nl c = false) ->
                 forallb p g = true -> no_nl g = true).
  { intros p g Hp. unfold no_nl. induction g as [|c g IH]; [reflexivity|]. cbn [forallb]. intros Hf.
    apply andb_true_iff in Hf as [Hc Hf]. rewrite (Hp c Hc). cbn. now apply IH. }
  destruct ty; try discriminate; try congruence; auto.
  - apply andb_true_iff in Hwf as [_ Hd]. apply (Hall is_digit); [|exact Hd].
    intros c Hc. destruct (is_nl c) eqn:E; [|reflexivity]. unfold is_nl in E. apply Ascii.eqb_eq in E. subst c. discriminate.
  - apply andb_true_iff in Hwf as [Hw _]. unfold is_word in Hw.
    destruct f as [|c f]; [discriminate|]. apply andb_true_iff in Hw as [Hc Hw].
    apply (Hall is_symbol_char).
    + intros d Hd. destruct (is_nl d) eqn:E; [|reflexivity]. unfold is_nl in E. apply Ascii.eqb_eq in E. subst d. discriminate.
    + cbn [forallb]. now rewrite (is_alpha_symbol c Hc), Hw.
Qed.

Theorem token_extent_on_line : forall src toks t,
  lex_all src = Some toks -> In t toks ->
  typ t <> END -> typ t <> QUOTED -> typ t <> WS -> typ t <> COMMENT ->
  N.to_nat (col t) + List.length (frag t) <= List.length (line_text src (N.to_nat (line t))) + 1.
Proof.
  intros src toks t H Hin He Hq Hw Hc.
  destruct (token_first_line_on_line _ _ _ H Hin He) as (k & Hf & Hcov & Hle).
  assert (Hk : k = frag t).
  { unfold covers in Hcov. destruct (typ t); try congruence; exact Hcov. }
  subst k.
  assert (Htriv : trivia_ty (typ t) = false) by (destruct (typ t); try reflexivity; congruence).
  pose proof (first_raw_wf _ _ _ _ _ Hf Htriv He) as Hwf.
  now rewrite (first_line_no_nl _ (wf_plain_no_nl _ _ Hwf Hq)) in Hle.
Qed.

(* the tokens that may span lines: what holds instead *)

(* COMMENT: "//" and the comment text lie on the line (the line end that the token also
   covers is the LF itself) *)
Corollary comment_extent_on_line : forall src toks t,
  lex_all src = Some toks -> In t toks -> typ t = COMMENT ->
  N.to_nat (col t) + 2 + List.length (frag t) <= List.length (line_text src (N.to_nat (line t))) + 1.
Proof.
  intros src toks t H Hin Hty.
  assert (He : typ t <> END) by congruence.
  destruct (token_first_line_on_line _ _ _ H Hin He) as (k & Hf & Hcov & Hle).
  rewrite Hty in Hcov. destruct Hcov as (eol & -> & Heol).
  pose proof (positions_exact_all _ _ H) as [Hall _]. rewrite Forall_forall in Hall.
  destruct (Hall t Hin) as (_ & _ & _ & Htxt). rewrite Hty in Htxt. destruct Htxt as (rest & _ & Hn & _).
  assert (Hfl : List.length (b "//" ++ frag t) <= List.length (first_line ((b "//" ++ frag t) ++ eol))).
  { rewrite <- (first_line_no_nl (b "//" ++ frag t)) at 1; [apply first_line_app_le|].
    unfold no_nl. rewrite forallb_app. cbn. exact Hn. }
  rewrite <- app_assoc in Hfl.
  assert (Hlen2 : List.length (b "//" ++ frag t) = 2 + List.length (frag t)) by (rewrite app_length; reflexivity).
  lia.
Qed.

(* QUOTED (a literal may contain raw LFs) and WS (a run may contain LFs): the start is a valid
   position (token_position_in_document) and the part up to the first LF lies on the line
   (token_first_line_on_line); for QUOTED that part includes the opening quote *)
Corollary quoted_first_line_on_line : forall src toks t,
  lex_all src = Some toks -> In t toks -> typ t = QUOTED ->
  exists body, closed_body body = true /\ frag t = decode_doc body /\
    N.to_nat (col t) + List.length (first_line (dq :: body ++ [dq]))
      <= List.length (line_text src (N.to_nat (line t))) + 1 /\
    1 <= List.length (first_line (dq :: body ++ [dq])).
Proof.
  intros src toks t H Hin Hty.
  assert (He : typ t <> END) by congruence.
  destruct (token_first_line_on_line _ _ _ H Hin He) as (k & Hf & Hcov & Hle).
  rewrite Hty in Hcov. destruct Hcov as (body & -> & Hc & Hd).
  exists body. repeat split; auto. rewrite first_line_cons. cbn. lia.
Qed.

(** * (3) in LSP terms (0-based line, 0-based byte column) *)

Corollary token_position_lsp : forall src toks t,
  lex_all src = Some toks -> In t toks ->
  let l0 := N.to_nat (line t) - 1 in
  let c0 := N.to_nat (col t) - 1 in
  N.to_nat (line t) = l0 + 1 /\ N.to_nat (col t) = c0 + 1 /\
  l0 < List.length (lines_of src) /\ c0 <= List.length (nth l0 (lines_of src) []).
Proof.
  intros src toks t H Hin l0 c0.
  destruct (token_position_in_document _ _ _ H Hin) as [Hl Hc]. unfold line_text in Hc.
  subst l0 c0. repeat split; lia.
Qed.

Corollary token_position_lsp_lex : forall src toks t,
  lex src = Some toks -> In t toks ->
  N.to_nat (line t) - 1 < List.length (lines_of src) /\
  N.to_nat (col t) - 1 <= List.length (nth (N.to_nat (line t) - 1) (lines_of src) []).
Proof.
  intros src toks t H Hin.
  destruct (token_position_in_document_lex _ _ _ H Hin) as [Hl Hc]. unfold line_text in Hc. lia.
Qed.

(* the range end of a single-line token is a valid LSP position too *)
Corollary token_range_lsp : forall src toks t,
  lex_all src = Some toks -> In t toks ->
  typ t <> END -> typ t <> QUOTED -> typ t <> WS -> typ t <> COMMENT ->
  N.to_nat (col t) - 1 + List.length (frag t)
    <= List.length (nth (N.to_nat (line t) - 1) (lines_of src) []).
Proof.
  intros src toks t H Hin He Hq Hw Hc.
  pose proof (token_extent_on_line _ _ _ H Hin He Hq Hw Hc) as Hx.
  destruct (token_position_in_document _ _ _ H Hin) as [_ Hcol]. unfold line_text in *. lia.
Qed.

(* non-vacuity *)
Example ex_lines_of :
  lines_of (b "ab" ++ [nl] ++ [cr; nl] ++ b "c") = [b "ab"; [cr]; b "c"] /\
  lines_of (b "x" ++ [nl]) = [b "x"; []] /\ lines_of [] = [[]].
Proof. repeat split. Qed.

Example ex_valid_pos :
  let src := b "let x = 1;" ++ [nl] in
  valid_pos src 1 11 /\ valid_pos src 2 1 /\ ~ valid_pos src 1 12 /\ ~ valid_pos src 3 1 /\ ~ valid_pos src 0 1.
Proof. cbv zeta. unfold valid_pos, line_text. cbn. repeat split; try lia. Qed.

Print Assumptions token_position_in_document.
Print Assumptions token_position_in_document_lex.
Print Assumptions token_first_line_on_line.
Print Assumptions token_extent_on_line_k.
Print Assumptions token_extent_on_line.
Print Assumptions comment_extent_on_line.
Print Assumptions quoted_first_line_on_line.
Print Assumptions token_position_lsp.
Print Assumptions token_position_lsp_lex.
Print Assumptions token_range_lsp.
