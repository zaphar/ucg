(* C17 support: a token whose offset lies inside a byte span of the source is reported on a line
   inside the line span of those bytes. *)
From Coq Require Import Sorting.Sorted.
From Ucg Require Import base.Bytes base.Bytes_Lemmas lex.Lex_Types lex.Vocab lex.Lex lex.Lex_Lemmas.
Local Open Scope list_scope.

(* 1-based line on which byte offset o of src lies *)
Definition line_of (src : bytes) (o : nat) : N := N.of_nat (1 + count_nl (firstn o src)).

Lemma line_of_mono src a b : a <= b -> (line_of src a <= line_of src b)%N.
Proof.
  intros H. unfold line_of.
  rewrite <- (firstn_skipn a (firstn b src)), firstn_firstn, Nat.min_l, count_nl_app by exact H. lia.
Qed.

Lemma token_line_in_span_lemma src toks t a b :
  lex src = Some toks -> In t toks -> a <= N.to_nat (off t) <= b ->
  (line_of src a <= line t <= line_of src b)%N.
Proof.
  intros Hl Hin [Ha Hb]. apply positions_exact in Hl as [Hall _].
  rewrite Forall_forall in Hall. destruct (Hall t Hin) as (_ & Hline & _).
  rewrite Hline. fold (line_of src (N.to_nat (off t))). split; now apply line_of_mono.
Qed.
