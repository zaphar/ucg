(* PROOFS about the printer model (Print.v), connected to the PROVED tokenizer
   model (lex/Lex.v, lex/Lex_Lemmas.v).  No axioms.
   The induction principle of sem/Ast.v and the tactics norm_app, split_andb at the head of the
   file also serve parse/Parse_Lemmas.v and parse/Parse_Lex.v. *)
From Ucg Require Import base.Bytes base.Bytes_Lemmas prec.Climb sem.Ast
  lex.Lex_Types lex.Vocab lex.Lex lex.Lex_Lemmas lex.Lex_Shift lex.Lex_Span lex.Lex_Comments print.Print.
From UcgGen Require Import LexVocab.
From Coq Require Import Sorting.Sorted.
Local Open Scope string_scope.
Local Open Scope list_scope.

(* sem/Ast.v nests expressions in lists, fields and options, and statements in module bodies: the
   induction hypothesis for such a component is a [Forall] over it *)
Section ExprInd.
  Variables (P : expr -> Prop) (Q : stmt -> Prop).
  Let PF (fs : list (bytes * expr)) := Forall (fun kv => P (snd kv)) fs.
  Let PO (o : option expr) := match o with Some x => P x | None => True end.

  Lemma expr_stmt_ind :
    P ENull -> (forall v, P (EBool v)) -> (forall z, P (EInt z)) -> (forall bits, P (EFloat bits)) ->
    (forall s, P (EStr s)) -> (forall x, P (ESym x)) ->
    (forall fs, PF fs -> P (ETuple fs)) ->
    (forall es, Forall P es -> P (EList es)) ->
    (forall o l r, P l -> P r -> P (EBin o l r)) ->
    (forall e, P e -> P (ENot e)) ->
    (forall e, P e -> P (EGroup e)) ->
    (forall t fs, P t -> PF fs -> P (ECopy t fs)) ->
    (forall s st en, P s -> PO st -> P en -> P (ERange s st en)) ->
    (forall parts args, Forall P args -> P (EFormatL parts args)) ->
    (forall parts a, P a -> P (EFormatS parts a)) ->
    (forall f args, P f -> Forall P args -> P (ECall f args)) ->
    (forall c e, P e -> P (ECast c e)) ->
    (forall ps body, P body -> P (EFunc ps body)) ->
    (forall v d arms, P v -> PO d -> PF arms -> P (ESelect v d arms)) ->
    (forall f t, P f -> P t -> P (EMap f t)) ->
    (forall f t, P f -> P t -> P (EFilter f t)) ->
    (forall f a t, P f -> P a -> P t -> P (EReduce f a t)) ->
    (forall ps out body, PF ps -> PO out -> Forall Q body -> P (EModule ps out body)) ->
    (forall e, P e -> P (EFail e)) ->
    (forall e, P e -> P (ETrace e)) ->
    (forall p, P (EImport p)) -> (forall t p, P (EInclude t p)) ->
    (forall t e, P e -> P (EConvert t e)) ->
    (forall x e, P e -> Q (SLet x e)) -> (forall e, P e -> Q (SExpr e)) ->
    (forall e, P e -> Q (SAssert e)) -> (forall t e, P e -> Q (SOut t e)) ->
    (forall e, P e) /\ (forall s, Q s).
  Proof.
    intros Hnull Hbool Hint Hfloat Hstr Hsym Htuple Hlist Hbin Hnot Hgroup Hcopy Hrange Hfl Hfs Hcall Hcast Hfunc
      Hsel Hmap Hfilter Hreduce Hmod Hfail Htrace Himp Hinc Hconv Hlet Hexpr Hassert Hout.
    assert (R : forall e, P e); [|split; [exact R|intros []; auto]].
    fix IH 1. intros e.
    destruct e;
      [ apply Hnull | apply Hbool | apply Hint | apply Hfloat | apply Hstr | apply Hsym | apply Htuple | apply Hlist
      | apply Hbin | apply Hnot | apply Hgroup | apply Hcopy | apply Hrange | apply Hfl | apply Hfs | apply Hcall
      | apply Hcast | apply Hfunc | apply Hsel | apply Hmap | apply Hfilter | apply Hreduce | apply Hmod | apply Hfail
      | apply Htrace | apply Himp | apply Hinc | apply Hconv ];
      try apply IH;
      match goal with
      | |- PF ?l => induction l as [|[? ?] ? ?]; constructor; [apply IH|assumption]
      | |- Forall P ?l => induction l; constructor; [apply IH|assumption]
      | |- PO ?o => destruct o; [apply IH|exact I]
      | |- Forall Q ?l => induction l as [|[] ? ?]; constructor; auto
      end.
  Qed.
End ExprInd.

(* a text or token list as one right-nested concatenation *)
Ltac norm_app := repeat (progress (rewrite <- ?app_assoc; cbn [app])).

Ltac split_andb :=
  repeat match goal with H : (_ && _)%bool = true |- _ => apply andb_true_iff in H as [? ?] end.

Lemma esc_byte_min c : esc_byte c = encode_byte_min c.
Proof.
  unfold esc_byte, encode_byte_min.
  destruct (Ascii.eqb c dq) eqn:E1, (Ascii.eqb c bsl) eqn:E2; try reflexivity.
  apply Ascii.eqb_eq in E1, E2. subst. discriminate.
Qed.

Lemma escape_quotes_min s : escape_quotes s = encode_str_min s.
Proof.
  unfold escape_quotes, encode_str_min. induction s as [|c s IH]; [reflexivity|].
  cbn [flat_map]. now rewrite esc_byte_min, IH.
Qed.

Lemma escape_quotes_closed s :
  closed_body (escape_quotes s) = true /\ decode_doc (escape_quotes s) = s.
Proof. rewrite escape_quotes_min. apply encode_str_min_ok. Qed.

(* The text the printer writes for a string value (Value::Str, quoted field
   names, import / include paths, format templates) is ONE QUOTED token whose
   value is the original byte string -- for every byte string. *)
Theorem string_literal_roundtrip : forall s,
  lex (dq :: escape_quotes s ++ [dq]) =
  Some [ {| typ := QUOTED; frag := s; line := 1; col := 1; off := 0 |}
       ; mk_tok END [] (advance ps0 (dq :: escape_quotes s ++ [dq])) ].
Proof.
  intros s. destruct (escape_quotes_closed s) as [Hc Hd].
  rewrite (decode_spec _ Hc), Hd. reflexivity.
Qed.

Theorem string_literal_step : forall ps s rest,
  first_tok ps (quoted s ++ rest) =
  Some (mk_tok QUOTED s ps, rest, advance ps (quoted s)).
Proof.
  intros ps s rest. destruct (escape_quotes_closed s) as [Hc Hd].
  unfold quoted. cbn [app]. rewrite <- app_assoc. cbn [app].
  rewrite (decode_spec_step ps _ rest Hc), Hd. reflexivity.
Qed.

(* position-free, with an arbitrary continuation (a literal needs no separator) *)
Lemma strip_lex_quoted s x :
  strip_lex (quoted s ++ x) = option_map (cons (QUOTED, s)) (strip_lex x).
Proof.
  destruct (escape_quotes_closed s) as [Hc Hd].
  assert (Hne : quoted s ++ x <> []) by discriminate.
  assert (H : first_raw (quoted s ++ x) = RComplete QUOTED s (quoted s) x).
  { unfold quoted. cbn [app]. rewrite <- app_assoc. cbn [app].
    rewrite first_raw_str, (escq_closed _ x Hc), Hd. reflexivity. }
  rewrite (strip_lex_step _ _ _ _ _ Hne H). reflexivity.
Qed.

(* the only plain text tokens of the table that start with a letter are the
   three literals is_bareword knows about (re-checked against the generated
   table on every build) *)
Definition alpha_text_known (r : recogniser) : bool :=
  match r with
  | RText _ lit =>
      (negb (head_is is_alpha (b lit)) ||
       existsb (String.eqb lit) ["NULL"; "true"; "false"])%bool
  | _ => true
  end.

Lemma alpha_texts_known : forallb alpha_text_known recognisers = true.
Proof. vm_compute. reflexivity. Qed.

Lemma starts_with_is_prefix p s : starts_with p s = is_prefix p s.
Proof. reflexivity. Qed.

Lemma reserved_prefix_false w :
  starts_with (b "true") w = false -> starts_with (b "false") w = false ->
  starts_with (b "NULL") w = false -> reserved_prefix w = false.
Proof.
  intros Ht Hf Hn. destruct (reserved_prefix w) eqn:E; [exfalso|reflexivity].
  unfold reserved_prefix in E. apply existsb_exists in E as (r & Hin & Hr).
  pose proof alpha_texts_known as K. rewrite forallb_forall in K. specialize (K r Hin).
  destruct r as [ | ty lit | | | | | | ]; try discriminate.
  apply andb_true_iff in Hr as [Ha Hp]. cbn [alpha_text_known] in K. rewrite Ha in K.
  cbn [negb orb existsb] in K.
  repeat (apply orb_true_iff in K as [K|K]); try discriminate;
    apply String.eqb_eq in K; subst lit; rewrite <- starts_with_is_prefix in Hp; congruence.
Qed.

Lemma alpha_or_us_symbol c :
  (is_alpha c || Ascii.eqb c underscore)%bool = true -> is_symbol_char c = true.
Proof.
  intros H. unfold is_symbol_char. apply orb_true_iff in H as [H|H].
  - now rewrite H.
  - unfold underscore in H. rewrite H. now rewrite !orb_true_r.
Qed.

Lemma is_bareword_word k : is_bareword k = true -> is_word k = true.
Proof.
  unfold is_bareword, is_word. destruct k as [|c k]; [discriminate|].
  destruct (is_alpha c) eqn:Ec; cbn [negb]; [|discriminate].
  match goal with |- (if ?t then _ else _) = _ -> _ => destruct t end; [discriminate|].
  cbn [forallb]. intros H. apply andb_true_iff in H as [_ H]. cbn [andb].
  rewrite forallb_forall in *. intros x Hx. apply alpha_or_us_symbol. now apply H.
Qed.

Lemma is_bareword_cases k : is_bareword k = true ->
  k = b "true" \/ k = b "false" \/ reserved_prefix k = false.
Proof.
  unfold is_bareword. destruct k as [|c k]; [discriminate|].
  destruct (negb (is_alpha c)); [discriminate|].
  destruct (bytes_eqb (c :: k) (b "true")) eqn:E1.
  { apply bytes_eqb_spec in E1. auto. }
  destruct (bytes_eqb (c :: k) (b "false")) eqn:E2.
  { apply bytes_eqb_spec in E2. auto. }
  cbn [negb andb].
  destruct (starts_with (b "true") (c :: k)) eqn:S1; [discriminate|].
  destruct (starts_with (b "false") (c :: k)) eqn:S2; [discriminate|].
  destruct (starts_with (b "NULL") (c :: k)) eqn:S3; [discriminate|].
  intros _. right; right. now apply reserved_prefix_false.
Qed.

(* an unquoted field name is a well-formed name token whose source text is
   the name itself *)
Lemma name_tok_wf k : is_bareword k = true ->
  wf_tk (name_tok k) = true /\ src_of (name_tok k) = k /\ snd (name_tok k) = k /\
  (fst (name_tok k) = BAREWORD \/ (fst (name_tok k) = BOOLEAN /\ (k = b "true" \/ k = b "false"))).
Proof.
  intros H. unfold name_tok. rewrite H.
  destruct (bytes_eqb k (b "true")) eqn:E1.
  { apply bytes_eqb_spec in E1. subst. cbn. repeat split; auto. }
  destruct (bytes_eqb k (b "false")) eqn:E2.
  { apply bytes_eqb_spec in E2. subst. cbn. repeat split; auto. }
  cbn [orb]. repeat split; auto.
  unfold wf_tk. cbn [fst snd]. rewrite (is_bareword_word k H).
  destruct (is_bareword_cases k H) as [-> | [-> | ->]]; try reflexivity; discriminate.
Qed.

(* bareword_field_ok: the text [k] on its own is exactly one token with text k,
   of type BAREWORD (BOOLEAN for true / false), followed by END *)
Theorem bareword_field_ok : forall k, is_bareword k = true ->
  strip_lex k = Some [name_tok k; tk_end] /\ snd (name_tok k) = k /\
  (fst (name_tok k) = BAREWORD \/ fst (name_tok k) = BOOLEAN).
Proof.
  intros k H. destruct (name_tok_wf k H) as (Hwf & Hsrc & Hsnd & Hty).
  split; [|split; [exact Hsnd|tauto]].
  pose proof (strip_lex_token (name_tok k) [] Hwf eq_refl) as L.
  rewrite app_nil_r, Hsrc in L. exact L.
Qed.

Corollary bareword_field_lex : forall k, is_bareword k = true ->
  exists t e, lex k = Some [t; e] /\ frag t = k /\ (typ t = BAREWORD \/ typ t = BOOLEAN) /\ typ e = END.
Proof.
  intros k H. destruct (bareword_field_ok k H) as (L & Hs & Ht).
  unfold strip_lex in L. destruct (lex k) as [l|]; [|discriminate]. cbn in L.
  destruct l as [|t [|e [|? ?]]]; try discriminate. inversion L as [[H1 H2]].
  exists t, e. split; [reflexivity|]. unfold strip in H1, H2.
  rewrite <- H1 in Hs, Ht. cbn in Hs, Ht. unfold tk_end in H2. inversion H2. auto.
Qed.

(* in context: whatever the printer writes for a field name, followed by the
   blank of " = ", re-tokenizes as ONE name token carrying the field name *)
Theorem field_name_roundtrip : forall k x,
  strip_lex (field_name k ++ sp :: x) = option_map (cons (name_tok k)) (strip_lex (sp :: x)).
Proof.
  intros k x. unfold field_name. destruct (is_bareword k) eqn:H.
  - destruct (name_tok_wf k H) as (Hwf & Hsrc & _).
    rewrite <- Hsrc at 1. apply strip_lex_token; [exact Hwf|].
    cbn [follow_ok]. rewrite (blank_follows_any _ sp Hwf); [reflexivity|]. cbn; auto.
  - unfold name_tok. rewrite H. apply strip_lex_quoted.
Qed.

(* bytes that may follow a complete expression in the printer's output (':' after a range bound) *)
Definition is_delim (c : ascii) : bool :=
  existsb (Ascii.eqb c) [sp; nl; ","%char; ";"%char; ")"%char; "]"%char; "}"%char; "."%char; ":"%char].
Definition delim_follow (x : bytes) : bool :=
  match x with [] => true | c :: _ => is_delim c end.

(* bytes an expression can start with *)
Definition is_starter (c : ascii) : bool :=
  (is_alpha c || is_digit c || existsb (Ascii.eqb c) [dq; "["%char; "{"%char; "("%char])%bool.
Definition starts (t : bytes) : Prop := head_is is_starter t = true.

(* which bytes may directly follow which token, checked in one sweep over the 256 bytes: a delimiter ends a
   word, a number and the closing brackets; after '.' and ':' an expression may start; after an opening bracket
   anything may come; after '-' a digit *)
Definition sep_class (c : ascii) : bool :=
  (implb (is_delim c)
     (negb (is_symbol_char c) && negb (is_digit c) && negb (needs_sep_byte (PUNCT, b "]") c)
      && negb (needs_sep_byte (PUNCT, b "}") c) && negb (needs_sep_byte (PUNCT, b ")") c))
   && implb (is_starter c) (negb (needs_sep_byte (PUNCT, b ".") c) && negb (needs_sep_byte (PUNCT, b ":") c))
   && (negb (needs_sep_byte (PUNCT, b "(") c) && negb (needs_sep_byte (PUNCT, b "[") c)
       && negb (needs_sep_byte (PUNCT, b "{") c))
   && implb (is_digit c) (negb (needs_sep_byte (PUNCT, b "-") c)))%bool.

Lemma sep_classes c : sep_class c = true.
Proof. now apply forall_bytes. Qed.

(* the facts of [sep_classes] about the byte c, as hypotheses, specialised by the class hypotheses at hand *)
Ltac sep_facts c :=
  let H := fresh in
  pose proof (sep_classes c) as H; unfold sep_class in H; split_andb;
  repeat match goal with E : ?p = true, X : implb ?p _ = true |- _ => rewrite E in X; cbn [implb] in X end; split_andb;
  repeat match goal with X : negb _ = true |- _ => apply negb_true_iff in X end.

Lemma delim_facts c : is_delim c = true ->
  is_symbol_char c = false /\ is_digit c = false /\
  needs_sep_byte (PUNCT, b "]") c = false /\ needs_sep_byte (PUNCT, b "}") c = false /\
  needs_sep_byte (PUNCT, b ")") c = false.
Proof. intros Hc. sep_facts c. auto. Qed.

Lemma starter_facts c : is_starter c = true ->
  needs_sep_byte (PUNCT, b ".") c = false /\ needs_sep_byte (PUNCT, b ":") c = false.
Proof. intros Hc. sep_facts c. auto. Qed.

Lemma open_follows_any c :
  needs_sep_byte (PUNCT, b "(") c = false /\ needs_sep_byte (PUNCT, b "[") c = false /\
  needs_sep_byte (PUNCT, b "{") c = false.
Proof. sep_facts c. auto. Qed.

Lemma minus_before_digit c : is_digit c = true -> needs_sep_byte (PUNCT, b "-") c = false.
Proof. intros Hc. sep_facts c. auto. Qed.

Lemma digit_starter c : is_digit c = true -> is_starter c = true.
Proof. intros H. unfold is_starter. rewrite H. now rewrite orb_true_r. Qed.

Lemma digit_char_is_digit d : (d < 10)%N -> is_digit (digit_char d) = true.
Proof.
  intros H. destruct d as [|p]; [reflexivity|].
  destruct p as [[[[p|p|]|[p|p|]|]|[[p|p|]|[p|p|]|]|]|[[[p|p|]|[p|p|]|]|[[p|p|]|[p|p|]|]|]|];
    try reflexivity; exfalso; lia.
Qed.

Lemma dec_fuel_digits fuel : forall n acc,
  forallb is_digit acc = true -> forallb is_digit (dec_fuel fuel n acc) = true.
Proof.
  induction fuel as [|f IH]; intros n acc Ha; [exact Ha|]. cbn [dec_fuel].
  assert (Hd : forallb is_digit (digit_char (n mod 10) :: acc) = true).
  { cbn [forallb]. rewrite Ha, digit_char_is_digit; [reflexivity|]. apply N.mod_lt. discriminate. }
  destruct (N.eqb (n / 10) 0); [exact Hd|]. apply IH, Hd.
Qed.

Lemma dec_fuel_nonempty fuel : forall n acc, acc <> [] -> dec_fuel fuel n acc <> [].
Proof.
  induction fuel as [|f IH]; intros n acc Ha; [exact Ha|]. cbn [dec_fuel].
  destruct (N.eqb (n / 10) 0); [discriminate|]. apply IH. discriminate.
Qed.

Lemma dec_of_N_digits n : dec_of_N n <> [] /\ forallb is_digit (dec_of_N n) = true.
Proof.
  unfold dec_of_N. split.
  - cbn [dec_fuel]. destruct (N.eqb (n / 10) 0); [discriminate|]. apply dec_fuel_nonempty. discriminate.
  - now apply dec_fuel_digits.
Qed.

Lemma dec_of_Z_digits z : (0 <= z)%Z -> dec_of_Z z <> [] /\ forallb is_digit (dec_of_Z z) = true.
Proof.
  intros H. destruct z as [|p|p]; [split; [discriminate|reflexivity]|apply dec_of_N_digits|lia].
Qed.

Lemma digits_wf d : d <> [] -> forallb is_digit d = true -> wf_tk (DIGIT, d) = true.
Proof.
  intros Hne Hd. unfold wf_tk. cbn [fst snd]. rewrite Hd, andb_true_r.
  destruct d; [congruence|reflexivity].
Qed.

(* int_literal_ok: the text of a non-negative integer is one DIGIT token *)
Theorem int_literal_ok : forall z, (0 <= z)%Z ->
  strip_lex (dec_of_Z z) = Some [(DIGIT, dec_of_Z z); tk_end].
Proof.
  intros z Hz. destruct (dec_of_Z_digits z Hz) as [Hne Hd].
  pose proof (strip_lex_token (DIGIT, dec_of_Z z) [] (digits_wf _ Hne Hd) eq_refl) as L.
  cbn [src_of fst snd] in L. rewrite app_nil_r in L. exact L.
Qed.

(* a negative integer (not producible by the parser) would print as `-` DIGIT *)
Lemma int_literal_negative : forall p,
  strip_lex (dec_of_Z (Zneg p)) = Some [(PUNCT, b "-"); (DIGIT, dec_of_N (Npos p)); tk_end].
Proof.
  intros p. destruct (dec_of_N_digits (Npos p)) as [Hne Hd]. cbn [dec_of_Z].
  change ("-"%char :: dec_of_N (N.pos p)) with (src_of (PUNCT, b "-") ++ dec_of_N (N.pos p)).
  rewrite strip_lex_token.
  - pose proof (strip_lex_token (DIGIT, dec_of_N (Npos p)) [] (digits_wf _ Hne Hd) eq_refl) as L.
    cbn [src_of fst snd] in L. rewrite app_nil_r in L. rewrite L. reflexivity.
  - reflexivity.
  - destruct (dec_of_N (N.pos p)) as [|c r]; [congruence|]. cbn [forallb] in Hd.
    apply andb_true_iff in Hd as [Hc _]. cbn [follow_ok].
    now rewrite (minus_before_digit c Hc).
Qed.

(* digits '.' digits  lexes as  DIGIT '.' DIGIT  (what the parser's `number`
   rule reads back as a float), whatever follows, provided it is not a digit *)
Theorem digits_dot_digits_ok : forall d1 d2 x,
  d1 <> [] -> forallb is_digit d1 = true -> d2 <> [] -> forallb is_digit d2 = true ->
  follow_ok (DIGIT, d2) x = true ->
  strip_lex (d1 ++ dot :: d2 ++ x) =
  option_map (fun r => (DIGIT, d1) :: (PUNCT, b ".") :: (DIGIT, d2) :: r) (strip_lex x).
Proof.
  intros d1 d2 x N1 D1 N2 D2 Hx.
  change (d1 ++ dot :: d2 ++ x) with (src_of (DIGIT, d1) ++ src_of (PUNCT, b ".") ++ src_of (DIGIT, d2) ++ x).
  rewrite strip_lex_token; [|now apply digits_wf|reflexivity].
  rewrite strip_lex_token; [|reflexivity|].
  2:{ cbn [src_of fst snd]. destruct d2 as [|c r]; [congruence|]. cbn [app follow_ok].
      cbn [forallb] in D2. apply andb_true_iff in D2 as [Hc _].
      now rewrite (proj1 (starter_facts c (digit_starter c Hc))). }
  rewrite strip_lex_token; [|now apply digits_wf|exact Hx].
  destruct (strip_lex x); reflexivity.
Qed.

(* float_literal_ok, stated on the printed text of a float:
   (i) Display gives digits '.' digits -> printed as is;
   (ii) Display gives digits only       -> ".0" is appended. *)
Theorem float_literal_ok : forall bits d1 d2,
  d1 <> [] -> forallb is_digit d1 = true -> d2 <> [] -> forallb is_digit d2 = true ->
  f64_display bits = d1 ++ dot :: d2 ->
  float_text bits = d1 ++ dot :: d2 /\
  strip_lex (float_text bits) = Some [(DIGIT, d1); (PUNCT, b "."); (DIGIT, d2); tk_end].
Proof.
  intros bits d1 d2 N1 D1 N2 D2 E.
  assert (F : float_text bits = d1 ++ dot :: d2).
  { unfold float_text. rewrite E.
    replace (existsb (Ascii.eqb dot) (d1 ++ dot :: d2)) with true; [reflexivity|].
    symmetry. apply existsb_exists. exists dot. split; [apply in_or_app; right; left; reflexivity|].
    apply Ascii.eqb_refl. }
  split; [exact F|]. rewrite F.
  pose proof (digits_dot_digits_ok d1 d2 [] N1 D1 N2 D2 eq_refl) as L.
  rewrite app_nil_r in L. exact L.
Qed.

Lemma digits_no_dot d : forallb is_digit d = true -> existsb (Ascii.eqb dot) d = false.
Proof.
  induction d as [|c d IH]; [reflexivity|]. cbn [forallb existsb]. intros H. apply andb_true_iff in H as [Hc Hd].
  rewrite (IH Hd), orb_false_r.
  destruct (Ascii.eqb dot c) eqn:E; [|reflexivity]. apply Ascii.eqb_eq in E. subst c. discriminate.
Qed.

Theorem float_literal_whole_ok : forall bits d,
  d <> [] -> forallb is_digit d = true -> f64_display bits = d ->
  float_text bits = d ++ b ".0" /\
  strip_lex (float_text bits) = Some [(DIGIT, d); (PUNCT, b "."); (DIGIT, b "0"); tk_end].
Proof.
  intros bits d N D E.
  assert (F : float_text bits = d ++ b ".0").
  { unfold float_text. rewrite E, (digits_no_dot d D). reflexivity. }
  split; [exact F|]. rewrite F.
  pose proof (digits_dot_digits_ok d (b "0") [] N D ltac:(discriminate) eq_refl eq_refl) as L.
  cbn [app] in L. exact L.
Qed.

(* Every float the parser can produce.
   triple_to_number rejects a literal whose value is not finite ("Float literal out of range!",
   commit e0bc790), and digits '.' digits is never negative: the parser only produces bit patterns
   with [parser_float bits = true] (in the model: Parse.f64_of_decimal answers None when the value
   is not finite).  Without the check `1` followed by 400 zeros `.0` would be +infinity, printed
   `inf.0` = the selector inf . 0, see float_infinity_not_a_literal.  For every such float the
   printed text is
   digits '.' digits and lexes as DIGIT '.' DIGIT. *)
Lemma zdigit_is_digit d : is_digit (zdigit d) = true.
Proof.
  unfold zdigit. apply digit_char_is_digit.
  pose proof (Z.mod_pos_bound d 10 ltac:(lia)). lia.
Qed.

Lemma zdigits_digits ds : forallb is_digit (map zdigit ds) = true.
Proof. induction ds; cbn; [reflexivity|]. now rewrite zdigit_is_digit. Qed.

Lemma zeros_digits n : forallb is_digit (zeros n) = true.
Proof. unfold zeros. induction (Z.to_nat n); cbn; auto. Qed.

Lemma forallb_firstn_skipn {A} (p : A -> bool) n l :
  forallb p l = true -> forallb p (firstn n l) = true /\ forallb p (skipn n l) = true.
Proof.
  intros H. rewrite <- (firstn_skipn n l), forallb_app in H. now apply andb_true_iff in H.
Qed.

Definition digit_string (d : bytes) : Prop := d <> [] /\ forallb is_digit d = true.

Lemma dec_str_shape ds k : ds <> [] ->
  digit_string (dec_str ds k) \/
  (exists d1 d2, digit_string d1 /\ digit_string d2 /\ dec_str ds k = d1 ++ dot :: d2).
Proof.
  intros Hne. unfold dec_str.
  assert (Ht : map zdigit ds <> []) by (destruct ds; [congruence|discriminate]).
  pose proof (zdigits_digits ds) as Hd.
  destruct (k <=? 0)%Z eqn:E1.
  - right. exists (b "0"), (zeros (- k) ++ map zdigit ds). repeat split.
    + discriminate.
    + destruct (zeros (- k)); [exact Ht|discriminate].
    + now rewrite forallb_app, zeros_digits, Hd.
  - destruct (k <? Z.of_nat (List.length ds))%Z eqn:E2.
    + right. apply Z.leb_gt in E1. apply Z.ltb_lt in E2.
      exists (firstn (Z.to_nat k) (map zdigit ds)), (skipn (Z.to_nat k) (map zdigit ds)).
      destruct (forallb_firstn_skipn is_digit (Z.to_nat k) _ Hd) as [F1 F2].
      repeat split; auto.
      * intros X. apply (f_equal (@List.length _)) in X. rewrite firstn_length, map_length in X.
        cbn in X. lia.
      * intros X. apply (f_equal (@List.length _)) in X. rewrite skipn_length, map_length in X.
        cbn in X. lia.
    + left. split.
      * destruct (map zdigit ds); [congruence|discriminate].
      * now rewrite forallb_app, Hd, zeros_digits.
Qed.

Lemma gen_digits_nonempty fuel : forall incl M Mi P Sc acc,
  (fuel <> 0 \/ acc <> []) -> fst (gen_digits fuel incl M Mi P Sc acc) <> [].
Proof.
  induction fuel as [|f IH]; intros incl M Mi P Sc acc H.
  - cbn. destruct H as [H|H]; [congruence|]. intros X. apply (f_equal (@rev _)) in X.
    rewrite rev_involutive in X. cbn in X. congruence.
  - cbn [gen_digits].
    match goal with |- context [if ?c then _ else _] => destruct c end.
    + cbn [fst]. intros X. apply (f_equal (@List.length _)) in X. rewrite rev_length in X. discriminate.
    + apply IH. right. discriminate.
Qed.

Lemma incr_rev_length ds : List.length (fst (incr_rev ds)) = List.length ds.
Proof.
  induction ds as [|d r IH]; [reflexivity|]. cbn [incr_rev].
  destruct (d =? 9)%Z; [|reflexivity]. destruct (incr_rev r). cbn in *. now rewrite IH.
Qed.

Lemma round_up_nonempty ds : ds <> [] -> fst (round_up ds) <> [].
Proof.
  intros H. unfold round_up. pose proof (incr_rev_length (rev ds)) as L.
  destruct (incr_rev (rev ds)) as [r c]. cbn [fst] in *. intros X.
  apply (f_equal (@List.length _)) in X. rewrite rev_length, L, rev_length in X.
  destruct ds; [congruence|discriminate].
Qed.

Lemma shortest_nonempty ebits frac : fst (shortest ebits frac) <> [].
Proof.
  unfold shortest.
  destruct (f64_decode ebits frac) as [[[[mant minus] plus] e] incl].
  destruct (if (e <? 0)%Z then _ else _) as [[[mant' minus'] plus'] scale].
  set (k := find_k 12 incl (mant' + plus')%Z scale (k_estimate (mant' + plus')%Z scale)).
  destruct (if (0 <=? k)%Z then _ else _) as [[[M Mi] P] Sc].
  assert (F : 20 <> 0) by discriminate.
  pose proof (gen_digits_nonempty 20 incl M Mi P Sc [] (or_introl F)) as G.
  remember (gen_digits 20 incl M Mi P Sc []) as gd eqn:Egd. clear Egd.
  destruct gd as [ds up]. cbn [fst] in G.
  destruct up; [|exact G].
  pose proof (round_up_nonempty ds G) as R. destruct (round_up ds) as [ds' carry]. cbn [fst] in R.
  destruct carry; [discriminate|exact R].
Qed.

Lemma finite_display_shape bits : parser_float bits = true ->
  digit_string (f64_display bits) \/
  (exists d1 d2, digit_string d1 /\ digit_string d2 /\ f64_display bits = d1 ++ dot :: d2).
Proof.
  unfold parser_float, f64_sign, f64_is_finite. intros H. apply andb_true_iff in H as [Hs Hf].
  apply negb_true_iff in Hs, Hf. unfold f64_display. rewrite Hs, Hf. cbn [app].
  destruct ((Z.land (Z.shiftr bits 52) 2047 =? 0)%Z && (Z.land bits (2 ^ 52 - 1) =? 0)%Z)%bool.
  - left. split; [discriminate|reflexivity].
  - pose proof (shortest_nonempty (Z.land (Z.shiftr bits 52) 2047) (Z.land bits (2 ^ 52 - 1))) as N.
    destruct (shortest _ _) as [ds k]. cbn [fst] in N. now apply dec_str_shape.
Qed.

Theorem finite_float_literal_ok : forall bits, parser_float bits = true ->
  exists d1 d2, digit_string d1 /\ digit_string d2 /\
    float_text bits = d1 ++ dot :: d2 /\
    strip_lex (float_text bits) = Some [(DIGIT, d1); (PUNCT, b "."); (DIGIT, d2); tk_end].
Proof.
  intros bits H. destruct (finite_display_shape bits H) as [[N D]|(d1 & d2 & [N1 D1] & [N2 D2] & E)].
  - destruct (float_literal_whole_ok bits _ N D eq_refl) as [F L].
    exists (f64_display bits), (b "0"). repeat split; auto. discriminate.
  - destruct (float_literal_ok bits d1 d2 N1 D1 N2 D2 E) as [F L].
    exists d1, d2. repeat split; auto.
Qed.

(* the hypothesis is needed: +infinity (which the parser does not produce) prints as `inf.0` *)
Definition f64_pos_inf : Z := 9218868437227405312%Z.   (* 0x7FF0000000000000 *)
Lemma float_infinity_not_a_literal :
  parser_float f64_pos_inf = false /\ float_text f64_pos_inf = b "inf.0" /\
  strip_lex (float_text f64_pos_inf) = Some [(BAREWORD, b "inf"); (PUNCT, b "."); (DIGIT, b "0"); tk_end].
Proof. vm_compute. auto. Qed.

(* every fixed text the printer emits, with the recogniser that must own it *)
Definition printer_keywords : list string :=
  [ "let"; "assert"; "out"; "not"; "fail"; "TRACE"; "import"; "include"; "convert";
    "func"; "module"; "select"; "map"; "filter"; "reduce"; "in"; "is" ].
Definition printer_puncts : list string :=
  [ "&&"; "||"; "."; "=="; "!="; ">="; "<="; ">"; "<"; "+"; "-"; "*"; "/"; "%%"; "~"; "!~";
    "="; "=>"; "("; ")"; "{"; "}"; "["; "]"; ","; ";"; ":"; "%" ].

Definition rec_eqb (x y : recogniser) : bool :=
  match x, y with
  | RText t l, RText t' l' | RTextWS t l, RTextWS t' l' => (ttype_eqb t t' && String.eqb l l')%bool
  | _, _ => false
  end.
Definition in_table (r : recogniser) : bool := existsb (rec_eqb r) recognisers.

Theorem keywords_and_operators_ok :
  forallb (fun k => in_table (RTextWS BAREWORD k)) printer_keywords = true /\
  forallb (fun p => in_table (RText PUNCT p)) printer_puncts = true /\
  in_table (RText EMPTY "NULL") = true /\
  in_table (RText BOOLEAN "true") = true /\ in_table (RText BOOLEAN "false") = true /\
  (* the cast names are ordinary barewords *)
  forallb (fun c => wf_tk (BAREWORD, cast_text c)) [CInt; CFloat; CStr; CBool] = true /\
  (* every operator text of the Binary arm is its token, with at most one blank on each side *)
  forallb (fun o => (wf_tk (op_tok o) &&
                     (bytes_eqb (op_text o) (sp :: snd (op_tok o) ++ [sp]) || bytes_eqb (op_text o) (snd (op_tok o))))%bool)
          all_ops = true.
Proof. vm_compute. repeat split; reflexivity. Qed.

Lemma in_table_In r : in_table r = true -> In r recognisers.
Proof.
  unfold in_table. intros H. apply existsb_exists in H as (r' & Hin & He).
  destruct r, r'; cbn in He; try discriminate;
    apply andb_true_iff in He as [H1 H2]; apply ttype_eqb_eq in H1; apply String.eqb_eq in H2; subst; exact Hin.
Qed.

(* each printed keyword, followed by the blank the printer always writes after it, is the
   keyword token; the blank is left in front of the rest *)
Corollary keyword_then_blank : forall k x, In k printer_keywords ->
  strip_lex (b k ++ sp :: x) = option_map (cons (BAREWORD, b k)) (strip_lex (sp :: x)).
Proof.
  intros k x Hk.
  assert (Hwf : wf_tk (BAREWORD, b k) = true).
  { cbn in Hk. repeat (destruct Hk as [<-|Hk]; [reflexivity|]). contradiction. }
  change (b k) with (src_of (BAREWORD, b k)) at 1.
  apply strip_lex_token; [exact Hwf|]. cbn [follow_ok].
  rewrite (blank_follows_any _ sp Hwf); [reflexivity|cbn; auto].
Qed.

(* Field names, converse direction.  A quoted name always round-trips (2a), so quoting is
   never wrong; but is_bareword is CONSERVATIVE: it quotes names that would be
   fine as barewords (digits, dashes).  The exact statement
     forall k, wf_tk (BAREWORD, k) = true -> is_bareword k = true
   is false: *)
Lemma is_bareword_complete_refuted :
  exists k, wf_tk (BAREWORD, k) = true /\ strip_lex k = Some [(BAREWORD, k); tk_end] /\ is_bareword k = false.
Proof. exists (b "k1-x"). vm_compute. auto. Qed.

(* what does hold: is_bareword characterises the letter/underscore words that
   are not cut by a reserved literal *)
Lemma is_bareword_converse k :
  wf_tk (BAREWORD, k) = true ->
  forallb (fun c => (is_alpha c || Ascii.eqb c underscore)%bool) k = true ->
  is_bareword k = true.
Proof.
  unfold wf_tk. cbn [fst snd]. intros H Hall. apply andb_true_iff in H as [Hw Hr].
  apply negb_true_iff in Hr. unfold is_bareword. destruct k as [|c k]; [discriminate|].
  cbn in Hw. apply andb_true_iff in Hw as [Hc _]. rewrite Hc. cbn [negb].
  assert (P : forall ty lit, in_table (RText ty lit) = true -> head_is is_alpha (b lit) = true ->
            starts_with (b lit) (c :: k) = false).
  { intros ty lit Hin Ha. destruct (starts_with (b lit) (c :: k)) eqn:E; [exfalso|reflexivity].
    assert (reserved_prefix (c :: k) = true); [|congruence].
    unfold reserved_prefix. apply existsb_exists. exists (RText ty lit). split; [now apply in_table_In|].
    now rewrite Ha, <- starts_with_is_prefix, E. }
  rewrite (P BOOLEAN "true"), (P BOOLEAN "false"), (P EMPTY "NULL") by reflexivity.
  rewrite !andb_false_r. exact Hall.
Qed.

Lemma missed_split cur ln pend :
  forall out done rest, missed cur ln pend = (out, done, rest) -> pend = done ++ rest.
Proof.
  induction pend as [|[k g] pend IH]; intros out done rest H; cbn [missed] in H.
  - inversion H; reflexivity.
  - destruct (N.leb k ln).
    + destruct (missed cur ln pend) as [[o d] r] eqn:E. inversion H; subst.
      cbn [app]. f_equal. eapply IH; reflexivity.
    + inversion H; reflexivity.
Qed.

(* what is written: the groups taken, each followed by a blank line iff it ends
   more than one line above the requested line *)
Lemma missed_out cur ln pend :
  forall out done rest, missed cur ln pend = (out, done, rest) ->
  out = flat_map (fun kg => print_comment_group cur (snd kg) ++
                            (if N.ltb (fst kg) (ln - 1) then [nl] else [])) done
  /\ Forall (fun kg => (fst kg <= ln)%N) done
  /\ match rest with (k, _) :: _ => (ln < k)%N | [] => True end.
Proof.
  induction pend as [|[k g] pend IH]; intros out done rest H; cbn [missed] in H.
  - inversion H; subst. cbn. auto.
  - destruct (N.leb k ln) eqn:E.
    + destruct (missed cur ln pend) as [[o d] r] eqn:E'. inversion H; subst.
      destruct (IH _ _ _ eq_refl) as (Ho & Hd & Hr). cbn [flat_map fst snd]. rewrite <- Ho, <- app_assoc.
      split; [reflexivity|]. split; [|exact Hr]. constructor; [|exact Hd]. cbn. now apply N.leb_le.
    + inversion H; subst. cbn. repeat split; auto. now apply N.leb_gt.
Qed.

(* INVARIANT of every operation: groups are only moved from the front of the
   pending list to the end of the emitted log; nothing is dropped, duplicated or
   reordered -- for ANY line argument. *)
Definition conserved (m : comment_map) (st : sched) : Prop := emitted st ++ pending st = m.

Lemma step_conserved m st c : conserved m st -> conserved m (snd (step st c)).
Proof.
  unfold conserved. intros H.
  destruct c as [cur ln|cur ln|ln]; cbn [step];
    unfold render_comment_if_needed, render_missed_comments;
    try (destruct (missed cur ln (pending st)) as [[o d] r] eqn:E; cbn [snd pending emitted];
         rewrite (missed_split _ _ _ _ _ _ E) in H; rewrite <- app_assoc; exact H).
  exact H.
Qed.

Lemma run_calls_conserved m cs : forall st, conserved m st -> conserved m (snd (run_calls st cs)).
Proof.
  induction cs as [|c cs IH]; intros st H; [exact H|]. cbn [run_calls].
  pose proof (step_conserved m st c H) as H1. destruct (step st c) as [o st1]. cbn [snd] in H1.
  specialize (IH st1 H1). destruct (run_calls st1 cs) as [os st2]. exact IH.
Qed.

(* keys ascending (BTreeMap order); weakly is all the proof needs *)
Fixpoint ascending (m : comment_map) : Prop :=
  match m with
  | [] => True
  | (k, _) :: r => match r with [] => True | (k', _) :: _ => (k <= k')%N end /\ ascending r
  end.

Lemma ascending_app_r a c : ascending (a ++ c) -> ascending c.
Proof.
  induction a as [|[k g] a IH]; [auto|]. cbn [app ascending]. intros [_ H]. exact (IH H).
Qed.

Lemma ascending_le_last m : ascending m ->
  forall k0, last (map (fun kg => Some (fst kg)) m) None = Some k0 ->
  Forall (fun kg => (fst kg <= k0)%N) m.
Proof.
  induction m as [|[k g] m IH]; intros Ha k0 Hl; [constructor|].
  destruct m as [|[k' g'] m'].
  - cbn in Hl. inversion Hl; subst. constructor; [cbn; lia|constructor].
  - destruct Ha as [Hk Ha]. change (last (map (fun kg => Some (fst kg)) ((k', g') :: m')) None = Some k0) in Hl.
    specialize (IH Ha k0 Hl). constructor; [|exact IH].
    inversion IH; subst. cbn in *. lia.
Qed.

Lemma missed_all cur ln pend :
  Forall (fun kg => (fst kg <= ln)%N) pend ->
  exists out, missed cur ln pend = (out, pend, []).
Proof.
  induction pend as [|[k g] pend IH]; intros H; [eexists; reflexivity|].
  inversion H; subst. cbn [missed]. cbn in H2. apply N.leb_le in H2. rewrite H2.
  destruct (IH H3) as (o & ->). eexists; reflexivity.
Qed.

Lemma final_flush_empties st : ascending (pending st) ->
  pending (snd (final_flush st)) = [] /\
  emitted (snd (final_flush st)) = emitted st ++ pending st.
Proof.
  intros Ha. unfold final_flush.
  destruct (last (map (fun kg => Some (fst kg)) (pending st)) None) as [k0|] eqn:El.
  - pose proof (ascending_le_last _ Ha k0 El) as Hle.
    assert (Hle' : Forall (fun kg => (fst kg <= k0 + 1)%N) (pending st)).
    { eapply Forall_impl; [|exact Hle]. cbn. intros; lia. }
    unfold render_missed_comments. destruct (missed_all 0 (k0 + 1)%N _ Hle') as (o & ->). cbn. auto.
  - destruct (pending st) as [|kg p] eqn:Ep; [cbn; rewrite app_nil_r; auto|].
    exfalso. clear -El. revert kg El. induction p as [|a p IH]; intros kg El; [discriminate|].
    apply (IH a). exact El.
Qed.

(* schedule_emits_all_once.
   HYPOTHESIS on the call sequence: NONE.  Whatever lines the walk passes, in
   whatever order (also out of line order), and at whatever indentation, after
   the final flush of `render` the log of emitted groups IS the comment map:
   every group exactly once, in ascending order.  The only hypothesis is on the
   map (ascending keys: it is a BTreeMap), and it is needed only so that the
   final flush, which asks for everything up to (largest key + 1), reaches all
   that is left.  Without the final flush the groups above the largest line
   requested stay pending (see calls_alone_may_leave_pending). *)
Theorem schedule_emits_all_once : forall (m : comment_map) (cs : list call),
  ascending m ->
  let '(_, _, st) := run_render m cs in emitted st = m /\ pending st = [].
Proof.
  intros m cs Ha. unfold run_render.
  assert (C0 : conserved m (sched_init m)) by reflexivity.
  pose proof (run_calls_conserved m cs _ C0) as C.
  destruct (run_calls (sched_init m) cs) as [os st]. cbn [snd] in C.
  assert (Hp : ascending (pending st)).
  { unfold conserved in C. rewrite <- C in Ha. eapply ascending_app_r; eauto. }
  destruct (final_flush_empties st Hp) as [H1 H2].
  destruct (final_flush st) as [o st']. cbn [snd] in *. rewrite H2. auto.
Qed.

(* at every intermediate point: emitted is a prefix of the map, pending the rest *)
Theorem schedule_prefix : forall m cs,
  let st := snd (run_calls (sched_init m) cs) in emitted st ++ pending st = m.
Proof. intros m cs. apply (run_calls_conserved m cs (sched_init m)). reflexivity. Qed.

Lemma calls_alone_may_leave_pending :
  exists m cs, ascending m /\ pending (snd (run_calls (sched_init m) cs)) <> [].
Proof. exists [(5%N, [b " c"])], [CIfNeeded 0 1%N]. cbn. split; [auto|discriminate]. Qed.

(* out-of-order calls: a group is never skipped or repeated, but it is printed
   EARLY, in front of whatever the walk prints next *)
Lemma out_of_order_prints_early :
  let m := [(2%N, [b " a"]); (4%N, [b " b"])] in
  fst (run_calls (sched_init m) [CIfNeeded 0 5%N; CIfNeeded 0 1%N; CIfNeeded 0 3%N])
  = [ b "// a" ++ [nl; nl] ++ b "// b" ++ [nl]; []; [] ].
Proof. vm_compute. reflexivity. Qed.

(* has_comment is an observation *)
Lemma has_comment_spec st ln :
  has_comment st ln = true <-> exists k g r, pending st = (k, g) :: r /\ (k < ln)%N.
Proof.
  unfold has_comment. destruct (pending st) as [|[k g] r]; split.
  - discriminate.
  - intros (? & ? & ? & H & _). discriminate.
  - intros H. apply N.ltb_lt in H. eauto.
  - intros (k' & g' & r' & H & Hl). inversion H; subst. now apply N.ltb_lt.
Qed.

(* what the tokenizer reads back as the fragment of a printed comment line:
   the bytes between "//" and the line end *)
Definition relex_body (frag : bytes) : bytes :=
  match trim_end frag with
  | [] => []
  | t => match frag with
         | c :: _ => if is_ascii_ws c then [] else [sp]
         | [] => [sp]
         end ++ t
  end.

Lemma comment_line_shape cur frag :
  comment_line cur frag = spaces cur ++ b "//" ++ relex_body frag ++ [nl].
Proof.
  unfold comment_line, relex_body. destruct (trim_end frag); [reflexivity|]. now rewrite <- !app_assoc.
Qed.

Lemma trim_end_nil_iff s : trim_end s = [] <-> forallb is_ascii_ws s = true.
Proof.
  induction s as [|c s IH]; [cbn; tauto|]. cbn [trim_end forallb].
  destruct (trim_end s) as [|d r] eqn:E.
  - destruct (is_ascii_ws c); cbn; [tauto|]. split; discriminate.
  - split; [discriminate|]. intros H. apply andb_true_iff in H as [_ H]. apply IH in H. discriminate.
Qed.

Lemma trim_end_cons c s :
  trim_end (c :: s) = match trim_end s with [] => if is_ascii_ws c then [] else [c] | r' => c :: r' end.
Proof. reflexivity. Qed.

Lemma trim_end_idem s : trim_end (trim_end s) = trim_end s.
Proof.
  induction s as [|c s IH]; [reflexivity|]. rewrite trim_end_cons.
  destruct (trim_end s) as [|d r] eqn:E.
  - destruct (is_ascii_ws c) eqn:Ec; [reflexivity|]. cbn. now rewrite Ec.
  - rewrite trim_end_cons, IH. reflexivity.
Qed.

Lemma trim_end_head c s d r : trim_end (c :: s) = d :: r -> d = c.
Proof.
  cbn [trim_end]. destruct (trim_end s).
  - destruct (is_ascii_ws c); [discriminate|]. intros H; inversion H; auto.
  - intros H; inversion H; auto.
Qed.

(* the three shapes of the normalised text *)
Lemma relex_body_cases frag :
  (trim_end frag = [] /\ relex_body frag = []) \/
  (exists c r, trim_end frag = c :: r /\ trim_end (c :: r) = c :: r /\
     ((is_ascii_ws c = true /\ relex_body frag = c :: r) \/
      (is_ascii_ws c = false /\ relex_body frag = sp :: c :: r))).
Proof.
  unfold relex_body. destruct (trim_end frag) as [|d r] eqn:E; [left; auto|right].
  destruct frag as [|c s]; [discriminate|]. pose proof (trim_end_head _ _ _ _ E); subst d.
  exists c, r. split; [reflexivity|]. split; [rewrite <- E; apply trim_end_idem|].
  destruct (is_ascii_ws c); [left|right]; auto.
Qed.

(* comment_text_fixed (the blank-comment rule is that of commit a7f1c11): for EVERY comment body -- empty,
   white space only, with or without a leading blank, with trailing blanks --
   the text the printer writes is read back as a body that is printed as the
   same text again: formatting a comment twice = formatting it once. *)
Theorem comment_text_fixed : forall frag, relex_body (relex_body frag) = relex_body frag.
Proof.
  intros frag. destruct (relex_body_cases frag) as [[_ ->]|(c & r & _ & T & [[Hc ->]|[Hc ->]])].
  - reflexivity.
  - unfold relex_body. rewrite T, Hc. reflexivity.
  - unfold relex_body. rewrite trim_end_cons, T. reflexivity.
Qed.

Corollary comment_line_fixed : forall cur frag,
  comment_line cur (relex_body frag) = comment_line cur frag.
Proof. intros. now rewrite !comment_line_shape, comment_text_fixed. Qed.

(* blank comments in particular: `//`, `// `, `//<tab> ` are all written `//` and stay `//` *)
Lemma blank_comment_line cur frag : trim_end frag = [] -> comment_line cur frag = spaces cur ++ b "//" ++ [nl].
Proof. intros H. unfold comment_line. now rewrite H. Qed.

(* a comment with visible text keeps it: only trailing white space is dropped and one blank is
   put in front if there was no white space there *)
Lemma relex_body_text frag : trim_end (relex_body frag) = relex_body frag.
Proof.
  destruct (relex_body_cases frag) as [[_ ->]|(c & r & _ & T & [[Hc ->]|[Hc ->]])];
    [reflexivity|exact T|]. rewrite trim_end_cons, T. reflexivity.
Qed.

Fixpoint last_sat (p : ascii -> bool) (s : bytes) : bool :=
  match s with
  | [] => false
  | c :: r => match r with [] => p c | _ => last_sat p r end
  end.

Definition is_cr (c : ascii) : bool := Ascii.eqb c cr.

Lemma trim_end_last p s :
  (forall c, p c = true -> is_ascii_ws c = true) -> last_sat p (trim_end s) = false.
Proof.
  intros Hp. induction s as [|c s IH]; [reflexivity|]. rewrite trim_end_cons.
  destruct (trim_end s) as [|d r].
  - destruct (is_ascii_ws c) eqn:Ec; [reflexivity|]. cbn.
    destruct (p c) eqn:E; [|reflexivity]. apply Hp in E. congruence.
  - exact IH.
Qed.

Lemma trim_end_no_nl s : no_nl s = true -> no_nl (trim_end s) = true.
Proof.
  induction s as [|c s IH]; [auto|]. unfold no_nl in *. cbn [forallb]. intros H.
  apply andb_true_iff in H as [Hc Hs]. rewrite trim_end_cons.
  destruct (trim_end s) as [|d r].
  - destruct (is_ascii_ws c); [reflexivity|]. cbn. now rewrite Hc.
  - cbn [forallb]. rewrite Hc. exact (IH Hs).
Qed.

Lemma until_eol_exact body : forall rest,
  no_nl body = true -> last_sat is_cr body = false ->
  until_eol (body ++ nl :: rest) = (body, nl :: rest).
Proof.
  induction body as [|c body IH]; intros rest Hn Hl.
  - cbn [app]. rewrite until_eol_cons, Ascii.eqb_refl. reflexivity.
  - unfold no_nl in Hn. cbn [forallb] in Hn. apply andb_true_iff in Hn as [Hc Hn]. unfold is_nl in Hc.
    apply negb_true_iff in Hc. cbn [app]. rewrite until_eol_cons, Hc. cbn [orb].
    assert (E : (Ascii.eqb c cr && starts_with_nl (body ++ nl :: rest))%bool = false).
    { destruct body as [|d body].
      - cbn in Hl. unfold is_cr in Hl. now rewrite Hl.
      - cbn [app starts_with_nl]. unfold no_nl in Hn. cbn [forallb] in Hn.
        apply andb_true_iff in Hn as [Hd _]. unfold is_nl in Hd. apply negb_true_iff in Hd.
        rewrite Hd. apply andb_false_r. }
    rewrite E. rewrite IH; [reflexivity|exact Hn|].
    destruct body; [reflexivity|exact Hl].
Qed.

Lemma relex_body_ok frag : no_nl frag = true ->
  no_nl (relex_body frag) = true /\ last_sat is_cr (relex_body frag) = false.
Proof.
  intros Hn. pose proof (trim_end_no_nl _ Hn) as Ht.
  assert (Hl : last_sat is_cr (trim_end frag) = false).
  { apply trim_end_last. intros c Hc. unfold is_cr in Hc. apply Ascii.eqb_eq in Hc. subst. reflexivity. }
  destruct (relex_body_cases frag) as [[_ ->]|(c & r & E & _ & [[Hc ->]|[Hc ->]])].
  - auto.
  - rewrite E in Ht, Hl. auto.
  - rewrite E in Ht, Hl. split; [exact Ht|exact Hl].
Qed.

(* comment_line_relex: whatever indentation the comment was printed at, the
   line  "//" body "\n"  is ONE comment token of the tokenizer model whose
   fragment is [relex_body frag]. *)
Theorem comment_line_relex : forall frag rest, no_nl frag = true ->
  first_raw (b "//" ++ relex_body frag ++ nl :: rest) =
  RComplete COMMENT (relex_body frag) (b "//" ++ relex_body frag ++ [nl]) rest.
Proof.
  intros frag rest Hn. destruct (relex_body_ok frag Hn) as [H1 H2].
  apply first_raw_comment. unfold comment_run. rewrite strip_prefix_app.
  rewrite (until_eol_exact _ rest H1 H2). cbn [eat_eol]. rewrite Ascii.eqb_refl. reflexivity.
Qed.

(* FIXED POINT FOR COMMENT TEXT, end to end on the models: print a comment, let the
   tokenizer model read the printed line back, print what it read: same line. *)
Theorem comment_print_lex_print : forall cur frag rest, no_nl frag = true ->
  exists f', first_raw (b "//" ++ relex_body frag ++ nl :: rest) =
             RComplete COMMENT f' (b "//" ++ relex_body frag ++ [nl]) rest /\
             comment_line cur f' = comment_line cur frag.
Proof.
  intros cur frag rest Hn. exists (relex_body frag). split; [now apply comment_line_relex|].
  apply comment_line_fixed.
Qed.

Lemma strip_lex_ws_any w y : forallb is_ws w = true -> strip_lex (w ++ y) = strip_lex y.
Proof.
  intros Hw. destruct (span is_ws y) as [w2 y2] eqn:E.
  pose proof (span_app _ _ _ _ E) as ->. pose proof (span_all _ _ _ _ E) as H2.
  pose proof (span_stop _ _ _ _ E) as H3.
  assert (Hy : starts_nonws y2 = true) by (destruct y2; [reflexivity|cbn; now rewrite H3]).
  rewrite app_assoc, strip_lex_ws_block; [|now rewrite forallb_app, Hw, H2|exact Hy].
  now rewrite strip_lex_ws_block.
Qed.

Lemma spaces_ws n : forallb is_ws (spaces n) = true.
Proof. induction n; [reflexivity|exact IHn]. Qed.

(* the fragment: literals without floats, symbols, lists, tuples, groups,
   binary chains (all 18 operators) *)
Definition sym_ok (x : bytes) : bool := wf_tk (BAREWORD, x).

Fixpoint frag_ok (e : expr) : bool :=
  match e with
  | ENull | EBool _ | EStr _ => true
  | EInt z => (0 <=? z)%Z
  | ESym x => sym_ok x
  | EList es => forallb frag_ok es
  | ETuple fs => forallb (fun kv => frag_ok (snd kv)) fs
  | EGroup e1 => frag_ok e1
  | EBin _ l r => (frag_ok l && frag_ok r)%bool
  | _ => false
  end.

(* tokens an expression can END with *)
Definition end_tok (a : tk) : bool :=
  match fst a with
  | EMPTY | BOOLEAN | QUOTED | DIGIT | BAREWORD => true
  | PUNCT => existsb (bytes_eqb (snd a)) [b "]"; b "}"; b ")"]
  | _ => false
  end.

Lemma end_tok_follow a y : end_tok a = true -> delim_follow y = true -> follow_ok a y = true.
Proof.
  intros Ha Hy. destruct y as [|c y]; [reflexivity|]. cbn [delim_follow follow_ok] in *.
  destruct (delim_facts c Hy) as (F1 & F2 & F3 & F4 & F5).
  destruct a as [ty f]. unfold end_tok in Ha. cbn [fst snd] in Ha.
  destruct ty; try discriminate; unfold needs_sep_byte; cbn [fst snd]; try reflexivity.
  - now rewrite F2.
  - now rewrite F1.
  - cbn [existsb] in Ha. repeat (apply orb_true_iff in Ha as [Ha|Ha]); try discriminate;
      apply bytes_eqb_spec in Ha; subst f.
    + unfold needs_sep_byte in F3. cbn [fst snd] in F3. now rewrite F3.
    + unfold needs_sep_byte in F4. cbn [fst snd] in F4. now rewrite F4.
    + unfold needs_sep_byte in F5. cbn [fst snd] in F5. now rewrite F5.
Qed.

Lemma lex_sp y : strip_lex (sp :: y) = strip_lex y.
Proof. apply (strip_lex_ws_any [sp]). reflexivity. Qed.
Lemma lex_nl y : strip_lex (nl :: y) = strip_lex y.
Proof. apply (strip_lex_ws_any [nl]). reflexivity. Qed.
Lemma lex_spaces n y : strip_lex (spaces n ++ y) = strip_lex y.
Proof. apply strip_lex_ws_any, spaces_ws. Qed.

Lemma lex_tok_sp (a : tk) y : wf_tk a = true ->
  strip_lex (src_of a ++ sp :: y) = option_map (cons a) (strip_lex y).
Proof.
  intros Hwf. rewrite strip_lex_token; [now rewrite lex_sp|exact Hwf|].
  cbn [follow_ok]. rewrite (blank_follows_any a sp Hwf); [reflexivity|cbn; auto].
Qed.

Lemma lex_spaced_op a y : wf_tk a = true ->
  strip_lex (sp :: src_of a ++ sp :: y) = option_map (cons a) (strip_lex y).
Proof. intros Hwf. rewrite lex_sp. now apply lex_tok_sp. Qed.

Lemma lex_kw k y : In k printer_keywords ->
  strip_lex (b k ++ sp :: y) = option_map (cons (BAREWORD, b k)) (strip_lex y).
Proof. intros Hk. rewrite (keyword_then_blank k y Hk). now rewrite lex_sp. Qed.

Lemma lex_word x c y : wf_tk (BAREWORD, x) = true -> is_symbol_char c = false ->
  strip_lex (x ++ c :: y) = option_map (cons (BAREWORD, x)) (strip_lex (c :: y)).
Proof.
  intros Hwf Hc. apply (strip_lex_token (BAREWORD, x)); [exact Hwf|].
  cbn [follow_ok]. unfold needs_sep_byte. cbn [fst]. now rewrite Hc.
Qed.

Lemma lex_open (o : bytes) y : In o [b "("; b "["; b "{"] ->
  strip_lex (o ++ y) = option_map (cons (PUNCT, o)) (strip_lex y).
Proof.
  intros Ho. apply (strip_lex_token (PUNCT, o)).
  - cbn in Ho. destruct Ho as [<-|[<-|[<-|[]]]]; reflexivity.
  - destruct y as [|ch y]; [reflexivity|]. cbn [follow_ok].
    destruct (open_follows_any ch) as (H1 & H2 & H3).
    cbn in Ho. destruct Ho as [<-|[<-|[<-|[]]]]; now rewrite ?H1, ?H2, ?H3.
Qed.

Lemma lex_close (c : bytes) y : In c [b ")"; b "]"; b "}"] -> delim_follow y = true ->
  strip_lex (c ++ y) = option_map (cons (PUNCT, c)) (strip_lex y).
Proof.
  intros Hc Hy. apply (strip_lex_token (PUNCT, c)).
  - cbn in Hc. destruct Hc as [<-|[<-|[<-|[]]]]; reflexivity.
  - apply end_tok_follow; [|exact Hy]. cbn in Hc. destruct Hc as [<-|[<-|[<-|[]]]]; reflexivity.
Qed.

Lemma lex_comma_sp y : strip_lex (b ", " ++ y) = option_map (cons (PUNCT, b ",")) (strip_lex y).
Proof. now apply (lex_tok_sp (PUNCT, b ",")). Qed.
Lemma lex_comma_nl y : strip_lex (b "," ++ [nl] ++ y) = option_map (cons (PUNCT, b ",")) (strip_lex y).
Proof. rewrite (strip_lex_token (PUNCT, b ",")) by reflexivity. cbn [app]. now rewrite lex_nl. Qed.
Lemma lex_semicolon y : strip_lex (b ";" ++ nl :: y) = option_map (cons (PUNCT, b ";")) (strip_lex y).
Proof. rewrite (strip_lex_token (PUNCT, b ";")) by reflexivity. now rewrite lex_nl. Qed.

Lemma lex_colon (t : bytes) y : starts t ->
  strip_lex (b ":" ++ t ++ y) = option_map (cons (PUNCT, b ":")) (strip_lex (t ++ y)).
Proof.
  intros Ht. apply (strip_lex_token (PUNCT, b ":")); [reflexivity|].
  destruct t as [|c r]; [discriminate Ht|]. cbn [app follow_ok]. now rewrite (proj2 (starter_facts c Ht)).
Qed.

Lemma op_tok_wf o : wf_tk (op_tok o) = true.
Proof. destruct o; reflexivity. Qed.

Lemma op_text_spaced o : o <> DOT -> op_text o = sp :: src_of (op_tok o) ++ [sp].
Proof. destruct o; try reflexivity. congruence. Qed.

Definition item_spec (t : bytes) (ts : list tk) : Prop :=
  forall y, delim_follow y = true -> strip_lex (t ++ y) = option_map (app ts) (strip_lex y).

(* closes a goal  f (g (... (strip_lex y))) = option_map (app ts) (strip_lex y)  once the steps are done *)
Ltac fin y :=
  destruct (strip_lex y); cbn [option_map];
  [f_equal; repeat (progress (cbn [app]; rewrite <- ?app_assoc)); reflexivity|reflexivity].

Lemma atom_spec (a : tk) : wf_tk a = true -> end_tok a = true -> item_spec (src_of a) [a].
Proof. intros Hw He y Hy. rewrite strip_lex_token by auto using end_tok_follow. fin y. Qed.

Lemma quoted_spec s : item_spec (quoted s) [(QUOTED, s)].
Proof. intros y _. rewrite strip_lex_quoted. fin y. Qed.

Lemma group_spec t ts : item_spec t ts -> item_spec (b "(" ++ t ++ b ")") ((PUNCT, b "(") :: ts ++ [(PUNCT, b ")")]).
Proof.
  intros H y Hy. rewrite <- !app_assoc, lex_open by (cbn; auto). rewrite H by reflexivity.
  rewrite lex_close by (cbn; auto). fin y.
Qed.

Lemma bin_spec o tl tsl tr tsr : item_spec tl tsl -> item_spec tr tsr -> starts tr ->
  item_spec (tl ++ op_text o ++ tr) (tsl ++ op_tok o :: tsr).
Proof.
  intros Hl Hr Hs y Hy. rewrite <- !app_assoc.
  assert (D : o = DOT \/ o <> DOT) by (destruct o; auto; right; discriminate).
  destruct D as [->|Hno].
  - rewrite Hl by reflexivity. rewrite (strip_lex_token (PUNCT, b ".")); [|reflexivity|].
    + rewrite (Hr y Hy). fin y.
    + destruct tr as [|c r]; [discriminate Hs|]. cbn [app follow_ok]. now rewrite (proj1 (starter_facts c Hs)).
  - rewrite (op_text_spaced o Hno), Hl by reflexivity. cbn [app]. rewrite <- app_assoc. cbn [app].
    rewrite (lex_spaced_op _ _ (op_tok_wf o)), (Hr y Hy). fin y.
Qed.

(* one `name = value` field *)
Lemma field_spec k t ts : item_spec t ts ->
  item_spec (field_name k ++ b " = " ++ t) (name_tok k :: (PUNCT, b "=") :: ts).
Proof.
  intros H y Hy. rewrite <- !app_assoc.
  change (b " = " ++ t ++ y) with (sp :: src_of (PUNCT, b "=") ++ sp :: t ++ y).
  rewrite field_name_roundtrip, lex_spaced_op by reflexivity. rewrite (H y Hy). fin y.
Qed.

Section Toks.
  Variable ind : nat.

  (* items of a list / tuple / multi-line call, one per line, each followed by ",\n" *)
  Lemma lex_block {A} n (f : A -> bytes) (g : A -> list tk) (l : list A) z :
    Forall (fun a => item_spec (f a) (g a)) l ->
    strip_lex (flat_map (fun i => spaces n ++ i ++ b "," ++ [nl]) (map f l) ++ z)
    = option_map (app (flat_map (fun a => g a ++ [(PUNCT, b ",")]) l)) (strip_lex z).
  Proof.
    induction 1 as [|a l Ha _ IH]; [cbn; fin z|]. cbn [map flat_map].
    rewrite <- !app_assoc, lex_spaces, Ha by reflexivity. rewrite lex_comma_nl, IH. fin z.
  Qed.

  (* an opening bracket, the block, the closing bracket (lists, tuples, calls with several arguments) *)
  Lemma bracket_spec {A} (o c : bytes) cur (f : A -> bytes) (g : A -> list tk) (l : list A) :
    In o [b "("; b "["; b "{"] -> In c [b ")"; b "]"; b "}"] ->
    Forall (fun a => item_spec (f a) (g a)) l ->
    item_spec (o ++ block ind cur (map f l) ++ c)
              ((PUNCT, o) :: flat_map (fun a => g a ++ [(PUNCT, b ",")]) l ++ [(PUNCT, c)]).
  Proof.
    intros Ho Hc HF y Hy. rewrite <- !app_assoc, lex_open by exact Ho. unfold block.
    destruct (map f l) as [|i0 items] eqn:El.
    - destruct l; [|discriminate]. cbn [app flat_map]. rewrite lex_close by assumption. fin y.
    - rewrite <- El, <- !app_assoc. cbn [app]. rewrite lex_nl, (lex_block (cur + ind) f g l _ HF), lex_spaces.
      rewrite lex_close by assumption. fin y.
  Qed.

  Lemma pp_starts e : frag_ok e = true -> forall cur, starts (pp_expr ind cur e).
  Proof.
    unfold starts. induction e; intros He cur; try discriminate He; try reflexivity.
    - destruct v; reflexivity.
    - cbn [frag_ok] in He. apply Z.leb_le in He. destruct (dec_of_Z_digits z He) as [Hn Hd].
      cbn [pp_expr]. destruct (dec_of_Z z) as [|c r]; [congruence|].
      cbn [forallb] in Hd. apply andb_true_iff in Hd as [Hc _]. cbn [head_is]. unfold is_starter. rewrite Hc.
      now rewrite orb_true_r.
    - cbn [frag_ok] in He. unfold sym_ok, wf_tk in He. cbn [fst snd] in He.
      apply andb_true_iff in He as [Hw _]. cbn [pp_expr]. destruct x as [|c r]; [discriminate|].
      cbn in Hw. apply andb_true_iff in Hw as [Hc _]. cbn [head_is]. unfold is_starter. now rewrite Hc.
    - cbn [frag_ok] in He. apply andb_true_iff in He as [Hl _]. specialize (IHe1 Hl cur).
      cbn [pp_expr]. destruct (pp_expr ind cur e1); [discriminate IHe1|exact IHe1].
  Qed.

  (* pp_tokens_roundtrip (general form): the text of a fragment expression,
     at any indentation, followed by anything that starts with a delimiter,
     lexes to [toks e] followed by the tokens of the rest *)
  Lemma pp_toks : forall e, frag_ok e = true -> forall cur, item_spec (pp_expr ind cur e) (toks e).
  Proof.
    enough ((forall e, frag_ok e = true -> forall cur, item_spec (pp_expr ind cur e) (toks e)) /\
            (forall s : stmt, True)) as [H _] by exact H.
    apply expr_stmt_ind; try (intros; exact I); try (intros; discriminate); cbn [frag_ok]; intros.
    - now apply (atom_spec (EMPTY, b "NULL")).
    - destruct v; [now apply (atom_spec (BOOLEAN, b "true"))|now apply (atom_spec (BOOLEAN, b "false"))].
    - apply Z.leb_le in H. destruct (dec_of_Z_digits z H). now apply (atom_spec (DIGIT, dec_of_Z z)); [apply digits_wf|].
    - apply quoted_spec.
    - now apply (atom_spec (BAREWORD, x)).
    - apply (bracket_spec (b "{") (b "}") cur
               (fun kv => field_name (fst kv) ++ b " = " ++ pp_expr ind (cur + ind) (snd kv))
               (fun kv => name_tok (fst kv) :: (PUNCT, b "=") :: toks (snd kv))); [cbn; auto|cbn; auto|].
      rewrite forallb_forall in H0. rewrite Forall_forall in *. intros kv Hkv. apply field_spec; auto.
    - apply (bracket_spec (b "[") (b "]") cur (pp_expr ind (cur + ind)) toks); [cbn; auto|cbn; auto|].
      rewrite forallb_forall in H0. rewrite Forall_forall in *. auto.
    - split_andb. apply bin_spec; auto using pp_starts.
    - apply group_spec; auto.
  Qed.
End Toks.

(* pp_tokens_roundtrip: lexing the printed text of a fragment expression gives
   exactly the token list defined directly from the AST *)
Theorem pp_tokens_roundtrip : forall ind cur e, frag_ok e = true ->
  strip_lex (pp_expr ind cur e) = Some (toks e ++ [tk_end]).
Proof.
  intros ind cur e He. pose proof (pp_toks ind e He cur [] eq_refl) as H.
  rewrite app_nil_r in H. exact H.
Qed.

(* and as a statement: `let x = e;\n` *)
Theorem let_stmt_tokens_roundtrip : forall ind x e, sym_ok x = true -> frag_ok e = true ->
  strip_lex (pp_stmts ind [SLet x e]) =
  Some ((BAREWORD, b "let") :: (BAREWORD, x) :: (PUNCT, b "=") :: toks e ++ [(PUNCT, b ";"); tk_end]).
Proof.
  intros ind x e Hx He. unfold pp_stmts, pp_prog. cbn [map join_with flat_map]. rewrite app_nil_r.
  change (pp_stmt ind 0 (SLet x e)) with ((b "let " ++ x ++ b " = " ++ pp_expr ind 0 e) ++ b ";" ++ [nl]).
  rewrite <- !app_assoc.
  change (b "let " ++ x ++ b " = " ++ pp_expr ind 0 e ++ b ";" ++ [nl])
    with (b "let" ++ sp :: src_of (BAREWORD, x) ++ sp :: src_of (PUNCT, b "=") ++ sp :: pp_expr ind 0 e ++ b ";" ++ [nl]).
  rewrite lex_kw by (cbn; auto). rewrite lex_tok_sp by exact Hx. rewrite lex_tok_sp by reflexivity.
  rewrite (pp_toks ind e He 0) by reflexivity. rewrite lex_semicolon, strip_lex_nil. reflexivity.
Qed.

Definition is_comment_tok (t : token) : bool := match typ t with COMMENT => true | _ => false end.

Lemma close_group_frags grp : flat_map snd (close_group grp) = map frag grp.
Proof.
  unfold close_group. destruct (rev grp) as [|t r] eqn:E.
  - apply (f_equal (@rev _)) in E. rewrite rev_involutive in E. subst. reflexivity.
  - cbn. now rewrite app_nil_r.
Qed.

(* comment_map_complete: the groups, concatenated, are exactly the fragments of
   the COMMENT tokens of the source, in source order -- the map loses nothing
   the tokenizer produced as a comment *)
Lemma build_map_frags toks : forall grp,
  flat_map snd (build_map toks grp) = map frag grp ++ map frag (filter is_comment_tok toks).
Proof.
  induction toks as [|t r IH]; intros grp; cbn [build_map filter].
  - rewrite close_group_frags. cbn. now rewrite app_nil_r.
  - unfold is_comment_tok at 1. destruct (typ t) eqn:Et;
      try (rewrite flat_map_app, close_group_frags, IH; reflexivity).
    rewrite IH, map_app. cbn [map]. now rewrite <- app_assoc.
Qed.

Theorem comment_map_complete : forall src toks m,
  lex_all src = Some toks -> comment_map_of src = Some m ->
  flat_map snd m = map frag (filter is_comment_tok toks).
Proof.
  intros src toks m Hl Hm. unfold comment_map_of in Hm. rewrite Hl in Hm. inversion Hm; subst.
  apply (build_map_frags toks []).
Qed.

(* A comment glued to a keyword IS in the map (source commit b648ec7: the keyword
   recognisers only look ahead; model: kw_lookahead_only = true, theorem
   lex_all_keeps_glued_comment). *)
Lemma close_group_cons c g : exists k, close_group (c :: g) = [(k, map frag (c :: g))].
Proof.
  unfold close_group. destruct (rev (c :: g)) as [|t r] eqn:E.
  - apply (f_equal (@List.length _)) in E. rewrite rev_length in E. discriminate.
  - eauto.
Qed.

Lemma build_map_head l : forall c g0, exists k g m', build_map l (c :: g0) = (k, frag c :: g) :: m'.
Proof.
  induction l as [|t r IH]; intros c g0; cbn [build_map].
  - destruct (close_group_cons c g0) as (k & ->). cbn [map]. eauto.
  - destruct (typ t); try (destruct (close_group_cons c g0) as (k & ->); cbn [map app]; eauto).
    change ((c :: g0) ++ [t]) with (c :: (g0 ++ [t])). apply IH.
Qed.

Theorem glued_comment_in_map : forall ty lit body rest m,
  In (RTextWS ty lit) recognisers -> no_nl body = true ->
  comment_map_of (b lit ++ b "//" ++ body ++ [nl] ++ rest) = Some m ->
  exists k g m', m = (k, chomp_cr body :: g) :: m'.
Proof.
  intros ty lit body rest m Hin Hn H. unfold comment_map_of in H.
  destruct (lex_all (b lit ++ b "//" ++ body ++ [nl] ++ rest)) as [toks|] eqn:E; [|discriminate].
  destruct (glued_comment_is_token ty lit body rest toks Hin Hn E) as (tl & ->).
  assert (ty = BAREWORD).
  { pose proof recognisers_word_ok as W. rewrite forallb_forall in W. specialize (W _ Hin).
    cbn in W. apply andb_true_iff in W as [W _]. now apply ttype_eqb_eq in W. }
  subst ty. inversion H; subst.
  exact (build_map_head tl (mk_tok COMMENT (chomp_cr body) (advance ps0 (b lit))) []).
Qed.

Example glued_comment_example :
  comment_map_of (b "let//note" ++ [nl] ++ b "x = 1;") = Some [(1%N, [b "note"])] /\
  strip_lex (b "let//note" ++ [nl] ++ b "x = 1;") = strip_lex (b "let x = 1;").
Proof. vm_compute. auto. Qed.

(* source_comment_in_map: EVERY comment of the source that starts at a token boundary -- after a
   keyword as after anything else -- is in the comment map with its text.
   Needs exactly: the source tokenizes; the text at the offset of some token reads
   "//" body LF with no LF inside body (so it is not inside a string literal or another comment:
   those offsets are not token boundaries).  A comment closed by the end of the file instead of
   LF is covered by comment_map_complete (it is a COMMENT token of lex_all). *)
Theorem source_comment_in_map : forall src toks m t pre body rest,
  lex_all src = Some toks -> comment_map_of src = Some m -> In t toks ->
  src = pre ++ b "//" ++ body ++ nl :: rest -> no_nl body = true ->
  N.to_nat (off t) = List.length pre ->
  In (chomp_cr body) (flat_map snd m).
Proof.
  intros src toks m t pre body rest Hl Hm Hin Hsrc Hn Hoff.
  destruct (comment_at_boundary_is_token src toks t pre body rest Hl Hin Hsrc Hn Hoff) as [Hty Hf].
  rewrite (comment_map_complete src toks m Hl Hm), <- Hf. apply in_map.
  apply filter_In. split; [exact Hin|]. unfold is_comment_tok. now rewrite Hty.
Qed.

(* token lines never decrease along lex_all (from positions_exact_all); the keys
   of the map are lines of a subsequence of the tokens *)
Theorem lex_lines_sorted : forall src toks, lex_all src = Some toks ->
  StronglySorted (fun t1 t2 => (line t1 <= line t2)%N) toks.
Proof.
  intros src toks H. destruct (positions_exact_all src toks H) as [Hok Hs]. clear H.
  induction Hs as [|t l Hs IH Hall]; constructor.
  - apply IH. now inversion Hok.
  - inversion Hok as [|? ? Ht Hl]; subst. rewrite Forall_forall in *. intros t2 Hin.
    specialize (Hall t2 Hin). specialize (Hl t2 Hin). unfold off_lt in Hall.
    destruct Ht as (_ & L1 & _). destruct Hl as (_ & L2 & _). rewrite L1, L2.
    pose proof (line_of_mono src (N.to_nat (off t)) (N.to_nat (off t2)) ltac:(lia)). unfold line_of in *. lia.
Qed.

Definition line_le (t1 t2 : token) : Prop := (line t1 <= line t2)%N.
Definition key_le (a c : N * comment_group) : Prop := (fst a <= fst c)%N.

Lemma ss_app_inv {A} (R : A -> A -> Prop) l1 : forall l2,
  StronglySorted R (l1 ++ l2) ->
  StronglySorted R l1 /\ StronglySorted R l2 /\ (forall x y, In x l1 -> In y l2 -> R x y).
Proof.
  induction l1 as [|a l1 IH]; intros l2 H.
  - cbn in H. repeat split; [constructor|exact H|intros ? ? []].
  - cbn in H. inversion H as [|? ? Hs Hall]; subst. destruct (IH l2 Hs) as (S1 & S2 & C).
    rewrite Forall_forall in Hall. repeat split; [|exact S2|].
    + constructor; [exact S1|]. apply Forall_forall. intros x Hx. apply Hall, in_or_app. auto.
    + intros x y [<-|Hx] Hy; [apply Hall, in_or_app; auto|now apply C].
Qed.

Lemma ss_app {A} (R : A -> A -> Prop) l1 l2 :
  StronglySorted R l1 -> StronglySorted R l2 -> (forall x y, In x l1 -> In y l2 -> R x y) ->
  StronglySorted R (l1 ++ l2).
Proof.
  induction l1 as [|a l1 IH]; intros S1 S2 C; [exact S2|]. cbn.
  inversion S1 as [|? ? Hs Hall]; subst. constructor.
  - apply IH; auto. intros x y Hx Hy. apply C; [now right|exact Hy].
  - apply Forall_forall. intros x Hx. apply in_app_or in Hx as [Hx|Hx].
    + rewrite Forall_forall in Hall. now apply Hall.
    + apply C; [now left|exact Hx].
Qed.

Lemma close_group_keys grp kg : In kg (close_group grp) -> exists t, In t grp /\ fst kg = line t.
Proof.
  unfold close_group. destruct (rev grp) as [|t r] eqn:E; [intros []|].
  intros [<-|[]]. exists t. split; [|reflexivity]. apply in_rev. rewrite E. now left.
Qed.

Lemma close_group_sorted grp : StronglySorted key_le (close_group grp).
Proof.
  unfold close_group. destruct (rev grp); [constructor|]. constructor; [constructor|constructor].
Qed.

Lemma build_map_sorted toks : forall grp,
  StronglySorted line_le (grp ++ toks) ->
  StronglySorted key_le (build_map toks grp) /\
  (forall kg, In kg (build_map toks grp) -> exists t, In t (grp ++ toks) /\ fst kg = line t).
Proof.
  induction toks as [|t r IH]; intros grp H.
  - cbn [build_map]. rewrite app_nil_r. split; [apply close_group_sorted|apply close_group_keys].
  - assert (Other : typ t <> COMMENT ->
              StronglySorted key_le (close_group grp ++ build_map r []) /\
              (forall kg, In kg (close_group grp ++ build_map r []) ->
                 exists t0, In t0 (grp ++ t :: r) /\ fst kg = line t0)).
    { intros _. destruct (ss_app_inv _ _ _ H) as (S1 & S2 & C).
      inversion S2 as [|? ? Sr _]; subst. destruct (IH [] Sr) as [Hs Hk]. split.
      - apply ss_app; [apply close_group_sorted|exact Hs|].
        intros x y Hx Hy. apply close_group_keys in Hx as (t1 & I1 & E1).
        apply Hk in Hy as (t2 & I2 & E2). unfold key_le. rewrite E1, E2.
        apply (C t1 t2 I1). now right.
      - intros kg Hin. apply in_app_or in Hin as [Hin|Hin].
        + apply close_group_keys in Hin as (t1 & I1 & E1). exists t1. split; [apply in_or_app; now left|exact E1].
        + apply Hk in Hin as (t2 & I2 & E2). exists t2. split; [apply in_or_app; right; now right|exact E2]. }
    cbn [build_map]. destruct (typ t) eqn:Et; try (apply Other; discriminate).
    specialize (IH (grp ++ [t])). rewrite <- app_assoc in IH. cbn [app] in IH.
    exact (IH H).
Qed.

Lemma sorted_ascending m : StronglySorted key_le m -> ascending m.
Proof.
  induction m as [|[k g] m IH]; intros H; [exact I|]. inversion H as [|? ? Hs Hall]; subst.
  cbn [ascending]. split; [|exact (IH Hs)].
  destruct m as [|[k' g'] m']; [exact I|]. inversion Hall; subst. assumption.
Qed.

(* comment_map_ascending: every map the tokenizer builds satisfies the
   hypothesis of schedule_emits_all_once *)
Theorem comment_map_ascending : forall src m, comment_map_of src = Some m -> ascending m.
Proof.
  intros src m H. unfold comment_map_of in H. destruct (lex_all src) as [toks|] eqn:E; [|discriminate].
  inversion H; subst. apply sorted_ascending.
  apply (build_map_sorted toks []). cbn [app]. exact (lex_lines_sorted src toks E).
Qed.

(* END TO END for the comment clause at the level of the models: for every
   source the tokenizer accepts and every sequence of scheduler calls the AST
   walk may make, what `render` has written at the end is every COMMENT token of
   the source, exactly once, in source order. *)
Theorem comments_all_emitted_once : forall src toks m cs,
  lex_all src = Some toks -> comment_map_of src = Some m ->
  let '(_, _, st) := run_render m cs in
  flat_map snd (emitted st) = map frag (filter is_comment_tok toks) /\ pending st = [].
Proof.
  intros src toks m cs Hl Hm. pose proof (schedule_emits_all_once m cs (comment_map_ascending src m Hm)) as S.
  destruct (run_render m cs) as [[os o] st]. destruct S as [-> ->].
  split; [exact (comment_map_complete src toks m Hl Hm)|reflexivity].
Qed.

(* ... and therefore, with NO exception for comments glued to keywords: every comment of the
   source that starts at a token boundary is among the fragments `render` has written.
   Hypotheses, exactly: the source tokenizes (lex_all), m is the map built from it, the comment
   "//" body LF sits at the offset of a token; the call sequence is arbitrary. *)
Theorem source_comments_all_emitted : forall src toks m cs t pre body rest,
  lex_all src = Some toks -> comment_map_of src = Some m -> In t toks ->
  src = pre ++ b "//" ++ body ++ nl :: rest -> no_nl body = true ->
  N.to_nat (off t) = List.length pre ->
  let '(_, _, st) := run_render m cs in
  In (chomp_cr body) (flat_map snd (emitted st)) /\ pending st = [].
Proof.
  intros src toks m cs t pre body rest Hl Hm Hin Hsrc Hn Hoff.
  pose proof (schedule_emits_all_once m cs (comment_map_ascending src m Hm)) as S.
  destruct (run_render m cs) as [[os o] st]. destruct S as [-> ->].
  split; [eapply source_comment_in_map; eauto|reflexivity].
Qed.

(* with an empty stack every scheduler operation writes nothing, whatever the line *)
Lemma no_comments_no_output st c : pending st = [] ->
  fst (step st c) = [] /\ pending (snd (step st c)) = [].
Proof.
  intros H. destruct c; cbn [step]; unfold render_comment_if_needed, render_missed_comments;
    rewrite ?H; cbn; rewrite ?H; auto.
Qed.

Lemma has_comment_empty st ln : pending st = [] -> has_comment st ln = false.
Proof. unfold has_comment. now intros ->. Qed.

Lemma if_needed_empty cur ln st : pending st = [] ->
  render_comment_if_needed cur ln st =
  ([], {| pending := []; last_line := ln; emitted := emitted st ++ [] |}).
Proof. intros H. unfold render_comment_if_needed, render_missed_comments. rewrite H. reflexivity. Qed.

Lemma render_top_no_comments stmts : forall first st, pending st = [] ->
  fst (render_top first st stmts) =
  (match stmts with [] => [] | _ => if first then [] else [nl] end) ++ join_with [nl] (map snd stmts)
  /\ pending (snd (render_top first st stmts)) = [].
Proof.
  induction stmts as [|[ln txt] rest IH]; intros first st H; [cbn; auto|].
  cbn [render_top]. rewrite (if_needed_empty 0 ln st H).
  set (st1 := {| pending := []; last_line := ln; emitted := emitted st ++ [] |}).
  destruct (IH false st1 eq_refl) as [Ho Hp].
  destruct (render_top false st1 rest) as [o st2]. cbn [fst snd] in *. split; [|exact Hp].
  rewrite Ho. cbn [map join_with snd app]. destruct rest as [|[ln' txt'] rest']; cbn; rewrite ?app_nil_r; reflexivity.
Qed.

(* the top-level walk of a comment-free program does not look at the lines *)
Theorem positions_irrelevant_without_comments : forall stmts,
  render_with_comments [] stmts = join_with [nl] (map snd stmts).
Proof.
  intros stmts. unfold render_with_comments.
  destruct (render_top_no_comments stmts true (sched_init []) eq_refl) as [Ho Hp].
  destruct (render_top true (sched_init []) stmts) as [o st]. cbn [fst snd] in *.
  unfold final_flush. rewrite Hp. cbn. rewrite app_nil_r, Ho. destruct stmts; reflexivity.
Qed.

(* fmt_fixed_point_partial.
   FULL STATEMENT (not proved with comments; for comment-free programs it is
   parse/Parse_Lex.fmt_fixed_point_all):
     for every program p and comment map m whose groups lie on lines of their
     own between the statements of the formatted text T = fmt(p, m):
       fmt(parse T, comment_map_of T) = T.
   PROVED HERE, the two model-level ingredients for comments:
     (a) EVERY comment (blank ones included) is printed in a form the
         tokenizer reads back as a body that prints to the same line (comment_text_fixed,
         comment_print_lex_print);
     (b) the placement machinery writes nothing and ignores every position when
         there is no comment. *)
Theorem fmt_fixed_point_partial :
  (forall frag, relex_body (relex_body frag) = relex_body frag) /\
  (forall cur frag, comment_line cur (relex_body frag) = comment_line cur frag) /\
  (forall stmts, render_with_comments [] stmts = join_with [nl] (map snd stmts)).
Proof.
  split; [exact comment_text_fixed|]. split; [exact comment_line_fixed|exact positions_irrelevant_without_comments].
Qed.

(* fmt_preserves_ast_partial.
   FULL STATEMENT (with the parser model of parse/Parse.v it is
   parse/Parse_Lex.fmt_preserves_ast_all): for every p the parser can produce,
   parse (pp_stmts n p) = p up to positions and field quoting.
   PROVED HERE: the token-level core for the fragment of [frag_ok] -- the printed
   text lexes to the token list determined by the AST alone (so two programs
   with the same [toks] are indistinguishable to the parser), for every
   indentation; plus the literal lemmas of section 2 for all expression kinds.
   Floats: finite_float_literal_ok for every float the parser can produce. *)
Theorem fmt_preserves_ast_partial : forall ind cur e, frag_ok e = true ->
  strip_lex (pp_expr ind cur e) = Some (toks e ++ [tk_end]).
Proof. exact pp_tokens_roundtrip. Qed.
