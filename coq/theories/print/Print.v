(* MODEL of src/ast/printer/mod.rs (AstPrinter) -- `ucg fmt`.
   Executable definitions only; proofs are in Print_Lemmas.v.

   Part A  byte-exact printer for COMMENT-FREE programs over the position-free
           AST of sem/Ast.v  (pp_expr / pp_stmt / pp_stmts).
           Without comments positions are irrelevant: every use of a position in
           the printer is an argument of has_comment / render_missed_comments /
           render_comment_if_needed, which are no-ops when comment_group_lines is
           empty (`ucg fmt` always passes a map, but an empty map gives an empty
           stack), plus the write-only field last_line.
   Part B  the comment scheduler (comment_group_lines stack, print_comment_group,
           render_missed_comments, render_comment_if_needed, has_comment, the
           final flush of `render`) as a state machine independent of the AST.
   Part C  token-level view of the printer for a small expression fragment. *)
From Ucg Require Import base.Bytes prec.Climb sem.Ast lex.Lex_Types lex.Lex.
Local Open Scope string_scope.
Local Open Scope list_scope.

(* ================================================================== *)
(** * A.1 text helpers                                                 *)
(* ================================================================== *)

(* make_indent: curr_indent blanks *)
Definition spaces (n : nat) : bytes := repeat sp n.

(* escape_quotes: `"` -> `\"`, `\` -> `\\`, everything else copied.  The Rust
   code walks chars; both special characters are ASCII so walking the UTF-8
   bytes gives the same text. *)
Definition esc_byte (c : ascii) : bytes :=
  if Ascii.eqb c dq then [bsl; dq]
  else if Ascii.eqb c bsl then [bsl; bsl]
  else [c].
Definition escape_quotes (s : bytes) : bytes := flat_map esc_byte s.

Definition quoted (s : bytes) : bytes := dq :: escape_quotes s ++ [dq].

Definition starts_with (p s : bytes) : bool :=
  match strip_prefix p s with Some _ => true | None => false end.

Definition underscore : ascii := "_"%char.

(* AstPrinter::is_bareword.  (char::is_ascii_alphabetic on chars = is_alpha on
   bytes: every byte of a non-ASCII char is >= 128 and so not alphabetic.) *)
Definition is_bareword (s : bytes) : bool :=
  match s with
  | [] => false
  | c :: _ =>
      if negb (is_alpha c) then false
      else if (negb (bytes_eqb s (b "true")) && negb (bytes_eqb s (b "false")) &&
               (starts_with (b "true") s || starts_with (b "false") s || starts_with (b "NULL") s))%bool
      then false
      else forallb (fun c => (is_alpha c || Ascii.eqb c underscore)%bool) s
  end.

Definition field_name (k : bytes) : bytes :=
  if is_bareword k then k else quoted k.

(* the operator texts of the Binary arm, blanks included *)
Definition op_text (o : op) : bytes :=
  b match o with
    | AND => " && " | OR => " || " | DOT => "."
    | Equal => " == " | NotEqual => " != " | GTEqual => " >= " | LTEqual => " <= "
    | GT => " > " | LT => " < " | Add => " + " | Sub => " - " | Mul => " * " | Div => " / "
    | Mod => " %% " | IN => " in " | IS => " is " | REMatch => " ~ " | NotREMatch => " !~ "
    end.

Definition cast_text (c : cast_type) : bytes :=
  b match c with CInt => "int" | CFloat => "float" | CStr => "str" | CBool => "bool" end.

(* ---------- integers: Display for i64 ---------- *)
Definition digit_char (d : N) : ascii := ascii_of_N (48 + d).

Fixpoint dec_fuel (fuel : nat) (n : N) (acc : bytes) : bytes :=
  match fuel with
  | O => acc
  | S f =>
      let acc' := digit_char (N.modulo n 10) :: acc in
      let q := N.div n 10 in
      if N.eqb q 0 then acc' else dec_fuel f q acc'
  end.
(* a number below 2^k has at most k decimal digits *)
Definition dec_of_N (n : N) : bytes := dec_fuel (S (N.to_nat (N.log2 n))) n [].

Definition dec_of_Z (z : Z) : bytes :=
  match z with
  | Z0 => b "0"
  | Zpos p => dec_of_N (Npos p)
  | Zneg p => "-"%char :: dec_of_N (Npos p)
  end.

(* ---------- floats: Display for f64 (shortest round-trip digits, no exponent) ----------
   core::num::flt2dec: decode + strategy::dragon::format_shortest (grisu gives
   the same digits whenever it answers) + digits_to_dec_str with frac_digits = 0. *)
Section Float.
  Local Open Scope Z_scope.

  (* decode: (mant, minus, plus, exp, inclusive), value = mant * 2^exp *)
  Definition f64_decode (ebits frac : Z) : Z * Z * Z * Z * bool :=
    let m := if ebits =? 0 then 2 * frac else frac + 2 ^ 52 in
    let e := ebits - 1075 in
    let even := Z.even m in
    if ebits =? 0 then (m, 1, 1, e, even)                       (* subnormal *)
    else if m =? 2 ^ 52 then (4 * m, 1, 2, e - 2, even)
    else (2 * m, 1, 1, e - 1, even).

  (* smallest k (searched upwards from a lower estimate) with
     num/den < 10^k (inclusive) resp. <= 10^k (exclusive) *)
  Definition pow10 (k : Z) : Z := 10 ^ k.
  Definition k_ok (incl : bool) (num den k : Z) : bool :=
    let '(l, r) := if 0 <=? k then (num, den * pow10 k) else (num * pow10 (- k), den) in
    if incl then l <? r else l <=? r.
  Fixpoint find_k (fuel : nat) (incl : bool) (num den k : Z) : Z :=
    match fuel with
    | O => k
    | S f => if k_ok incl num den k then k else find_k f incl num den (k + 1)
    end.
  Definition k_estimate (num den : Z) : Z :=
    ((Z.log2 num - Z.log2 den - 1) * 30103) / 100000 - 1.

  (* the digit loop; digits are numbers 0..9, most significant first *)
  Fixpoint gen_digits (fuel : nat) (incl : bool) (M Mi P Sc : Z) (acc : list Z) : list Z * bool :=
    match fuel with
    | O => (rev acc, false)
    | S f =>
        let d := M / Sc in
        let M' := M mod Sc in
        let down := if incl then M' <=? Mi else M' <? Mi in
        let up := if incl then Sc <=? M' + P else Sc <? M' + P in
        if (down || up)%bool
        then (rev (d :: acc), (up && (negb down || (Sc <=? 2 * M')))%bool)
        else gen_digits f incl (10 * M') (10 * Mi) (10 * P) Sc (d :: acc)
    end.

  (* round_up on the digit buffer: (digits, carried out of the first digit) *)
  Fixpoint incr_rev (ds : list Z) : list Z * bool :=   (* least significant first *)
    match ds with
    | [] => ([], true)
    | d :: r => if d =? 9 then let (r', c) := incr_rev r in (0 :: r', c) else (d + 1 :: r, false)
    end.
  Definition round_up (ds : list Z) : list Z * bool :=
    let (r, c) := incr_rev (rev ds) in (rev r, c).

  Definition shortest (ebits frac : Z) : list Z * Z :=
    let '(mant, minus, plus, e, incl) := f64_decode ebits frac in
    let '(mant, minus, plus, scale) :=
      if e <? 0 then (mant, minus, plus, 2 ^ (- e)) else (mant * 2 ^ e, minus * 2 ^ e, plus * 2 ^ e, 1) in
    let k := find_k 12 incl (mant + plus) scale (k_estimate (mant + plus) scale) in
    let '(M, Mi, P, Sc) :=
      if 0 <=? k then (10 * mant, 10 * minus, 10 * plus, scale * pow10 k)
      else (10 * mant * pow10 (- k), 10 * minus * pow10 (- k), 10 * plus * pow10 (- k), scale) in
    let '(ds, up) := gen_digits 20 incl M Mi P Sc [] in
    if up then
      let (ds', carry) := round_up ds in
      if carry then (1 :: ds', k + 1) else (ds', k)
    else (ds, k).

  (* b'0' + d.  The digit loop yields 0 <= d <= 9 (validated against Rust on 20000 bit patterns);
     reducing mod 10 here is the identity on such d and makes the LEXICAL shape of the printed
     text (digits, at most one '.') independent of the correctness of the digit generation. *)
  Definition zdigit (d : Z) : ascii := digit_char (Z.to_N (d mod 10)).
  Definition zeros (n : Z) : bytes := repeat "0"%char (Z.to_nat n).

  (* digits_to_dec_str, frac_digits = 0 *)
  Definition dec_str (ds : list Z) (k : Z) : bytes :=
    let txt := map zdigit ds in
    let len := Z.of_nat (List.length ds) in
    if k <=? 0 then b "0." ++ zeros (- k) ++ txt
    else if k <? len then firstn (Z.to_nat k) txt ++ "."%char :: skipn (Z.to_nat k) txt
    else txt ++ zeros (k - len).

  (* format!("{}", f64) from the IEEE-754 bit pattern *)
  Definition f64_display (bits : Z) : bytes :=
    let neg := Z.testbit bits 63 in
    let ebits := Z.land (Z.shiftr bits 52) 2047 in
    let frac := Z.land bits (2 ^ 52 - 1) in
    if ebits =? 2047 then
      (if frac =? 0 then (if neg then b "-inf" else b "inf") else b "NaN")
    else
      (if neg then b "-" else []) ++
      (if (ebits =? 0) && (frac =? 0) then b "0"
       else let (ds, k) := shortest ebits frac in dec_str ds k).
End Float.

(* what `triple_to_number` guarantees of a parsed float literal since commit e0bc790
   ("Float literal out of range!"): digits '.' digits is never negative, and a value that is
   not finite is rejected *)
Definition f64_sign (bits : Z) : bool := Z.testbit bits 63.
Definition f64_is_finite (bits : Z) : bool := negb (Z.land (Z.shiftr bits 52) 2047 =? 2047)%Z.
Definition parser_float (bits : Z) : bool := (negb (f64_sign bits) && f64_is_finite bits)%bool.

Definition dot : ascii := "."%char.

(* render_value, Float arm: keep / add a fraction *)
Definition float_text (bits : Z) : bytes :=
  let t := f64_display bits in
  if existsb (Ascii.eqb dot) t then t else t ++ b ".0".

(* ================================================================== *)
(** * A.2 format templates                                             *)
(* ================================================================== *)

(* sem/Ast.v stores a template pre-parsed (src/build/format.rs); the printer
   writes the ORIGINAL template string (FormatDef.template).  [unparse_template]
   rebuilds a canonical template that format.rs parses back to the same parts:
   `@` and `\` of literal parts get a backslash, a list-form placeholder is `@`,
   an expression part is `@{` text `}` where text comes from the printer itself.
   LOST: redundant escapes of the original (`\a` is `a`), a trailing lone
   backslash, the split of adjacent literal parts, and the original spelling /
   layout of the expression inside `@{...}`. *)
Definition at_sign : ascii := "@"%char.
Definition tmpl_esc_byte (c : ascii) : bytes :=
  if (Ascii.eqb c at_sign || Ascii.eqb c bsl)%bool then [bsl; c] else [c].
Definition tmpl_escape (s : bytes) : bytes := flat_map tmpl_esc_byte s.

(* ================================================================== *)
(** * A.3 the printer                                                  *)
(* ================================================================== *)

Section Printer.
  Variable ind : nat.             (* indent_size; `ucg fmt` default: 4 *)

  (* shared shape of render_list_def / render_tuple_def / Call with > 1 args:
     each item on its own line at the inner indent, closing bracket at [cur] *)
  Definition block (cur : nat) (items : list bytes) : bytes :=
    match items with
    | [] => []
    | _ => [nl] ++ flat_map (fun i => spaces (cur + ind) ++ i ++ b "," ++ [nl]) items ++ spaces cur
    end.

  Definition join_with (sepr : bytes) (l : list bytes) : bytes :=
    match l with
    | [] => []
    | x :: r => x ++ flat_map (fun y => sepr ++ y) r
    end.

  (* [cur] = curr_indent at the time render_expr is entered *)
  Fixpoint pp_expr (cur : nat) (e : expr) {struct e} : bytes :=
    let fields (cur : nat) (fs : list (bytes * expr)) : bytes :=           (* render_tuple_def *)
      b "{" ++ block cur (map (fun kv => field_name (fst kv) ++ b " = " ++ pp_expr (cur + ind) (snd kv)) fs)
            ++ b "}" in
    match e with
    | ENull => b "NULL"
    | EBool v => if v then b "true" else b "false"
    | EInt z => dec_of_Z z
    | EFloat bits => float_text bits
    | EStr s => quoted s
    | ESym x => x
    | ETuple fs => fields cur fs
    | EList es => b "[" ++ block cur (map (pp_expr (cur + ind)) es) ++ b "]"     (* render_list_def *)
    | EBin o l r => pp_expr cur l ++ op_text o ++ pp_expr cur r
    | ENot e1 => b "not " ++ pp_expr cur e1
    | EGroup e1 => b "(" ++ pp_expr cur e1 ++ b ")"
    | ECopy t fs => pp_expr cur t ++ fields cur fs
    | ERange s st en =>
        pp_expr cur s ++ b ":" ++
        match st with Some x => pp_expr cur x ++ b ":" | None => [] end ++ pp_expr cur en
    | EFormatL parts args =>
        quoted (flat_map (pp_tpart cur) parts) ++ b " % " ++ b "(" ++ [nl] ++
        join_with (b "," ++ [nl]) (map (fun a => spaces (cur + ind) ++ pp_expr (cur + ind) a) args) ++ b ")"
    | EFormatS parts a =>
        quoted (flat_map (pp_tpart cur) parts) ++ b " % " ++ pp_expr cur a
    | ECall f args =>
        pp_expr cur f ++ b "(" ++
        match args with
        | _ :: _ :: _ => block cur (map (pp_expr (cur + ind)) args)
        | _ => flat_map (pp_expr (cur + ind)) args           (* 0 or 1 argument, inline *)
        end ++ b ")"
    | ECast c e1 => cast_text c ++ b "(" ++ pp_expr cur e1 ++ b ")"
    | EFunc ps body => b "func (" ++ join_with (b ", ") ps ++ b ") => " ++ pp_expr cur body
    | ESelect v d arms =>
        b "select (" ++ pp_expr cur v ++
        match d with Some x => b ", " ++ pp_expr cur x | None => [] end ++ b ") => " ++ fields cur arms
    | EMap f t => b "map(" ++ pp_expr cur f ++ b ", " ++ pp_expr cur t ++ b ")"
    | EFilter f t => b "filter(" ++ pp_expr cur f ++ b ", " ++ pp_expr cur t ++ b ")"
    | EReduce f a t => b "reduce(" ++ pp_expr cur f ++ b ", " ++ pp_expr cur a ++ b ", " ++ pp_expr cur t ++ b ")"
    | EModule ps out body =>
        b "module " ++ fields cur ps ++ b " => " ++
        match out with Some x => b "(" ++ pp_expr cur x ++ b ") " | None => [] end ++
        b "{" ++ [nl] ++
        (* for each statement: the indent is written first, then render_stmt writes its
           own prefix newline (for every statement but the first), then the statement *)
        match body with
        | [] => []
        | s :: rest =>
            spaces (cur + ind) ++ pp_stmt (cur + ind) s ++
            flat_map (fun s' => spaces (cur + ind) ++ [nl] ++ pp_stmt (cur + ind) s') rest
        end ++ b "}"
    | EFail e1 => b "fail " ++ pp_expr cur e1
    | ETrace e1 => b "TRACE " ++ pp_expr cur e1
    | EImport p => b "import " ++ quoted p
    | EInclude t p => b "include " ++ t ++ b " " ++ quoted p
    | EConvert t e1 => b "convert " ++ t ++ b " " ++ pp_expr cur e1
    end
  (* the text of one template part BEFORE escape_quotes is applied to the whole template *)
  with pp_tpart (cur : nat) (p : tpart) {struct p} : bytes :=
    match p with
    | PStr s => tmpl_escape s
    | PHole => [at_sign]
    | PExpr e => at_sign :: b "{" ++ pp_expr 0 e ++ b "}"
    end
  (* render_stmt without its prefix newline; ends with ";\n" *)
  with pp_stmt (cur : nat) (s : stmt) {struct s} : bytes :=
    match s with
    | SLet x e => b "let " ++ x ++ b " = " ++ pp_expr cur e
    | SExpr e => pp_expr cur e
    | SAssert e => b "assert " ++ pp_expr cur e
    | SOut t e => b "out " ++ t ++ b " " ++ pp_expr cur e
    end ++ b ";" ++ [nl].

  Definition unparse_template (parts : list tpart) : bytes := flat_map (pp_tpart 0) parts.

  (* AstPrinter::render on a comment-free program *)
  Definition pp_prog (p : list stmt) : bytes := join_with [nl] (map (pp_stmt 0) p).
End Printer.

(* ENTRY POINT: pp_stmts indent program = the bytes `ucg fmt --indent=<indent>` writes *)
Definition pp_stmts (indent : nat) (p : list stmt) : bytes := pp_prog indent p.
Definition pp (indent : nat) (e : expr) : bytes := pp_expr indent 0 e.

(* ================================================================== *)
(** * B. The comment scheduler                                         *)
(* ================================================================== *)

(* CommentMap = BTreeMap<line of the group's LAST comment, fragments of the group> *)
Definition comment_group := list bytes.
Definition comment_map := list (N * comment_group).      (* BTreeMap iteration order: ascending keys *)

(* tokenizer::tokenize with Some(comment_map): consecutive COMMENT tokens form a
   group; ANY other token (white space included -- so an indented comment line
   starts a new group, while a comment that directly follows another one, or a
   trailing comment followed by a comment line at column 1, continues it) closes
   the group, which is stored under the line of its last comment.  The END token
   of [lex_all] plays the role of the final insert after the loop. *)
Definition close_group (grp : list token) : comment_map :=
  match rev grp with
  | [] => []
  | t :: _ => [(line t, map frag grp)]
  end.

Fixpoint build_map (toks : list token) (grp : list token) : comment_map :=
  match toks with
  | [] => close_group grp
  | t :: r =>
      match typ t with
      | COMMENT => build_map r (grp ++ [t])
      | _ => close_group grp ++ build_map r []
      end
  end.

Definition comment_map_of (src : bytes) : option comment_map :=
  option_map (fun toks => build_map toks []) (lex_all src).

(* printer state as far as comments are concerned.
   [pending] = comment_group_lines read from its END (the Vec is the reversed key
   list and is used as a stack: last() / pop()), paired with map.get(line);
   [emitted] is a ghost log of the groups printed so far, in order. *)
Record sched := {
  pending : comment_map;
  last_line : N;                 (* written by render_comment_if_needed / render_stmt, never read *)
  emitted : comment_map;
}.

Definition sched_init (m : comment_map) : sched := {| pending := m; last_line := 0; emitted := [] |}.

(* char::is_whitespace / str::trim_end restricted to ASCII (U+0009..U+000D, U+0020);
   non-ASCII white space (U+0085, U+00A0, U+2028 ...) is NOT modelled *)
Definition is_ascii_ws (c : ascii) : bool :=
  let n := N_of_ascii c in ((N.leb 9 n && N.leb n 13) || N.eqb n 32)%bool.

Fixpoint trim_end (s : bytes) : bytes :=
  match s with
  | [] => []
  | c :: r => match trim_end r with
              | [] => if is_ascii_ws c then [] else [c]
              | r' => c :: r'
              end
  end.

(* one line of print_comment_group (with the blank-comment rule of commit a7f1c11:
   a fragment that is empty after trim_end is written as a bare `//`) *)
Definition comment_line (cur : nat) (frag : bytes) : bytes :=
  spaces cur ++ b "//" ++
  match trim_end frag with
  | [] => []
  | t =>
      match frag with
      | c :: _ => if is_ascii_ws c then [] else [sp]
      | [] => [sp]                                  (* unwrap_or('\0') is not white space *)
      end ++ t
  end ++ [nl].

Definition print_comment_group (cur : nat) (g : comment_group) : bytes :=
  flat_map (comment_line cur) g.

(* has_comment(line): next pending group strictly above [line] *)
Definition has_comment (st : sched) (ln : N) : bool :=
  match pending st with (k, _) :: _ => N.ltb k ln | [] => false end.

(* render_missed_comments(line): returns the bytes written and the new state.
   Structural recursion on the pending list plays the role of the loop. *)
Fixpoint missed (cur : nat) (ln : N) (pend : comment_map) : bytes * comment_map * comment_map :=
  match pend with
  | [] => ([], [], [])
  | (k, g) :: rest =>
      if N.leb k ln then
        let '(out, done, rest') := missed cur ln rest in
        (print_comment_group cur g ++ (if N.ltb k (ln - 1) then [nl] else []) ++ out,
         (k, g) :: done, rest')
      else ([], [], pend)
  end.

Definition render_missed_comments (cur : nat) (ln : N) (st : sched) : bytes * sched :=
  let '(out, done, rest) := missed cur ln (pending st) in
  (out, {| pending := rest; last_line := last_line st; emitted := emitted st ++ done |}).

Definition render_comment_if_needed (cur : nat) (ln : N) (st : sched) : bytes * sched :=
  let (out, st') := render_missed_comments cur ln st in
  (out, {| pending := pending st'; last_line := ln; emitted := emitted st' |}).

(* the calls the render arms make, as data *)
Inductive call :=
| CIfNeeded (cur : nat) (ln : N)      (* render_comment_if_needed(line) at curr_indent cur *)
| CMissed (cur : nat) (ln : N)        (* render_missed_comments(line) *)
| CSetLast (ln : N).                  (* self.last_line = line at the end of render_stmt *)

Definition step (st : sched) (c : call) : bytes * sched :=
  match c with
  | CIfNeeded cur ln => render_comment_if_needed cur ln st
  | CMissed cur ln => render_missed_comments cur ln st
  | CSetLast ln => ([], {| pending := pending st; last_line := ln; emitted := emitted st |})
  end.

Fixpoint run_calls (st : sched) (cs : list call) : list bytes * sched :=
  match cs with
  | [] => ([], st)
  | c :: cs' => let (o, st1) := step st c in let (os, st2) := run_calls st1 cs' in (o :: os, st2)
  end.

(* the tail of `render`: comment_group_lines.first() is the LARGEST key still
   on the stack (the bottom of the reversed Vec), if any *)
Definition final_flush (st : sched) : bytes * sched :=
  match last (map (fun kg => Some (fst kg)) (pending st)) None with
  | Some k => render_missed_comments 0 (k + 1) st
  | None => ([], st)
  end.

Definition run_render (m : comment_map) (cs : list call) : list bytes * bytes * sched :=
  let (os, st) := run_calls (sched_init m) cs in
  let (o, st') := final_flush st in (os, o, st').

(* The top-level walk of `render` for a program whose statements are all single
   line and comment free inside: statement i (text t_i, on line l_i of the
   source) is printed after the groups up to its line.  This is the fragment the
   fixed-point clause of the property talks about. *)
Fixpoint render_top (first : bool) (st : sched) (stmts : list (N * bytes)) : bytes * sched :=
  match stmts with
  | [] => ([], st)
  | (ln, txt) :: rest =>
      let (c, st1) := render_comment_if_needed 0 ln st in
      let (o, st2) := render_top false st1 rest in
      ((if first then [] else [nl]) ++ c ++ txt ++ o, st2)
  end.

Definition render_with_comments (m : comment_map) (stmts : list (N * bytes)) : bytes :=
  let (o, st) := render_top true (sched_init m) stmts in
  let (f, _) := final_flush st in o ++ f.

(* ================================================================== *)
(** * C. token view of a small fragment                                *)
(* ================================================================== *)

(* position-free tokens, as in Lex_Lemmas.tk *)
Definition ptok := (ttype * bytes)%type.

Definition op_tok (o : op) : ptok :=
  match o with
  | IN => (BAREWORD, b "in") | IS => (BAREWORD, b "is")
  | AND => (PUNCT, b "&&") | OR => (PUNCT, b "||") | DOT => (PUNCT, b ".")
  | Equal => (PUNCT, b "==") | NotEqual => (PUNCT, b "!=") | GTEqual => (PUNCT, b ">=")
  | LTEqual => (PUNCT, b "<=") | GT => (PUNCT, b ">") | LT => (PUNCT, b "<")
  | Add => (PUNCT, b "+") | Sub => (PUNCT, b "-") | Mul => (PUNCT, b "*") | Div => (PUNCT, b "/")
  | Mod => (PUNCT, b "%%") | REMatch => (PUNCT, b "~") | NotREMatch => (PUNCT, b "!~")
  end.

Definition name_tok (k : bytes) : ptok :=
  if is_bareword k then
    (if (bytes_eqb k (b "true") || bytes_eqb k (b "false"))%bool then (BOOLEAN, k) else (BAREWORD, k))
  else (QUOTED, k).

(* the fragment: NULL, booleans, non-negative integers, strings, symbols, lists,
   tuples, groups and binary chains over them *)
Fixpoint in_frag (e : expr) : bool :=
  match e with
  | ENull | EBool _ | EStr _ => true
  | EInt z => (0 <=? z)%Z
  | ESym x => true
  | EList es => forallb in_frag es
  | ETuple fs => forallb (fun kv => in_frag (snd kv)) fs
  | EGroup e1 => in_frag e1
  | EBin o l r => (in_frag l && in_frag r)%bool
  | _ => false
  end.

Fixpoint toks (e : expr) : list ptok :=
  match e with
  | ENull => [(EMPTY, b "NULL")]
  | EBool v => [(BOOLEAN, if v then b "true" else b "false")]
  | EInt z => [(DIGIT, dec_of_Z z)]
  | EStr s => [(QUOTED, s)]
  | ESym x => [(BAREWORD, x)]
  | EList es => (PUNCT, b "[") :: flat_map (fun e1 => toks e1 ++ [(PUNCT, b ",")]) es ++ [(PUNCT, b "]")]
  | ETuple fs =>
      (PUNCT, b "{") ::
      flat_map (fun kv => name_tok (fst kv) :: (PUNCT, b "=") :: toks (snd kv) ++ [(PUNCT, b ",")]) fs
      ++ [(PUNCT, b "}")]
  | EGroup e1 => (PUNCT, b "(") :: toks e1 ++ [(PUNCT, b ")")]
  | EBin o l r => toks l ++ op_tok o :: toks r
  | _ => []
  end.
