(* Proofs about the TOML model: the text the serializer writes for a well-formed root table is
   read by the reader's line loop as exactly the lines [flat_root] lists. *)
From Ucg Require Import base.Bytes base.Bytes_Lemmas data.Val data.Json data.MapJson data.MapJson_Lemmas
     data.Toml data.Toml_Str data.Toml_Num data.Toml_Err data.Toml_Sem data.Toml_Val data.Toml_Out.
Local Open Scope list_scope.

Definition own_hdr (st : stack) : list item :=
  match st with
  | [] => []
  | fr :: _ => [if is_FA fr then IAHead (spath st) else IHead (spath st)]
  end.

Fixpoint hitems (fuel : nat) (st : stack) : list item :=
  match fuel with
  | O => []
  | S f =>
    match st with
    | [] => []
    | _ :: _ =>
      (match anc_walk (anc_start st) with Some a => hitems f a | None => [] end) ++ own_hdr st
    end
  end.

(* the walk ends at an Array frame on a Table frame, strictly further out *)
Lemma anc_walk_some p a : anc_walk p = Some a ->
  (exists f t n k f2 te r, a = FA f t n :: FT k f2 te :: r) /\ List.length a < List.length p.
Proof.
  induction p as [|[k f te|f t n] p IH]; cbn [anc_walk]; try discriminate.
  destruct (negb f); [discriminate|].
  assert (IH' : anc_walk p = Some a ->
            (exists f t n k f2 te r, a = FA f t n :: FT k f2 te :: r) /\ List.length a < S (List.length p))
    by (intros H; destruct (IH H); split; [assumption|lia]).
  destruct p as [|[k2 f2 te2|f2 t2 n2] [|[k3 f3 te3|f3 t3 n3] p]]; try exact IH'.
  intros [= <-]. split; [repeat eexists|cbn [List.length]; lia].
Qed.

Lemma anc_start_length st : List.length (anc_start st) <= List.length st.
Proof. destruct st as [|[k f te|[|] t n] p]; cbn; lia. Qed.

Lemma spath_nonempty_shape f t n k f2 te r : spath (FA f t n :: FT k f2 te :: r) <> [].
Proof. cbn [spath]. destruct (spath r); discriminate. Qed.

Lemma hitems_S fuel st : st <> [] ->
  hitems (S fuel) st
  = (match anc_walk (anc_start st) with Some a => hitems fuel a | None => [] end) ++ own_hdr st.
Proof. destruct st; [congruence|reflexivity]. Qed.

Lemma hitems_fuel : forall f1 f2 st, List.length st <= f1 -> List.length st <= f2 -> hitems f1 st = hitems f2 st.
Proof.
  induction f1 as [|f1 IH]; intros f2 st H1 H2.
  - destruct st; [|cbn in H1; lia]. destruct f2; reflexivity.
  - destruct f2 as [|f2]; [destruct st; [reflexivity|cbn in H2; lia]|].
    cbn [hitems]. destruct st as [|fr par]; [reflexivity|]. f_equal.
    destruct (anc_walk (anc_start (fr :: par))) as [a|] eqn:E; [|reflexivity].
    destruct (anc_walk_some _ _ E) as [_ Hl]. pose proof (anc_start_length (fr :: par)) as Hs.
    apply IH; cbn [List.length] in *; lia.
Qed.

(* the lines of the header of a state, and of the array-of-tables ancestors still waiting for theirs *)
Definition pre_items (st : stack) : list item :=
  match anc_walk (anc_start st) with Some a => hitems (List.length a) a | None => [] end.

Definition hitems' (st : stack) : list item := hitems (List.length st) st.

Lemma hitems_unfold st : st <> [] -> hitems' st = pre_items st ++ own_hdr st.
Proof.
  unfold hitems', pre_items. destruct st as [|fr par]; [congruence|]. intros _.
  cbn [List.length hitems]. f_equal.
  destruct (anc_walk (anc_start (fr :: par))) as [a|] eqn:E; [|reflexivity].
  destruct (anc_walk_some _ _ E) as [_ Hl]. pose proof (anc_start_length (fr :: par)) as Hs.
  apply hitems_fuel; cbn [List.length] in *; lia.
Qed.

Lemma Lexes_header : forall fuel st, spath st <> [] -> Lexes (header_out fuel st) (hitems fuel st).
Proof.
  induction fuel as [|fuel IH]; intros st Hp; [apply Lexes_nil|].
  destruct st as [|fr par]; [apply Lexes_nil|].
  cbn [header_out hitems].
  apply Lexes_app.
  - destruct (anc_walk (anc_start (fr :: par))) as [a|] eqn:E; [|apply Lexes_nil].
    apply IH. destruct (anc_walk_some _ _ E) as [(f & t & n & k & f2 & te & r & ->) _]. apply spath_nonempty_shape.
  - set (blank := match fr with
                  | FT _ first _ => negb first
                  | FA first _ _ => if negb first then true
                                    else match par with FT _ pf _ :: _ => negb pf | _ => false end
                  end).
    change (Lexes ((if blank then [nl] else []) ++ "["%char :: (if is_FA fr then ["["%char] else [])
                     ++ fst (key_part (fr :: par)) ++ (if is_FA fr then ["]"%char] else []) ++ ["]"%char; nl])
                  ([] ++ own_hdr (fr :: par))).
    apply Lexes_app; [destruct blank; [apply Lexes_blank|apply Lexes_nil]|].
    rewrite key_part_spec. cbn [fst own_hdr]. destruct (is_FA fr); cbn [app].
    + apply Lexes_ahead, Hp.
    + apply Lexes_head, Hp.
Qed.

(* none of the header lines depends on the table_emitted flags *)
Lemma anc_walk_set_te p : anc_walk (set_te p) = option_map set_te (anc_walk p).
Proof.
  induction p as [|[k f te|f t n] p IH]; cbn [set_te anc_walk option_map]; try reflexivity.
  destruct (negb f); [reflexivity|].
  destruct p as [|[k2 f2 te2|f2 t2 n2] p']; [reflexivity|exact IH|].
  destruct p' as [|[k3 f3 te3|f3 t3 n3] p'']; [exact IH|reflexivity|exact IH].
Qed.

Lemma anc_start_set_te st : anc_start (set_te st) = set_te (anc_start st).
Proof. destruct st as [|[k f te|[|] t n] p]; reflexivity. Qed.

Lemma set_te_length st : List.length (set_te st) = List.length st.
Proof. induction st as [|[k f te|f t n] st IH]; cbn; congruence. Qed.

Lemma own_hdr_set_te st : own_hdr (set_te st) = own_hdr st.
Proof.
  pose proof (spath_set_te st) as Hs.
  destruct st as [|[k f te|f t n] par]; cbn [set_te own_hdr is_FA] in *; rewrite ?Hs; reflexivity.
Qed.

Lemma hitems_set_te : forall fuel st, hitems fuel (set_te st) = hitems fuel st.
Proof.
  induction fuel as [|fuel IH]; intros st; [reflexivity|].
  destruct st as [|fr par]; [reflexivity|].
  rewrite !hitems_S by (destruct fr; discriminate).
  rewrite own_hdr_set_te, anc_start_set_te, anc_walk_set_te.
  destruct (anc_walk (anc_start (fr :: par))); cbn [option_map]; [rewrite IH|]; reflexivity.
Qed.

Lemma hitems'_set_te st : hitems' (set_te st) = hitems' st.
Proof. unfold hitems'. rewrite set_te_length. apply hitems_set_te. Qed.

(* the lines of the array-of-tables ancestors of S that still wait for their header *)
Definition pre_elem (S : stack) : list item :=
  match anc_walk S with Some a => hitems (List.length a) a | None => [] end.

Lemma pre_elem_set_te S : pre_elem (set_te S) = pre_elem S.
Proof.
  unfold pre_elem. rewrite anc_walk_set_te. destruct (anc_walk S); cbn [option_map]; [|reflexivity].
  rewrite set_te_length. apply hitems_set_te.
Qed.

Lemma pre_items_anc st : pre_items st = pre_elem (anc_start st).
Proof. reflexivity. Qed.

Lemma pre_items_set_te st : pre_items (set_te st) = pre_items st.
Proof. rewrite !pre_items_anc, anc_start_set_te. apply pre_elem_set_te. Qed.

(* every Array frame sits directly on a Table frame *)
Fixpoint hstack (st : stack) : bool :=
  match st with
  | [] => true
  | FT _ _ _ :: par => hstack par
  | FA _ _ _ :: par => match par with FT _ _ _ :: _ => hstack par | _ => false end
  end.

Lemma hstack_spath st : hstack st = true -> st <> [] -> spath st <> [].
Proof.
  destruct st as [|[k f te|f t n] par]; [congruence| |]; intros H _; cbn [spath].
  - destruct (spath par); discriminate.
  - cbn [hstack] in H. destruct par as [|[k f2 te|? ? ?] par']; try discriminate.
    cbn [spath]. destruct (spath par'); discriminate.
Qed.

Lemma hstack_set_te st : hstack (set_te st) = hstack st.
Proof.
  induction st as [|[k f te|f t n] st IH]; cbn [set_te hstack]; [reflexivity|exact IH|].
  destruct st as [|[k2 f2 te2|f2 t2 n2] st']; cbn [set_te] in *; [reflexivity|exact IH|reflexivity].
Qed.

(* what is pending when the first thing written in a table is a sub-table or an array of tables *)
Definition pend_sub (par : stack) : list item :=
  match par with
  | FA _ _ _ :: FT _ _ _ :: _ => hitems' par
  | _ => pre_elem par
  end.

Lemma pre_items_entry k first te par :
  pre_items (FT k first te :: par) = if first then pend_sub par else [].
Proof.
  unfold pre_items. cbn [anc_start anc_walk]. destruct first; cbn [negb]; [|reflexivity].
  destruct par as [|[k2 f2 te2|f2 t2 n2] [|[k3 f3 te3|f3 t3 n3] p]]; reflexivity.
Qed.

Lemma pre_items_elem f t n par : pre_items (FA f t n :: par) = if f then pre_elem par else [].
Proof. destruct f; reflexivity. Qed.

Lemma pend_sub_set_te par : pend_sub (set_te par) = pend_sub par.
Proof.
  destruct par as [|[k f te|f t n] [|[k3 f3 te3|f3 t3 n3] p]];
    first [exact (hitems'_set_te (FA f t n :: FT k3 f3 te3 :: p))|apply pre_elem_set_te].
Qed.

(* serialize_map, from the state it starts on *)
Definition tab_body (kvs : list (bytes * tval)) (st0 : stack) : tres (bytes * stack) :=
  match tab_pass ser pass1 kvs true false st0 with
  | TErr e => TErr e
  | TOk (o1, (f1, te1, par1)) =>
    match tab_pass ser pass2 kvs f1 te1 par1 with
    | TErr e => TErr e
    | TOk (o2, (f2, te2, par2)) =>
      match tab_pass ser pass3 kvs f2 te2 par2 with
      | TErr e => TErr e
      | TOk (o3, (f3, _, par3)) =>
        if f3 then let (o4, par4) := emit_table_header par3 in TOk (o1 ++ o2 ++ o3 ++ o4, par4)
        else TOk (o1 ++ o2 ++ o3, par3)
      end
    end
  end.

Lemma ser_tab kvs st : ser (TTab kvs) st = tab_body kvs (array_type AAsTable st).
Proof. reflexivity. Qed.

(* an entry of a table: what the reader sees *)
Definition pendE (x : tval) (k : bytes) (first te : bool) (par : stack) : list item :=
  if has_tab x then pre_items (FT k first te :: par) else if first then hitems' par else [].

Definition EntLex (x : tval) : Prop :=
  forall k first te par o st',
    hstack par = true -> all_typed par = true ->
    ser x (FT k first te :: par) = TOk (o, st') ->
    Lexes o (pendE x k first te par ++ flat (spath par) k x).

Definition begin_items (st0 : stack) (es : list (bytes * tval)) : list item :=
  match st0 with
  | [] => []
  | FA _ _ _ :: _ => pre_items st0 ++ own_hdr st0
  | FT _ _ _ :: _ => pre_items st0 ++ (if has_simple es || is_nil es then own_hdr st0 else [])
  end.

Definition TabLex (es : list (bytes * tval)) : Prop :=
  forall st0 o c, hstack st0 = true -> all_typed st0 = true ->
    tab_body es st0 = TOk (o, c) ->
    Lexes o (begin_items st0 es ++ body_with (flat (spath st0)) es).

Lemma Lexes_table_header st : hstack st = true -> Lexes (header_out (List.length st) st) (hitems' st).
Proof.
  intros H. destruct st as [|fr par]; [apply Lexes_nil|].
  apply Lexes_header, hstack_spath; [exact H|discriminate].
Qed.

Lemma after_facts first st0 :
  spath (after first st0) = spath st0 /\ hitems' (after first st0) = hitems' st0
  /\ pend_sub (after first st0) = pend_sub st0 /\ hstack (after first st0) = hstack st0.
Proof.
  destruct first; cbn [after]; [repeat split|].
  rewrite spath_set_te, hitems'_set_te, pend_sub_set_te, hstack_set_te. repeat split.
Qed.

(* one of the three loops of a table that started on st0 *)
Lemma pass_lex (p : tval -> bool) (tabflag : bool) es st0 :
  Forall (fun kv => p (snd kv) = true -> EntLex (snd kv) /\ has_tab (snd kv) = tabflag) es ->
  hstack st0 = true -> all_typed st0 = true ->
  forall first te o first' te' par',
    tab_pass ser p es first te (after first st0) = TOk (o, (first', te', par')) ->
    Lexes o ((if first && existsb (fun kv => p (snd kv)) es
              then (if tabflag then pend_sub st0 else hitems' st0) else [])
             ++ sub_items (flat (spath st0)) p es)
    /\ par' = after first' st0
    /\ first' = first && negb (existsb (fun kv => p (snd kv)) es).
Proof.
  intros Hes Hh Ht. induction Hes as [|[k x] es Hx _ IH]; intros first te o first' te' par' H.
  - cbn [tab_pass] in H. injection H as <- <- <- <-. cbn [existsb sub_items flat_map negb].
    rewrite andb_false_r, andb_true_r. split; [apply Lexes_nil|]. split; reflexivity.
  - cbn [tab_pass] in H. cbn [snd] in Hx. unfold sub_items. cbn [existsb flat_map fst snd].
    destruct (p x) eqn:Ep; [|apply (IH first te o first' te' par' H)].
    destruct (Hx eq_refl) as [Ex Etab]. destruct (after_facts first st0) as (Esp & Ehi & Eps & Ehs).
    assert (Hta : all_typed (after first st0) = true) by (rewrite all_typed_after; exact Ht).
    destruct (ser x (FT k first te :: after first st0)) as [[o1 st1]|e] eqn:Es; [|discriminate H].
    destruct (ser_ok_post x (FT k first te :: after first st0) o1 st1 Hta Es) as [Epost _]. rewrite post_FT, after_entry in Epost. subst st1.
    destruct (tab_pass ser p es false (te || has_tab x) (set_te st0)) as [[o2 [[f2 te2] par2]]|e] eqn:E2; [|discriminate H].
    injection H as <- <- <- <-.
    destruct (IH false _ o2 f2 te2 par2 E2) as (L2 & Hp2 & Ef2). cbn [andb app] in L2.
    specialize (Ex k first te (after first st0) o1 _ ltac:(congruence) Hta Es).
    unfold pendE in Ex. rewrite Etab, pre_items_entry, Esp, Ehi, Eps in Ex.
    cbn [orb andb]. rewrite andb_true_r. split; [|split; [exact Hp2|rewrite Ef2; cbn [negb andb]; rewrite andb_false_r; reflexivity]].
    rewrite app_assoc. apply Lexes_app; [|exact L2]. destruct tabflag; exact Ex.
Qed.

Lemma sub_items_pass1 q es :
  Forall (fun kv => pass1 (snd kv) = true -> has_tab (snd kv) = false) es ->
  sub_items (flat q) pass1 es = kv_items es.
Proof.
  induction 1 as [|[k x] es Hx _ IH]; [reflexivity|].
  unfold sub_items, kv_items in *. cbn [flat_map fst snd]. cbn [snd] in Hx.
  destruct (pass1 x) eqn:Ep; [|exact IH]. rewrite (flat_inline x q k (Hx eq_refl)), IH. reflexivity.
Qed.

Lemma ent_lex_inline x : has_tab x = false -> tval_wf x = true -> EntLex x.
Proof.
  intros Hh Hw k first te par o st' Hhs Hty Hs.
  destruct (ser_ok_post x (FT k first te :: par) o st' Hty Hs) as [_ Hf].
  rewrite (fails_notab x _ Hh) in Hf.
  pose proof (ser_inline x Hh (FT k first te :: par) Hty Hf) as E. rewrite E in Hs. inversion Hs; subst o st'. clear Hs.
  cbn [array_type ekey_out nl_if_table]. unfold pendE. rewrite Hh, (flat_inline x _ k Hh).
  rewrite <- !app_assoc. apply Lexes_app.
  - destruct first; [apply Lexes_table_header, Hhs|apply Lexes_nil].
  - apply Lexes_kv; assumption.
Qed.

Lemma existsb_pass_nil es :
  existsb (fun kv : bytes * tval => pass1 (snd kv)) es = false ->
  existsb (fun kv : bytes * tval => pass2 (snd kv)) es = false ->
  existsb (fun kv : bytes * tval => pass3 (snd kv)) es = false -> es = [].
Proof.
  destruct es as [|[k x] es]; [reflexivity|]. cbn [existsb snd]. intros H1 H2 H3.
  apply orb_false_iff in H1 as [H1 _]. apply orb_false_iff in H2 as [H2 _]. apply orb_false_iff in H3 as [H3 _].
  destruct (pass_exclusive x) as (_ & _ & H). rewrite H1, H2, H3 in H. discriminate.
Qed.

Lemma sub_items_none f p es : existsb (fun kv : bytes * tval => p (snd kv)) es = false -> sub_items f p es = [].
Proof.
  induction es as [|[k x] es IH]; [reflexivity|]. unfold sub_items in *. cbn [existsb flat_map snd fst].
  intros H. apply orb_false_iff in H as [H1 H2]. rewrite H1. cbn [app]. apply IH, H2.
Qed.

Lemma kv_items_none es : has_simple es = false -> kv_items es = [].
Proof.
  unfold has_simple, kv_items. induction es as [|[k x] es IH]; [reflexivity|]. cbn [existsb flat_map snd fst].
  intros H. apply orb_false_iff in H as [H1 H2]. rewrite H1. cbn [app]. apply IH, H2.
Qed.

(* which header lines come before the lines of a table's entries: the full chain when the table
   writes its own header (it has key/value lines, or nothing at all), otherwise what was pending
   for its first sub-table *)
Lemma begin_items_cases st0 es : hstack st0 = true ->
  begin_items st0 es = if has_simple es || is_nil es then hitems' st0 else pend_sub st0.
Proof.
  intros Hh. destruct st0 as [|[k f te|f t n] par].
  - destruct (has_simple es || is_nil es); reflexivity.
  - cbn [begin_items]. destruct (has_simple es || is_nil es).
    + rewrite hitems_unfold by discriminate. reflexivity.
    + rewrite app_nil_r. reflexivity.
  - cbn [hstack] in Hh. destruct par as [|[k2 f2 te2|f2 t2 n2] par']; try discriminate.
    cbn [begin_items pend_sub]. rewrite hitems_unfold by discriminate.
    destruct (has_simple es || is_nil es); reflexivity.
Qed.

Lemma tab_lex es :
  Forall (fun kv => EntLex (snd kv) /\ good (snd kv) = true) es -> TabLex es.
Proof.
  intros Hall st0 o c Hh Ht H. unfold tab_body in H.
  assert (Hpass : forall p flag, (forall x, p x = true -> good x = true -> has_tab x = flag) ->
            Forall (fun kv => p (snd kv) = true -> EntLex (snd kv) /\ has_tab (snd kv) = flag) es).
  { intros p flag Hp. eapply Forall_impl; [|exact Hall]. intros [k x] [A B] Hx. split; [exact A|apply Hp; assumption]. }
  destruct (tab_pass ser pass1 es true false st0) as [[o1 [[f1 te1] par1]]|e] eqn:E1; [|discriminate H].
  destruct (pass_lex pass1 false es st0 (Hpass _ _ pass1_good_inline) Hh Ht true _ _ _ _ _ E1) as (L1 & -> & F1).
  destruct (tab_pass ser pass2 es f1 te1 (after f1 st0)) as [[o2 [[f2 te2] par2]]|e] eqn:E2; [|discriminate H].
  destruct (pass_lex pass2 true es st0 (Hpass _ _ (fun x Hx _ => has_tab_of_pass2 x Hx)) Hh Ht _ _ _ _ _ _ E2)
    as (L2 & -> & F2).
  destruct (tab_pass ser pass3 es f2 te2 (after f2 st0)) as [[o3 [[f3 te3] par3]]|e] eqn:E3; [|discriminate H].
  destruct (pass_lex pass3 true es st0 (Hpass _ _ (fun x Hx _ => has_tab_of_table x Hx)) Hh Ht _ _ _ _ _ _ E3)
    as (L3 & -> & F3).
  rewrite (sub_items_pass1 _ es) in L1
    by (eapply Forall_impl; [|exact Hall]; intros [k x] [_ B] Hx; apply pass1_good_inline; assumption).
  (* the end of the table: its header, if nothing has been written *)
  assert (L4 : exists o4, o = o1 ++ o2 ++ o3 ++ o4 /\ Lexes o4 (if f3 then hitems' st0 else [])).
  { destruct f3; cbn [after] in H.
    - unfold emit_table_header in H. injection H as <- _. eexists. split; [reflexivity|].
      apply Lexes_table_header, Hh.
    - injection H as <- _. exists []. rewrite app_nil_r. split; [reflexivity|apply Lexes_nil]. }
  destruct L4 as (o4 & -> & L4).
  refine (Lexes_eq _ _ _ (Lexes_app _ _ _ _ L1 (Lexes_app _ _ _ _ L2 (Lexes_app _ _ _ _ L3 L4))) _).
  (* the pending headers are written once, by whichever loop is the first to write anything *)
  rewrite (begin_items_cases st0 es Hh). unfold body_with. fold (has_simple es) in F1 |- *.
  subst f1 f2 f3. cbn [andb].
  destruct (has_simple es) eqn:Es; cbn [negb andb orb app]; [rewrite !app_nil_r, <- !app_assoc; reflexivity|].
  rewrite (kv_items_none es Es). cbn [app].
  destruct (existsb (fun kv => pass2 (snd kv)) es) eqn:Ex2; cbn [negb andb app].
  { replace (is_nil es) with false by (destruct es; [discriminate Ex2|reflexivity]).
    rewrite !app_nil_r, <- !app_assoc. reflexivity. }
  rewrite (sub_items_none _ pass2 es Ex2). cbn [app].
  destruct (existsb (fun kv => pass3 (snd kv)) es) eqn:Ex3; cbn [negb andb app].
  { replace (is_nil es) with false by (destruct es; [discriminate Ex3|reflexivity]).
    rewrite !app_nil_r. reflexivity. }
  rewrite (existsb_pass_nil es Es Ex2 Ex3). exact (app_nil_r (hitems' st0)).
Qed.

Lemma elems_lex len l :
  Forall (fun x => exists es, x = TTab es /\ TabLex es) l ->
  forall first ty par o ty' par',
    hstack (FA first ty len :: par) = true -> all_typed par = true ->
    seq_elems ser len l first ty par = TOk (o, (ty', par')) ->
    Lexes o ((if first && negb (is_nil l) then pre_elem par else []) ++ flat_map (elem_items (spath par)) l)
    /\ ty' = match ty with Some t => Some t | None => if is_nil l then None else Some AAsTable end.
Proof.
  induction 1 as [|x l (es & -> & Hx) _ IH]; intros first ty par o ty' par' Hh Ht H.
  - cbn [seq_elems] in H. injection H as <- <- <-. cbn [is_nil negb flat_map]. rewrite andb_false_r.
    split; [apply Lexes_nil|destruct ty; reflexivity].
  - cbn [seq_elems] in H.
    destruct (ser (TTab es) (FA first ty len :: par)) as [[o1 st1]|e] eqn:Es; [|discriminate H].
    destruct (ser_ok_post _ (FA first ty len :: par) o1 st1 Ht Es) as [-> _].
    set (ty1 := match ty with Some t => Some t | None => Some AAsTable end).
    assert (Es0 : array_type AAsTable (FA first ty len :: par) = FA first ty1 len :: par) by (destruct ty; reflexivity).
    rewrite post_FA in H. cbn [has_tab first_leaf_checks andb kind] in H. fold ty1 in H.
    destruct (seq_elems ser len l false ty1 (set_te par)) as [[o2 [ty2 par2]]|e] eqn:E2; [|discriminate H].
    injection H as <- <- <-.
    destruct (IH false ty1 (set_te par) o2 ty2 par2) as (L2 & ->); [|rewrite all_typed_set_te; exact Ht|exact E2|].
    { change (hstack (set_te (FA first ty len :: par)) = true). rewrite hstack_set_te. exact Hh. }
    (* the element itself: a table that starts on the Array frame *)
    rewrite ser_tab, Es0 in Es.
    assert (Ht0 : all_typed (FA first ty1 len :: par) = true) by (unfold ty1; destruct ty; exact Ht).
    pose proof (Hx (FA first ty1 len :: par) o1 _ Hh Ht0 Es) as L1.
    cbn [begin_items own_hdr is_FA spath] in L1. rewrite pre_items_elem, <- app_assoc in L1.
    cbn [andb app] in L2. rewrite spath_set_te in L2.
    cbn [is_nil negb flat_map elem_items]. rewrite andb_true_r.
    split; [|destruct ty; reflexivity].
    rewrite app_assoc. apply Lexes_app; [exact L1|exact L2].
Qed.

Definition LexP (x : tval) : Prop :=
  good x = true -> tval_wf x = true ->
  EntLex x /\ match x with TTab es => TabLex es | _ => True end.

Lemma ent_lex_table es : TabLex es -> EntLex (TTab es).
Proof.
  intros HT k first te par o st' Hh Ht Hs. rewrite ser_tab in Hs. cbn [array_type] in Hs.
  pose proof (HT (FT k first te :: par) o st' Hh Ht Hs) as L.
  unfold pendE. cbn [has_tab flat]. cbn [begin_items own_hdr is_FA spath] in L.
  rewrite <- app_assoc in L. exact L.
Qed.

Lemma ent_lex_aot l :
  existsb is_table l = true ->
  Forall (fun x => exists es, x = TTab es /\ TabLex es) l ->
  EntLex (TArr l).
Proof.
  intros Et Hall k first te par o st' Hh Ht Hs.
  cbn [ser] in Hs. cbn [array_type] in Hs.
  set (S0 := FT k first te :: par) in *.
  destruct (seq_elems ser (List.length l) l true None S0) as [[o1 [ty S1]]|e] eqn:E1; [|discriminate Hs].
  destruct (elems_lex (List.length l) l Hall true None S0 o1 ty S1 Hh Ht E1) as (L1 & Ety).
  assert (Hne : is_nil l = false) by (destruct l; [discriminate Et|reflexivity]).
  rewrite Hne in Ety, L1. subst ty. cbn [seq_end] in Hs. inversion Hs; subst o st'. clear Hs.
  rewrite app_nil_r. cbn [andb negb] in L1.
  unfold pendE. cbn [has_tab]. rewrite (is_table_has_tab_list l Et).
  cbn [flat]. rewrite Et.
  exact L1.
Qed.

Theorem lex_all : forall x, LexP x.
Proof.
  induction x as [s|z|f|b0|l IH|es IH] using tval_ind'; intros Hg Hw.
  1-4: split; [apply ent_lex_inline; [reflexivity|exact Hw]|exact I].
  - split; [|exact I].
    apply good_arr in Hg. destruct (existsb is_table l) eqn:Et; [|apply ent_lex_inline; assumption].
    destruct Hg as [Hall Hgood]. cbn [tval_wf] in Hw.
    apply ent_lex_aot; [exact Et|].
    apply Forall_forall. intros x Hx. rewrite Forall_forall in IH. rewrite forallb_forall in Hall, Hgood, Hw.
    specialize (Hall x Hx). destruct x as [| | | | |es]; try discriminate Hall.
    exists es. split; [reflexivity|]. apply (IH _ Hx (Hgood _ Hx) (Hw _ Hx)).
  - cbn [good tval_wf] in Hg, Hw.
    assert (HT : TabLex es).
    { apply tab_lex. apply Forall_forall. intros [k x] Hin. rewrite Forall_forall in IH. rewrite forallb_forall in Hg, Hw.
      cbn [snd]. split; [apply (IH _ Hin (Hg _ Hin) (Hw _ Hin))|apply (Hg _ Hin)]. }
    split; [apply ent_lex_table, HT|exact HT].
Qed.

(* the reader's line loop on the writer's text for a well-formed root table *)
Theorem lex_root es out :
  good (TTab es) = true -> tval_wf (TTab es) = true ->
  ser_root (TTab es) = TOk out ->
  doc_items (S (List.length out)) out [] = Some (flat_root es).
Proof.
  intros Hg Hw H. destruct (lex_all (TTab es) Hg Hw) as [_ HT].
  unfold ser_root in H. rewrite ser_tab in H. cbn [array_type] in H.
  destruct (tab_body es []) as [[o c]|e] eqn:E; [|discriminate H]. inversion H; subst o. clear H.
  pose proof (HT [] out c eq_refl eq_refl E) as L. cbn [begin_items spath app] in L.
  destruct (L [] [] (S (List.length out)) ltac:(rewrite app_nil_r; lia)) as (f' & Hf' & El).
  rewrite app_nil_r in El. rewrite El. destruct f' as [|f']; [cbn in Hf'; lia|].
  cbn [doc_items skip_ws]. rewrite app_nil_r, rev'_spec, rev_involutive. reflexivity.
Qed.
