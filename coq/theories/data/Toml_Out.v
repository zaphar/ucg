(* Proofs about the TOML model: the exact text of the serializer for inline values, and how the
   reader's line loop reads the three kinds of lines (key = value, [header], [[header]]). *)
From Ucg Require Import base.Bytes base.Bytes_Lemmas data.Val data.Json data.Json_Lemmas data.MapJson data.MapJson_Lemmas
     data.Toml data.Toml_Str data.Toml_Num data.Toml_Err data.Toml_Sem data.Toml_Val.
Local Open Scope list_scope.

Definition SerInline (v : tval) : Prop :=
  forall st, all_typed (tl st) = true -> te_hit (array_type AStarted st) = false ->
    ser v st = TOk (ekey_out (array_type AStarted st) ++ body v ++ nl_if_table st, post v st).

(* only the flags of the frames change, not their kinds *)
Lemma nl_if_table_array_type t st : nl_if_table (array_type t st) = nl_if_table st.
Proof. destruct st as [|[k f te|f [ty|] n] par]; reflexivity. Qed.

Lemma nl_if_table_post v st : nl_if_table (post v st) = nl_if_table st.
Proof.
  unfold post. destruct st as [|[k f te|f [ty|] n] par]; cbn [array_type];
    destruct (first_leaf_checks v), (has_tab v); cbn [mark set_te nl_if_table]; try reflexivity;
    destruct f; reflexivity.
Qed.

(* items after the first *)
Lemma seq_elems_inline len l : Forall (fun y => has_tab y = false /\ SerInline y) l -> forall ty par,
  all_typed par = true -> ty <> None ->
  seq_elems ser len l false ty par
  = TOk (flat_map (fun y => emit_array false len ++ body y) l, (ty, par)).
Proof.
  induction 1 as [|x l (Hx & Sx) _ IH]; intros ty par Hp Hty; cbn [seq_elems flat_map]; [reflexivity|].
  destruct ty as [t|]; [|congruence].
  rewrite (Sx (FA false (Some t) len :: par) Hp eq_refl), post_FA, Hx, andb_false_r.
  rewrite (IH (Some t) par Hp ltac:(discriminate)).
  cbn [array_type ekey_out nl_if_table]. rewrite app_nil_r. reflexivity.
Qed.

(* the pieces written by emit_array and SerializeSeq::end, item by item, make up [body] *)
Lemma array_lines : forall xs x,
  (nl :: indent4) ++ body x ++ flat_map (fun y => (","%char :: nl :: indent4) ++ body y) xs ++ [","%char; nl; "]"%char]
  = flat_map (fun y => array_line (body y)) (x :: xs) ++ [nl; "]"%char].
Proof.
  induction xs as [|x2 xs IH]; intros x.
  - cbn [flat_map]. rewrite app_nil_r, array_line_app. reflexivity.
  - change (flat_map (fun y => array_line (body y)) (x :: x2 :: xs))
      with (array_line (body x) ++ flat_map (fun y => array_line (body y)) (x2 :: xs)).
    rewrite <- app_assoc, array_line_app, <- IH. cbn [flat_map]. rewrite <- !app_assoc. reflexivity.
Qed.

Lemma array_text x xs :
  let len := S (List.length xs) in
  emit_array true len ++ body x ++ flat_map (fun y => emit_array false len ++ body y) xs
    ++ (if (len <=? 1)%nat then ["]"%char] else [","%char; nl; "]"%char])
  = body (TArr (x :: xs)).
Proof.
  destruct xs as [|x2 xs]; cbv zeta.
  - reflexivity.
  - exact (f_equal (cons "["%char) (array_lines (x2 :: xs) x)).
Qed.

Theorem ser_inline : forall v, has_tab v = false -> SerInline v.
Proof.
  induction v as [s|z|f|x|l IH|es IH] using tval_ind'; intros Ht st Hst Hh.
  1-4: cbn [ser body]; rewrite (ser_scalar_spec _ st Hst); cbv zeta; rewrite Hh; reflexivity.
  2: discriminate Ht.
  cbn [ser]. set (st0 := array_type AStarted st) in *.
  assert (H0 : all_typed st0 = true) by (apply all_typed_array_type; exact Hst).
  assert (Hall : Forall (fun y => has_tab y = false /\ SerInline y) l).
  { apply Forall_forall. intros y Hy. rewrite Forall_forall in IH.
    pose proof (has_tab_arr_elems l Ht y Hy) as Hy'. split; [exact Hy'|apply IH; assumption]. }
  destruct l as [|x xs].
  - (* []: SerializeSeq::end writes the key and both brackets *)
    cbn [seq_elems seq_end List.length]. unfold emit_key.
    rewrite (array_type_typed AStarted st0 H0), (emit_key_rec_spec st0 H0), Hh.
    rewrite <- (nl_if_table_array_type AStarted st). reflexivity.
  - inversion Hall as [|? ? (Hx & Sx) Hxs]; subst.
    cbn [seq_elems List.length]. set (len := S (List.length xs)).
    rewrite (Sx (FA true None len :: st0) H0 Hh), post_FA, Hx, andb_true_r.
    set (par' := if first_leaf_checks x then mark st0 else st0).
    assert (Epost : par' = post (TArr (x :: xs)) st).
    { unfold post. cbn [kind first_leaf_checks]. rewrite Ht. reflexivity. }
    assert (Hp' : all_typed par' = true).
    { unfold par'. destruct (first_leaf_checks x); [apply all_typed_mark|]; exact H0. }
    rewrite (seq_elems_inline len xs Hxs (Some (kind x)) par' Hp' ltac:(discriminate)).
    rewrite (kind_notab x Hx).
    cbn [seq_end array_type ekey_out nl_if_table]. rewrite Epost at 1. rewrite nl_if_table_post, <- Epost.
    rewrite <- (array_text x xs). fold len.
    rewrite app_nil_r, <- !app_assoc. reflexivity.
Qed.

(* what a key's text starts with *)
Definition line_head_ok (c : ascii) : bool := is_bare_char c || ceq c dq.

Lemma escape_key_head k : exists c t, escape_key k = c :: t /\ line_head_ok c = true.
Proof.
  unfold escape_key, line_head_ok. destruct (bare_key_ok k) eqn:E.
  - destruct k as [|c k]; [discriminate|]. exists c, k. split; [reflexivity|].
    cbn [bare_key_ok forallb] in E. apply andb_true_iff in E as [-> _]. reflexivity.
  - unfold emit_std. eexists; eexists; split; reflexivity.
Qed.

Lemma line_head_skip c r : line_head_ok c = true -> skip_ws (c :: r) = c :: r.
Proof. intros H. cbn [skip_ws]. unfold is_wschar. outside line_head_ok H. reflexivity. Qed.

Fixpoint path_tail (p : list bytes) : bytes :=
  match p with
  | [] => []
  | k :: r => "."%char :: escape_key k ++ path_tail r
  end.

Definition path_text (p : list bytes) : bytes :=
  match p with
  | [] => []
  | k :: r => escape_key k ++ path_tail r
  end.

Lemma path_tail_app p q : path_tail (p ++ q) = path_tail p ++ path_tail q.
Proof. induction p as [|k p IH]; cbn [app path_tail]; [reflexivity|]. rewrite IH, <- app_assoc. reflexivity. Qed.

Lemma path_text_snoc p k :
  path_text (p ++ [k]) = path_text p ++ (match p with [] => [] | _ => ["."%char] end) ++ escape_key k.
Proof.
  destruct p as [|k0 p]; cbn [app path_text].
  - rewrite app_nil_r. reflexivity.
  - rewrite path_tail_app. cbn [path_tail]. rewrite app_nil_r, <- app_assoc. reflexivity.
Qed.

(* the dotted path of a state: the keys of its Table frames, outermost first *)
Fixpoint spath (st : stack) : list bytes :=
  match st with
  | [] => []
  | FA _ _ _ :: par => spath par
  | FT k _ _ :: par => spath par ++ [k]
  end.

Lemma key_part_spec st : key_part st = (path_text (spath st), is_nil (spath st)).
Proof.
  induction st as [|[k f te|f t n] par IH]; cbn [key_part spath]; [reflexivity| |exact IH].
  rewrite IH, path_text_snoc. destruct (spath par); cbn [is_nil app]; reflexivity.
Qed.

Lemma spath_set_te st : spath (set_te st) = spath st.
Proof. induction st as [|[k f te|f t n] st IH]; cbn; congruence. Qed.

Lemma parse_key_escape k R : key_follow_ok R ->
  parse_key (skip_ws (escape_key k ++ R)) = Some (k, R).
Proof.
  intros HR. rewrite <- (toml_key_roundtrip k R HR). f_equal.
  destruct (escape_key_head k) as (c & t & -> & Hc). apply line_head_skip, Hc.
Qed.

Lemma parse_path_tail : forall p n k acc rest,
  List.length p < n ->
  parse_path n (escape_key k ++ path_tail p ++ "]"%char :: rest) acc
  = Some (rev acc ++ k :: p, "]"%char :: rest).
Proof.
  induction p as [|k2 p IH]; intros n k acc rest Hn; (destruct n as [|n]; [cbn in Hn; lia|]); cbn [parse_path path_tail app].
  - rewrite parse_key_escape by reflexivity.
    cbn [skip_ws]. change (is_wschar "]"%char) with false. change (ceq "]"%char "."%char) with false. cbv iota.
    rewrite rev'_spec. reflexivity.
  - rewrite <- app_assoc. cbn [app]. rewrite parse_key_escape by reflexivity.
    cbn [skip_ws]. change (is_wschar "."%char) with false. change (ceq "."%char "."%char) with true. cbv iota.
    rewrite (IH n k2 (k :: acc) rest ltac:(cbn in Hn; lia)).
    cbn [rev]. rewrite <- app_assoc. reflexivity.
Qed.

Lemma path_text_length p : List.length p <= List.length (path_text p).
Proof.
  assert (Hk : forall k, 1 <= List.length (escape_key k)).
  { intros k. destruct (escape_key_head k) as (c & t & -> & _). cbn. lia. }
  assert (Ht : forall r, List.length r <= List.length (path_tail r)).
  { induction r as [|k r IH]; cbn [path_tail List.length]; [lia|]. rewrite app_length. specialize (Hk k). lia. }
  destruct p as [|k r]; cbn [path_text List.length]; [lia|]. rewrite app_length. specialize (Hk k). specialize (Ht r). lia.
Qed.

Lemma parse_path_text p rest : p <> [] ->
  parse_path (List.length (path_text p ++ "]"%char :: rest)) (path_text p ++ "]"%char :: rest) []
  = Some (p, "]"%char :: rest).
Proof.
  intros Hp. destruct p as [|k r]; [congruence|]. cbn [path_text]. rewrite <- app_assoc.
  rewrite parse_path_tail; [reflexivity|].
  pose proof (path_text_length (k :: r)) as Hl. cbn [path_text] in Hl.
  rewrite app_assoc, app_length. cbn [List.length] in *. lia.
Qed.

Lemma path_text_head p : p <> [] -> exists c t, path_text p = c :: t /\ line_head_ok c = true.
Proof.
  destruct p as [|k r]; [congruence|]. intros _. cbn [path_text].
  destruct (escape_key_head k) as (c & t & E & Hc). rewrite E. exists c, (t ++ path_tail r). split; [reflexivity|exact Hc].
Qed.

Lemma doc_items_head f s p r r' acc :
  match s with c :: _ => ceq c "["%char = false | [] => True end ->
  parse_path (List.length s) s [] = Some (p, "]"%char :: r) -> line_end r = Some r' ->
  doc_items (S f) ("["%char :: s) acc = doc_items f r' (IHead p :: acc).
Proof.
  intros Hc Hp He. destruct s as [|c2 s2]; [discriminate Hp|]. cbn [doc_items].
  change (skip_ws ("["%char :: c2 :: s2)) with ("["%char :: c2 :: s2). cbv iota.
  change (ceq "["%char nl) with false. change (ceq "["%char cr) with false.
  change (ceq "["%char "#"%char) with false. change (ceq "["%char "["%char) with true. cbv iota.
  rewrite Hc, Hp. change (ceq "]"%char "]"%char) with true. cbv iota. rewrite He. reflexivity.
Qed.

Lemma doc_items_ahead f s p r r' acc :
  parse_path (List.length s) s [] = Some (p, "]"%char :: "]"%char :: r) -> line_end r = Some r' ->
  doc_items (S f) ("["%char :: "["%char :: s) acc = doc_items f r' (IAHead p :: acc).
Proof.
  intros Hp He. cbn [doc_items].
  change (skip_ws ("["%char :: "["%char :: s)) with ("["%char :: "["%char :: s). cbv iota.
  change (ceq "["%char nl) with false. change (ceq "["%char cr) with false.
  change (ceq "["%char "#"%char) with false. change (ceq "["%char "["%char) with true. cbv iota.
  rewrite Hp. change (ceq "]"%char "]"%char) with true. cbn [andb]. cbv iota. rewrite He. reflexivity.
Qed.

Lemma doc_items_kv f c s k r1 r2 v r4 r' acc :
  line_head_ok c = true -> parse_key (c :: s) = Some (k, r1) -> skip_ws r1 = "="%char :: r2 ->
  parse_val (S (List.length (skip_ws r2))) (skip_ws r2) = Some (v, r4) -> line_end r4 = Some r' ->
  doc_items (S f) (c :: s) acc = doc_items f r' (IKV k v :: acc).
Proof.
  intros Hc Hk Hq Hv He. cbn [doc_items]. rewrite (line_head_skip c s Hc). cbv iota.
  outside line_head_ok Hc. rewrite Hk, Hq. change (ceq "="%char "="%char) with true. cbv iota zeta.
  rewrite Hv, He. reflexivity.
Qed.

(* the writer's text o is a sequence of complete lines that the reader's loop turns into [its] *)
Definition Lexes (o : bytes) (its : list item) : Prop :=
  forall rest acc fuel, List.length (o ++ rest) < fuel ->
    exists fuel', List.length rest < fuel' /\
      doc_items fuel (o ++ rest) acc = doc_items fuel' rest (rev its ++ acc).

Lemma Lexes_nil : Lexes [] [].
Proof. intros rest acc fuel H. exists fuel. split; [exact H|reflexivity]. Qed.

Lemma Lexes_app o1 o2 i1 i2 : Lexes o1 i1 -> Lexes o2 i2 -> Lexes (o1 ++ o2) (i1 ++ i2).
Proof.
  intros H1 H2 rest acc fuel Hf. rewrite <- app_assoc in *.
  destruct (H1 (o2 ++ rest) acc fuel Hf) as (f1 & Hf1 & E1).
  destruct (H2 rest (rev i1 ++ acc) f1 Hf1) as (f2 & Hf2 & E2).
  exists f2. split; [exact Hf2|]. rewrite E1, E2, rev_app_distr, <- app_assoc. reflexivity.
Qed.

Lemma Lexes_eq o i i' : Lexes o i -> i' = i -> Lexes o i'.
Proof. intros H ->. exact H. Qed.

(* a text that the loop consumes in one round *)
Lemma Lexes_line o its : o <> [] ->
  (forall f rest acc, doc_items (S f) (o ++ rest) acc = doc_items f rest (rev its ++ acc)) ->
  Lexes o its.
Proof.
  intros Hne H rest acc fuel Hf. destruct fuel as [|f]; [lia|].
  exists f. split; [|apply H]. destruct o; [congruence|]. cbn [app List.length] in Hf. rewrite app_length in Hf. lia.
Qed.

Lemma Lexes_blank : Lexes [nl] [].
Proof. apply Lexes_line; [discriminate|reflexivity]. Qed.

Lemma Lexes_head p : p <> [] -> Lexes ("["%char :: path_text p ++ ["]"%char; nl]) [IHead p].
Proof.
  intros Hp. apply Lexes_line; [discriminate|]. intros f rest acc. cbn [app]. rewrite <- app_assoc.
  apply (doc_items_head f _ p (nl :: rest) rest acc); [|apply (parse_path_text p _ Hp)|reflexivity].
  destruct (path_text_head p Hp) as (c & t & -> & Hc). exact (ceq_class line_head_ok c "["%char Hc eq_refl).
Qed.

Lemma Lexes_ahead p : p <> [] -> Lexes ("["%char :: "["%char :: path_text p ++ ["]"%char; "]"%char; nl]) [IAHead p].
Proof.
  intros Hp. apply Lexes_line; [discriminate|]. intros f rest acc. cbn [app]. rewrite <- app_assoc.
  apply (doc_items_ahead f _ p (nl :: rest) rest acc); [apply (parse_path_text p _ Hp)|reflexivity].
Qed.

Lemma Lexes_kv k v : has_tab v = false -> tval_wf v = true ->
  Lexes (escape_key k ++ eq_text ++ body v ++ [nl]) [IKV k (tdoc_of v)].
Proof.
  intros Ht Hw. destruct (escape_key_head k) as (c & t & E & Hc).
  apply Lexes_line; [rewrite E; discriminate|]. intros f rest acc. rewrite <- !app_assoc.
  set (R := eq_text ++ body v ++ [nl] ++ rest).
  assert (Ev : skip_ws (body v ++ [nl] ++ rest) = body v ++ nl :: rest).
  { destruct (body_head v Ht Hw) as (c2 & t2 & -> & Hc2). apply skip_ws_head, Hc2. }
  rewrite E. apply (doc_items_kv f c (t ++ R) k R (sp :: body v ++ [nl] ++ rest) (tdoc_of v) (nl :: rest) rest acc Hc).
  - change (c :: t ++ R) with ((c :: t) ++ R). rewrite <- E. apply toml_key_roundtrip. reflexivity.
  - reflexivity.
  - cbn [skip_ws]. change (is_wschar sp) with true. cbv iota. rewrite Ev.
    apply (parse_val_inline v Ht Hw); [rewrite app_length; lia|reflexivity].
  - reflexivity.
Qed.
