(* Proofs about the TOML model: inline values (scalars and arrays without tables).
   [body v] is the text the serializer writes for such a value once its key (or the opening of the
   enclosing array) has been written; the reader's [parse_val] reads it back as [tdoc_of v]. *)
From Ucg Require Import base.Bytes base.Bytes_Lemmas data.Val data.Json data.Json_Lemmas data.MapJson data.MapJson_Lemmas
     data.Toml data.Toml_Str data.Toml_Num data.Toml_Err data.Toml_Sem.
Local Open Scope list_scope.

(* an item of an array of two or more: on a line of its own, indented, with a trailing comma
   (settings.array = Some(indent 4)) *)
Definition array_line (txt : bytes) : bytes := nl :: indent4 ++ txt ++ [","%char].

Lemma array_line_app txt s : array_line txt ++ s = (nl :: indent4) ++ txt ++ ","%char :: s.
Proof. unfold array_line. cbn [app]. rewrite <- !app_assoc. reflexivity. Qed.

Fixpoint body (v : tval) : bytes :=
  match v with
  | TStr s => emit_value_str s
  | TInt z => dec_of_Z z
  | TFloat f => float_text f
  | TBool x => bool_text x
  | TArr [] => ["["%char; "]"%char]
  | TArr [x] => "["%char :: body x ++ ["]"%char]                 (* emit_array: len <= 1 *)
  | TArr l => "["%char :: flat_map (fun y => array_line (body y)) l ++ [nl; "]"%char]
  | TTab _ => []
  end.

(* scalars the reader can be expected to return: integers in range, floats with a Rust-shaped text *)
Fixpoint tval_wf (v : tval) : bool :=
  match v with
  | TInt z => in_i64 z
  | TFloat (TFin t) => match rust_float_parts t with Some _ => true | None => false end
  | TArr l => forallb tval_wf l
  | TTab es => forallb (fun kv => tval_wf (snd kv)) es
  | _ => true
  end.

(* what follows a value: a newline, a comma or a closing bracket *)
Definition vfollow (rest : bytes) : Prop :=
  match rest with
  | c :: _ => ceq c nl || ceq c ","%char || ceq c "]"%char = true
  | [] => False
  end.

Lemma vfollow_tok rest : vfollow rest -> tok_follow_ok rest.
Proof.
  destruct rest as [|c r]; [intros []|]. cbn. intros H.
  destruct (is_tok_char c) eqn:E; [|reflexivity].
  revert H. outside is_tok_char E. discriminate.
Qed.

Lemma vfollow_str rest : vfollow rest -> follow_ok rest = true.
Proof.
  destruct rest as [|c r]; [intros []|]. cbn. intros H.
  outside (fun c => ceq c nl || ceq c ","%char || ceq c "]"%char) H. reflexivity.
Qed.

Lemma emit_value_str_head s : exists t, emit_value_str s = dq :: t \/ emit_value_str s = sq :: t.
Proof.
  unfold emit_value_str, emit_std. destruct (do_pretty s) as [[|] [|]|[|]]; eexists; cbn [app]; eauto.
Qed.

Lemma parse_val_string f s rest : follow_ok rest = true ->
  parse_val (S f) (emit_value_str s ++ rest) = Some (DStr s, rest).
Proof.
  intros Hr. pose proof (toml_string_roundtrip s rest Hr) as E.
  destruct (emit_value_str_head s) as (t & [Eh|Eh]); rewrite Eh in *; cbn [app] in E; cbn [app parse_val].
  - change (ceq dq dq) with true. cbn [orb]. rewrite E. reflexivity.
  - change (ceq sq dq) with false. change (ceq sq sq) with true. cbn [orb]. rewrite E. reflexivity.
Qed.

(* a token starts with none of the characters that open a string, an array or an inline table *)
Lemma parse_val_token f t d rest : token t d -> tok_follow_ok rest ->
  parse_val (S f) (t ++ rest) = Some (d, rest).
Proof.
  intros Ht Hr. rewrite <- (parse_scalar_token t d rest Ht Hr).
  destruct (token_head t d Ht) as (c & r & -> & Hc). cbn [app parse_val].
  outside is_tok_char Hc. reflexivity.
Qed.

Definition is_scalar (v : tval) : bool :=
  match v with TInt _ | TFloat _ | TBool _ => true | _ => false end.

Lemma scalar_token v : is_scalar v = true -> tval_wf v = true -> token (body v) (tdoc_of v).
Proof.
  destruct v as [s|z|[t|neg|neg]|x|l|es]; try discriminate; intros _ Hw; cbn [body tdoc_of dfloat_of].
  - apply int_token, Hw.
  - cbn [tval_wf] in Hw. destruct (rust_float_parts t) as [[[neg i] fd]|] eqn:E; [|discriminate].
    apply float_token, E.
  - apply nonfinite_token.
  - apply nonfinite_token.
  - apply bool_token.
Qed.

Definition val_head_ok (c : ascii) : bool :=
  ceq c dq || ceq c sq || ceq c "["%char || is_tok_char c.

Lemma body_head v : has_tab v = false -> tval_wf v = true ->
  exists c t, body v = c :: t /\ val_head_ok c = true.
Proof.
  intros Ht Hw. destruct (is_scalar v) eqn:Es.
  - destruct (token_head _ _ (scalar_token v Es Hw)) as (c & t & E & Hc).
    exists c, t. split; [exact E|]. unfold val_head_ok. rewrite Hc, !orb_true_r. reflexivity.
  - destruct v as [s|z|x|x|[|x [|y l]]|es]; try discriminate; cbn [body];
      try (eexists; eexists; split; reflexivity).
    destruct (emit_value_str_head s) as (t & [E|E]); rewrite E; eexists; eexists; split; reflexivity.
Qed.

Lemma skip_wcn_head c r : val_head_ok c = true -> skip_wcn false (c :: r) = c :: r.
Proof. intros H. cbn [skip_wcn]. unfold is_wschar. outside val_head_ok H. reflexivity. Qed.

Lemma skip_ws_head c r : val_head_ok c = true -> skip_ws (c :: r) = c :: r.
Proof. intros H. cbn [skip_ws]. unfold is_wschar. outside val_head_ok H. reflexivity. Qed.

Lemma skip_wcn_comma r : skip_wcn false (","%char :: r) = ","%char :: r.
Proof. reflexivity. Qed.

(* what the array loop needs to know of an item: the value reader [pv] reads its text back *)
Definition array_item_ok (pv : bytes -> option (tdoc * bytes)) (y : tval) : Prop :=
  has_tab y = false /\ tval_wf y = true /\
  forall r, vfollow r -> pv (body y ++ r) = Some (tdoc_of y, r).

Section ArrayLoop.
  Variable pv : bytes -> option (tdoc * bytes).

  (* one round of the loop: white space [w], an item, then whatever [tail] begins with *)
  Lemma arr_loop_item n w y tail acc :
    (forall s, skip_wcn false (w ++ s) = skip_wcn false s) -> array_item_ok pv y -> vfollow tail ->
    arr_loop pv (S n) (w ++ body y ++ tail) acc =
    match skip_wcn false tail with
    | d :: r2 =>
      if ceq d ","%char then arr_loop pv n r2 (tdoc_of y :: acc)
      else if ceq d "]"%char then Some (rev' (tdoc_of y :: acc), r2)
      else None
    | [] => None
    end.
  Proof.
    intros Hw (Ht & Hwf & Hpv) Htail. cbn [arr_loop]. rewrite Hw.
    destruct (body_head y Ht Hwf) as (c & t & Eb & Hc).
    assert (Es : skip_wcn false (body y ++ tail) = c :: t ++ tail)
      by (rewrite Eb; apply skip_wcn_head, Hc).
    rewrite Es, (ceq_class val_head_ok c "]"%char Hc eq_refl).
    change (c :: t ++ tail) with ((c :: t) ++ tail). rewrite <- Eb, (Hpv tail Htail). reflexivity.
  Qed.

  Lemma arr_loop_lines rest : forall ys acc n,
    List.length ys <= n -> Forall (array_item_ok pv) ys ->
    arr_loop pv (S n) (flat_map (fun y => array_line (body y)) ys ++ nl :: "]"%char :: rest) acc
    = Some (rev acc ++ map tdoc_of ys, rest).
  Proof.
    induction ys as [|y ys IH]; intros acc n Hn Hall.
    - cbn. rewrite rev'_spec, app_nil_r. reflexivity.
    - inversion Hall as [|? ? Hy Hys]; subst. destruct n as [|n]; [cbn in Hn; lia|].
      cbn [flat_map]. rewrite <- app_assoc, array_line_app.
      rewrite (arr_loop_item (S n) (nl :: indent4) y (","%char :: _) acc (fun s => eq_refl) Hy eq_refl).
      rewrite skip_wcn_comma. change (ceq ","%char ","%char) with true. cbv iota.
      rewrite (IH _ n ltac:(cbn in Hn; lia) Hys). cbn [rev map]. rewrite <- app_assoc. reflexivity.
  Qed.
End ArrayLoop.

Definition PVal (v : tval) : Prop :=
  forall f rest, List.length (body v) <= f -> vfollow rest ->
    parse_val (S f) (body v ++ rest) = Some (tdoc_of v, rest).

Lemma flat_map_length_ge {A} (g : A -> bytes) (l : list A) :
  (forall a, 1 <= List.length (g a)) -> List.length l <= List.length (flat_map g l).
Proof.
  intros H. induction l as [|a l IH]; cbn [flat_map List.length]; [lia|].
  rewrite app_length. specialize (H a). lia.
Qed.

Lemma in_flat_map_length {A} (g : A -> bytes) l a : In a l -> List.length (g a) <= List.length (flat_map g l).
Proof.
  induction l as [|b l IH]; [intros []|]. intros [->|H]; cbn [flat_map]; rewrite app_length; [lia|].
  specialize (IH H). lia.
Qed.

Theorem parse_val_inline : forall v, has_tab v = false -> tval_wf v = true -> PVal v.
Proof.
  induction v as [s|z|x|x|l IH|es IH] using tval_ind'; intros Ht Hw f rest Hf Hr.
  1: apply parse_val_string, vfollow_str, Hr.
  1-3: apply parse_val_token; [apply scalar_token; [reflexivity|exact Hw]|apply vfollow_tok, Hr].
  2: discriminate Ht.
  (* an array: the fuel left for each item is at least the length of its text *)
  cbn [tval_wf] in Hw.
  assert (Hitems : forall n, (forall y, In y l -> List.length (body y) <= n) -> Forall (array_item_ok (parse_val (S n))) l).
  { intros n Hn. apply Forall_forall. intros y Hy. rewrite Forall_forall in IH. rewrite forallb_forall in Hw.
    pose proof (has_tab_arr_elems l Ht y Hy) as Hty.
    split; [exact Hty|]. split; [apply Hw, Hy|]. intros r. apply (IH y Hy Hty (Hw y Hy)), Hn, Hy. }
  cbn [tdoc_of]. destruct l as [|x [|x2 xs]]; cbn [body app parse_val] in Hf |- *;
    change (ceq "["%char dq || ceq "["%char sq) with false; change (ceq "["%char "["%char) with true; cbv iota.
  - destruct f as [|f]; [cbn in Hf; lia|]. reflexivity.
  - cbn [List.length] in Hf. rewrite app_length in Hf. cbn [List.length] in Hf. destruct f as [|f]; [lia|].
    assert (Hx : Forall (array_item_ok (parse_val (S f))) [x]) by (apply Hitems; intros y [<-|[]]; lia).
    apply Forall_inv in Hx.
    pose proof (arr_loop_item _ f [] x ("]"%char :: rest) [] (fun s => eq_refl) Hx eq_refl) as E.
    rewrite <- app_assoc. cbn [app] in E |- *. rewrite E. reflexivity.
  - set (l := x :: x2 :: xs) in *.
    cbn [List.length] in Hf. rewrite app_length in Hf. cbn [List.length] in Hf.
    pose proof (flat_map_length_ge (fun y => array_line (body y)) l ltac:(intros; cbn; lia)) as Hlen.
    destruct f as [|f]; [lia|].
    rewrite <- app_assoc. cbn [app]. rewrite (arr_loop_lines (parse_val (S f)) rest l [] f); [reflexivity|lia|].
    apply Hitems. intros y Hy. pose proof (in_flat_map_length (fun y => array_line (body y)) l y Hy) as Hl.
    cbv beta in Hl. unfold array_line in Hl at 1. cbn [List.length] in Hl. rewrite !app_length in Hl. lia.
Qed.
