(* Proofs about the YAML model: ASCII strings without a line feed (every byte < 0x80 is allowed, control characters
   included) in the two quoted styles.
   - double-quoted: what write_double writes reads back as the string (every escape);
   - single-quoted: what write_single writes for a text without break characters reads back as the string. *)
From Ucg Require Import base.Bytes base.Bytes_Lemmas data.Val data.Json data.Json_Lemmas data.MapJson data.MapJson_Lemmas data.Yaml.
From Ucg Require data.Toml.
Local Open Scope list_scope.

Definition is_ascii (c : ascii) : bool := (code c <? 128)%N.
Definition ascii_str (s : bytes) : bool := forallb is_ascii s.

(* the characters of an ASCII text: one per byte *)
Definition achars (t : bytes) : list uchar := map (fun c => mk_uc (code c) [c]) t.

Lemma ascii_lead c : is_ascii c = true -> lead_width c = 1 /\ lead_bits c = code c.
Proof.
  unfold is_ascii, lead_width, lead_bits. intros H. rewrite H.
  apply N.ltb_lt in H. rewrite (proj2 (N.ltb_lt (code c) 192)) by lia. split; reflexivity.
Qed.

Lemma chars_ascii t : ascii_str t = true -> chars t = achars t.
Proof.
  intros Ht. unfold chars.
  cut (forall fuel, (List.length t <= fuel)%nat -> chars_f fuel t = achars t); [intros G; apply G; lia|].
  induction t as [|c r IH]; intros fuel Hf.
  - destruct fuel; reflexivity.
  - cbn [ascii_str forallb] in Ht. apply andb_true_iff in Ht as [Hc Hr].
    destruct fuel as [|f]; [cbn in Hf; lia|].
    destruct (ascii_lead c Hc) as (Hw & Hb).
    cbn [chars_f achars map]. rewrite Hw. cbn [Nat.pred firstn skipn].
    unfold cp_of. cbn [fold_left]. rewrite Hb. f_equal.
    apply (IH Hr). cbn in Hf. lia.
Qed.

(* one character as written, escaped or not: a table of 128 rows *)
Lemma scan_double_char c r :
  is_ascii c = true ->
  scan_double ((if dq_must_escape (code c) then dq_escape (code c) else [c]) ++ r)
  = match scan_double r with Some (x, t) => Some (c :: x, t) | None => None end.
Proof. intros Hc. destruct c as [[] [] [] [] [] [] [] []]; try discriminate Hc; reflexivity. Qed.

Theorem scan_double_body s t :
  ascii_str s = true -> scan_double (double_body (achars s) ++ dq :: t) = Some (s, t).
Proof.
  induction s as [|c r IH]; intros Hs.
  - reflexivity.
  - cbn [ascii_str forallb] in Hs. apply andb_true_iff in Hs as [Hc Hr].
    cbn [achars map double_body u_cp u_raw]. rewrite <- app_assoc.
    rewrite (scan_double_char c _ Hc). fold (achars r). rewrite (IH Hr). reflexivity.
Qed.

Lemma write_double_text s st :
  fst (write_double s st) = (if e_ws st then [] else [sp]) ++ dq :: double_body (chars s) ++ [dq].
Proof.
  unfold write_double, write_indicator. cbn [fst e_ws e_col e_ind andb app List.length].
  destruct (e_ws st); cbn [negb andb app]; rewrite ?app_nil_r; reflexivity.
Qed.

Theorem double_quoted_reads_back pind s rest :
  ascii_str s = true ->
  scalar_node pind (dq :: double_body (chars s) ++ [dq]) rest = Some (DStr s, rest).
Proof.
  intros Hs. unfold scalar_node.
  replace (ceq dq "|"%char) with false by reflexivity.
  replace (ceq dq sqt) with false by reflexivity.
  replace (ceq dq dq) with true by reflexivity.
  rewrite (chars_ascii _ Hs). rewrite (scan_double_body s [] Hs). reflexivity.
Qed.

(* as a key: `"...": value` *)
Theorem double_quoted_key_reads_back s u :
  ascii_str s = true ->
  scan_key (dq :: double_body (chars s) ++ dq :: ":"%char :: sp :: u) = Some (DStr s, sp :: u).
Proof.
  intros Hs. unfold scan_key.
  replace (ceq dq sqt) with false by reflexivity.
  replace (ceq dq dq) with true by reflexivity.
  rewrite (chars_ascii _ Hs). rewrite (scan_double_body s (":"%char :: sp :: u) Hs). reflexivity.
Qed.

Definition sq_body (s : bytes) : bytes := flat_map (fun c => if ceq c sqt then [sqt; sqt] else [c]) s.

Definition no_breaks (s : bytes) : bool := forallb (fun c => negb (is_break_cp (code c))) s.

Lemma single_loop_ascii i s : forall st,
  no_breaks s = true ->
  exists st', single_loop i false (achars s) st = (sq_body s, st', false).
Proof.
  induction s as [|c r IH]; intros st Hs; [eexists; reflexivity|].
  unfold no_breaks in Hs. cbn [forallb] in Hs. apply andb_true_iff in Hs as [Hc Hr]. apply negb_true_iff in Hc.
  cbn [achars map single_loop u_cp u_raw sq_body flat_map]. fold (achars r) (sq_body r). rewrite Hc.
  change 32%N with (code sp). change 39%N with (code sqt). rewrite <- !ceq_code.
  destruct (ceq c sp) eqn:Es.
  - apply Ascii.eqb_eq in Es. subst c.
    match goal with |- context [single_loop i false (achars r) ?st0] => destruct (IH st0 Hr) as [st' E] end.
    rewrite E. eexists. reflexivity.
  - destruct (ceq c sqt) eqn:Eq; [apply Ascii.eqb_eq in Eq; subst c|];
      match goal with |- context [single_loop i false (achars r) ?st0] => destruct (IH st0 Hr) as [st' E] end;
      rewrite E; eexists; reflexivity.
Qed.

Lemma write_single_text i s st :
  ascii_str s = true -> no_breaks s = true ->
  fst (write_single i s st) = (if e_ws st then [] else [sp]) ++ sqt :: sq_body s ++ [sqt].
Proof.
  intros Ha Hb. unfold write_single. rewrite (chars_ascii _ Ha).
  unfold write_indicator at 1. cbn [e_ws e_col e_ind andb List.length app].
  match goal with |- context [single_loop i false (achars s) ?st0] =>
    destruct (single_loop_ascii i s st0 Hb) as [st' E]; rewrite E end.
  unfold write_indicator. cbn [fst e_ws e_col e_ind andb app List.length].
  destruct (e_ws st); cbn [negb andb app]; rewrite ?app_nil_r; reflexivity.
Qed.

Definition all_text (s : bytes) : bool := forallb text_byte_ok s.

Lemma scan_single_body s t :
  all_text s = true -> match t with c :: _ => ceq c sqt = false | [] => True end ->
  scan_single (sq_body s ++ sqt :: t) = Some (s, t).
Proof.
  intros Hs Ht. induction s as [|c r IH].
  - cbn [sq_body flat_map app scan_single]. replace (ceq sqt sqt) with true by reflexivity.
    destruct t as [|d t']; [reflexivity|]. rewrite Ht. reflexivity.
  - unfold all_text in Hs. cbn [forallb] in Hs. apply andb_true_iff in Hs as [Hc Hr].
    cbn [sq_body flat_map]. fold (sq_body r).
    destruct (ceq c sqt) eqn:Eq.
    + apply Ascii.eqb_eq in Eq. subst c. cbn [app scan_single].
      replace (ceq sqt sqt) with true by reflexivity. rewrite (IH Hr). reflexivity.
    + cbn [app scan_single]. rewrite Eq, Hc, (IH Hr). reflexivity.
Qed.

Theorem single_quoted_reads_back pind s rest :
  all_text s = true ->
  scalar_node pind (sqt :: sq_body s ++ [sqt]) rest = Some (DStr s, rest).
Proof.
  intros Hs. unfold scalar_node.
  replace (ceq sqt "|"%char) with false by reflexivity.
  replace (ceq sqt sqt) with true by reflexivity.
  rewrite (scan_single_body s [] Hs I). reflexivity.
Qed.

Theorem single_quoted_key_reads_back s u :
  all_text s = true ->
  scan_key (sqt :: sq_body s ++ sqt :: ":"%char :: sp :: u) = Some (DStr s, sp :: u).
Proof.
  intros Hs. unfold scan_key.
  replace (ceq sqt sqt) with true by reflexivity.
  rewrite (scan_single_body s (":"%char :: sp :: u) Hs eq_refl). reflexivity.
Qed.
