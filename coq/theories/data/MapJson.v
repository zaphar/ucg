(* MODEL: the mappings between converter values ([val]) and JSON trees.
   [to_json]   mirrors JsonConverter::convert_value  (src/convert/json.rs:35-100)
   [from_json] mirrors JsonConverter::convert_json_val (src/convert/json.rs:102-129)
               together with serde_json's number classification
               (de.rs parse_integer/parse_number, number.rs as_i64) and its
               BTreeMap-backed Map.
   Executable definitions only; proofs are in MapJson_Lemmas.v. *)
From Ucg Require Import base.Bytes data.Val data.Json.
From Coq Require Import QArith.
Close Scope Q_scope.

(* ------------------------------------------------------------------ *)
(* Three-valued outcome of the output conversion                       *)

Inductive res (A : Type) :=
| Ok (a : A)       (* Rust returns Ok and the model claims to know the value *)
| Err              (* Rust returns Err(..)                                    *)
| Unsupported.     (* Rust returns Ok but the model does not describe the text
                      (float rounding of big ints; malformed float token)     *)
Arguments Ok {A} a.
Arguments Err {A}.
Arguments Unsupported {A}.

Definition res_map {A B} (f : A -> B) (r : res A) : res B :=
  match r with Ok a => Ok (f a) | Err => Err | Unsupported => Unsupported end.

(* Err anywhere dominates: Rust's `?` aborts on the first Err, and an
   Unsupported sibling is a value Rust converts successfully. *)
Definition res_cons {A} (r : res A) (rs : res (list A)) : res (list A) :=
  match r, rs with
  | Err, _ | _, Err => Err
  | Unsupported, _ | _, Unsupported => Unsupported
  | Ok a, Ok l => Ok (a :: l)
  end.

(* ------------------------------------------------------------------ *)
(* BTreeMap<String, _> as a key-sorted association list                *)

(* Ord for str/String: byte-wise lexicographic *)
Fixpoint bytes_cmp (x y : bytes) : comparison :=
  match x, y with
  | [], [] => Eq
  | [], _ :: _ => Lt
  | _ :: _, [] => Gt
  | c :: x', d :: y' =>
    match N.compare (code c) (code d) with
    | Eq => bytes_cmp x' y'
    | r => r
    end
  end.

Definition bytes_ltb (x y : bytes) : bool :=
  match bytes_cmp x y with Lt => true | _ => false end.

Section SMap.
  Context {V : Type}.

  (* mp.entry(k).or_insert(v): an existing binding is kept *)
  Fixpoint ins_first (k : bytes) (v : V) (m : list (bytes * V)) : list (bytes * V) :=
    match m with
    | [] => [(k, v)]
    | (k', v') :: m' =>
      match bytes_cmp k k' with
      | Lt => (k, v) :: m
      | Eq => m
      | Gt => (k', v') :: ins_first k v m'
      end
    end.

  (* map.insert(k, v): an existing binding is replaced *)
  Fixpoint ins_last (k : bytes) (v : V) (m : list (bytes * V)) : list (bytes * V) :=
    match m with
    | [] => [(k, v)]
    | (k', v') :: m' =>
      match bytes_cmp k k' with
      | Lt => (k, v) :: m
      | Eq => (k, v) :: m'
      | Gt => (k', v') :: ins_last k v m'
      end
    end.

  Definition map_first (l : list (bytes * V)) : list (bytes * V) :=
    fold_left (fun m kv => ins_first (fst kv) (snd kv) m) l [].

  Definition map_last (l : list (bytes * V)) : list (bytes * V) :=
    fold_left (fun m kv => ins_last (fst kv) (snd kv) m) l [].

  (* first binding of k *)
  Fixpoint lookup (k : bytes) (m : list (bytes * V)) : option V :=
    match m with
    | [] => None
    | (k', v) :: m' => if bytes_eqb k k' then Some v else lookup k m'
    end.

  (* last binding of k *)
  Fixpoint lookup_last (k : bytes) (m : list (bytes * V)) : option V :=
    match m with
    | [] => None
    | (k', v) :: m' =>
      match lookup_last k m' with
      | Some w => Some w
      | None => if bytes_eqb k k' then Some v else None
      end
    end.

  (* ---- specification-side functions (used by val_of_json_spec) ---- *)

  (* drop every pair whose key occurs again later *)
  Fixpoint keep_last (l : list (bytes * V)) : list (bytes * V) :=
    match l with
    | [] => []
    | (k, v) :: r =>
      if existsb (fun kv => bytes_eqb k (fst kv)) r then keep_last r
      else (k, v) :: keep_last r
    end.

  Fixpoint insert_sorted (kv : bytes * V) (l : list (bytes * V)) : list (bytes * V) :=
    match l with
    | [] => [kv]
    | kv' :: r =>
      if bytes_ltb (fst kv') (fst kv) then kv' :: insert_sorted kv r else kv :: l
    end.

  (* insertion sort by key *)
  Definition sort_keys (l : list (bytes * V)) : list (bytes * V) :=
    fold_right insert_sorted [] l.
End SMap.

(* ------------------------------------------------------------------ *)
(* to_json : convert_value                                             *)

Definition two53 : Z := 9007199254740992.

Definition has_dot_or_e (t : bytes) : bool :=
  existsb (fun c => ceq c "."%char || ceq c "e"%char) t.

Fixpoint to_json (v : val) : res json :=
  match v with
  | VEmpty => Ok JNull
  | VBool x => Ok (JBool x)
  | VInt z =>
    (* `i as f64` is exact for |i| <= 2^53 and serde_json prints such an
       integral float in fixed notation with a trailing ".0" *)
    if (Z.abs z <=? two53)%Z then Ok (JNum (Val.dec_of_Z z ++ b ".0")) else Unsupported
  | VFloat (FFin t) =>
    if num_lit_ok t && has_dot_or_e t then Ok (JNum t) else Unsupported
  | VFloat _ => Err                                 (* Number::from_f64 = None *)
  | VStr s => Ok (JStr s)
  | VList l =>
    res_map JArr
      ((fix go (l : list val) : res (list json) :=
          match l with
          | [] => Ok []
          | x :: xs => res_cons (to_json x) (go xs)
          end) l)
  | VTuple fs =>
    res_map (fun kvs => JObj (map_first kvs))
      ((fix go (l : list (bytes * val)) : res (list (bytes * json)) :=
          match l with
          | [] => Ok []
          | (k, x) :: r => res_cons (res_map (pair k) (to_json x)) (go r)
          end) fs)
  | VEnv fs => Ok (JObj (map_first (map (fun kv => (fst kv, JStr (snd kv))) fs)))
  | VConstraint => Err
  end.

(* what the converter writes *)
Definition json_output (v : val) : res bytes := res_map json_print (to_json v).

(* a non-finite float or a constraint anywhere (also under a shadowed
   duplicate tuple key: Rust converts the value before `or_insert`) *)
Fixpoint unrepresentable_json (v : val) : bool :=
  match v with
  | VFloat (FFin _) => false
  | VFloat _ => true
  | VConstraint => true
  | VList l => existsb unrepresentable_json l
  | VTuple fs => existsb (fun kv => unrepresentable_json (snd kv)) fs
  | _ => false
  end.

(* ------------------------------------------------------------------ *)
(* Numeric value of a literal                                          *)

Definition digits_val (ds : bytes) : N :=
  fold_left (fun a c => (a * 10 + (code c - 48))%N) ds 0%N.

(* (mantissa, exponent): the literal denotes mantissa * 10^exponent *)
Definition num_value (lit : bytes) : option (Z * Z) :=
  match num_split lit with
  | None => None
  | Some p =>
    let m := Z.of_N (digits_val (np_int p ++ np_frac p)) in
    let e := Z.of_N (digits_val (np_exp p)) in
    Some (if np_neg p then (- m)%Z else m,
          ((if np_eneg p then (- e)%Z else e) - Z.of_nat (List.length (np_frac p)))%Z)
  end.

(* the rational m * 10^e (not reduced) *)
Definition num_q (me : Z * Z) : Q :=
  let (m, e) := me in
  if (0 <=? e)%Z then inject_Z (m * 10 ^ e) else Qmake m (Z.to_pos (10 ^ (- e))).

(* ------------------------------------------------------------------ *)
(* Abstract content shared by values and JSON trees                    *)

Inductive aval :=
| ANull
| ABool (v : bool)
| ANum (q : Q)                 (* always stored reduced (Qred) *)
| AStr (s : bytes)
| AList (l : list aval)
| AMap (kvs : list (bytes * aval))   (* strictly key-sorted association list *)
| AUnrep.                      (* no JSON counterpart *)

Fixpoint json_abs (j : json) : option aval :=
  match j with
  | JNull => Some ANull
  | JBool v => Some (ABool v)
  | JNum lit =>
    match num_value lit with
    | Some me => Some (ANum (Qred (num_q me)))
    | None => None
    end
  | JStr s => Some (AStr s)
  | JArr l =>
    option_map AList
      ((fix go (l : list json) : option (list aval) :=
          match l with
          | [] => Some []
          | x :: xs =>
            match json_abs x, go xs with
            | Some a, Some r => Some (a :: r)
            | _, _ => None
            end
          end) l)
  | JObj kvs =>
    option_map AMap
      ((fix go (l : list (bytes * json)) : option (list (bytes * aval)) :=
          match l with
          | [] => Some []
          | (k, x) :: xs =>
            match json_abs x, go xs with
            | Some a, Some r => Some ((k, a) :: r)
            | _, _ => None
            end
          end) kvs)
  end.

Fixpoint canon (v : val) : aval :=
  match v with
  | VEmpty => ANull
  | VBool x => ABool x
  | VInt z => ANum (Qred (inject_Z z))
  | VFloat (FFin t) =>
    match num_value t with
    | Some me => ANum (Qred (num_q me))
    | None => AUnrep
    end
  | VFloat _ => AUnrep
  | VStr s => AStr s
  | VList l => AList (map canon l)
  | VTuple fs => AMap (map_first (map (fun kv => (fst kv, canon (snd kv))) fs))
  | VEnv fs => AMap (map_first (map (fun kv => (fst kv, AStr (snd kv))) fs))
  | VConstraint => AUnrep
  end.

(* ------------------------------------------------------------------ *)
(* from_json : serde_json::from_slice ; convert_json_val               *)

Definition u64_max : N := 18446744073709551615.
Definition i64_max : Z := 9223372036854775807.
Definition i64_min : Z := -9223372036854775808.

(* de.rs parse_integer: accumulate in u64, None on overflow (-> f64 path) *)
Fixpoint acc_u64 (ds : bytes) (a : N) : option N :=
  match ds with
  | [] => Some a
  | c :: r =>
    let a' := (a * 10 + (code c - 48))%N in
    if (u64_max <? a')%N then None else acc_u64 r a'
  end.

Definition classify_num (lit : bytes) : val :=
  match num_split lit with
  | None => VFloat (FFin lit)
  | Some p =>
    match np_frac p, np_exp p with
    | [], [] =>
      match acc_u64 (np_int p) 0%N with
      | None => VFloat (FFin lit)                    (* parse_long_integer *)
      | Some s =>
        if np_neg p then
          (* let neg = (significand as i64).wrapping_neg();
             if neg >= 0 { F64 } else { I64(neg) }           *)
          let as_i64 := if (s <? 2 ^ 63)%N then Z.of_N s else (Z.of_N s - 2 ^ 64)%Z in
          let neg := if (as_i64 =? i64_min)%Z then as_i64 else (- as_i64)%Z in
          if (0 <=? neg)%Z then VFloat (FFin lit) else VInt neg
        else
          (* ParserNumber::U64(s); Number::as_i64: s <= i64::MAX *)
          if (Z.of_N s <=? i64_max)%Z then VInt (Z.of_N s) else VFloat (FFin lit)
      end
    | _, _ => VFloat (FFin lit)                      (* has "." or exponent *)
    end
  end.

(* In the result a float is [VFloat (FFin lit)] where [lit] is the JSON
   literal text (to be compared numerically by the harness). *)
Fixpoint from_json (j : json) : val :=
  match j with
  | JNull => VEmpty
  | JBool v => VBool v
  | JNum lit => classify_num lit
  | JStr s => VStr s
  | JArr l => VList (map from_json l)
  | JObj kvs => VTuple (map_last (map (fun kv => (fst kv, from_json (snd kv))) kvs))
  end.

Definition json_input (s : bytes) : option val := option_map from_json (json_parse s).

(* ---- the specification from_json is compared with ---- *)

Definition spec_num (lit : bytes) : val :=
  match num_split lit, num_value lit with
  | Some p, Some (m, _) =>
    let integral := match np_frac p, np_exp p with [], [] => true | _, _ => false end in
    if integral && (i64_min <=? m)%Z && (m <=? i64_max)%Z
       && negb (np_neg p && (m =? 0)%Z)               (* "-0" is the float -0.0 *)
    then VInt m else VFloat (FFin lit)
  | _, _ => VFloat (FFin lit)
  end.

Fixpoint val_of_json_spec (j : json) : val :=
  match j with
  | JNull => VEmpty
  | JBool v => VBool v
  | JNum lit => spec_num lit
  | JStr s => VStr s
  | JArr l => VList (map val_of_json_spec l)
  | JObj kvs =>
    VTuple (sort_keys (keep_last (map (fun kv => (fst kv, val_of_json_spec (snd kv))) kvs)))
  end.
