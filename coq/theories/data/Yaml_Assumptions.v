(* Print Assumptions for every theorem of the YAML development: all must be "Closed under the global context". *)
From Ucg Require Import data.Yaml data.Yaml_Lemmas.

Print Assumptions to_yaml_error_iff.
Print Assumptions yaml_emit_total.
Print Assumptions yaml_output_error_iff.
Print Assumptions spec_data_defined_iff.
Print Assumptions resolve_plain_int.
Print Assumptions yaml_int_roundtrip.
Print Assumptions yaml_scalar_kinds.
Print Assumptions yaml_float_nonfinite.
Print Assumptions scan_double_body.
Print Assumptions double_quoted_reads_back.
Print Assumptions double_quoted_key_reads_back.
Print Assumptions single_quoted_reads_back.
Print Assumptions single_quoted_key_reads_back.
Print Assumptions yaml_string_roundtrip_ascii.
Print Assumptions ident_plain_string.
Print Assumptions yaml_ident_roundtrip.
Print Assumptions yaml_flat_map_roundtrip.
Print Assumptions yaml_doc_roundtrip_partial.
Print Assumptions yaml_doc_partial_example.
Print Assumptions yaml_flat_seq_roundtrip.
Print Assumptions yaml_doc_roundtrip_list_partial.
Print Assumptions null_bool_quoted.
Print Assumptions decimal_int_quoted.
Print Assumptions i64_text_quoted.
Print Assumptions yaml_ls_in_literal.
Print Assumptions yaml_ls_string_refuted.
Print Assumptions yaml_number_overflow_refuted.
Print Assumptions yaml_root_literal_indicator_refuted.
Print Assumptions yaml_literal_indicator_nested.
Print Assumptions yaml_sample_text.
Print Assumptions yaml_sample_roundtrip.
Print Assumptions yaml_long_key.
Print Assumptions yaml_float_examples.
