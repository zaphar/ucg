(* Proofs about the YAML model: scalars that consist of "token" characters (digits, letters, `.`, `+`, `-`, `_`):
   integers, floats, null, booleans.  Such a text may be written plain (Yaml_Analyze.v), so the writer copies it and
   the reader resolves it by the core schema: yaml_int_roundtrip, yaml_scalar_kinds, yaml_float_nonfinite. *)
From Ucg Require Import base.Bytes base.Bytes_Lemmas data.Val data.Json data.Json_Lemmas data.MapJson data.MapJson_Lemmas data.Yaml
     data.Yaml_Str data.Yaml_Analyze.
From Ucg Require data.Toml.
Local Open Scope list_scope.

Definition tok_char (c : ascii) : bool :=
  is_digit c || Toml.is_alpha c || ceq c "."%char || ceq c "+"%char || ceq c "-"%char || ceq c "_"%char.

Lemma tok_ascii c : tok_char c = true -> is_ascii c = true.
Proof. revert c. apply class_fact. vm_compute. reflexivity. Qed.

Lemma tok_printable c : tok_char c = true -> is_printable_cp (code c) = true.
Proof. revert c. apply class_fact. vm_compute. reflexivity. Qed.

Lemma tok_blankz c : tok_char c = true -> is_blankz_cp (code c) = false.
Proof. revert c. apply class_fact. vm_compute. reflexivity. Qed.

Lemma tok_break c : tok_char c = true -> is_break_cp (code c) = false.
Proof. revert c. apply class_fact. vm_compute. reflexivity. Qed.

Lemma tok_not_first_indicator c : tok_char c = true -> cp_in (code c) (b "#,[]{}&*!|>'""%@`") = false.
Proof. revert c. apply class_fact. vm_compute. reflexivity. Qed.

Lemma tok_ascii_str t : forallb tok_char t = true -> ascii_str t = true.
Proof.
  unfold ascii_str. induction t as [|c r IH]; [reflexivity|]. cbn [forallb]. intros H.
  apply andb_true_iff in H as [Hc Hr]. rewrite (tok_ascii c Hc). exact (IH Hr).
Qed.

Definition af0 : aflags := mk_af false false false false false false false false false.

Lemma an_loop_tok_inner t : forall pw,
  forallb tok_char t = true -> an_loop false pw false false (achars t) af0 = af0.
Proof.
  induction t as [|c r IH]; intros pw Ht; [reflexivity|].
  cbn [forallb] in Ht. apply andb_true_iff in Ht as [Hc Hr].
  destruct (code_eqs c) as (E58 & E35 & _ & _ & E32).
  cbn [achars map an_loop u_cp]. fold (achars r).
  rewrite <- E58, <- E35, <- E32.
  rewrite (ceq_class tok_char c ":" Hc eq_refl), (ceq_class tok_char c "#" Hc eq_refl), (ceq_class tok_char c sp Hc eq_refl).
  rewrite (tok_break c Hc), (tok_printable c Hc), (tok_blankz c Hc).
  exact (IH false Hr).
Qed.

(* the first character: not `-`, or `-` followed by another token character *)
Definition tok_first_ok (t : bytes) : Prop :=
  match t with
  | c :: r => ceq c "-"%char = false \/ r <> []
  | [] => False
  end.

Lemma an_loop_tok t :
  forallb tok_char t = true -> tok_first_ok t -> an_loop true true false false (achars t) af0 = af0.
Proof.
  destruct t as [|c r]; intros Ht Hf; [destruct Hf|].
  cbn [forallb] in Ht. apply andb_true_iff in Ht as [Hc Hr].
  destruct (code_eqs c) as (E58 & _ & E45 & E63 & E32).
  cbn [achars map an_loop u_cp]. fold (achars r).
  rewrite (tok_not_first_indicator c Hc), <- E58, <- E63, <- E32, <- E45.
  rewrite (ceq_class tok_char c ":" Hc eq_refl), (ceq_class tok_char c "?" Hc eq_refl), (ceq_class tok_char c sp Hc eq_refl).
  rewrite (tok_break c Hc), (tok_printable c Hc), (tok_blankz c Hc).
  assert (Hd : (ceq c "-"%char && match achars r with [] => true | v :: _ => is_blankz_cp (u_cp v) end) = false).
  { destruct Hf as [Hf|Hf]; [rewrite Hf; reflexivity|].
    destruct r as [|d r']; [congruence|]. cbn [forallb] in Hr. apply andb_true_iff in Hr as [Hd _].
    cbn [achars map u_cp]. rewrite (tok_blankz d Hd). apply andb_false_r. }
  rewrite Hd. exact (an_loop_tok_inner r false Hr).
Qed.

Theorem tok_plain_ok t : forallb tok_char t = true -> tok_first_ok t -> doc_prefix t = false -> plain_ok t.
Proof.
  intros Ht Hf Hd. pose proof (tok_ascii_str t Ht) as Ha.
  assert (Hn : t <> []) by (destruct t; [destruct Hf|congruence]).
  split; [exact Hn|]. split; [exact Ha|].
  rewrite (analyze_ascii t Hn Ha). unfold analysis_flags. rewrite Hd. fold af0. rewrite (an_loop_tok t Ht Hf). reflexivity.
Qed.

Lemma digits_tok ds : forallb is_digit ds = true -> forallb tok_char ds = true.
Proof.
  induction ds as [|c r IH]; cbn [forallb]; [reflexivity|].
  intros H. apply andb_true_iff in H as [Hc Hr]. unfold tok_char at 1. rewrite Hc. exact (IH Hr).
Qed.

(* a digit string does not begin with a radix prefix `0x`, `0o`, `0b` *)
Lemma strip_prefix_digits x ds :
  is_digit x = false -> forallb is_digit ds = true -> strip_prefix ["0"%char; x] ds = None.
Proof.
  intros Hx Hd. destruct ds as [|c ds]; [reflexivity|]. cbn [strip_prefix].
  destruct (Ascii.eqb "0"%char c); [|reflexivity]. destruct ds as [|d t]; [reflexivity|].
  destruct (Ascii.eqb x d) eqn:E; [|reflexivity].
  apply Ascii.eqb_eq in E. subst d. cbn [forallb] in Hd. rewrite Hx, andb_false_r in Hd. discriminate Hd.
Qed.

(* a text whose characters are all of one class is none of the words that have a character outside it *)
Lemma mem_bytes_class (p : ascii -> bool) t l :
  forallb p t = true -> forallb (fun w => negb (forallb p w)) l = true -> mem_bytes t l = false.
Proof.
  intros Ht Hl. unfold mem_bytes. apply not_true_is_false. intros H.
  apply existsb_exists in H as (w & Hin & E). apply bytes_eqb_spec in E. subst w.
  rewrite forallb_forall in Hl. specialize (Hl t Hin). rewrite Ht in Hl. discriminate Hl.
Qed.

Lemma dec_of_Z_shape z :
  exists (neg : bool) (c : ascii) (t : bytes),
    dec_of_Z z = (if neg then ["-"%char] else []) ++ c :: t
    /\ forallb is_digit (c :: t) = true
    /\ digits_val (c :: t) = Z.abs_N z /\ neg = (z <? 0)%Z.
Proof.
  destruct (Z.eq_dec z 0) as [->|Hz].
  - exists false, "0"%char, []. repeat split.
  - destruct (Z_dec_shape z Hz) as (c & t & E & Hd & _ & Hv).
    exists (z <? 0)%Z, c, t. repeat split; assumption.
Qed.

Lemma dec_of_Z_plain z : plain_ok (dec_of_Z z).
Proof.
  destruct (dec_of_Z_shape z) as (neg & c & t & E & Hd & _). rewrite E.
  pose proof (digits_tok _ Hd) as Ht.
  assert (Hc : is_digit c = true) by (cbn [forallb] in Hd; apply andb_true_iff in Hd as [H _]; exact H).
  pose proof (ceq_class is_digit c "-" Hc eq_refl) as Hm.
  destruct neg; cbn [app]; apply tok_plain_ok.
  - exact Ht.
  - right. discriminate.
  - unfold doc_prefix. destruct t as [|c3 r]; [reflexivity|]. rewrite Hm. reflexivity.
  - exact Ht.
  - left. exact Hm.
  - unfold doc_prefix. destruct t as [|c2 [|c3 r]]; try reflexivity.
    rewrite Hm, (ceq_class is_digit c "." Hc eq_refl). reflexivity.
Qed.

Theorem resolve_plain_int z : resolve_plain (dec_of_Z z) = DInt z.
Proof.
  destruct (dec_of_Z_shape z) as (neg & c & t & E & Hd & Hv & Hneg).
  assert (Hc : is_digit c = true) by (cbn [forallb] in Hd; apply andb_true_iff in Hd as [H _]; exact H).
  assert (Hp : forallb (fun c => is_digit c || ceq c "-"%char) (dec_of_Z z) = true).
  { rewrite E, forallb_app. replace (forallb _ (if neg then ["-"%char] else [])) with true by (destruct neg; reflexivity).
    apply forallb_forall. intros x Hx. rewrite forallb_forall in Hd. rewrite (Hd x Hx). reflexivity. }
  unfold resolve_plain. rewrite !(mem_bytes_class _ _ _ Hp) by reflexivity.
  assert (Hi : resolve_int (dec_of_Z z) = Some z); [|rewrite Hi, E; destruct neg; reflexivity].
  unfold resolve_int. change (b "0o") with ["0"%char; "o"%char]. change (b "0x") with ["0"%char; "x"%char].
  assert (Hall : all_in is_digit (c :: t) = true) by exact Hd.
  rewrite E. destruct neg; cbn [app].
  - cbn [strip_prefix]. replace (Ascii.eqb "0"%char "-"%char) with false by reflexivity.
    replace (ceq "-"%char "-"%char) with true by reflexivity.
    rewrite Hall, Hv. f_equal. symmetry in Hneg. apply Z.ltb_lt in Hneg. lia.
  - rewrite !strip_prefix_digits by (reflexivity || exact Hd).
    rewrite (ceq_class is_digit c "-" Hc eq_refl), (ceq_class is_digit c "+" Hc eq_refl), Hall, Hv.
    f_equal. symmetry in Hneg. apply Z.ltb_ge in Hneg. lia.
Qed.

(* every integer (not only the i64 range): the converter's text, and the reader's reading of it *)
Theorem yaml_int_roundtrip : forall z,
  yaml_output (VInt z) = YOk (dec_of_Z z ++ [nl])
  /\ yaml_parse (dec_of_Z z ++ [nl]) = Some (DInt z)
  /\ (forall pind rest, scalar_node pind (dec_of_Z z) rest = Some (DInt z, rest))
  /\ (forall indent st, emit_scalar SPlain (dec_of_Z z) false indent st
                        = ((if e_ws st then [] else [sp]) ++ dec_of_Z z,
                           mk_est (e_col st + (if e_ws st then 0 else 1) + List.length (dec_of_Z z)) false false)).
Proof.
  intros z. pose proof (dec_of_Z_plain z) as Hok. pose proof (plain_ok_line _ Hok) as Hl.
  repeat split.
  - unfold yaml_output, to_yaml, yaml_emit. cbn [emit_node].
    rewrite (emit_scalar_plain SPlain _ false None est0 Hok (or_intror eq_refl)). reflexivity.
  - rewrite (yaml_parse_plain _ Hl), resolve_plain_int. reflexivity.
  - intros pind rest. rewrite (plain_scalar_node _ pind rest Hl), resolve_plain_int. reflexivity.
  - intros indent st. exact (emit_scalar_plain SPlain _ false indent st Hok (or_intror eq_refl)).
Qed.

Theorem yaml_scalar_kinds :
  yaml_output VEmpty = YOk (b "null" ++ [nl]) /\ yaml_parse (b "null" ++ [nl]) = Some DNull
  /\ yaml_output (VBool true) = YOk (b "true" ++ [nl]) /\ yaml_parse (b "true" ++ [nl]) = Some (DBool true)
  /\ yaml_output (VBool false) = YOk (b "false" ++ [nl]) /\ yaml_parse (b "false" ++ [nl]) = Some (DBool false)
  /\ (forall pind rest, scalar_node pind (b "null") rest = Some (DNull, rest))
  /\ (forall pind rest v, scalar_node pind (ybool_text v) rest = Some (DBool v, rest)).
Proof.
  do 6 (split; [vm_compute; reflexivity|]). split.
  - intros pind rest. reflexivity.
  - intros pind rest v. destruct v; reflexivity.
Qed.

Theorem yaml_float_nonfinite :
  yaml_output (VFloat FNaN) = YOk (b ".nan" ++ [nl]) /\ yaml_parse (b ".nan" ++ [nl]) = Some (DFloat Toml.DNan)
  /\ yaml_output (VFloat FInf) = YOk (b ".inf" ++ [nl]) /\ yaml_parse (b ".inf" ++ [nl]) = Some (DFloat (Toml.DInf false))
  /\ yaml_output (VFloat FNegInf) = YOk (b "-.inf" ++ [nl]) /\ yaml_parse (b "-.inf" ++ [nl]) = Some (DFloat (Toml.DInf true))
  /\ (forall pind rest f d, (f = FNaN \/ f = FInf \/ f = FNegInf) -> Toml.spec_float f = Some d ->
        scalar_node pind (yfloat_text f) rest = Some (DFloat d, rest)).
Proof.
  do 6 (split; [vm_compute; reflexivity|]).
  intros pind rest f d Hf Hs. destruct Hf as [Hf|[Hf|Hf]]; subst f; injection Hs as <-; reflexivity.
Qed.
