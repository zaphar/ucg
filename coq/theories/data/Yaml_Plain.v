(* Proofs about the YAML model: strings and keys (ASCII strings without a line feed).
   - yaml_string_roundtrip_ascii: whatever style is chosen, the scalar reads back as the same string, provided that in
     the plain case the core schema resolves the text as a string (the refutation R2 of Yaml_Lemmas.v shows that this
     cannot be dropped);
   - identifiers (a letter or `_` first, then letters, digits, `.`, `+`, `-`, `_`; not one of the words null/true/false
     in their three spellings) are written plain and resolved as strings: yaml_ident_roundtrip. *)
From Ucg Require Import base.Bytes base.Bytes_Lemmas data.Val data.Json data.Json_Lemmas data.MapJson data.MapJson_Lemmas data.Yaml
     data.Yaml_Str data.Yaml_Analyze data.Yaml_Scalar.
From Ucg Require data.Toml.
Local Open Scope list_scope.

(* what may follow a plain scalar on its line: nothing, or the `: ` of an implicit key *)
Definition plain_stop (t : bytes) : Prop :=
  t = [] \/ exists u, t = ":"%char :: u /\ match u with d :: _ => is_wsp d = true | [] => True end.

Lemma plain_stop_head t : plain_stop t -> match t with d :: _ => is_wsp d = false | [] => True end.
Proof. intros [->|(u & -> & Hu)]; [exact I|reflexivity]. Qed.

Lemma select_style_cases req sk f len :
  req = SAny \/ req = SSingle ->
  (select_style req sk f len = SPlain /\ req = SAny /\ f_block_plain f = true)
  \/ (select_style req sk f len = SSingle /\ f_single_ok f = true)
  \/ select_style req sk f len = SDouble.
Proof.
  intros Hreq. unfold select_style.
  destruct (sk && f_multiline f); [right; right; destruct Hreq as [-> | ->]; reflexivity|].
  (* plain if requested and allowed (and not an empty key), else single-quoted if allowed, else double-quoted *)
  destruct (f_single_ok f);
    (destruct Hreq as [-> | ->]; [destruct (f_block_plain f); [destruct ((len =? 0)%nat && sk)|]|]); cbn; auto.
Qed.

(* which styles can be chosen, and what each needs *)
Lemma final_style_cases s sk :
  existsb (fun c => ceq c nl) s = false ->
  (final_style (str_style s) s sk = SPlain /\ f_block_plain (analyze s) = true /\ needs_quote s = false)
  \/ (final_style (str_style s) s sk = SSingle /\ f_single_ok (analyze s) = true)
  \/ final_style (str_style s) s sk = SDouble.
Proof.
  intros Hnl. unfold final_style, str_style. rewrite Hnl.
  destruct (needs_quote s).
  - destruct (select_style_cases SSingle sk (analyze s) (List.length s) (or_intror eq_refl)) as [(_ & E & _)|H]; [discriminate E|].
    right. exact H.
  - destruct (select_style_cases SAny sk (analyze s) (List.length s) (or_introl eq_refl)) as [(E & _ & Hp)|H]; [|right; exact H].
    left. repeat split; assumption.
Qed.

(* the single-quoted style is chosen only for printable text *)
Lemma single_ok_text s :
  ascii_str s = true -> existsb (fun c => ceq c nl) s = false -> f_single_ok (analyze s) = true ->
  all_text s = true /\ no_breaks s = true.
Proof.
  intros Ha Hnl Hs.
  assert (Hp : forallb (fun c => is_printable_cp (code c)) s = true).
  { destruct s as [|c r]; [reflexivity|].
    rewrite (analyze_ascii (c :: r)) in Hs by (congruence || exact Ha). cbn [sflags_of f_single_ok] in Hs.
    apply negb_true_iff in Hs. apply orb_false_iff in Hs as [_ Hs].
    exact (proj2 (an_loop_chars _ _ _ _ _ _) Hs). }
  clear Hs Ha. unfold all_text, no_breaks. induction s as [|c r IH]; [split; reflexivity|].
  cbn [forallb existsb] in *. apply andb_true_iff in Hp as [Hc Hr]. apply orb_false_iff in Hnl as [Hn Hnr].
  destruct (IH Hnr Hr) as [I1 I2].
  rewrite (printable_text c Hc), (printable_break c Hc), Hn, I1, I2. split; reflexivity.
Qed.

(* STRINGS (ASCII, no line feed; any context: simple key or not, any indentation, any column):
   the scalar the writer produces is read back as the string -- in the plain style as whatever the core schema
   makes of the text, which is the string itself unless the text is a number that serde_yaml does not recognise
   (see yaml_number_overflow_refuted). *)
Theorem yaml_string_roundtrip_ascii : forall s sk indent st pind rest,
  ascii_str s = true -> existsb (fun c => ceq c nl) s = false ->
  exists body,
    fst (emit_scalar (str_style s) s sk indent st) = (if e_ws st then [] else [sp]) ++ body
    /\ ((final_style (str_style s) s sk = SPlain /\ body = s /\ needs_quote s = false
         /\ scalar_node pind body rest = Some (resolve_plain s, rest)
         /\ (forall u, match u with d :: _ => is_wsp d = true | [] => True end ->
                       scan_key (body ++ ":"%char :: u) = Some (resolve_plain s, u)))
        \/ (final_style (str_style s) s sk <> SPlain
            /\ scalar_node pind body rest = Some (DStr s, rest)
            /\ (forall u, scan_key (body ++ ":"%char :: sp :: u) = Some (DStr s, sp :: u)))).
Proof.
  intros s sk indent st pind rest Ha Hnl.
  destruct (final_style_cases s sk Hnl) as [(E & Hp & Hq)|[(E & Hs)|E]].
  - (* plain *)
    assert (Hok : plain_ok s).
    { split; [intros ->; discriminate Hq|]. split; assumption. }
    pose proof (plain_ok_line s Hok) as Hl.
    exists s. split.
    + assert (Hreq : str_style s = SAny) by (unfold str_style; rewrite Hnl, Hq; reflexivity).
      rewrite (emit_scalar_plain _ s sk indent st Hok (or_introl Hreq)). reflexivity.
    + left. split; [exact E|]. split; [reflexivity|]. split; [exact Hq|].
      split; [exact (plain_scalar_node s pind rest Hl)|]. intros u Hu. exact (plain_scan_key s u Hl Hu).
  - (* single-quoted *)
    destruct (single_ok_text s Ha Hnl Hs) as [Ht Hb].
    exists (sqt :: sq_body s ++ [sqt]). split.
    + unfold emit_scalar. rewrite E. apply write_single_text; assumption.
    + right. split; [rewrite E; discriminate|]. split.
      * apply single_quoted_reads_back. exact Ht.
      * intros u. cbn [app]. rewrite <- app_assoc. cbn [app]. apply single_quoted_key_reads_back. exact Ht.
  - (* double-quoted *)
    exists (dq :: double_body (chars s) ++ [dq]). split.
    + unfold emit_scalar. rewrite E. apply write_double_text.
    + right. split; [rewrite E; discriminate|]. split.
      * apply double_quoted_reads_back. exact Ha.
      * intros u. cbn [app]. rewrite <- app_assoc. cbn [app]. apply double_quoted_key_reads_back. exact Ha.
Qed.

Definition ident_first (c : ascii) : bool := Toml.is_alpha c || ceq c "_"%char.

(* a letter or `_`, then token characters; not one of the reserved words *)
Definition ident (s : bytes) : bool :=
  match s with
  | c :: r => ident_first c && forallb tok_char r && negb (parse_null_ok s || parse_bool_ok s)
  | [] => false
  end.

Lemma ident_first_tok c : ident_first c = true -> tok_char c = true.
Proof. revert c. apply class_fact. vm_compute. reflexivity. Qed.

(* the first character decides: none of the number readers accepts the text *)
Lemma ident_first_not_number c t :
  ident_first c = true ->
  visit_int_ok (c :: t) = false /\ digits_but_not_number (c :: t) = false /\ parse_f64_ok (c :: t) = false
  /\ resolve_int (c :: t) = None /\ resolve_float (c :: t) = None.
Proof.
  destruct c as [[] [] [] [] [] [] [] []]; intros H; try discriminate H;
    destruct t as [|d t']; vm_compute; repeat split; reflexivity.
Qed.

Theorem ident_plain_string s :
  ident s = true -> needs_quote s = false /\ resolve_plain s = DStr s /\ plain_ok s.
Proof.
  destruct s as [|c t]; [discriminate|]. unfold ident. intros H.
  apply andb_true_iff in H as [H Hres]. apply andb_true_iff in H as [Hc Ht].
  apply negb_true_iff in Hres. apply orb_false_iff in Hres as [Hnull Hbool].
  destruct (ident_first_not_number c t Hc) as (V & D & F & RI & RF).
  split; [|split].
  - unfold needs_quote. rewrite Hnull, Hbool, V, D, F. reflexivity.
  - unfold resolve_plain. unfold parse_null_ok in Hnull. rewrite Hnull.
    unfold parse_bool_ok, mem_bytes in Hbool. cbn [existsb] in Hbool.
    repeat (apply orb_false_iff in Hbool; destruct Hbool as [? Hbool]).
    unfold mem_bytes. cbn [existsb orb]. repeat match goal with E : bytes_eqb _ _ = false |- _ => rewrite E; clear E end.
    cbn [orb]. rewrite RI, RF. reflexivity.
  - pose proof (ceq_class ident_first c "-" Hc eq_refl) as Hm.
    apply tok_plain_ok.
    + cbn [forallb]. rewrite (ident_first_tok c Hc). exact Ht.
    + left. exact Hm.
    + unfold doc_prefix. destruct t as [|c2 [|c3 r]]; try reflexivity. rewrite Hm, (ceq_class ident_first c "." Hc eq_refl). reflexivity.
Qed.

(* IDENTIFIERS as values and as keys: written as they are, read back as the same string *)
Theorem yaml_ident_roundtrip : forall s indent st pind rest,
  ident s = true ->
  emit_scalar (str_style s) s false indent st
  = ((if e_ws st then [] else [sp]) ++ s, mk_est (e_col st + (if e_ws st then 0 else 1) + List.length s) false false)
  /\ scalar_node pind s rest = Some (DStr s, rest)
  /\ (forall u, match u with d :: _ => is_wsp d = true | [] => True end -> scan_key (s ++ ":"%char :: u) = Some (DStr s, u)).
Proof.
  intros s indent st pind rest Hi.
  destruct (ident_plain_string s Hi) as (Hq & Hr & Hok). pose proof (plain_ok_line s Hok) as Hl.
  split; [|split].
  - apply emit_scalar_plain; [exact Hok|]. left. exact (str_style_plain s Hl Hq).
  - rewrite (plain_scalar_node s pind rest Hl), Hr. reflexivity.
  - intros u Hu. rewrite (plain_scan_key s u Hl Hu), Hr. reflexivity.
Qed.
