(* Proofs about the TOML model: exactly which values are conversion errors.
   - to_toml fails exactly on a NULL / constraint value anywhere (first one in traversal order decides the kind);
   - the root must be a table;
   - the serializer (ser.rs) fails exactly when, in some table, an entry that starts by writing
     `key = ...` is visited after an entry that made the serializer write a [header]
     (Error::ValueAfterTable).  With value.rs' three-loop visiting order this can only happen
     when a table sits inside an array that is not an array of tables.
   No assert!/unreachable! of ser.rs can fire (EPanic is never returned). *)
From Ucg Require Import base.Bytes base.Bytes_Lemmas data.Val data.Json data.MapJson data.MapJson_Lemmas data.Toml.
Local Open Scope list_scope.

Section TvalInd.
  Variable P : tval -> Prop.
  Hypothesis Hstr : forall s, P (TStr s).
  Hypothesis Hint : forall z, P (TInt z).
  Hypothesis Hfloat : forall f, P (TFloat f).
  Hypothesis Hbool : forall v, P (TBool v).
  Hypothesis Harr : forall l, Forall P l -> P (TArr l).
  Hypothesis Htab : forall kvs, Forall (fun kv => P (snd kv)) kvs -> P (TTab kvs).

  Fixpoint tval_ind' (v : tval) : P v :=
    match v with
    | TStr s => Hstr s
    | TInt z => Hint z
    | TFloat f => Hfloat f
    | TBool x => Hbool x
    | TArr l =>
      Harr l ((fix go (l : list tval) : Forall P l :=
                 match l with
                 | [] => Forall_nil _
                 | x :: xs => Forall_cons x (tval_ind' x) (go xs)
                 end) l)
    | TTab kvs =>
      Htab kvs ((fix go (l : list (bytes * tval)) : Forall (fun kv => P (snd kv)) l :=
                   match l with
                   | [] => Forall_nil _
                   | (k, x) :: r => Forall_cons (k, x) (tval_ind' x) (go r)
                   end) kvs)
    end.
End TvalInd.

(* the first thing written for v is a `key = ` (or, inside an array whose first item it is,
   the opening of that array after the key): _emit_key reaches the enclosing Table state *)
Fixpoint first_leaf_checks (v : tval) : bool :=
  match v with
  | TTab _ => false
  | TArr [] => true
  | TArr (x :: _) => first_leaf_checks x
  | _ => true
  end.

(* v makes the serializer write at least one [header] / [[header]] *)
Fixpoint has_tab (v : tval) : bool :=
  match v with
  | TTab _ => true
  | TArr l => existsb has_tab l
  | _ => false
  end.

Section Scan.
  Variable err : tval -> bool.
  (* one of the three loops over a table; te = a header was written below this table *)
  Fixpoint scan_pass (p : tval -> bool) (l : list (bytes * tval)) (te : bool) : bool * bool :=
    match l with
    | [] => (false, te)
    | (k, x) :: r =>
      if p x then
        if err x || (first_leaf_checks x && te) then (true, te)
        else scan_pass p r (te || has_tab x)
      else scan_pass p r te
    end.
End Scan.

(* ser.rs returns Err(ValueAfterTable) somewhere inside v *)
Fixpoint va_err (v : tval) : bool :=
  match v with
  | TArr l => existsb va_err l
  | TTab es =>
    let (e1, t1) := scan_pass va_err pass1 es false in
    if e1 then true else
    let (e2, t2) := scan_pass va_err pass2 es t1 in
    if e2 then true else
    fst (scan_pass va_err pass3 es t2)
  | _ => false
  end.

(* NULL or a constraint value anywhere, also under a shadowed duplicate key *)
Fixpoint unrep_val (v : val) : bool :=
  match v with
  | VEmpty => true
  | VConstraint => true
  | VList l => existsb unrep_val l
  | VTuple fs => existsb (fun kv => unrep_val (snd kv)) fs
  | _ => false
  end.

Definition is_root_ok (v : val) : bool :=
  match v with VTuple _ | VEnv _ => true | _ => false end.

(* the values `out toml` / `convert toml` refuse *)
Definition unrepresentable_toml (v : val) : bool :=
  unrep_val v                                   (* ENull / EConstraint (toml.rs convert_value)   *)
  || negb (is_root_ok v)                        (* ENotTable (toml.rs write)                     *)
  || match to_toml v with                       (* EValueAfterTable (ser.rs _emit_key)           *)
     | TOk t => va_err t
     | TErr _ => false
     end.

Fixpoint to_toml_list (l : list val) : tres (list tval) :=
    match l with
    | [] => TOk []
    | x :: xs =>
      match to_toml x with
      | TErr e => TErr e
      | TOk y => match to_toml_list xs with TErr e => TErr e | TOk ys => TOk (y :: ys) end
      end
    end.

Fixpoint to_toml_fields (l : list (bytes * val)) : tres (list (bytes * tval)) :=
    match l with
    | [] => TOk []
    | (k, x) :: r =>
      match to_toml x with
      | TErr e => TErr e
      | TOk y => match to_toml_fields r with TErr e => TErr e | TOk ys => TOk ((k, y) :: ys) end
      end
    end.

Lemma to_toml_VList l :
  to_toml (VList l) = match to_toml_list l with TErr e => TErr e | TOk ys => TOk (TArr ys) end.
Proof. reflexivity. Qed.

Lemma to_toml_VTuple fs :
  to_toml (VTuple fs) = match to_toml_fields fs with TErr e => TErr e | TOk kvs => TOk (TTab (map_first kvs)) end.
Proof. reflexivity. Qed.

Definition is_terr {A} (r : tres A) : bool := match r with TErr _ => true | TOk _ => false end.

Theorem to_toml_err_iff : forall v, is_terr (to_toml v) = unrep_val v.
Proof.
  induction v as [|x|z|f|s|l IH|fs IH|fs|] using val_ind'; try reflexivity.
  - rewrite to_toml_VList. cbn [unrep_val].
    induction IH as [|x l Hx _ IHl]; [reflexivity|].
    cbn [to_toml_list existsb]. rewrite <- Hx.
    destruct (to_toml x); [|reflexivity]. cbn [is_terr orb].
    rewrite <- IHl. destruct (to_toml_list l); reflexivity.
  - rewrite to_toml_VTuple. cbn [unrep_val].
    induction IH as [|[k x] l Hx _ IHl]; [reflexivity|].
    cbn [to_toml_fields existsb snd]. cbn [snd] in Hx. rewrite <- Hx.
    destruct (to_toml x); [|reflexivity]. cbn [is_terr orb].
    rewrite <- IHl. destruct (to_toml_fields l); reflexivity.
Qed.

Theorem to_toml_err_kind : forall v e, to_toml v = TErr e -> e = ENull \/ e = EConstraint.
Proof.
  induction v as [|x|z|f|s|l IH|fs IH|fs|] using val_ind'; intros e H; try discriminate H.
  - inversion H. auto.
  - rewrite to_toml_VList in H.
    induction IH as [|x l Hx _ IHl]; [discriminate H|].
    cbn [to_toml_list] in H. destruct (to_toml x) eqn:Ex.
    + destruct (to_toml_list l) eqn:El; [discriminate H|]. apply IHl. exact H.
    + inversion H; subst. eapply Hx; reflexivity.
  - rewrite to_toml_VTuple in H.
    induction IH as [|[k x] l Hx _ IHl]; [discriminate H|].
    cbn [to_toml_fields] in H. cbn [snd] in Hx. destruct (to_toml x) eqn:Ex.
    + destruct (to_toml_fields l) eqn:El; [discriminate H|]. apply IHl. exact H.
    + inversion H; subst. eapply Hx; reflexivity.
  - inversion H. auto.
Qed.

Lemma to_toml_root v t : to_toml v = TOk t -> is_table t = is_root_ok v.
Proof.
  destruct v; try discriminate; try (intros [= <-]; reflexivity).
  - rewrite to_toml_VList. destruct (to_toml_list l); intros [= <-]. reflexivity.
  - rewrite to_toml_VTuple. destruct (to_toml_fields fs); intros [= <-]. reflexivity.
Qed.

Definition frame_typed (f : frame) : bool :=
  match f with FA _ None _ => false | _ => true end.
Notation all_typed := (forallb frame_typed).

(* the table_emitted flag _emit_key would test *)
Fixpoint te_hit (st : stack) : bool :=
  match st with
  | [] => false
  | FT _ _ te :: _ => te
  | FA first _ _ :: par => if first then te_hit par else false
  end.

(* the Cell effect of _emit_key *)
Fixpoint mark (st : stack) : stack :=
  match st with
  | [] => []
  | FA first ty len :: par => if first then FA first ty len :: mark par else st
  | FT k first te :: par => FT k false te :: (if first then set_te par else par)
  end.

Lemma set_te_idem st : set_te (set_te st) = set_te st.
Proof. induction st as [|[k f te|f t n] st IH]; cbn; congruence. Qed.

Lemma all_typed_set_te st : all_typed (set_te st) = all_typed st.
Proof. induction st as [|[k f te|f t n] st IH]; cbn; [reflexivity|exact IH|rewrite IH; reflexivity]. Qed.

Lemma all_typed_mark st : all_typed st = true -> all_typed (mark st) = true.
Proof.
  induction st as [|[k f te|f t n] st IH]; cbn; intros H; [reflexivity| |].
  - destruct f; [rewrite all_typed_set_te|]; exact H.
  - destruct f; [|exact H]. cbn. apply andb_true_iff in H as [H1 H2]. rewrite H1, (IH H2). reflexivity.
Qed.

Lemma all_typed_array_type t st : all_typed (tl st) = true -> all_typed (array_type t st) = true.
Proof.
  destruct st as [|[k f te|f [ty|] n] par]; cbn; intros H; try exact H; reflexivity.
Qed.

Lemma array_type_typed t st : all_typed st = true -> array_type t st = st.
Proof. destruct st as [|[k f te|f [ty|] n] par]; cbn; intros H; try reflexivity. discriminate. Qed.

(* the text _emit_key writes *)
Definition eq_text : bytes := [sp; "="%char; sp].

Fixpoint ekey_out (st : stack) : bytes :=
  match st with
  | [] => []
  | FA first _ len :: par => if first then ekey_out par ++ emit_array true len else emit_array false len
  | FT k first _ :: par =>
    (if first then header_out (List.length par) par else []) ++ escape_key k ++ eq_text
  end.

Lemma emit_key_rec_spec st : all_typed st = true ->
  emit_key_rec st = if te_hit st then TErr EValueAfterTable else TOk (ekey_out st, mark st).
Proof.
  induction st as [|[k f te|f [ty|] n] par IH]; cbn [forallb frame_typed te_hit emit_key_rec mark ekey_out]; intros H.
  - reflexivity.
  - destruct te; [reflexivity|]. destruct f; reflexivity.
  - destruct f; [|reflexivity]. rewrite (IH H). destruct (te_hit par); reflexivity.
  - discriminate H.
Qed.

(* what serializing v from the state st leaves in the Cells, and whether it fails *)
Definition kind (v : tval) : astate := match v with TTab _ => AAsTable | _ => AStarted end.

Definition post (v : tval) (st : stack) : stack :=
  let s0 := array_type (kind v) st in
  let s1 := if first_leaf_checks v then mark s0 else s0 in
  if has_tab v then set_te s1 else s1.

Definition fails (v : tval) (st : stack) : bool :=
  va_err v || (first_leaf_checks v && te_hit (array_type (kind v) st)).

Definition ser_ok (v : tval) : Prop :=
  forall st, all_typed (tl st) = true ->
    if fails v st then ser v st = TErr EValueAfterTable
    else exists o, ser v st = TOk (o, post v st).

Lemma ser_scalar_spec txt st : all_typed (tl st) = true ->
  ser_scalar txt st =
  let st0 := array_type AStarted st in
  if te_hit st0 then TErr EValueAfterTable else TOk (ekey_out st0 ++ txt ++ nl_if_table st, mark st0).
Proof.
  intros H. unfold ser_scalar, emit_key.
  rewrite (emit_key_rec_spec _ (all_typed_array_type AStarted st H)).
  destruct (te_hit (array_type AStarted st)); reflexivity.
Qed.

Lemma flc_false_has_tab : forall v, first_leaf_checks v = false -> has_tab v = true.
Proof.
  induction v as [s|z|f|x|l IH|kvs IH] using tval_ind'; cbn; try discriminate; try reflexivity.
  destruct l as [|y l]; [discriminate|]. intros H. cbn [existsb].
  inversion IH; subst. rewrite (H2 H). reflexivity.
Qed.

Lemma has_tab_flc x : has_tab x = false -> first_leaf_checks x = true.
Proof.
  intros H. destruct (first_leaf_checks x) eqn:E; [reflexivity|].
  rewrite (flc_false_has_tab x E) in H. discriminate.
Qed.

Lemma has_tab_arr_elems l : has_tab (TArr l) = false -> forall y, In y l -> has_tab y = false.
Proof.
  cbn [has_tab]. intros H y Hy. destruct (has_tab y) eqn:E; [|reflexivity].
  assert (existsb has_tab l = true) by (apply existsb_exists; eauto). congruence.
Qed.

Lemma notab_va : forall v, has_tab v = false -> va_err v = false.
Proof.
  induction v as [s|z|f|b0|l IH|es IH] using tval_ind'; intros H; try reflexivity; [|discriminate H].
  cbn [va_err]. destruct (existsb va_err l) eqn:E; [|reflexivity].
  apply existsb_exists in E as (x & Hx & Ev). rewrite Forall_forall in IH.
  rewrite (IH x Hx (has_tab_arr_elems l H x Hx)) in Ev. discriminate.
Qed.

Lemma kind_notab v : has_tab v = false -> kind v = AStarted.
Proof. destruct v; try reflexivity. discriminate. Qed.

Lemma fails_notab v st : has_tab v = false -> fails v st = te_hit (array_type AStarted st).
Proof. intros H. unfold fails. rewrite (notab_va v H), (has_tab_flc v H), (kind_notab v H). reflexivity. Qed.

Lemma fails_tab kvs st : fails (TTab kvs) st = va_err (TTab kvs).
Proof. unfold fails. cbn [first_leaf_checks andb]. apply orb_false_r. Qed.

Lemma post_tab kvs st : post (TTab kvs) st = set_te (array_type AAsTable st).
Proof. reflexivity. Qed.

Lemma post_FA v f ty n par :
  post v (FA f ty n :: par) =
  FA f (match ty with Some t => Some t | None => Some (kind v) end) n
     :: ((if has_tab v then set_te else fun s => s) (if first_leaf_checks v && f then mark par else par)).
Proof.
  unfold post. destruct ty as [t|]; cbn [array_type]; destruct (first_leaf_checks v), f, (has_tab v); reflexivity.
Qed.

Lemma post_FT v k f te par :
  post v (FT k f te :: par) =
  FT k (if first_leaf_checks v then false else f) (te || has_tab v)
     :: ((if has_tab v then set_te else fun s => s) (if first_leaf_checks v && f then set_te par else par)).
Proof.
  unfold post. cbn [array_type].
  destruct (first_leaf_checks v), f, (has_tab v); cbn [mark set_te andb]; rewrite ?orb_true_r, ?orb_false_r; reflexivity.
Qed.

(* items after the first: never reach the enclosing table *)
Lemma seq_elems_rest len l : Forall ser_ok l -> forall ty par,
  all_typed par = true -> ty <> None ->
  if existsb va_err l then seq_elems ser len l false ty par = TErr EValueAfterTable
  else exists o, seq_elems ser len l false ty par
                 = TOk (o, (ty, (if existsb has_tab l then set_te par else par))).
Proof.
  induction 1 as [|x l Hx _ IH]; intros ty par Hp Hty; cbn [existsb seq_elems].
  - eexists. reflexivity.
  - specialize (Hx (FA false ty len :: par) Hp). unfold fails in Hx.
    destruct ty as [t|]; [|congruence]. cbn [array_type te_hit] in Hx. rewrite andb_false_r, orb_false_r in Hx.
    destruct (va_err x); cbn [orb].
    + rewrite Hx. reflexivity.
    + destruct Hx as [o Ho]. rewrite Ho, post_FA, andb_false_r.
      set (par' := (if has_tab x then set_te else fun s => s) par).
      assert (Hp' : all_typed par' = true)
        by (unfold par'; destruct (has_tab x); [rewrite all_typed_set_te|]; exact Hp).
      specialize (IH (Some t) par' Hp' ltac:(discriminate)).
      destruct (existsb va_err l).
      * rewrite IH. reflexivity.
      * destruct IH as [o2 Ho2]. rewrite Ho2. eexists. f_equal. f_equal. f_equal.
        unfold par'. destruct (has_tab x), (existsb has_tab l); cbn [orb]; rewrite ?set_te_idem; reflexivity.
Qed.

Lemma ser_arr_ok l : Forall ser_ok l -> ser_ok (TArr l).
Proof.
  intros Hl st Hst. unfold fails. cbn [kind].
  set (st0 := array_type AStarted st).
  assert (H0 : all_typed st0 = true) by (apply all_typed_array_type; exact Hst).
  cbn [ser]. fold st0.
  destruct l as [|x l].
  - (* [] : SerializeSeq::end with type None *)
    cbn [va_err existsb first_leaf_checks orb andb seq_elems seq_end].
    unfold emit_key. rewrite (array_type_typed AStarted st0 H0), (emit_key_rec_spec st0 H0).
    destruct (te_hit st0); [reflexivity|].
    eexists. unfold post. cbn [kind first_leaf_checks has_tab existsb]. fold st0. reflexivity.
  - inversion Hl as [|? ? Hx Hl']; subst.
    cbn [va_err existsb first_leaf_checks seq_elems List.length].
    set (len := S (List.length l)).
    specialize (Hx (FA true None len :: st0) H0). unfold fails in Hx. cbn [array_type te_hit] in Hx.
    destruct (va_err x) eqn:Evx; cbn [orb] in *.
    + rewrite Hx. reflexivity.
    + destruct (first_leaf_checks x && te_hit st0) eqn:Ehit.
      * rewrite Hx. rewrite orb_true_r. reflexivity.
      * destruct Hx as [o Ho]. rewrite Ho, post_FA, andb_true_r.
        set (par' := (if has_tab x then set_te else fun s => s) (if first_leaf_checks x then mark st0 else st0)).
        assert (Hp' : all_typed par' = true).
        { unfold par'. destruct (has_tab x); [rewrite all_typed_set_te|];
            (destruct (first_leaf_checks x); [apply all_typed_mark|]; exact H0). }
        pose proof (seq_elems_rest len l Hl' (Some (kind x)) par' Hp' ltac:(discriminate)) as Hr.
        rewrite orb_false_r.
        destruct (existsb va_err l).
        -- rewrite Hr. reflexivity.
        -- destruct Hr as [o2 Ho2]. rewrite Ho2. unfold seq_end.
           assert (Epost : (if existsb has_tab l then set_te par' else par') = post (TArr (x :: l)) st).
           { unfold post. cbn [kind first_leaf_checks has_tab existsb]. fold st0. unfold par'.
             destruct (has_tab x), (existsb has_tab l), (first_leaf_checks x); cbn [orb]; rewrite ?set_te_idem; reflexivity. }
           destruct (kind x); rewrite Epost; eexists; reflexivity.
Qed.

(* The state below a table's SerializeTable is the one it started on, st0, until something is
   written; from then on table_emitted is set on every Table frame of it. *)
Definition after (first : bool) (st0 : stack) : stack := if first then st0 else set_te st0.

Lemma all_typed_after first st0 : all_typed (after first st0) = all_typed st0.
Proof. destruct first; [reflexivity|apply all_typed_set_te]. Qed.

(* whatever an entry writes first, a `key =` or a [header], sets the flags below *)
Lemma after_entry x first st0 :
  (if has_tab x then set_te else fun s => s)
    (if first_leaf_checks x && first then set_te (after first st0) else after first st0)
  = set_te st0.
Proof.
  destruct first; cbn [after]; rewrite ?andb_true_r, ?andb_false_r.
  - destruct (first_leaf_checks x) eqn:Ef.
    + destruct (has_tab x); rewrite ?set_te_idem; reflexivity.
    + rewrite (flc_false_has_tab x Ef). reflexivity.
  - destruct (has_tab x); rewrite ?set_te_idem; reflexivity.
Qed.

Lemma tab_pass_spec p l st0 : Forall (fun kv => ser_ok (snd kv)) l -> all_typed st0 = true ->
  forall first te,
  let r := scan_pass va_err p l te in
  if fst r then tab_pass ser p l first te (after first st0) = TErr EValueAfterTable
  else exists o first',
      tab_pass ser p l first te (after first st0) = TOk (o, (first', snd r, after first' st0)).
Proof.
  intros Hl H0. induction Hl as [|[k x] l Hx _ IH]; intros first te; cbn [scan_pass tab_pass].
  - cbn [fst snd]. eexists; eexists. reflexivity.
  - cbn [snd] in Hx. destruct (p x); [|apply IH].
    specialize (Hx (FT k first te :: after first st0)). unfold fails in Hx. cbn [array_type te_hit tl] in Hx.
    rewrite all_typed_after in Hx. specialize (Hx H0).
    destruct (va_err x || first_leaf_checks x && te); [cbn [fst]; rewrite Hx; reflexivity|].
    destruct Hx as [o Ho]. rewrite Ho, post_FT, after_entry.
    specialize (IH false (te || has_tab x)). cbv zeta in IH. cbn [after] in IH.
    destruct (fst (scan_pass va_err p l (te || has_tab x))); [rewrite IH; reflexivity|].
    destruct IH as (o2 & f' & ->). eexists; eexists. reflexivity.
Qed.

Lemma ser_tab_ok kvs : Forall (fun kv => ser_ok (snd kv)) kvs -> ser_ok (TTab kvs).
Proof.
  intros Hl st Hst. rewrite fails_tab, post_tab.
  set (st0 := array_type AAsTable st).
  assert (H0 : all_typed st0 = true) by (apply all_typed_array_type; exact Hst).
  cbn [ser va_err]. fold st0.
  pose proof (tab_pass_spec pass1 kvs st0 Hl H0 true false) as H1. cbv zeta in H1. cbn [after] in H1.
  destruct (scan_pass va_err pass1 kvs false) as [e1 t1]. cbn [fst snd] in H1.
  destruct e1; [rewrite H1; reflexivity|]. destruct H1 as (o1 & f1 & ->).
  pose proof (tab_pass_spec pass2 kvs st0 Hl H0 f1 t1) as H2. cbv zeta in H2.
  destruct (scan_pass va_err pass2 kvs t1) as [e2 t2]. cbn [fst snd] in H2.
  destruct e2; [rewrite H2; reflexivity|]. destruct H2 as (o2 & f2 & ->).
  pose proof (tab_pass_spec pass3 kvs st0 Hl H0 f2 t2) as H3. cbv zeta in H3.
  destruct (scan_pass va_err pass3 kvs t2) as [e3 t3]. cbn [fst snd] in H3.
  destruct e3; [rewrite H3; reflexivity|]. destruct H3 as (o3 & f3 & ->).
  (* nothing written yet: SerializeMap::end writes the header *)
  destruct f3; unfold emit_table_header; eexists; reflexivity.
Qed.

Theorem ser_spec : forall v, ser_ok v.
Proof.
  induction v as [s|z|f|x|l IH|kvs IH] using tval_ind'.
  1-4: intros st Hst; unfold fails, post; cbn [va_err first_leaf_checks has_tab kind orb andb ser];
       rewrite (ser_scalar_spec _ st Hst); cbv zeta;
       destruct (te_hit (array_type AStarted st)); [reflexivity|eexists; reflexivity].
  - apply ser_arr_ok, IH.
  - apply ser_tab_ok, IH.
Qed.

Lemma ser_ok_post x st o st' : all_typed (tl st) = true -> ser x st = TOk (o, st') ->
  st' = post x st /\ fails x st = false.
Proof.
  intros Ht H. pose proof (ser_spec x st Ht) as S. destruct (fails x st).
  - rewrite S in H. discriminate.
  - destruct S as [o' E]. rewrite E in H. inversion H. auto.
Qed.

Theorem ser_root_error_iff : forall t,
  (va_err t = true -> ser_root t = TErr EValueAfterTable) /\
  (va_err t = false -> exists o, ser_root t = TOk o).
Proof.
  intros t. pose proof (ser_spec t [] eq_refl) as H. unfold fails in H.
  assert (Eh : te_hit (array_type (kind t) []) = false) by reflexivity.
  rewrite Eh, andb_false_r, orb_false_r in H. unfold ser_root. split; intros E; rewrite E in H.
  - rewrite H. reflexivity.
  - destruct H as [o ->]. eexists. reflexivity.
Qed.

(* the converter fails exactly on the unrepresentable values ... *)
Theorem to_toml_error_iff : forall v,
  is_terr (toml_output v) = unrepresentable_toml v.
Proof.
  intros v. unfold toml_output, unrepresentable_toml.
  rewrite <- to_toml_err_iff.
  destruct (to_toml v) as [t|e] eqn:Et; cbn [is_terr orb]; [|reflexivity].
  unfold toml_emit. rewrite (to_toml_root v t Et).
  destruct (is_root_ok v); cbn [negb orb is_terr]; [|reflexivity].
  destruct (ser_root_error_iff t) as [H1 H2].
  destruct (va_err t).
  - rewrite (H1 eq_refl). reflexivity.
  - destruct (H2 eq_refl) as [o ->]. reflexivity.
Qed.

(* ... and with which error: every branch *)
Theorem toml_output_error_kind : forall v e,
  toml_output v = TErr e ->
  (e = ENull \/ e = EConstraint) /\ unrep_val v = true
  \/ e = ENotTable /\ unrep_val v = false /\ is_root_ok v = false
  \/ e = EValueAfterTable /\ unrep_val v = false /\ is_root_ok v = true
     /\ exists t, to_toml v = TOk t /\ va_err t = true.
Proof.
  intros v e H. unfold toml_output in H.
  pose proof (to_toml_err_iff v) as Hu.
  destruct (to_toml v) as [t|e0] eqn:Et; cbn [is_terr] in Hu.
  - unfold toml_emit in H. rewrite (to_toml_root v t Et) in H.
    destruct (is_root_ok v) eqn:Er.
    + right. right. destruct (ser_root_error_iff t) as [H1 H2].
      destruct (va_err t) eqn:Ev.
      * rewrite (H1 eq_refl) in H. inversion H. repeat split; auto. exists t. auto.
      * destruct (H2 eq_refl) as [o Ho]. rewrite Ho in H. discriminate.
    + right. left. inversion H. auto.
  - left. inversion H; subst. split; [eapply to_toml_err_kind; exact Et|auto].
Qed.

(* no assert! / unreachable! / stack-shape mismatch: the model never answers EPanic *)
Corollary toml_output_no_panic : forall v, toml_output v <> TErr EPanic.
Proof.
  intros v H. apply toml_output_error_kind in H.
  destruct H as [[[H|H] _]|[[H _]|[H _]]]; discriminate.
Qed.
