(* Proofs about the TOML model: the document round trip.
   For a value whose converted tree is well formed ([good]: every array either contains no table
   at any depth, or is a non-empty array of tables sitting directly under a table key), the text
   written by the converter is read back, by the independent reader, as the data [spec_data]
   prescribes (tables compared up to key order: [doc_canon]). *)
From Ucg Require Import base.Bytes base.Bytes_Lemmas data.Val data.Json data.MapJson data.MapJson_Lemmas
     data.Toml data.Toml_Str data.Toml_Num data.Toml_Err data.Toml_Sem data.Toml_Val data.Toml_Out data.Toml_Lex.
Local Open Scope list_scope.

Lemma lookup_some_in {V} (l : list (bytes * V)) k v : lookup k l = Some v -> In (k, v) l.
Proof.
  induction l as [|[k1 v1] l IH]; cbn [lookup In]; [discriminate|].
  destruct (bytes_eqb k k1) eqn:E.
  - apply bytes_eqb_spec in E. subst. intros H. inversion H. auto.
  - auto.
Qed.

Lemma ssorted_nodup {V} (m : list (bytes * V)) : ssorted m -> NoDup (map fst m).
Proof.
  induction m as [|[k v] m IH]; cbn [ssorted map fst]; [constructor|].
  intros [H1 H2]. constructor; [|auto]. intros Hin. specialize (H1 k Hin).
  rewrite bytes_cmp_refl in H1. discriminate.
Qed.

Lemma sort_keys_same {V} (l1 l2 : list (bytes * V)) :
  NoDup (map fst l1) -> NoDup (map fst l2) -> (forall kv, In kv l1 <-> In kv l2) ->
  sort_keys l1 = sort_keys l2.
Proof.
  intros H1 H2 Heq. apply ssorted_ext; try (apply sort_keys_sorted; assumption).
  intros k. rewrite !lookup_sort_keys by assumption.
  destruct (lookup k l1) as [v|] eqn:E1.
  - symmetry. apply nodup_lookup_in; [exact H2|]. apply Heq. apply lookup_some_in, E1.
  - destruct (lookup k l2) as [v|] eqn:E2; [|reflexivity].
    apply lookup_some_in, Heq in E2. rewrite (nodup_lookup_in l1 k v H1 E2) in E1. discriminate.
Qed.

Lemma lookup_map_val {V W} (g : V -> W) (l : list (bytes * V)) k :
  lookup k (map (fun kv => (fst kv, g (snd kv))) l) = option_map g (lookup k l).
Proof.
  induction l as [|[k1 v1] l IH]; cbn [map lookup fst snd option_map]; [reflexivity|].
  destruct (bytes_eqb k k1); [reflexivity|exact IH].
Qed.

Lemma dedup_first_keys {V} (l : list (bytes * V)) : forall seen k,
  In k (map fst (dedup_first seen l)) -> In k (map fst l) /\ ~ In k seen.
Proof.
  induction l as [|[k1 v1] l IH]; intros seen k; cbn [dedup_first map fst In]; [tauto|].
  destruct (existsb (bytes_eqb k1) seen) eqn:E.
  - intros H. destruct (IH seen k H). auto.
  - cbn [map fst In]. intros [<-|H].
    + split; [auto|]. intros Hin. assert (existsb (bytes_eqb k1) seen = true).
      { apply existsb_exists. exists k1. split; [exact Hin|apply bytes_eqb_refl]. } congruence.
    + destruct (IH (k1 :: seen) k H) as [A B]. split; [auto|]. intros Hin. apply B. right. exact Hin.
Qed.

Lemma dedup_first_nodup {V} (l : list (bytes * V)) : forall seen, NoDup (map fst (dedup_first seen l)).
Proof.
  induction l as [|[k1 v1] l IH]; intros seen; cbn [dedup_first map fst]; [constructor|].
  destruct (existsb (bytes_eqb k1) seen); [apply IH|].
  cbn [map fst]. constructor; [|apply IH].
  intros Hin. apply dedup_first_keys in Hin as [_ Hn]. apply Hn. left. reflexivity.
Qed.

Lemma lookup_dedup_first {V} (l : list (bytes * V)) : forall seen k,
  ~ In k seen -> lookup k (dedup_first seen l) = lookup k l.
Proof.
  induction l as [|[k1 v1] l IH]; intros seen k Hk; cbn [dedup_first lookup]; [reflexivity|].
  destruct (existsb (bytes_eqb k1) seen) eqn:E.
  - destruct (bytes_eqb k k1) eqn:Ek.
    + apply bytes_eqb_spec in Ek. subst k1. apply existsb_exists in E as (x & Hx & Ex).
      apply bytes_eqb_spec in Ex. subst x. contradiction.
    + apply IH, Hk.
  - cbn [lookup]. destruct (bytes_eqb k k1) eqn:Ek; [reflexivity|].
    apply IH. intros [H|H]; [|contradiction]. subst k1. rewrite bytes_eqb_refl in Ek. discriminate.
Qed.

(* entry(k).or_insert(v) = keep the first binding of every key, then sort *)
Theorem map_first_spec {V} (l : list (bytes * V)) : map_first l = sort_keys (dedup_first [] l).
Proof.
  apply ssorted_ext.
  - apply map_first_sorted.
  - apply sort_keys_sorted, dedup_first_nodup.
  - intros k. rewrite map_first_lookup, lookup_sort_keys by apply dedup_first_nodup.
    symmetry. apply lookup_dedup_first. intros [].
Qed.

Definition ents_doc (es : entries) : list (bytes * tdoc) :=
  map (fun kn => (fst kn, doc_of_node (snd kn))) es.

Lemma doc_of_node_tab h es : doc_of_node (NTab h es) = DTab (ents_doc es).
Proof.
  cbn [doc_of_node]. f_equal. induction es as [|[k n] es IH]; [reflexivity|].
  cbn [ents_doc map fst snd]. rewrite IH. reflexivity.
Qed.

Lemma doc_of_node_aot dn cur :
  doc_of_node (NAot dn cur) = DArr (map (fun e => DTab (ents_doc e)) (dn ++ [cur])).
Proof.
  cbn [doc_of_node]. f_equal.
  induction dn as [|e dn IH]; cbn [app map]; rewrite <- (doc_of_node_tab true); [reflexivity|].
  rewrite <- IH. reflexivity.
Qed.

Lemma aot_node_doc l : forall dn cur,
  doc_of_node (aot_node dn cur l) = DArr (map (fun e => DTab (ents_doc e)) (dn ++ cur :: l)).
Proof.
  induction l as [|e l IH]; intros dn cur; cbn [aot_node].
  - apply doc_of_node_aot.
  - rewrite IH, <- app_assoc. reflexivity.
Qed.

Definition canon_ents (f : tval -> tdoc) (es : list (bytes * tval)) : list (bytes * tdoc) :=
  map (fun kv => (fst kv, f (snd kv))) es.

Lemma doc_canon_tab kvs :
  doc_canon (DTab kvs) = DTab (sort_keys (map (fun kv => (fst kv, doc_canon (snd kv))) kvs)).
Proof. reflexivity. Qed.

Theorem canon_node : forall v, good v = true -> keys_nodup v ->
  doc_canon (doc_of_node (node_of v)) = doc_canon (tdoc_of v).
Proof.
  induction v as [s|z|f|b0|l IH|es IH] using tval_ind'; intros Hg Hn; try reflexivity.
  - cbn [node_of]. destruct (existsb is_table l) eqn:Et; [|reflexivity].
    apply good_arr in Hg. rewrite Et in Hg. destruct Hg as [Hall Hgood]. apply keys_nodup_arr in Hn.
    change (map (fun x => match x with TTab es => ents_with node_of es | _ => [] end) l) with (map elem_ents l).
    destruct (map elem_ents l) as [|e r] eqn:Em; [destruct l; [discriminate Et|discriminate Em]|].
    rewrite aot_node_doc. cbn [app]. rewrite <- Em. cbn [tdoc_of doc_canon]. f_equal.
    rewrite !map_map. apply map_ext_in. intros x Hx.
    rewrite Forall_forall in IH, Hn. rewrite forallb_forall in Hall, Hgood.
    specialize (Hall x Hx). destruct x as [| | | | |es]; try discriminate Hall.
    specialize (IH _ Hx (Hgood _ Hx) (Hn _ Hx)). cbn [node_of] in IH. rewrite doc_of_node_tab in IH.
    cbn [elem_ents]. exact IH.
  - cbn [node_of]. rewrite doc_of_node_tab. cbn [tdoc_of]. rewrite !doc_canon_tab. f_equal.
    cbn [good] in Hg. apply keys_nodup_tab in Hn as [Hnd Hsub].
    rewrite ents_with_part. unfold ents_doc. rewrite !map_map. cbn [fst snd].
    assert (E : map (fun x : bytes * tval => (fst x, doc_canon (doc_of_node (node_of (snd x))))) (part es)
                = map (fun x : bytes * tval => (fst x, doc_canon (tdoc_of (snd x)))) (part es)).
    { apply map_ext_in. intros [k x] Hin. apply (proj1 (in_part es (k, x))) in Hin. cbn [fst snd]. f_equal.
      rewrite Forall_forall in IH, Hsub. rewrite forallb_forall in Hg.
      apply (IH _ Hin (Hg _ Hin) (Hsub _ Hin)). }
    rewrite E. apply sort_keys_same.
    + rewrite (map_fst_map (fun y => doc_canon (tdoc_of y))). apply part_nodup, Hnd.
    + rewrite (map_fst_map (fun y => doc_canon (tdoc_of y))). exact Hnd.
    + intros [k d]. rewrite !in_map_iff. split; intros ([k' x] & Eq & Hin); exists (k', x); (split; [exact Eq|]); apply in_part; exact Hin.
Qed.

Fixpoint val_wf (v : val) : bool :=
  match v with
  | VInt z => in_i64 z
  | VFloat (FFin t) => match rust_float_parts t with Some _ => true | None => false end
  | VList l => forallb val_wf l
  | VTuple fs => forallb (fun kv => val_wf (snd kv)) fs
  | _ => true
  end.

Lemma to_toml_list_ok l : forall ys, to_toml_list l = TOk ys ->
  Forall2 (fun x y => to_toml x = TOk y) l ys.
Proof.
  induction l as [|x l IH]; intros ys H; cbn [to_toml_list] in H.
  - inversion H. constructor.
  - destruct (to_toml x) as [y|] eqn:Ex; [|discriminate]. destruct (to_toml_list l) as [ys'|] eqn:El; [|discriminate].
    inversion H; subst. constructor; auto.
Qed.

Lemma to_toml_fields_ok l : forall kvs, to_toml_fields l = TOk kvs ->
  Forall2 (fun kx ky => fst kx = fst ky /\ to_toml (snd kx) = TOk (snd ky)) l kvs.
Proof.
  induction l as [|[k x] l IH]; intros kvs H; cbn [to_toml_fields] in H.
  - inversion H. constructor.
  - destruct (to_toml x) as [y|] eqn:Ex; [|discriminate]. destruct (to_toml_fields l) as [ys'|] eqn:El; [|discriminate].
    inversion H; subst. constructor; [split; [reflexivity|exact Ex]|auto].
Qed.

Definition ConvP (v : val) : Prop :=
  forall t, val_wf v = true -> to_toml v = TOk t ->
    tval_wf t = true /\ keys_nodup t /\ spec_data v = Some (doc_canon (tdoc_of t)).

Lemma spec_float_ok f : val_wf (VFloat f) = true ->
  spec_float f = Some (dfloat_of (tfloat_of_fl f)) /\ tval_wf (TFloat (tfloat_of_fl f)) = true.
Proof.
  destruct f as [t| | |]; cbn [val_wf spec_float tfloat_of_fl dfloat_of tval_wf]; try (intros _; split; reflexivity).
  destruct (rust_float_parts t) as [[[neg i] fd]|]; [intros _; split; reflexivity|discriminate].
Qed.

Lemma map_first_in_orig {V} (l : list (bytes * V)) kv : In kv (map_first l) -> In kv l.
Proof. apply map_first_in. Qed.

(* BTreeMap insertion on the converter's side, first binding and sorting on the specification's *)
Lemma map_first_canon (kvs : list (bytes * tval)) :
  doc_canon (tdoc_of (TTab (map_first kvs)))
  = DTab (sort_keys (dedup_first [] (map (fun kv => (fst kv, doc_canon (tdoc_of (snd kv)))) kvs))).
Proof.
  cbn [tdoc_of]. rewrite doc_canon_tab, map_map. cbn [fst snd]. f_equal.
  set (g := fun y : tval => doc_canon (tdoc_of y)).
  change (sort_keys (map (fun x : bytes * tval => (fst x, g (snd x))) (map_first kvs))
          = sort_keys (dedup_first [] (map (fun kv : bytes * tval => (fst kv, g (snd kv))) kvs))).
  assert (Hnd : NoDup (map fst (map (fun x : bytes * tval => (fst x, g (snd x))) (map_first kvs))))
    by (rewrite map_fst_map; apply ssorted_nodup, map_first_sorted).
  apply ssorted_ext.
  - apply sort_keys_sorted, Hnd.
  - apply sort_keys_sorted, dedup_first_nodup.
  - intros k. rewrite (lookup_sort_keys _ k Hnd), lookup_sort_keys by apply dedup_first_nodup.
    rewrite lookup_dedup_first by (intros []). rewrite !(lookup_map_val g), map_first_lookup. reflexivity.
Qed.

Lemma map_first_wf (kvs : list (bytes * tval)) :
  Forall (fun kv => tval_wf (snd kv) = true /\ keys_nodup (snd kv)) kvs ->
  tval_wf (TTab (map_first kvs)) = true /\ keys_nodup (TTab (map_first kvs)).
Proof.
  intros H. rewrite Forall_forall in H. split.
  - cbn [tval_wf]. apply forallb_forall. intros kv Hin. apply H, map_first_in, Hin.
  - apply keys_nodup_tab. split; [apply ssorted_nodup, map_first_sorted|].
    apply Forall_forall. intros kv Hin. apply H, map_first_in, Hin.
Qed.

Theorem conv_ok : forall v, ConvP v.
Proof.
  induction v as [|x|z|f|s|l IH|fs IH|fs|] using val_ind'; intros t Hw Ht.
  - discriminate Ht.
  - inversion Ht; subst. repeat split.
  - inversion Ht; subst. cbn [val_wf] in Hw. repeat split. exact Hw.
  - inversion Ht; subst. destruct (spec_float_ok f Hw) as [A B]. split; [exact B|]. split; [exact I|].
    cbn [spec_data]. rewrite A. reflexivity.
  - inversion Ht; subst. repeat split.
  - rewrite to_toml_VList in Ht. destruct (to_toml_list l) as [ys|] eqn:El; [|discriminate]. inversion Ht; subst t.
    apply to_toml_list_ok in El. cbn [val_wf] in Hw.
    assert (H : forallb tval_wf ys = true /\ Forall keys_nodup ys /\
                (fix go (l : list val) : option (list tdoc) :=
                   match l with
                   | [] => Some []
                   | x :: xs => match spec_data x, go xs with Some a, Some r => Some (a :: r) | _, _ => None end
                   end) l = Some (map (fun y => doc_canon (tdoc_of y)) ys)).
    { clear Ht. induction El as [|x y l ys Hxy _ IHl]; [repeat split; constructor|].
      cbn [forallb] in Hw. apply andb_true_iff in Hw as [Hwx Hwl]. inversion IH as [|? ? IHx IHr]; subst.
      destruct (IHx y Hwx Hxy) as (A & B & C). destruct (IHl IHr Hwl) as (A' & B' & C').
      cbn [forallb map]. rewrite A, A', C, C'. repeat split. constructor; assumption. }
    destruct H as (A & B & C). cbn [tval_wf]. split; [exact A|]. split; [apply keys_nodup_arr, B|].
    cbn [spec_data]. rewrite C. cbn [option_map tdoc_of doc_canon]. rewrite map_map. reflexivity.
  - rewrite to_toml_VTuple in Ht. destruct (to_toml_fields fs) as [kvs|] eqn:El; [|discriminate]. inversion Ht; subst t.
    apply to_toml_fields_ok in El. cbn [val_wf] in Hw.
    assert (H : Forall (fun kv => tval_wf (snd kv) = true /\ keys_nodup (snd kv)) kvs /\
                (fix go (l : list (bytes * val)) : option (list (bytes * tdoc)) :=
                   match l with
                   | [] => Some []
                   | (k, x) :: r => match spec_data x, go r with Some a, Some r' => Some ((k, a) :: r') | _, _ => None end
                   end) fs = Some (map (fun kv => (fst kv, doc_canon (tdoc_of (snd kv)))) kvs)).
    { clear Ht. induction El as [|[k x] [k' y] l ys [Hk Hxy] _ IHl]; [split; constructor|].
      cbn [fst snd] in Hk, Hxy. subst k'.
      cbn [forallb snd] in Hw. apply andb_true_iff in Hw as [Hwx Hwl]. inversion IH as [|? ? IHx IHr]; subst.
      cbn [snd] in IHx. destruct (IHx y Hwx Hxy) as (A & B & C). destruct (IHl IHr Hwl) as (A' & C').
      cbn [map fst snd]. rewrite C, C'. split; [constructor; [split|]; assumption|reflexivity]. }
    destruct H as (A & C). destruct (map_first_wf kvs A) as [B1 B2]. split; [exact B1|]. split; [exact B2|].
    cbn [spec_data]. rewrite C, map_first_canon. reflexivity.
  - inversion Ht; subst t.
    destruct (map_first_wf (map (fun kv => (fst kv, TStr (snd kv))) fs)) as [B1 B2].
    { apply Forall_forall. intros kv Hin. apply in_map_iff in Hin as (x & <- & _). split; [reflexivity|exact I]. }
    split; [exact B1|]. split; [exact B2|].
    cbn [spec_data]. rewrite map_first_canon, map_map. reflexivity.
  - discriminate Ht.
Qed.

(* for any well-formed toml::Value tree, not only one the converter builds *)
Theorem toml_tree_roundtrip : forall t out,
  good t = true -> tval_wf t = true -> keys_nodup t ->
  toml_emit t = TOk out ->
  exists d, toml_parse out = Some d /\ doc_canon d = doc_canon (tdoc_of t).
Proof.
  intros t out Hg Hw Hn He. unfold toml_emit in He.
  destruct t as [| | | | |es]; try discriminate He. cbn [is_table] in He.
  pose proof (lex_root es out Hg Hw He) as Hl.
  pose proof (build_flat es Hg Hn) as Hb.
  exists (doc_of_entries (ents_with node_of es)). split.
  - unfold toml_parse. rewrite Hl, Hb. reflexivity.
  - pose proof (canon_node (TTab es) Hg Hn) as Hc. cbn [node_of] in Hc.
    unfold doc_of_entries. rewrite doc_of_node_tab in *. exact Hc.
Qed.

(* the headline: whatever `out toml v` writes for a value whose tree is well formed is read back,
   by the independent reader, as the data the property prescribes *)
Theorem toml_doc_roundtrip : forall v t out,
  val_wf v = true ->
  to_toml v = TOk t -> good t = true ->
  toml_emit t = TOk out ->
  exists d, toml_parse out = Some d /\ spec_data v = Some (doc_canon d).
Proof.
  intros v t out Hw Ht Hg He.
  destruct (conv_ok v t Hw Ht) as (Hwt & Hn & Hs).
  destruct (toml_tree_roundtrip t out Hg Hwt Hn He) as (d & Hp & Hc).
  exists d. split; [exact Hp|]. rewrite Hs, Hc. reflexivity.
Qed.

(* on well-formed trees the serializer cannot fail: no ValueAfterTable *)
Lemma flc_aot l : forallb is_table l = true -> l <> [] -> first_leaf_checks (TArr l) = false.
Proof.
  destruct l as [|x l]; [congruence|]. cbn [forallb first_leaf_checks]. intros H _.
  apply andb_true_iff in H as [Hx _]. destruct x; try discriminate Hx. reflexivity.
Qed.

Lemma scan_inline (p : tval -> bool) es :
  (forall kv, In kv es -> p (snd kv) = true -> va_err (snd kv) = false /\ has_tab (snd kv) = false) ->
  scan_pass va_err p es false = (false, false).
Proof.
  induction es as [|[k x] es IH]; intros H; cbn [scan_pass]; [reflexivity|].
  destruct (p x) eqn:Ep.
  - destruct (H (k, x) (or_introl eq_refl) Ep) as [A B]. cbn [snd] in A, B. rewrite A, B, andb_false_r. cbn [orb].
    apply IH. intros kv Hin. apply H. right. exact Hin.
  - apply IH. intros kv Hin. apply H. right. exact Hin.
Qed.

Lemma scan_noflc (p : tval -> bool) es :
  (forall kv, In kv es -> p (snd kv) = true -> va_err (snd kv) = false /\ first_leaf_checks (snd kv) = false) ->
  forall te, fst (scan_pass va_err p es te) = false.
Proof.
  induction es as [|[k x] es IH]; intros H te; cbn [scan_pass]; [reflexivity|].
  destruct (p x) eqn:Ep.
  - destruct (H (k, x) (or_introl eq_refl) Ep) as [A B]. cbn [snd] in A, B. rewrite A, B. cbn [orb andb].
    apply IH. intros kv Hin. apply H. right. exact Hin.
  - apply IH. intros kv Hin. apply H. right. exact Hin.
Qed.

Theorem good_va : forall v, good v = true -> va_err v = false.
Proof.
  induction v as [s|z|f|b0|l IH|es IH] using tval_ind'; intros Hg; try reflexivity.
  - apply good_arr in Hg. cbn [va_err]. destruct (existsb va_err l) eqn:E; [|reflexivity].
    apply existsb_exists in E as (x & Hx & Ev). rewrite Forall_forall in IH.
    destruct (existsb is_table l).
    + destruct Hg as [_ Hg]. rewrite forallb_forall in Hg. rewrite (IH x Hx (Hg x Hx)) in Ev. discriminate.
    + rewrite (notab_va x (has_tab_arr_elems l Hg x Hx)) in Ev. discriminate.
  - cbn [good] in Hg. rewrite forallb_forall in Hg. rewrite Forall_forall in IH. cbn [va_err].
    rewrite (scan_inline pass1 es).
    2:{ intros kv Hin Hp. split; [apply (IH kv Hin (Hg kv Hin))|apply pass1_good_inline; [exact Hp|apply Hg, Hin]]. }
    assert (H2 : forall kv, In kv es -> pass2 (snd kv) = true -> va_err (snd kv) = false /\ first_leaf_checks (snd kv) = false).
    { intros [k x] Hin Hp. cbn [snd] in *. split; [apply (IH _ Hin (Hg _ Hin))|].
      specialize (Hg _ Hin). cbn [snd] in Hg. destruct x as [| | | |l|]; try discriminate Hp.
      cbn [pass2] in Hp. apply good_arr in Hg. rewrite Hp in Hg. destruct Hg as [Hall _]. apply flc_aot; [exact Hall|]. destruct l; [discriminate Hp|discriminate]. }
    assert (H3 : forall kv, In kv es -> pass3 (snd kv) = true -> va_err (snd kv) = false /\ first_leaf_checks (snd kv) = false).
    { intros [k x] Hin Hp. cbn [snd] in *. split; [apply (IH _ Hin (Hg _ Hin))|].
      destruct x; try discriminate Hp. reflexivity. }
    pose proof (scan_noflc pass2 es H2 false) as E2.
    destruct (scan_pass va_err pass2 es false) as [e2 t2]. cbn [fst] in E2. subst e2.
    apply (scan_noflc pass3 es H3).
Qed.

(* ... so for a well-formed tree the converter always produces a text, and it reads back *)
Corollary toml_good_total : forall v t,
  val_wf v = true -> to_toml v = TOk t -> is_table t = true -> good t = true ->
  exists out d, toml_emit t = TOk out /\ toml_parse out = Some d /\ spec_data v = Some (doc_canon d).
Proof.
  intros v t Hw Ht Htab Hg.
  destruct (ser_root_error_iff t) as [_ H]. destruct (H (good_va t Hg)) as [out Ho].
  assert (He : toml_emit t = TOk out) by (unfold toml_emit; rewrite Htab; exact Ho).
  destruct (toml_doc_roundtrip v t out Hw Ht Hg He) as (d & A & B). eauto.
Qed.
