(* Induction over [val] with an induction hypothesis for the values nested in lists and tuples. *)
From Ucg Require Import base.Bytes base.Bytes_Lemmas data.Val.

Section ValInd.
  Variable P : val -> Prop.
  Hypothesis Hempty : P VEmpty.
  Hypothesis Hbool : forall x, P (VBool x).
  Hypothesis Hint : forall z, P (VInt z).
  Hypothesis Hfloat : forall f, P (VFloat f).
  Hypothesis Hstr : forall s, P (VStr s).
  Hypothesis Hlist : forall l, Forall P l -> P (VList l).
  Hypothesis Htuple : forall fs, Forall (fun kv => P (snd kv)) fs -> P (VTuple fs).
  Hypothesis Henv : forall fs, P (VEnv fs).
  Hypothesis Hconstraint : P VConstraint.

  Fixpoint val_ind' (v : val) : P v :=
    match v with
    | VEmpty => Hempty
    | VBool x => Hbool x
    | VInt z => Hint z
    | VFloat f => Hfloat f
    | VStr s => Hstr s
    | VList l =>
      Hlist l ((fix go (l : list val) : Forall P l :=
                  match l with
                  | [] => Forall_nil _
                  | x :: xs => Forall_cons x (val_ind' x) (go xs)
                  end) l)
    | VTuple fs =>
      Htuple fs ((fix go (l : list (bytes * val)) : Forall (fun kv => P (snd kv)) l :=
                    match l with
                    | [] => Forall_nil _
                    | (k, v) :: r => Forall_cons (k, v) (val_ind' v) (go r)
                    end) fs)
    | VEnv fs => Henv fs
    | VConstraint => Hconstraint
    end.
End ValInd.

(* the property for a value and for the elements of lists found directly in it *)
Lemma val_deep_ind (Q : val -> Prop) :
  (forall v, (forall l, v = VList l -> Forall Q l) ->
             (forall fs, v = VTuple fs -> forall k l, In (k, VList l) fs -> Forall Q l) -> Q v) ->
  forall v, Q v.
Proof.
  intros H.
  assert (D : forall v, Q v /\ (forall l, v = VList l -> Forall Q l)).
  { induction v using val_ind'; (split; [apply H|]); try discriminate; try (intros; discriminate).
    - intros l' E; inversion E; subst. eapply Forall_impl; [|exact H0]. intros a [A _]; exact A.
    - intros l' E; inversion E; subst. eapply Forall_impl; [|exact H0]. intros a [A _]; exact A.
    - intros fs' E k l Hin; inversion E; subst.
      rewrite Forall_forall in H0. destruct (H0 _ Hin) as [_ A]. apply A; reflexivity. }
  intros v; apply D.
Qed.

(* The decimal text of an integer: an optional minus sign, then digits without a leading zero
   whose value is the absolute value. *)
Definition dec_digit (c : ascii) : bool := (48 <=? code c)%N && (code c <=? 57)%N.
Definition dec_value (ds : bytes) : N := fold_left (fun a c => (a * 10 + (code c - 48))%N) ds 0%N.
Definition digit_char (r : N) : ascii := ascii_of_N (48 + r).

Lemma code_digit_char r : (r < 10)%N -> code (digit_char r) = (48 + r)%N.
Proof. intros H. apply code_of. lia. Qed.

Lemma dec_digit_digit_char r : (r < 10)%N -> dec_digit (digit_char r) = true.
Proof.
  intros H. unfold dec_digit. rewrite (code_digit_char r H). apply andb_true_iff; split; apply N.leb_le; lia.
Qed.

Lemma dec_value_app ds c : dec_value (ds ++ [c]) = (dec_value ds * 10 + (code c - 48))%N.
Proof. unfold dec_value. rewrite fold_left_app. reflexivity. Qed.

Lemma pos_digits_fuel_spec : forall f n acc,
  (0 < n)%N -> (n < 2 ^ N.of_nat f)%N ->
  exists c t,
    pos_digits_fuel f n acc = (c :: t) ++ acc /\
    forallb dec_digit (c :: t) = true /\ Ascii.eqb c "0"%char = false /\ dec_value (c :: t) = n.
Proof.
  induction f as [|f IH]; intros n acc Hn Hf; [cbn in Hf; lia|].
  cbn [pos_digits_fuel]. fold (digit_char (n mod 10)).
  assert (Hr : (n mod 10 < 10)%N) by (apply N.mod_lt; lia).
  pose proof (N.div_mod n 10 ltac:(lia)) as Hdm.
  (* quotient and remainder as two numbers, for [lia] *)
  set (r := (n mod 10)%N) in *. set (q := (n / 10)%N) in *. clearbody r q.
  pose proof (code_digit_char _ Hr) as Hcode.
  pose proof (dec_digit_digit_char _ Hr) as Hd.
  destruct (N.eqb_spec q 0) as [Hq|Hq].
  - exists (digit_char r), []. repeat split.
    + cbn. rewrite Hd. reflexivity.
    + destruct (Ascii.eqb_spec (digit_char r) "0"%char) as [E|_]; [|reflexivity].
      apply (f_equal code) in E. rewrite Hcode in E. change (code "0"%char) with 48%N in E. lia.
    + unfold dec_value. cbn [fold_left]. rewrite Hcode. lia.
  - assert (Hqf : (q < 2 ^ N.of_nat f)%N).
    { rewrite Nat2N.inj_succ, N.pow_succ_r' in Hf. lia. }
    destruct (IH q (digit_char r :: acc) ltac:(lia) Hqf) as (c & t & E & Hds & Hc & Hv).
    exists c, (t ++ [digit_char r]).
    change (c :: t ++ [digit_char r]) with ((c :: t) ++ [digit_char r]). repeat split.
    + rewrite E, <- app_assoc. reflexivity.
    + rewrite forallb_app, Hds. cbn. rewrite Hd. reflexivity.
    + exact Hc.
    + rewrite dec_value_app, Hv, Hcode. lia.
Qed.

Lemma dec_of_N_spec n :
  (0 < n)%N ->
  exists c t,
    dec_of_N n = c :: t /\ forallb dec_digit (c :: t) = true /\
    Ascii.eqb c "0"%char = false /\ dec_value (c :: t) = n.
Proof.
  intros Hn. unfold dec_of_N.
  destruct (pos_digits_fuel_spec (S (N.to_nat (N.log2 n))) n [] Hn) as (c & t & E & H).
  - rewrite Nat2N.inj_succ, N2Nat.id. apply N.log2_spec. exact Hn.
  - exists c, t. rewrite E, app_nil_r. split; [reflexivity|exact H].
Qed.

Lemma dec_of_Z_spec z :
  z <> 0%Z ->
  exists c t,
    dec_of_Z z = (if (z <? 0)%Z then ["-"%char] else []) ++ c :: t /\
    forallb dec_digit (c :: t) = true /\ Ascii.eqb c "0"%char = false /\
    dec_value (c :: t) = Z.abs_N z.
Proof.
  intros Hz. destruct z as [|p|p]; [congruence| |];
    destruct (dec_of_N_spec (Npos p) eq_refl) as (c & t & E & H);
    exists c, t; (split; [|exact H]); unfold dec_of_Z; rewrite E; reflexivity.
Qed.
