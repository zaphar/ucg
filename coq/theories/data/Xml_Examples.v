(* C12 — the XML model evaluated: the documented example, and a witness for each finding. *)
From Ucg Require Import base.Bytes data.Val data.Xml data.Xml_Lemmas.
Open Scope string_scope.
Open Scope list_scope.

Definition S_ (s : string) : val := VStr (b s).
Definition el (name : string) (more : list (bytes * val)) : val := VTuple ((b "name", S_ name) :: more).
Definition kids (l : list val) : bytes * val := (b "children", VList l).
Definition attrs (l : list (string * val)) : bytes * val :=
  (b "attrs", VTuple (map (fun kv => (b (fst kv), snd kv)) l)).
Definition nsd (p u : string) : bytes * val := (b "ns", VTuple [(b "prefix", S_ p); (b "uri", S_ u)]).
Definition doc (root : val) : val := VTuple [(b "root", root)].
Definition reread (d : val) : option xdoc := match xml_output d with Some o => xml_parse o | None => None end.
Definition out_string (d : val) : option string := option_map string_of_list_ascii (xml_output d).
Definition dflt := Some (mkdecl V10 (b "UTF-8") None).
Definition T (s : string) := XText (b s).
Definition nl1 := String (Ascii.ascii_of_nat 10) EmptyString.

(* the documented example, byte for byte (converters.md; the docs print an extra '/' in a uri) *)
Example ex_docs :
  out_string (doc (VTuple [nsd "myns" "http://example.com"; (b "name", S_ "top"); attrs [("id", S_ "foo")];
     kids [el "child1" [(b "ns", S_ "http://example.org"); attrs [("attr1", S_ "value1"); ("attr2", S_ "value2")];
                        kids [S_ "inner text node";
                              el "myns:grandchild" [kids [VTuple [(b "text", S_ "Another text node")]]]]]]]))
  = Some ("<?xml version=""1.0"" encoding=""UTF-8""?>" ++ nl1 ++
          "<top xmlns:myns=""http://example.com"" id=""foo"">" ++ nl1 ++
          "  <child1 xmlns=""http://example.org"" attr1=""value1"" attr2=""value2"">inner text node<myns:grandchild>Another text node</myns:grandchild>" ++ nl1 ++
          "  </child1>" ++ nl1 ++ "</top>")%string.
Proof. vm_compute. reflexivity. Qed.

(* a plain document reads back as itself plus indentation *)
Example ex_roundtrip :
  reread (doc (el "a" [attrs [("k", S_ "v<>&'""")]; kids [el "b" [kids [S_ "x < y"]]; el "c" []]]))
  = Some (mkdoc dflt [XElem (b "a") [] [(b "k", b "v<>&'""")]
       [XText (newline 1); XElem (b "b") [] [] [T "x < y"];
        XText (newline 1); XElem (b "c") [] [] [XText (newline 1)]; XText (newline 0)]]).
Proof. vm_compute. reflexivity. Qed.

(* F1: CR in character data is written raw; a reader normalises it to LF *)
Example cr_in_text_refuted :
  reread (doc (el "a" [kids [VStr [ "x"%char; cr; "y"%char ]]]))
  = Some (mkdoc dflt [XElem (b "a") [] [] [XText ["x"%char; nl; "y"%char]]]).
Proof. vm_compute. reflexivity. Qed.

(* F2: TAB in an attribute value is written raw; a reader normalises it to a space *)
Example tab_in_attr_refuted :
  reread (doc (el "a" [attrs [("k", VStr ["x"%char; tab; "y"%char])]; kids [S_ "t"]]))
  = Some (mkdoc dflt [XElem (b "a") [] [(b "k", b "x y")] [T "t"]]).
Proof. vm_compute. reflexivity. Qed.

(* F3 (fix 37927c5): C0 controls and U+FFFE/U+FFFF in character data or attribute values are an
   error (get_xml_chars), not written raw *)
Definition fffe : bytes := [ascii_of_nat 239; ascii_of_nat 191; ascii_of_nat 190].
Example control_chars_rejected :
  to_xml_r (doc (el "a" [kids [VStr [ascii_of_nat 1]]])) = XErr EBadChar /\
  to_xml_r (doc (el "a" [attrs [("k", VStr [ascii_of_nat 8])]])) = XErr EBadChar /\
  to_xml_r (doc (el "a" [kids [VTuple [(b "text", VStr [ascii_of_nat 0])]]])) = XErr EBadChar /\
  to_xml_r (doc (el "a" [kids [VStr (b "x" ++ fffe)]])) = XErr EBadChar /\
  to_xml_r (doc (el "a" [attrs [("k", VStr [ascii_of_nat 239; ascii_of_nat 191; ascii_of_nat 191])]])) = XErr EBadChar /\
  (* DEL, C1, U+FFFD, TAB LF CR are XML characters *)
  to_xml_r (doc (el "a" [kids [VStr [ascii_of_nat 127; ascii_of_nat 194; ascii_of_nat 133; ascii_of_nat 239;
                                      ascii_of_nat 191; ascii_of_nat 189; tab; nl; cr]]])) <> XErr EBadChar.
Proof. vm_compute. repeat split; congruence. Qed.
(* where the check sits: per attribute in order after the type check; after the name+text check;
   never on names, ns uris, encoding; not on text that is never written *)
Example control_chars_order :
  to_xml_r (doc (el "a" [attrs [("j", VInt 1); ("k", VStr [ascii_of_nat 1])]])) = XErr ENotString /\
  to_xml_r (doc (el "a" [attrs [("k", VStr [ascii_of_nat 1]); ("j", VInt 1)]])) = XErr EBadChar /\
  to_xml_r (doc (el "a" [(b "text", VStr [ascii_of_nat 1])])) = XErr EBothNameText /\
  to_xml_r (doc (el "a" [attrs [("k", VStr [ascii_of_nat 1])]; kids [VInt 3]])) = XErr EBadChar /\
  to_xml_r (doc (el "a" [kids [VStr [ascii_of_nat 1]]; (b "children", VInt 3)])) = XErr ENotList /\
  to_xml (doc (el "a" [(b "ns", VStr [ascii_of_nat 1])])) <> None /\
  to_xml (doc (el "a" [kids [VTuple [(b "text", VStr [ascii_of_nat 1]); (b "text", S_ "fine")]]])) <> None.
Proof. vm_compute. repeat split; congruence. Qed.
(* the reader refuses U+FFFE / U+FFFF wherever they stand *)
Example reader_rejects_fffe :
  xml_parse (b "<a>" ++ fffe ++ b "</a>") = None /\
  xml_parse (b "<a k=""" ++ fffe ++ b """/>") = None /\
  xml_parse (b "<a>" ++ [ascii_of_nat 239; ascii_of_nat 191; ascii_of_nat 189] ++ b "</a>") <> None.
Proof. vm_compute. repeat split; congruence. Qed.

(* F4: a namespace uri is written without any escaping *)
Example ns_uri_unescaped_refuted :
  out_string (doc (el "a" [(b "ns", S_ "u""&<")])) =
    Some ("<?xml version=""1.0"" encoding=""UTF-8""?>" ++ nl1 ++ "<a xmlns=""u""&<"">" ++ nl1 ++ "</a>")%string /\
  reread (doc (el "a" [(b "ns", S_ "u""&<")])) = None /\
  reread (doc (el "a" [(b "ns", S_ "x&y")])) = None.
Proof. vm_compute. auto. Qed.

(* F5: a declaration equal to one recorded by ANY enclosing level is dropped, even when an
   intermediate element rebinds the prefix: <c> below is described with p -> u1, written
   without a declaration, and therefore read in scope p -> u2 *)
Example ns_redeclaration_dropped_refuted :
  reread (doc (el "p:a" [nsd "p" "u1"; kids [el "p:b" [nsd "p" "u2"; kids [el "p:c" [nsd "p" "u1"; kids [S_ "t"]]]]]]))
  = Some (mkdoc dflt [XElem (b "p:a") [(b "p", b "u1")] []
      [XText (newline 1); XElem (b "p:b") [(b "p", b "u2")] []
         [XText (newline 2); XElem (b "p:c") [] [] [T "t"]; XText (newline 1)]; XText (newline 0)]]).
Proof. vm_compute. reflexivity. Qed.

(* F6: ns = "" , prefix xml / xmlns: accepted and silently not written *)
Example ns_silently_dropped :
  out_string (doc (el "a" [(b "ns", S_ ""); kids [S_ "t"]])) = out_string (doc (el "a" [kids [S_ "t"]])) /\
  out_string (doc (el "a" [nsd "xml" "u"; kids [S_ "t"]])) = out_string (doc (el "a" [kids [S_ "t"]])) /\
  out_string (doc (el "a" [nsd "xmlns" "u"; kids [S_ "t"]])) = out_string (doc (el "a" [kids [S_ "t"]])).
Proof. vm_compute. auto. Qed.

(* F7 (fix 02a5024): the root must be an element value — a tuple with a field called name; a
   string / {text=..} / nameless tuple as root would give a document without root element. *)
Example root_must_be_element :
  to_xml_r (doc (S_ "hello")) = XErr ERootNotElement /\
  to_xml_r (doc (VTuple [(b "text", S_ "hello")])) = XErr ERootNotElement /\
  to_xml_r (doc (VTuple [])) = XErr ERootNotElement /\
  to_xml_r (doc (VTuple [(b "nmae", S_ "typo")])) = XErr ERootNotElement /\
  to_xml_r (doc (VInt 1)) = XErr ERootNotElement /\                      (* no longer ENodeKind *)
  tree_of_doc (doc (S_ "hello")) = None /\
  (* order: version value first, root-not-element before anything inside the root *)
  to_xml_r (VTuple [(b "version", S_ "2.0"); (b "root", S_ "hello")]) = XErr EBadVersion /\
  to_xml_r (VTuple [(b "root", S_ "hello"); (b "root", el "a" [])]) <> XErr ERootNotElement /\
  to_xml_r (VTuple [(b "root", el "a" []); (b "root", S_ "hello")]) = XErr ERootNotElement /\
  (* a name field of any value passes this check and fails later, as before *)
  to_xml_r (doc (VTuple [(b "name", VEmpty)])) = XErr ENotString /\
  to_xml_r (doc (VTuple [(b "name", VInt 3); (b "text", S_ "t")])) = XErr ENotString /\
  (* inside the document nothing changed: nameless tuples and strings are still accepted *)
  out_string (doc (el "a" [kids [VTuple []; S_ "t"; VTuple [(b "nmae", S_ "typo")]]])) =
    Some ("<?xml version=""1.0"" encoding=""UTF-8""?>" ++ nl1 ++ "<a>t</a>")%string.
Proof. vm_compute. repeat split; congruence. Qed.

(* F8: names are not checked (this is why C12 assumes valid names) *)
Example invalid_names_refuted :
  reread (doc (el "a b" [])) = None /\ reread (doc (el "" [])) = None /\
  reread (doc (el "a" [attrs [("1x", S_ "v")]])) = None /\
  valid_names (doc (el "a b" [])) = false.
Proof. vm_compute. auto. Qed.

(* F9: valid names are not enough: an attribute called xmlns[:p] is a namespace declaration to
   a reader, and collides with the element's own declaration *)
Example xmlns_attribute_refuted :
  valid_names (doc (el "a" [attrs [("xmlns", S_ "u")]; kids [S_ "t"]])) = true /\
  reread (doc (el "a" [attrs [("xmlns", S_ "u")]; kids [S_ "t"]]))
    = Some (mkdoc dflt [XElem (b "a") [([], b "u")] [] [T "t"]]) /\
  reread (doc (el "a" [(b "ns", S_ "w"); attrs [("xmlns", S_ "u")]; kids [S_ "t"]])) = None.
Proof. vm_compute. auto. Qed.

(* F10: duplicate attribute names (a tuple value may hold them) are written twice *)
Example duplicate_attr_refuted :
  reread (doc (el "a" [attrs [("k", S_ "1"); ("k", S_ "2")]])) = None.
Proof. vm_compute. reflexivity. Qed.

(* F11: the declared encoding is copied into the declaration, never applied or checked *)
Example encoding_not_applied :
  out_string (VTuple [(b "encoding", S_ "latin1"); (b "root", el "a" [kids [VStr [ascii_of_nat 195; ascii_of_nat 169]]])])
  = Some ("<?xml version=""1.0"" encoding=""latin1""?>" ++ nl1 ++ "<a>" ++
          String (ascii_of_nat 195) (String (ascii_of_nat 169) "</a>"))%string /\
  reread (VTuple [(b "encoding", S_ "a""b"); (b "root", el "a" [])]) = None.
Proof. vm_compute. auto. Qed.

(* F12: indentation changes character data: an empty element gets a line break, mixed content
   gets line breaks and spaces after child elements *)
Example indentation_changes_text_refuted :
  option_map (fun d => map text_content (x_body d)) (reread (doc (el "a" []))) = Some [ [nl] ] /\
  option_map (fun d => map text_content (x_body d))
             (reread (doc (el "a" [kids [S_ "x"; el "b" [kids [S_ "y"]]]]))) = Some [ b "xy" ++ [nl] ] /\
  option_map (fun d => map text_content (x_body d))
             (reread (doc (el "a" [kids [S_ "x"; el "b" [kids [S_ "y"]]; el "c" [kids [S_ "z"]]]])))
    = Some [ b "xy" ++ newline 1 ++ b "z" ++ [nl] ].
Proof. vm_compute. auto. Qed.

(* F13: silently ignored input: ns of another type, ns tuple without uri, standalone not a bool *)
Example silently_ignored :
  out_string (doc (el "a" [(b "ns", VInt 5)])) = out_string (doc (el "a" [])) /\
  out_string (doc (el "a" [(b "ns", VTuple [(b "prefix", S_ "p")])])) = out_string (doc (el "a" [])) /\
  out_string (VTuple [(b "standalone", S_ "yes"); (b "root", el "a" [])]) = out_string (doc (el "a" [])).
Proof. vm_compute. auto. Qed.

(* error cases, in the order the code checks them *)
Example ex_errors :
  to_xml_r (VInt 1) = XErr ENotDocTuple /\
  to_xml_r (VTuple [(b "version", S_ "2.0")]) = XErr ENoRoot /\
  to_xml_r (VTuple [(b "version", S_ "2.0"); (b "root", VInt 1)]) = XErr EBadVersion /\
  to_xml_r (VTuple [(b "root", VInt 1); (b "encoding", VEmpty)]) = XErr ENotString /\
  to_xml_r (doc (el "a" [kids [VInt 1]])) = XErr ENodeKind /\
  to_xml_r (doc (el "a" [(b "text", S_ "t"); attrs [("k", VInt 1)]])) = XErr EBothNameText /\
  to_xml_r (doc (el "a" [attrs [("k", VInt 1)]; kids [VInt 2]])) = XErr ENotString /\
  to_xml_r (doc (el "a" [kids [VInt 2]; (b "children", VInt 3)])) = XErr ENotList /\
  to_xml_r (doc (VTuple [(b "name", VEmpty)])) = XErr ENotString /\
  to_xml_r (doc (el "a" [(b "text", VEmpty); (b "attrs", VEmpty); (b "children", VEmpty)]))
    = XOk [EStartDoc V10 None None; EStart (b "a") [] None; EEnd].
Proof. vm_compute. repeat split; reflexivity. Qed.

Print Assumptions doc_to_tree.
Print Assumptions doc_to_tree_strong.
Print Assumptions doc_error_iff.
Print Assumptions write_node_err_iff.
Print Assumptions escapes_invert.
Print Assumptions unescape_text_ok.
Print Assumptions unescape_attr_ok.
Print Assumptions xml_emit_doc.
Print Assumptions xml_text_roundtrip.
Print Assumptions doc_roundtrip.
Print Assumptions xml_output_roundtrip.
Print Assumptions strip_written.
Print Assumptions text_content_norm.
Print Assumptions nodes_of_tuple.
Print Assumptions tree_of_events_of_tree.
Print Assumptions roundtrip_modulo_indent.
Print Assumptions roundtrip_exact_modulo_indent.
Print Assumptions as_written_nf.
Print Assumptions parse_doc_fuel.
Print Assumptions xml_parse_fuel.
Print Assumptions write_node_chars_ok.
Print Assumptions to_xml_chars_ok.
Print Assumptions to_xml_body_element.
Print Assumptions doc_roundtrip_wf.
Print Assumptions to_xml_tree_of_doc.
Print Assumptions xml_output_roundtrip_wf.
