(* Proofs about the YAML model: libyaml's analysis of an ASCII text, and the reader's plain scalars.
   A non-empty ASCII text for which the analysis allows the plain style in block context ([plain_ok]) is copied by the
   writer, and the reader takes it as one plain scalar wherever it stands ([plain_line]): alone on a line, after `- ` or
   `key: `, in front of the `:` of an implicit key, as a whole document.  The tokens of Yaml_Scalar.v and the
   identifiers of Yaml_Plain.v are such texts. *)
From Ucg Require Import base.Bytes base.Bytes_Lemmas data.Val data.Json data.Json_Lemmas data.MapJson data.MapJson_Lemmas data.Yaml data.Yaml_Str.
From Ucg Require data.Toml.
Local Open Scope list_scope.

Lemma code_eqs c :
  ceq c ":"%char = (code c =? 58)%N /\ ceq c "#"%char = (code c =? 35)%N /\ ceq c "-"%char = (code c =? 45)%N
  /\ ceq c "?"%char = (code c =? 63)%N /\ ceq c sp = (code c =? 32)%N.
Proof. repeat split; apply ceq_code. Qed.

Lemma wsp_blankz c : is_wsp c = true -> is_blankz_cp (code c) = true.
Proof. revert c. apply class_fact. vm_compute. reflexivity. Qed.

(* printable bytes: the line feed, 0x20-0x7E, 0xA0-0xFF *)
Lemma printable_break c : is_printable_cp (code c) = true -> is_break_cp (code c) = ceq c nl.
Proof. revert c. apply class_fact. vm_compute. reflexivity. Qed.

Lemma printable_text c : is_printable_cp (code c) = true -> text_byte_ok c = negb (ceq c nl).
Proof. revert c. apply class_fact. vm_compute. reflexivity. Qed.

Lemma printable_inline c :
  is_printable_cp (code c) = true -> is_break_cp (code c) = false -> text_byte_ok c = true /\ ceq c tab = false.
Proof.
  intros Hp Hb. rewrite (printable_break c Hp) in Hb. rewrite (printable_text c Hp), Hb.
  split; [reflexivity|]. exact (ceq_class (fun c => is_printable_cp (code c)) c tab Hp eq_refl).
Qed.

(* the reader's indicators are `-`, `?`, `:` and the characters libyaml refuses at the beginning of a plain scalar *)
Lemma first_not_indicator c :
  cp_in (code c) (b "#,[]{}&*!|>'""%@`") = false -> is_indicator c = ceq c "-"%char || ceq c "?"%char || ceq c ":"%char.
Proof.
  intros H. apply negb_true_iff in H. revert c H. apply class_fact. vm_compute. reflexivity.
Qed.

Definition doc_prefix (s : bytes) : bool :=
  match s with
  | c1 :: c2 :: c3 :: _ =>
    (ceq c1 "-"%char && ceq c2 "-"%char && ceq c3 "-"%char) || (ceq c1 "."%char && ceq c2 "."%char && ceq c3 "."%char)
  | _ => false
  end.

(* [analyze] on an ASCII text, one character per byte: the flags after the loop, then the four answers *)
Definition analysis_flags (s : bytes) : aflags :=
  an_loop true true false false (achars s) (mk_af (doc_prefix s) false false false false false false false false).

Definition sflags_of (a : aflags) : sflags :=
  mk_sf (a_breaks a)
        (negb (a_lead_sp a || a_lead_br a || a_trail_sp a || a_trail_br a
               || a_br_sp a || a_sp_br a || a_special a || a_breaks a || a_block_ind a))
        (negb (a_br_sp a || a_sp_br a || a_special a))
        (negb (a_trail_sp a || a_sp_br a || a_special a)).

Lemma analyze_ascii s : s <> [] -> ascii_str s = true -> analyze s = sflags_of (analysis_flags s).
Proof. intros Hn Ha. destruct s; [congruence|]. unfold analyze. rewrite (chars_ascii _ Ha). reflexivity. Qed.

(* libyaml's test for a block indicator at the character [n]; [fol]: the end or a blank comes next *)
Definition block_ind_at (first pw fol : bool) (n : N) : bool :=
  if first then
    cp_in n (b "#,[]{}&*!|>'""%@`") || (((n =? 63)%N || (n =? 58)%N) && fol) || ((n =? 45)%N && fol)
  else ((n =? 58)%N && fol) || ((n =? 35)%N && pw).

Definition blank_follows (r : bytes) : bool := match r with [] => true | d :: _ => is_blankz_cp (code d) end.

(* one character: the loop goes on with flags of which these five matter below *)
Lemma an_loop_cons first pw ps pb c r a :
  exists a',
    an_loop first pw ps pb (achars (c :: r)) a
    = an_loop false (is_blankz_cp (code c)) (code c =? 32)%N (negb (code c =? 32)%N && is_break_cp (code c)) (achars r) a'
    /\ a_block_ind a' = a_block_ind a || block_ind_at first pw (blank_follows r) (code c)
    /\ a_breaks a' = a_breaks a || is_break_cp (code c)
    /\ a_special a' = a_special a || negb (is_printable_cp (code c))
    /\ a_lead_sp a' = a_lead_sp a || ((code c =? 32)%N && first)
    /\ a_trail_sp a' = a_trail_sp a || ((code c =? 32)%N && match r with [] => true | _ :: _ => false end).
Proof. eexists. split; [reflexivity|]. destruct r; repeat split. Qed.

Lemma an_loop_mono s : forall first pw ps pb a,
  (a_block_ind (an_loop first pw ps pb (achars s) a) = false -> a_block_ind a = false) /\
  (a_breaks (an_loop first pw ps pb (achars s) a) = false -> a_breaks a = false) /\
  (a_special (an_loop first pw ps pb (achars s) a) = false -> a_special a = false) /\
  (a_lead_sp (an_loop first pw ps pb (achars s) a) = false -> a_lead_sp a = false).
Proof.
  induction s as [|c r IH]; intros first pw ps pb a; [cbn [achars map an_loop]; tauto|].
  destruct (an_loop_cons first pw ps pb c r a) as (a' & E & B1 & B2 & B3 & B4 & _). rewrite E.
  destruct (IH false (is_blankz_cp (code c)) (code c =? 32)%N (negb (code c =? 32)%N && is_break_cp (code c)) a')
    as (I1 & I2 & I3 & I4).
  rewrite B1 in I1. rewrite B2 in I2. rewrite B3 in I3. rewrite B4 in I4.
  repeat split; intros H; [apply I1 in H|apply I2 in H|apply I3 in H|apply I4 in H]; apply orb_false_iff in H; tauto.
Qed.

(* what one step adds, when the final flags are false *)
Lemma an_loop_step first pw ps pb c r a :
  let F := an_loop first pw ps pb (achars (c :: r)) a in
  a_block_ind F = false -> a_breaks F = false -> a_special F = false ->
  block_ind_at first pw (blank_follows r) (code c) = false /\ is_break_cp (code c) = false /\ is_printable_cp (code c) = true
  /\ exists a', F = an_loop false (is_blankz_cp (code c)) (code c =? 32)%N (negb (code c =? 32)%N && is_break_cp (code c)) (achars r) a'
                /\ (a_lead_sp a' = a_lead_sp a || ((code c =? 32)%N && first))
                /\ (a_trail_sp a' = a_trail_sp a || ((code c =? 32)%N && match r with [] => true | _ :: _ => false end)).
Proof.
  cbn zeta. destruct (an_loop_cons first pw ps pb c r a) as (a' & E & B1 & B2 & B3 & B4 & B5). rewrite E. intros H1 H2 H3.
  destruct (an_loop_mono r false (is_blankz_cp (code c)) (code c =? 32)%N (negb (code c =? 32)%N && is_break_cp (code c)) a')
    as (I1 & I2 & I3 & _).
  apply I1 in H1. apply I2 in H2. apply I3 in H3. rewrite B1 in H1. rewrite B2 in H2. rewrite B3 in H3.
  apply orb_false_iff in H1 as [_ H1]. apply orb_false_iff in H2 as [_ H2]. apply orb_false_iff in H3 as [_ H3].
  apply negb_false_iff in H3. repeat split; try assumption. exists a'. repeat split; assumption.
Qed.

Lemma an_loop_chars s : forall first pw ps pb a,
  (a_breaks (an_loop first pw ps pb (achars s) a) = false -> no_breaks s = true)
  /\ (a_special (an_loop first pw ps pb (achars s) a) = false -> forallb (fun c => is_printable_cp (code c)) s = true).
Proof.
  induction s as [|c r IH]; intros first pw ps pb a; [split; reflexivity|].
  destruct (an_loop_cons first pw ps pb c r a) as (a' & E & _ & B2 & B3 & _). rewrite E.
  destruct (an_loop_mono r false (is_blankz_cp (code c)) (code c =? 32)%N (negb (code c =? 32)%N && is_break_cp (code c)) a')
    as (_ & I2 & I3 & _).
  destruct (IH false (is_blankz_cp (code c)) (code c =? 32)%N (negb (code c =? 32)%N && is_break_cp (code c)) a') as [J2 J3].
  unfold no_breaks in *. cbn [forallb]. split; intros H.
  - rewrite (J2 H), andb_true_r. apply I2 in H. rewrite B2 in H. apply orb_false_iff in H as [_ H]. rewrite H. reflexivity.
  - rewrite (J3 H), andb_true_r. apply I3 in H. rewrite B3 in H. apply orb_false_iff in H as [_ H].
    apply negb_false_iff in H. exact H.
Qed.

Definition plain_ok (s : bytes) : Prop :=
  s <> [] /\ ascii_str s = true /\ f_block_plain (analyze s) = true.

Lemma plain_ok_flags s : plain_ok s ->
  a_block_ind (analysis_flags s) = false /\ a_breaks (analysis_flags s) = false /\ a_special (analysis_flags s) = false
  /\ a_lead_sp (analysis_flags s) = false /\ a_trail_sp (analysis_flags s) = false.
Proof.
  intros (Hn & Ha & Hp). rewrite (analyze_ascii s Hn Ha) in Hp. cbn [sflags_of f_block_plain] in Hp.
  apply negb_true_iff in Hp. repeat (apply orb_false_iff in Hp; destruct Hp as [Hp ?]). repeat split; assumption.
Qed.

Lemma plain_loop_ascii i s : forall st,
  no_breaks s = true ->
  exists w d, plain_loop i false (achars s) st = (s, mk_est (e_col st + List.length s) w d).
Proof.
  induction s as [|c r IH]; intros st Hs.
  - exists (e_ws st), (e_ind st). cbn. rewrite Nat.add_0_r. destruct st; reflexivity.
  - unfold no_breaks in Hs. cbn [forallb] in Hs. apply andb_true_iff in Hs as [Hc Hr]. apply negb_true_iff in Hc.
    cbn [achars map plain_loop u_cp u_raw]. fold (achars r). rewrite Hc. cbn [List.length].
    destruct (code c =? 32)%N.
    + destruct (IH (mk_est (S (e_col st)) (e_ws st) (e_ind st)) Hr) as (w & d & E). rewrite E.
      exists w, d. cbn [e_col]. rewrite Nat.add_succ_r. reflexivity.
    + destruct (IH (mk_est (S (e_col st)) (e_ws st) false) Hr) as (w & d & E). cbn [e_col e_ws]. rewrite E.
      exists w, d. cbn [e_col app]. rewrite Nat.add_succ_r. reflexivity.
Qed.

Lemma write_plain_ascii i s st :
  s <> [] -> ascii_str s = true -> no_breaks s = true ->
  write_plain i s st = ((if e_ws st then [] else [sp]) ++ s,
                        mk_est (e_col st + (if e_ws st then 0 else 1) + List.length s) false false).
Proof.
  intros Hn Ha Hb. unfold write_plain. rewrite (chars_ascii _ Ha).
  match goal with |- context [plain_loop i false _ ?st0] => destruct (plain_loop_ascii i s st0 Hb) as (w & d & E) end.
  rewrite E. destruct s; [congruence|]. destruct (e_ws st); reflexivity.
Qed.

Theorem emit_scalar_plain req s sk indent st :
  plain_ok s -> req = SAny \/ req = SPlain ->
  emit_scalar req s sk indent st
  = ((if e_ws st then [] else [sp]) ++ s,
     mk_est (e_col st + (if e_ws st then 0 else 1) + List.length s) false false).
Proof.
  intros Hok Hreq. destruct (plain_ok_flags s Hok) as (_ & Hbrk & _). destruct Hok as (Hn & Ha & Hp).
  assert (E : final_style req s sk = SPlain).
  { unfold final_style, select_style. rewrite Hp. rewrite (analyze_ascii s Hn Ha). cbn [sflags_of f_multiline]. rewrite Hbrk.
    destruct s; [congruence|]. rewrite !andb_false_r. destruct Hreq as [-> | ->]; reflexivity. }
  unfold emit_scalar. rewrite E. apply write_plain_ascii; [exact Hn|exact Ha|].
  exact (proj1 (an_loop_chars s _ _ _ _ _) Hbrk).
Qed.

Lemma plain_ok_simple_key k : plain_ok k -> (List.length k <=? 128)%nat = true -> simple_key_ok k = true.
Proof.
  intros Hok Hl. destruct (plain_ok_flags k Hok) as (_ & Hbrk & _). destruct Hok as (Hn & Ha & _).
  unfold simple_key_ok. rewrite (analyze_ascii k Hn Ha), Hl. cbn [sflags_of f_multiline]. rewrite Hbrk. reflexivity.
Qed.

Definition plain_first_char (c : ascii) : bool :=
  negb (is_wsp c) && (ceq c "-"%char || ceq c "?"%char || ceq c ":"%char || negb (is_indicator c)).

Lemma plain_first_ok_char c r : plain_first_ok (c :: r) = true -> plain_first_char c = true.
Proof.
  cbn [plain_first_ok]. unfold plain_first_char. destruct (is_wsp c); [discriminate|].
  destruct (ceq c "-"%char || ceq c "?"%char || ceq c ":"%char); [reflexivity|]. intros H. exact H.
Qed.

(* not a block indicator: `-`, `?` or `:` at the beginning is followed by a character that is not white space *)
Lemma plain_first_entry ind t :
  plain_first_ok t = true -> ceq ind "-"%char || ceq ind "?"%char || ceq ind ":"%char = true -> entry_of ind t = None.
Proof.
  destruct t as [|c r]; [reflexivity|]. cbn [plain_first_ok entry_of]. intros Hf Hi.
  destruct (ceq c ind) eqn:E; [|reflexivity]. apply Ascii.eqb_eq in E. subst ind.
  destruct (is_wsp c); [discriminate Hf|]. rewrite Hi in Hf.
  destruct r as [|d r']; [discriminate Hf|]. apply negb_true_iff in Hf. rewrite Hf. reflexivity.
Qed.

Lemma plain_first_line t :
  plain_first_ok t = true -> blank_text t = false /\ measure t = (O, t) /\ skip_wsp t = t /\ is_seq_entry t = false.
Proof.
  intros Hf. pose proof (plain_first_entry "-"%char t Hf eq_refl) as He.
  destruct t as [|c r]; [discriminate Hf|]. pose proof (plain_first_ok_char _ _ Hf) as Hc.
  assert (Hw : is_wsp c = false) by (unfold plain_first_char in Hc; destruct (is_wsp c); [discriminate Hc|reflexivity]).
  unfold blank_text, is_seq_entry. cbn [skip_wsp measure]. rewrite Hw, He, (ceq_class _ c "#" Hc eq_refl), (ceq_class _ c sp Hc eq_refl).
  repeat split.
Qed.

(* no line break of the reader's *)
Definition no_break_bytes (l : bytes) : bool := forallb (fun c => negb (ceq c nl) && negb (ceq c cr)) l.

(* [s], followed by nothing or by the `:` of an implicit key, is for the reader one plain scalar with the text [s] *)
Record plain_line (s : bytes) : Prop := mk_plain_line {
  pl_first : forall t, plain_first_ok (s ++ t) = true;
  pl_scan : forall t, (forall pws, scan_plain pws t = Some ([], t)) -> scan_plain false (s ++ t) = Some (s, t);
  pl_trim : rtrim s = s;
  pl_breaks : no_break_bytes s = true;
  pl_doc : doc_prefix s = false
}.

Lemma plain_line_head s t : plain_line s ->
  exists c r, s = c :: r /\ plain_first_char c = true /\ plain_first_ok (c :: r ++ t) = true.
Proof.
  intros H. pose proof (pl_first s H []) as H0. pose proof (pl_first s H t) as Hf.
  destruct s as [|c r]; [discriminate H0|]. exists c, r. rewrite app_nil_r in H0.
  split; [reflexivity|]. split; [exact (plain_first_ok_char _ _ H0)|exact Hf].
Qed.

Theorem plain_scalar_node s pind rest : plain_line s -> scalar_node pind s rest = Some (resolve_plain s, rest).
Proof.
  intros H. pose proof (pl_scan s H [] (fun _ => eq_refl)) as Hs.
  destruct (plain_line_head s [] H) as (c & r & -> & Hc & Hf). rewrite app_nil_r in Hs, Hf.
  unfold scalar_node.
  rewrite (ceq_class _ c "|" Hc eq_refl), (ceq_class _ c sqt Hc eq_refl), (ceq_class _ c dq Hc eq_refl), (ceq_class _ c "[" Hc eq_refl), (ceq_class _ c "{" Hc eq_refl).
  rewrite Hf, Hs, (pl_trim _ H). reflexivity.
Qed.

(* what follows the `:` of an implicit key *)
Definition key_rest (u : bytes) : Prop := match u with d :: _ => is_wsp d = true | [] => True end.

Lemma scan_plain_colon u pws : key_rest u -> scan_plain pws (":"%char :: u) = Some ([], ":"%char :: u).
Proof.
  intros Hu. cbn [scan_plain]. replace (ceq ":"%char ":"%char) with true by reflexivity.
  destruct u as [|d u']; [reflexivity|]. cbn [key_rest] in Hu. rewrite Hu. reflexivity.
Qed.

Theorem plain_scan_key s u : plain_line s -> key_rest u -> scan_key (s ++ ":"%char :: u) = Some (resolve_plain s, u).
Proof.
  intros H Hu. pose proof (pl_scan s H _ (fun pws => scan_plain_colon u pws Hu)) as Hs.
  destruct (plain_line_head s (":"%char :: u) H) as (c & r & -> & Hc & Hf). cbn [app] in Hs |- *.
  unfold scan_key. rewrite (ceq_class _ c sqt Hc eq_refl), (ceq_class _ c dq Hc eq_refl), Hf, Hs, (pl_trim _ H). reflexivity.
Qed.

Lemma plain_not_key s : plain_line s -> scan_key s = None.
Proof.
  intros H. pose proof (pl_scan s H [] (fun _ => eq_refl)) as Hs.
  destruct (plain_line_head s [] H) as (c & r & -> & Hc & Hf). rewrite app_nil_r in Hs, Hf.
  unfold scan_key. rewrite (ceq_class _ c sqt Hc eq_refl), (ceq_class _ c dq Hc eq_refl), Hf, Hs. reflexivity.
Qed.

(* as a node in the middle of a line (after `- `), whatever the fuel *)
Theorem plain_inline_node s f pind col rest :
  plain_line s -> inline_node (S f) pind col s rest = Some (resolve_plain s, rest).
Proof.
  intros H. pose proof (pl_first s H []) as Hf. rewrite app_nil_r in Hf.
  destruct (plain_first_line s Hf) as (_ & _ & _ & Hseq).
  cbn [inline_node]. rewrite Hseq, (plain_first_entry "?"%char s Hf eq_refl), (plain_not_key s H).
  apply plain_scalar_node. exact H.
Qed.

Lemma plain_scan s t : forall first pw pws ps pb a,
  (forall pws, scan_plain pws t = Some ([], t)) ->
  (pws = true -> pw = true) ->
  a_block_ind (an_loop first pw ps pb (achars s) a) = false ->
  a_breaks (an_loop first pw ps pb (achars s) a) = false ->
  a_special (an_loop first pw ps pb (achars s) a) = false ->
  scan_plain pws (s ++ t) = Some (s, t).
Proof.
  induction s as [|c r IH]; intros first pw pws ps pb a Ht Hpw H1 H2 H3; [apply Ht|].
  destruct (an_loop_step first pw ps pb c r a H1 H2 H3) as (Hbi & Hbr & Hpr & a' & EF & _).
  destruct (code_eqs c) as (E58 & E35 & _).
  destruct (printable_inline c Hpr Hbr) as [Htb _].
  (* at the first character and later: no `:` in front of a blank, no `#` after one *)
  assert (Hc : ((code c =? 58)%N && blank_follows r) = false /\ (ceq c "#"%char && pws) = false).
  { unfold block_ind_at in Hbi. destruct first.
    - apply orb_false_iff in Hbi as [Hbi _]. apply orb_false_iff in Hbi as [Hin Hq]. apply negb_true_iff in Hin.
      rewrite (ceq_class (fun c => negb (cp_in (code c) (b "#,[]{}&*!|>'""%@`"))) c "#" Hin eq_refl).
      split; [|reflexivity]. destruct (code c =? 58)%N; [rewrite orb_true_r in Hq; exact Hq|reflexivity].
    - apply orb_false_iff in Hbi as [Hc Hh]. split; [exact Hc|]. rewrite E35.
      destruct pws; [rewrite (Hpw eq_refl) in Hh; exact Hh|apply andb_false_r]. }
  destruct Hc as [G1 G2].
  assert (G1' : ((code c =? 58)%N && match r ++ t with d :: _ => is_wsp d | [] => true end) = false).
  { destruct (code c =? 58)%N; [|reflexivity]. cbn [andb] in G1 |- *. unfold blank_follows in G1.
    destruct r as [|d r']; [discriminate G1|]. cbn [app].
    destruct (is_wsp d) eqn:Ew; [|reflexivity]. rewrite (wsp_blankz d Ew) in G1. discriminate G1. }
  cbn [app scan_plain]. rewrite E58, G1', G2, Htb.
  rewrite EF in H1, H2, H3.
  rewrite (IH _ _ (is_wsp c) _ _ _ Ht (wsp_blankz c) H1 H2 H3). reflexivity.
Qed.

Lemma an_last s : forall first pw ps pb a,
  s <> [] ->
  a_block_ind (an_loop first pw ps pb (achars s) a) = false ->
  a_breaks (an_loop first pw ps pb (achars s) a) = false ->
  a_special (an_loop first pw ps pb (achars s) a) = false ->
  a_trail_sp (an_loop first pw ps pb (achars s) a) = false ->
  exists s' x, s = s' ++ [x] /\ is_wsp x = false.
Proof.
  induction s as [|c r IH]; intros first pw ps pb a Hn H1 H2 H3 H4; [congruence|].
  destruct (an_loop_step first pw ps pb c r a H1 H2 H3) as (_ & Hbr & Hpr & a' & EF & _ & Etr).
  destruct (printable_inline c Hpr Hbr) as [_ Htab].
  destruct (code_eqs c) as (_ & _ & _ & _ & E32).
  rewrite EF in H1, H2, H3, H4.
  destruct r as [|d r'].
  - exists [], c. split; [reflexivity|].
    cbn [achars map an_loop] in H4. rewrite Etr in H4. apply orb_false_iff in H4 as [_ H4].
    rewrite andb_true_r in H4. unfold is_wsp. rewrite E32, H4, Htab. reflexivity.
  - destruct (IH _ _ _ _ _ ltac:(congruence) H1 H2 H3 H4) as (s' & x & E & Hx).
    exists (c :: s'), x. split; [rewrite E; reflexivity|exact Hx].
Qed.

Lemma no_breaks_bytes s : no_breaks s = true -> no_break_bytes s = true.
Proof.
  unfold no_breaks, no_break_bytes. induction s as [|c r IH]; [reflexivity|]. cbn [forallb]. intros H.
  apply andb_true_iff in H as [Hc Hr].
  rewrite (ceq_class (fun c => negb (is_break_cp (code c))) c nl Hc eq_refl),
          (ceq_class (fun c => negb (is_break_cp (code c))) c cr Hc eq_refl).
  exact (IH Hr).
Qed.

Lemma plain_ok_first c r t :
  a_block_ind (analysis_flags (c :: r)) = false -> a_breaks (analysis_flags (c :: r)) = false -> a_special (analysis_flags (c :: r)) = false ->
  a_lead_sp (analysis_flags (c :: r)) = false ->
  plain_first_ok (c :: r ++ t) = true.
Proof.
  unfold analysis_flags. set (A0 := mk_af _ _ _ _ _ _ _ _ _). intros Hbi Hbrk Hspec Hlsp.
  destruct (an_loop_step true true false false c r A0 Hbi Hbrk Hspec) as (Hfirst & Hbr & Hpr & a' & EF & Elead & _).
  unfold block_ind_at in Hfirst.
  apply orb_false_iff in Hfirst as [Hfirst Hminus]. apply orb_false_iff in Hfirst as [Hin Hqc].
  pose proof (first_not_indicator c Hin) as Nind.
  destruct (printable_inline c Hpr Hbr) as [_ Htab].
  destruct (code_eqs c) as (E58 & _ & E45 & E63 & E32).
  assert (Hw : is_wsp c = false).
  { destruct (an_loop_mono r false (is_blankz_cp (code c)) (code c =? 32)%N
                           (negb (code c =? 32)%N && is_break_cp (code c)) a') as (_ & _ & _ & I4).
    rewrite EF in Hlsp. apply I4 in Hlsp. rewrite Elead in Hlsp. apply orb_false_iff in Hlsp as [_ Hlsp].
    rewrite andb_true_r in Hlsp. unfold is_wsp. rewrite E32, Hlsp, Htab. reflexivity. }
  cbn [plain_first_ok]. rewrite Hw.
  destruct (ceq c "-"%char || ceq c "?"%char || ceq c ":"%char) eqn:Ei; [|rewrite Nind; reflexivity].
  assert (Hf : blank_follows r = false).
  { rewrite E45, E63, E58 in Ei. destruct (code c =? 45)%N; [exact Hminus|]. cbn [orb] in Ei. rewrite Ei in Hqc. exact Hqc. }
  unfold blank_follows in Hf. destruct r as [|d r']; [discriminate Hf|]. cbn [app].
  destruct (is_wsp d) eqn:Ew; [rewrite (wsp_blankz d Ew) in Hf; discriminate Hf|reflexivity].
Qed.

Theorem plain_ok_line s : plain_ok s -> plain_line s.
Proof.
  intros Hok. destruct (plain_ok_flags s Hok) as (Hbi & Hbrk & Hspec & Hlsp & Htr).
  destruct Hok as (Hn & _ & _). destruct s as [|c r]; [congruence|].
  pose proof (fun t => plain_ok_first c r t Hbi Hbrk Hspec Hlsp) as Hfirst.
  unfold analysis_flags in *. set (A0 := mk_af _ _ _ _ _ _ _ _ _) in *.
  constructor.
  - exact Hfirst.
  - intros t Ht. exact (plain_scan (c :: r) t true true false false false A0 Ht (fun _ => eq_refl) Hbi Hbrk Hspec).
  - destruct (an_last (c :: r) true true false false A0 ltac:(congruence) Hbi Hbrk Hspec Htr) as (s' & x & E & Hx).
    rewrite E. unfold rtrim. rewrite rev_unit. cbn [skip_wsp]. rewrite Hx. cbn [rev]. rewrite rev_involutive. reflexivity.
  - apply no_breaks_bytes. exact (proj1 (an_loop_chars (c :: r) _ _ _ _ _) Hbrk).
  - destruct (an_loop_mono (c :: r) true true false false A0) as (I1 & _). exact (I1 Hbi).
Qed.

(* serde_yaml leaves the style of such a text to libyaml, unless its own reader would take it for something else *)
Lemma str_style_plain s : plain_line s -> needs_quote s = false -> str_style s = SAny.
Proof.
  intros H Hq. unfold str_style. rewrite Hq.
  replace (existsb (fun c => ceq c nl) s) with false; [reflexivity|].
  pose proof (pl_breaks s H) as Hb. unfold no_break_bytes in Hb. clear - Hb. induction s as [|c r IH]; [reflexivity|].
  cbn [forallb existsb] in *. apply andb_true_iff in Hb as [Hc Hr]. apply andb_true_iff in Hc as [Hc _].
  apply negb_true_iff in Hc. rewrite Hc. exact (IH Hr).
Qed.

Record line_ok (l : bytes) : Prop := mk_line_ok {
  lo_breaks : no_break_bytes l = true;
  lo_measure : measure l = (O, l);
  lo_blank : blank_text l = false;
  lo_marker : is_marker_line (O, l) = false
}.

Lemma split_lines_line l r : no_break_bytes l = true -> split_lines (l ++ nl :: r) = l :: split_lines r.
Proof.
  induction l as [|c t IH]; intros H.
  - cbn [app split_lines]. replace (ceq nl nl) with true by reflexivity. reflexivity.
  - unfold no_break_bytes in H. cbn [forallb] in H. apply andb_true_iff in H as [Hc Ht].
    apply andb_true_iff in Hc as [H1 H2]. apply negb_true_iff in H1. apply negb_true_iff in H2.
    cbn [app split_lines]. rewrite H1, H2, (IH Ht). reflexivity.
Qed.

Lemma split_lines_flat ls : Forall line_ok ls -> split_lines (flat_map (fun l => l ++ [nl]) ls) = ls.
Proof.
  induction 1 as [|l r Hl _ IH]; [reflexivity|].
  cbn [flat_map]. rewrite <- app_assoc. cbn [app]. rewrite (split_lines_line _ _ (lo_breaks l Hl)), IH. reflexivity.
Qed.

Lemma cut_marker_none ls : existsb is_marker_line ls = false -> cut_marker ls = (ls, []).
Proof.
  induction ls as [|l r IH]; intros H; [reflexivity|].
  cbn [existsb] in H. apply orb_false_iff in H as [H1 H2].
  cbn [cut_marker]. rewrite H1, (IH H2). reflexivity.
Qed.

(* the document is the node that begins on the first line *)
Theorem yaml_parse_lines l0 ls :
  Forall line_ok (l0 :: ls) -> doc_marker (b "---") l0 = false ->
  yaml_parse (flat_map (fun l => l ++ [nl]) (l0 :: ls))
  = match inline_node (S (List.length (flat_map (fun l => l ++ [nl]) (l0 :: ls)))) (-1) 0 l0 (map (pair O) ls) with
    | Some (d, rest) => match skip_blank rest with [] => Some d | _ :: _ => None end
    | None => None
    end.
Proof.
  intros Hok Hd. unfold yaml_parse. rewrite (split_lines_flat _ Hok).
  assert (Hm : map measure (l0 :: ls) = map (pair O) (l0 :: ls)).
  { apply map_ext_in. intros l Hin. rewrite Forall_forall in Hok. exact (lo_measure l (Hok l Hin)). }
  assert (Hmk : existsb is_marker_line (map (pair O) (l0 :: ls)) = false).
  { clear - Hok. induction Hok as [|l r Hl _ IH]; [reflexivity|]. cbn [map existsb]. rewrite (lo_marker l Hl), IH. reflexivity. }
  rewrite Hm. inversion Hok as [|? ? Hl0 _]; subst.
  cbn [map skip_blank] in Hmk |- *. rewrite (lo_blank l0 Hl0), Hd, (cut_marker_none _ Hmk).
  unfold block_of. cbn [skip_blank]. rewrite (lo_blank l0 Hl0).
  replace ((-1 <? Z.of_nat 0)%Z) with true by reflexivity. cbn [orb].
  destruct (inline_node _ _ _ _ _) as [[d rest]|]; [|reflexivity]. destruct (skip_blank rest); reflexivity.
Qed.

Definition colon_first (t : bytes) : Prop := match t with [] => True | d :: _ => d = ":"%char end.

Lemma doc_prefix_strip s t : doc_prefix s = false -> colon_first t ->
  strip_prefix (b "---") (s ++ t) = None /\ strip_prefix (b "...") (s ++ t) = None.
Proof.
  intros Hd Ht.
  assert (G : forall x, Ascii.eqb x ":"%char = false ->
                match s with c1 :: c2 :: c3 :: _ => ceq c1 x && ceq c2 x && ceq c3 x | _ => false end = false ->
                strip_prefix [x; x; x] (s ++ t) = None).
  { intros x Hx Hs. destruct (strip_prefix [x; x; x] (s ++ t)) as [l|] eqn:E; [exfalso|reflexivity].
    apply strip_prefix_some in E. cbn [app] in E.
    assert (T : forall u, t = x :: u -> False).
    { intros u ->. cbn [colon_first] in Ht. subst x. discriminate Hx. }
    destruct s as [|c1 [|c2 [|c3 r]]]; cbn [app] in E.
    - exact (T _ E).
    - injection E as _ E. exact (T _ E).
    - injection E as _ _ E. exact (T _ E).
    - injection E as -> -> -> _. unfold ceq in Hs. rewrite Ascii.eqb_refl in Hs. discriminate Hs. }
  unfold doc_prefix in Hd.
  split; apply G; try reflexivity; destruct s as [|c1 [|c2 [|c3 r]]]; try reflexivity;
    apply orb_false_iff in Hd; tauto.
Qed.

Lemma plain_line_ok s t :
  plain_line s -> no_break_bytes t = true -> colon_first t ->
  line_ok (s ++ t) /\ doc_marker (b "---") (s ++ t) = false.
Proof.
  intros H Hb Ht. destruct (plain_first_line _ (pl_first s H t)) as (Hbl & Hm & _).
  destruct (doc_prefix_strip s t (pl_doc s H) Ht) as [S1 S2].
  split; [constructor|].
  - unfold no_break_bytes in *. rewrite forallb_app, Hb, andb_true_r. exact (pl_breaks s H).
  - exact Hm.
  - exact Hbl.
  - unfold is_marker_line. rewrite S1, S2. reflexivity.
  - unfold doc_marker. rewrite S1. reflexivity.
Qed.

Theorem yaml_parse_plain s : plain_line s -> yaml_parse (s ++ [nl]) = Some (resolve_plain s).
Proof.
  intros H. destruct (plain_line_ok s [] H eq_refl I) as [Hl Hd]. rewrite app_nil_r in Hl, Hd.
  rewrite <- (app_nil_r (s ++ [nl])). change ((s ++ [nl]) ++ []) with (flat_map (fun l => l ++ [nl]) [s]).
  rewrite (yaml_parse_lines s [] (Forall_cons _ Hl (Forall_nil _)) Hd), (plain_inline_node s _ _ _ _ H). reflexivity.
Qed.
