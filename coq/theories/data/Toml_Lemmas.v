(* C03, TOML part: the theorems about the model of ucg's TOML output (Toml.v) under the names the
   property refers to, test vectors for the model, and the known defect class as the model has it. *)
From Ucg Require Import base.Bytes base.Bytes_Lemmas data.Val data.Json data.MapJson data.MapJson_Lemmas data.Toml.
From Ucg Require Export data.Toml_Str data.Toml_Num data.Toml_Err data.Toml_Sem data.Toml_Val data.Toml_Out data.Toml_Lex data.Toml_Doc.
Local Open Scope list_scope.

(* every byte string: the string token written for it is read back as the same bytes *)
Theorem toml_string_roundtrip : forall s rest,
  follow_ok rest = true -> parse_string (emit_value_str s ++ rest) = Some (s, rest).
Proof. exact Toml_Str.toml_string_roundtrip. Qed.

(* every key: bare when it can be, basic-quoted otherwise, read back as the same bytes *)
Theorem toml_key_roundtrip : forall k rest,
  key_follow_ok rest -> parse_key (escape_key k ++ rest) = Some (k, rest).
Proof. exact Toml_Str.toml_key_roundtrip. Qed.

Theorem toml_int_roundtrip : forall z rest,
  in_i64 z = true -> tok_follow_ok rest -> parse_scalar (dec_of_Z z ++ rest) = Some (DInt z, rest).
Proof. exact Toml_Num.toml_int_roundtrip. Qed.

(* every finite float, given by Rust's Display text: a FLOAT token denoting the same decimal *)
Theorem toml_float_text : forall t neg i fd rest,
  rust_float_parts t = Some (neg, i, fd) -> tok_follow_ok rest ->
  let d := mk_fin neg (digits_val (i ++ fd)) (- Z.of_nat (List.length fd))%Z in
  parse_scalar (float_text (TFin t) ++ rest) = Some (DFloat d, rest) /\ spec_float (FFin t) = Some d.
Proof. exact Toml_Num.toml_float_text. Qed.

(* ... where normalisation keeps the number: m * 10^e = m' * 10^e' *)
Theorem toml_float_value : forall m e m' e',
  norm_dec m e = (m', e') -> m <> 0%N ->
  exists k : nat, e' = (e + Z.of_nat k)%Z /\ m = (m' * 10 ^ N.of_nat k)%N.
Proof. exact Toml_Num.norm_dec_value. Qed.

Theorem to_toml_error_iff : forall v,
  (exists e, toml_output v = TErr e) <-> unrepresentable_toml v = true.
Proof.
  intros v. rewrite <- Toml_Err.to_toml_error_iff. unfold is_terr.
  destruct (toml_output v) as [o|e]; split; try discriminate; eauto. intros [e H]. discriminate.
Qed.

Theorem toml_doc_roundtrip : forall v t out,
  val_wf v = true -> to_toml v = TOk t -> good t = true -> toml_emit t = TOk out ->
  exists d, toml_parse out = Some d /\ spec_data v = Some (doc_canon d).
Proof. exact Toml_Doc.toml_doc_roundtrip. Qed.

Definition t_of (s : string) : bytes := b s.

Definition ex_plain : val :=
  VTuple [(b "name", VStr (b "alice")); (b "x y", VFloat (FFin (b "1.5")));
          (b "n", VTuple [(b "p", VInt 8080); (b "q", VTuple [])]);
          (b "l", VList [VInt 1; VInt 2; VList [VStr (b "a'b")]]); (b "e", VList []);
          (b "aot", VList [VTuple [(b "x", VInt 1)];
                           VTuple [(b "x", VInt 2); (b "sub", VTuple [(b "y", VFloat (FFin (b "100")))])]]);
          (b "s", VStr (b "it's")); (b "m", VStr (b "a" ++ [nl] ++ b "b"))].

Example ex_plain_text :
  toml_output ex_plain =
  TOk (b "e = []" ++ [nl] ++ b "l = [" ++ [nl] ++ b "    1," ++ [nl] ++ b "    2," ++ [nl] ++ b "    ['''a'b''']," ++ [nl] ++ b "]" ++ [nl]
       ++ b "m = '''" ++ [nl] ++ b "a" ++ [nl] ++ b "b'''" ++ [nl] ++ b "name = 'alice'" ++ [nl] ++ b "s = '''it's'''" ++ [nl]
       ++ b """x y"" = 1.5" ++ [nl] ++ [nl] ++ b "[[aot]]" ++ [nl] ++ b "x = 1" ++ [nl] ++ [nl] ++ b "[[aot]]" ++ [nl] ++ b "x = 2" ++ [nl]
       ++ [nl] ++ b "[aot.sub]" ++ [nl] ++ b "y = 100.0" ++ [nl] ++ [nl] ++ b "[n]" ++ [nl] ++ b "p = 8080" ++ [nl] ++ [nl] ++ b "[n.q]" ++ [nl]).
Proof. vm_compute. reflexivity. Qed.

Example ex_plain_reads_back :
  match toml_output ex_plain with TOk o => toml_rt_ok ex_plain o | TErr _ => false end = true.
Proof. vm_compute. reflexivity. Qed.

Example ex_plain_good :
  val_wf ex_plain = true /\ match to_toml ex_plain with TOk t => good t | TErr _ => false end = true.
Proof. split; vm_compute; reflexivity. Qed.

(* strings that need each of the four representations *)
Example ex_strings :
  emit_value_str (b "plain") = b "'plain'" /\
  emit_value_str (b "it's") = b "'''it's'''" /\
  emit_value_str (b "a" ++ [nl] ++ b "b") = b "'''" ++ [nl] ++ b "a" ++ [nl] ++ b "b'''" /\
  emit_value_str (b "ends'") = b """ends'""" /\
  emit_value_str (b "''' inside") = b """''' inside""" /\
  emit_value_str (b "bell" ++ [ascii_of_N 7]) = b """bell\u0007""" /\
  emit_value_str (b "x'" ++ [nl]) = b "'''" ++ [nl] ++ b "x'" ++ [nl] ++ b "'''" /\
  emit_value_str (b "q""" ++ [nl; ascii_of_N 127]) = b """""""" ++ [nl] ++ b "q\""" ++ [nl] ++ b "\u007F""""""" /\
  emit_value_str [] = b "''".
Proof. repeat split; vm_compute; reflexivity. Qed.

Example ex_keys :
  escape_key (b "bare-key_1") = b "bare-key_1" /\ escape_key (b "a.b") = b """a.b""" /\
  escape_key [] = b """""" /\ escape_key (b "k" ++ [nl]) = b """k\n""".
Proof. repeat split; vm_compute; reflexivity. Qed.

Example ex_numbers :
  float_text (TFin (b "-0")) = b "-0.0" /\ float_text (TFin (b "100")) = b "100.0" /\
  float_text (TFin (b "0.1")) = b "0.1" /\ float_text (TNan true) = b "-nan" /\ float_text (TInf true) = b "-inf" /\
  classify_tok (b "-9223372036854775808") = Some (DInt (-9223372036854775808)) /\
  classify_tok (b "9223372036854775808") = None /\
  classify_tok (b "1979-05-27") = Some (DDate (b "1979-05-27")) /\
  classify_tok (b "1_000") = Some (DInt 1000) /\ classify_tok (b "0x1F") = Some (DInt 31) /\
  classify_tok (b "1e3") = Some (DFloat (DFin false 1 3)) /\ classify_tok (b "100.0") = Some (DFloat (DFin false 1 2)) /\
  classify_tok (b "01") = None /\ classify_tok (b "1.") = None.
Proof. repeat split; vm_compute; reflexivity. Qed.

(* a date-like STRING is written quoted and therefore read back as a string, not as a date *)
Example ex_date_string :
  toml_output (VTuple [(b "d", VStr (b "1979-05-27"))]) = TOk (b "d = '1979-05-27'" ++ [nl]) /\
  toml_parse (b "d = '1979-05-27'" ++ [nl]) = Some (DTab [(b "d", DStr (b "1979-05-27"))]) /\
  toml_parse (b "d = 1979-05-27" ++ [nl]) = Some (DTab [(b "d", DDate (b "1979-05-27"))]).
Proof. repeat split; vm_compute; reflexivity. Qed.

(* the reader on documents the writer never produces *)
Example ex_reader :
  toml_parse (b "# c" ++ [nl] ++ b "a.b = 1" ++ [nl]) = None /\                                    (* dotted key in a pair: not supported *)
  toml_parse (b "a = 1" ++ [nl] ++ b "a = 2" ++ [nl]) = None /\                                    (* duplicate key *)
  toml_parse (b "[a]" ++ [nl] ++ b "[a]" ++ [nl]) = None /\                                        (* table defined twice *)
  toml_parse (b "[a.b]" ++ [nl] ++ b "[a]" ++ [nl] ++ b "x = 1" ++ [nl])
    = Some (DTab [(b "a", DTab [(b "b", DTab []); (b "x", DInt 1)])]) /\                           (* implied table defined later *)
  toml_parse (b "a = [1, 2]" ++ [nl] ++ b "[[a]]" ++ [nl]) = None /\                               (* static array vs [[a]] *)
  toml_parse (b "t = { x = 1, y = ""s"" } # c" ++ [nl])
    = Some (DTab [(b "t", DTab [(b "x", DInt 1); (b "y", DStr (b "s"))])]) /\                       (* inline table, comment *)
  toml_parse (b "s = ""aé\tb""" ++ [nl])
    = Some (DTab [(b "s", DStr (b "a" ++ [ascii_of_N 195; ascii_of_N 169; tab] ++ b "b"))]) /\     (* escapes *)
  toml_parse (b "a = [ 1, # one" ++ [nl] ++ b "  2 ]" ++ [nl]) = Some (DTab [(b "a", DArr [DInt 1; DInt 2])]).
Proof. repeat split; vm_compute; reflexivity. Qed.

(* errors: every branch *)
Example ex_errors :
  toml_output (VTuple [(b "a", VEmpty)]) = TErr ENull /\
  toml_output (VTuple [(b "a", VInt 1); (b "a", VEmpty)]) = TErr ENull /\           (* a shadowed duplicate is still converted *)
  toml_output (VTuple [(b "a", VList [VConstraint])]) = TErr EConstraint /\
  toml_output (VList []) = TErr ENotTable /\ toml_output (VInt 5) = TErr ENotTable /\
  toml_output (VList [VEmpty]) = TErr ENull /\                                        (* conversion errors come first *)
  toml_output (VTuple [(b "a", VList [VTuple [(b "x", VInt 1)]]); (b "c", VList [VInt 1; VTuple [(b "b", VInt 2)]])])
    = TErr EValueAfterTable.
Proof. repeat split; vm_compute; reflexivity. Qed.

(* duplicate keys: the first binding wins, in the converter and in the specification *)
Example ex_first_wins :
  toml_output (VTuple [(b "a", VInt 1); (b "b", VInt 2); (b "a", VInt 3)]) = TOk (b "a = 1" ++ [nl] ++ b "b = 2" ++ [nl]) /\
  spec_data (VTuple [(b "a", VInt 1); (b "b", VInt 2); (b "a", VInt 3)]) = Some (DTab [(b "a", DInt 1); (b "b", DInt 2)]).
Proof. split; vm_compute; reflexivity. Qed.

(* The known class C03-toml-mixed-array.  {a = [1, {b = 2}]}: the property says "a list mixing tables and non-tables is a conversion
   error".  It is not: the converter answers Ok, and the text is not TOML at all. *)
Definition ex_mixed : val := VTuple [(b "a", VList [VInt 1; VTuple [(b "b", VInt 2)]])].

Lemma toml_mixed_array_refuted :
  unrepresentable_toml ex_mixed = false /\
  toml_output ex_mixed
  = TOk (b "a = [" ++ [nl] ++ b "    1" ++ [nl] ++ b "[[a]]" ++ [nl] ++ b "b = 2" ++ [nl] ++ b "," ++ [nl] ++ b "]" ++ [nl]) /\
  (forall o, toml_output ex_mixed = TOk o -> toml_parse o = None) /\
  match to_toml ex_mixed with TOk t => good t | TErr _ => true end = false.
Proof.
  split; [vm_compute; reflexivity|]. split; [vm_compute; reflexivity|]. split; [|vm_compute; reflexivity].
  intros o H. vm_compute in H. inversion H. vm_compute. reflexivity.
Qed.

(* worse: a table nested in a list inside a list of tables is written as VALID TOML that denotes
   different data -- {a = [{b = 1}, [{c = 2}]]} reads back as a = [{b = 1}, {c = 2}] *)
Definition ex_altered : val :=
  VTuple [(b "a", VList [VTuple [(b "b", VInt 1)]; VList [VTuple [(b "c", VInt 2)]]])].

Lemma toml_nested_table_array_alters :
  unrepresentable_toml ex_altered = false /\
  toml_output ex_altered = TOk (b "[[a]]" ++ [nl] ++ b "b = 1" ++ [nl] ++ b "[[a]]" ++ [nl] ++ b "c = 2" ++ [nl]) /\
  (forall o, toml_output ex_altered = TOk o ->
     toml_parse o = Some (DTab [(b "a", DArr [DTab [(b "b", DInt 1)]; DTab [(b "c", DInt 2)]])])) /\
  spec_data ex_altered = Some (DTab [(b "a", DArr [DTab [(b "b", DInt 1)]; DArr [DTab [(b "c", DInt 2)]]])]).
Proof.
  split; [vm_compute; reflexivity|]. split; [vm_compute; reflexivity|]. split; [|vm_compute; reflexivity].
  intros o H. vm_compute in H. inversion H. vm_compute. reflexivity.
Qed.

(* ... and the same class can also be an error, depending on sibling keys (ValueAfterTable) *)
Lemma toml_mixed_array_sometimes_error :
  toml_output (VTuple [(b "a", VList [VTuple [(b "x", VInt 1)]]); (b "c", VList [VInt 1; VTuple [(b "b", VInt 2)]])])
  = TErr EValueAfterTable /\
  toml_output (VTuple [(b "a", VList [VList [VTuple []]]); (b "z", VInt 1)]) = TErr EValueAfterTable.
Proof. split; vm_compute; reflexivity. Qed.
