(* The JSON model evaluated on inputs for which the output of the real code (serde_json 1.0.149
   behind src/convert/json.rs) was observed. *)
From Ucg Require Import base.Bytes data.Val data.Json data.MapJson.

Local Notation "'#' n" := (ascii_of_nat n) (at level 0, n at level 0).

(* Coq string literals are raw bytes: UTF-8 passes through *)
Example lit_utf8 : b "é" = [#195; #169].
Proof. vm_compute. reflexivity. Qed.

(* printer vs. serde_json::to_writer_pretty *)

Example out_empty : json_output VEmpty = Ok (b "null").
Proof. vm_compute. reflexivity. Qed.
Example out_int42 : json_output (VInt 42) = Ok (b "42.0").
Proof. vm_compute. reflexivity. Qed.
Example out_int_m7 : json_output (VInt (-7)) = Ok (b "-7.0").
Proof. vm_compute. reflexivity. Qed.
Example out_int0 : json_output (VInt 0) = Ok (b "0.0").
Proof. vm_compute. reflexivity. Qed.
Example out_int_2_53 : json_output (VInt 9007199254740992) = Ok (b "9007199254740992.0").
Proof. vm_compute. reflexivity. Qed.
Example out_int_m2_53 : json_output (VInt (-9007199254740992)) = Ok (b "-9007199254740992.0").
Proof. vm_compute. reflexivity. Qed.
(* real code: "9007199254740992.0" (rounding) -- outside the modelled range *)
Example out_int_2_53_1 : json_output (VInt 9007199254740993) = Unsupported.
Proof. vm_compute. reflexivity. Qed.
Example out_f1 : json_output (VFloat (FFin (b "1.5"))) = Ok (b "1.5").
Proof. vm_compute. reflexivity. Qed.
Example out_f2 : json_output (VFloat (FFin (b "-0.0"))) = Ok (b "-0.0").
Proof. vm_compute. reflexivity. Qed.
Example out_f3 : json_output (VFloat (FFin (b "1e+300"))) = Ok (b "1e+300").
Proof. vm_compute. reflexivity. Qed.
Example out_f4 : json_output (VFloat (FFin (b "1.5e-10"))) = Ok (b "1.5e-10").
Proof. vm_compute. reflexivity. Qed.
Example out_f_bad1 : json_output (VFloat (FFin (b "5"))) = Unsupported.
Proof. vm_compute. reflexivity. Qed.
Example out_f_bad2 : json_output (VFloat (FFin (b "1.e5"))) = Unsupported.
Proof. vm_compute. reflexivity. Qed.
Example out_nan : json_output (VFloat FNaN) = Err.
Proof. vm_compute. reflexivity. Qed.
Example out_inf : json_output (VFloat FInf) = Err.
Proof. vm_compute. reflexivity. Qed.
Example out_constraint : json_output (VList [VInt 1; VConstraint]) = Err.
Proof. vm_compute. reflexivity. Qed.
(* Err dominates Unsupported, in either order *)
Example out_err_dominates1 : json_output (VList [VInt 9007199254740993; VConstraint]) = Err.
Proof. vm_compute. reflexivity. Qed.
Example out_err_dominates2 : json_output (VList [VConstraint; VInt 9007199254740993]) = Err.
Proof. vm_compute. reflexivity. Qed.
Example out_emptylist : json_output (VList []) = Ok (b "[]").
Proof. vm_compute. reflexivity. Qed.
Example out_emptytuple : json_output (VTuple []) = Ok (b "{}").
Proof. vm_compute. reflexivity. Qed.

(* probe case str-esc: quote, backslash, slash, controls, DEL, 2/3/4-byte UTF-8 *)
Definition esc_str : bytes :=
  b "a""b\c/d" ++ [#8; #12; #10; #13; #9; #1; #31; #127] ++ b "é€😀".
Example out_str_esc :
  json_output (VStr esc_str)
  = Ok (b """a\""b\\c/d\b\f\n\r\t\u0001\u001f" ++ [#127] ++ b "é€😀""").
Proof. vm_compute. reflexivity. Qed.

(* every escape the ESCAPE table produces *)
Example out_all_controls :
  json_output (VStr (map ascii_of_nat (seq 0 32)))
  = Ok (b """\u0000\u0001\u0002\u0003\u0004\u0005\u0006\u0007\b\t\n\u000b\f\r\u000e\u000f\u0010\u0011\u0012\u0013\u0014\u0015\u0016\u0017\u0018\u0019\u001a\u001b\u001c\u001d\u001e\u001f""").
Proof. vm_compute. reflexivity. Qed.

Definition nested_val : val :=
  VTuple [
    (b "b", VList [VInt 1; VList []; VTuple []; VList [VBool true; VEmpty]]);
    (b "a", VTuple [(b "x", VFloat (FFin (b "2.5"))); (b "k""q", VStr (b "v"))]);
    (b "b", VInt 99);
    (b "", VBool false);
    (b "B", VEnv [(b "Z", b "1"); (b "A", b "2"); (b "Z", b "3")]);
    (b "ab", VInt 3);
    (b "é", VInt 4)].

Definition nested_text : bytes := b
"{
  """": false,
  ""B"": {
    ""A"": ""2"",
    ""Z"": ""1""
  },
  ""a"": {
    ""k\""q"": ""v"",
    ""x"": 2.5
  },
  ""ab"": 3.0,
  ""b"": [
    1.0,
    [],
    {},
    [
      true,
      null
    ]
  ],
  ""é"": 4.0
}".

Example out_nested : json_output nested_val = Ok nested_text.
Proof. vm_compute. reflexivity. Qed.

(* shadowed duplicate still raises the error (Rust converts before or_insert) *)
Example out_dup_err :
  json_output (VTuple [(b "a", VInt 1); (b "a", VFloat FNaN)]) = Err.
Proof. vm_compute. reflexivity. Qed.

(* parser + from_json vs. JsonConverter::import *)

Example in_null : json_input (b "null") = Some VEmpty.
Proof. vm_compute. reflexivity. Qed.

Example in_numbers :
  json_input (b " [1, 2.0, -0, 0, -1, 1e2, 1E2, 9223372036854775807, 9223372036854775808, -9223372036854775808, -9223372036854775809, 18446744073709551615, 18446744073709551616, 0.5, -0.0] ")
  = Some (VList [VInt 1; VFloat (FFin (b "2.0")); VFloat (FFin (b "-0")); VInt 0; VInt (-1);
                 VFloat (FFin (b "1e2")); VFloat (FFin (b "1E2"));
                 VInt 9223372036854775807; VFloat (FFin (b "9223372036854775808"));
                 VInt (-9223372036854775808); VFloat (FFin (b "-9223372036854775809"));
                 VFloat (FFin (b "18446744073709551615")); VFloat (FFin (b "18446744073709551616"));
                 VFloat (FFin (b "0.5")); VFloat (FFin (b "-0.0"))]).
Proof. vm_compute. reflexivity. Qed.

Example in_object :
  json_input (b "{""b"": 1, ""a"": 2, ""b"": 3, """": null, ""B"": {""z"":[], ""y"":{}}}")
  = Some (VTuple [(b "", VEmpty); (b "B", VTuple [(b "y", VTuple []); (b "z", VList [])]);
                  (b "a", VInt 2); (b "b", VInt 3)]).
Proof. vm_compute. reflexivity. Qed.

(* the parser itself keeps duplicates, in order *)
Example parse_keeps_dups :
  json_parse (b "{""b"": 1, ""a"": 2, ""b"": 3}")
  = Some (JObj [(b "b", JNum (b "1")); (b "a", JNum (b "2")); (b "b", JNum (b "3"))]).
Proof. vm_compute. reflexivity. Qed.

Example in_escapes :
  json_input (b """\u00e9\u20ac\ud83d\ude00\/\b\f\n\r\t\""\\""")
  = Some (VStr (b "é€😀/" ++ [#8; #12; #10; #13; #9] ++ b """\")).
Proof. vm_compute. reflexivity. Qed.

Example in_upper_hex : json_input (b """\u00E9\uD83D\uDE00""") = Some (VStr (b "é😀")).
Proof. vm_compute. reflexivity. Qed.
Example in_u0000 : json_input (b """\u0000""") = Some (VStr [#0]).
Proof. vm_compute. reflexivity. Qed.
Example in_del : json_input [dq; #127; dq] = Some (VStr [#127]).
Proof. vm_compute. reflexivity. Qed.
Example in_ws : json_input ([tab; nl; cr; sp] ++ b "[" ++ [tab; nl; cr] ++ b "]" ++ [tab; nl; cr]) = Some (VList []).
Proof. vm_compute. reflexivity. Qed.
Example in_ws2 : json_input (b "{""a"" : [ ] , ""c"" : { } }") = Some (VTuple [(b "a", VList []); (b "c", VTuple [])]).
Proof. vm_compute. reflexivity. Qed.
Example in_num1 : json_input (b "1e+5") = Some (VFloat (FFin (b "1e+5"))).
Proof. vm_compute. reflexivity. Qed.
Example in_num2 : json_input (b "-0.0e-0") = Some (VFloat (FFin (b "-0.0e-0"))).
Proof. vm_compute. reflexivity. Qed.
Example in_num3 : json_input (b "123456789012345678901234567890") = Some (VFloat (FFin (b "123456789012345678901234567890"))).
Proof. vm_compute. reflexivity. Qed.

(* rejected by both *)
Definition rejected : list bytes :=
  [ b """\ud83d"""; b """\ude00"""; b """\ud83dx"""; b """\ud83d\u0041""";
    [dq; "a"%char; nl; "b"%char; dq]; [dq; "a"%char; tab; "b"%char; dq];
    b "01"; b "1."; b ".5"; b "1e"; b "-"; b "+1"; b "[1,]"; b "[,1]"; b "{""a"":1,}";
    b "[1 2]"; b ""; b " "; b "nul"; b "true false"; b "[] x";
    [#239; #187; #191] ++ b "null"; b """\x"""; b """\U0041"""; [#12] ++ b "[]";
    b "{1:2}"; b "{""a""}"; b "[""a"":1]"; b "tru"; b "00"; b "-01"; b "1.e2";
    b "[1"; b "{""a"":1"; b """abc"; b "[1,2"; b "1-2"; b "1e5.5"; b "--1"; b "1ee5"; b "0x10";
    b "{""a"":1 ""b"":2}"; b "{,}"; b "[}" ; b "{]"; b "]" ].
Example in_rejected : forallb (fun s => match json_parse s with None => true | Some _ => false end) rejected = true.
Proof. vm_compute. reflexivity. Qed.

Definition every_json : json :=
  JObj [ (b "null", JNull); (b "t", JBool true); (b "f", JBool false);
         (b "n", JNum (b "-12.5e+3")); (b "s", JStr esc_str);
         (b "a", JArr [JArr []; JObj []; JArr [JNum (b "0")]; JStr []]);
         (esc_str, JObj [(b "dup", JNull); (b "dup", JArr [JNull; JNull])]) ].

Example rt_every_json : json_parse (json_print every_json) = Some every_json.
Proof. vm_compute. reflexivity. Qed.

(* a value containing every constructor that has a JSON image *)
Definition every_val : val :=
  VTuple [ (b "e", VEmpty); (b "b", VBool true); (b "i", VInt (-42));
           (b "f", VFloat (FFin (b "1.5e-7"))); (b "s", VStr esc_str);
           (b "l", VList [VInt 1; VList []; VTuple []]);
           (b "env", VEnv [(b "HOME", b "/root")]);
           (b "t", VTuple [(b "y", VInt 2); (b "x", VInt 1)]) ].

Example rt_every_val :
  match to_json every_val with
  | Ok j => json_parse (json_print j) = Some j /\ json_abs j = Some (canon every_val)
  | _ => False
  end.
Proof. vm_compute. split; reflexivity. Qed.

(* reading back what was written: ints come back as floats N.0 (real behaviour) *)
Example rt_val_reimport :
  match json_output (VTuple [(b "y", VInt 2); (b "x", VList [VBool true; VStr (b "q")])]) with
  | Ok t => json_input t
            = Some (VTuple [(b "x", VList [VBool true; VStr (b "q")]); (b "y", VFloat (FFin (b "2.0")))])
  | _ => False
  end.
Proof. vm_compute. reflexivity. Qed.

Example with_constraint_is_err : to_json (VList [every_val; VConstraint]) = Err.
Proof. vm_compute. reflexivity. Qed.

Example numval1 : num_value (b "-12.50e+3") = Some (-1250, 1)%Z.
Proof. vm_compute. reflexivity. Qed.
Example numval2 : num_value (b "42.0") = Some (420, -1)%Z.
Proof. vm_compute. reflexivity. Qed.
Example numval3 : json_abs (JNum (b "42.0")) = json_abs (JNum (b "4.2e1")).
Proof. vm_compute. reflexivity. Qed.
