(* Proofs about the base64 model of B64.v.

   Finite facts are established by [vm_compute] over explicit enumerations:
     - [sextets]   : the 64 values 0..63        (times 2 alphabets)
     - [all_bytes] : the 256 values of [ascii]  (times 2 alphabets)
   and lifted with [forallb_forall]. *)
From Ucg Require Import base.Bytes base.Bytes_Lemmas data.B64.
Local Open Scope N_scope.

Definition sextets : list N := map N.of_nat (seq 0 64).
Definition all_bytes : list ascii := map ascii_of_nat (seq 0 256).

Lemma sextets_complete n : n < 64 -> In n sextets.
Proof.
  intros H. unfold sextets. apply in_map_iff. exists (N.to_nat n).
  split; [apply N2Nat.id|]. apply in_seq. lia.
Qed.

Lemma all_bytes_complete c : In c all_bytes.
Proof.
  unfold all_bytes. apply in_map_iff. exists (nat_of_ascii c).
  split; [apply ascii_nat_embedding|]. apply in_seq.
  pose proof (nat_ascii_bounded c). lia.
Qed.

Lemma sextet_forall (P : N -> bool) :
  forallb P sextets = true -> forall n, n < 64 -> P n = true.
Proof.
  intros H n Hn. rewrite forallb_forall in H. apply H, sextets_complete, Hn.
Qed.

Lemma byte_forall (P : ascii -> bool) :
  forallb P all_bytes = true -> forall c, P c = true.
Proof.
  intros H c. rewrite forallb_forall in H. apply H, all_bytes_complete.
Qed.

(* finite facts about single characters: 64 sextets, resp. 256 bytes, for either alphabet *)
Definition dec_enc_ok u n :=
  match dec_char u (enc_char u n) with Some m => m =? n | None => false end.
Definition enc_table_ok u n :=
  Ascii.eqb (enc_char u n) (nth (N.to_nat n) (alphabet u) pad).
Definition enc_swap_ok n :=
  Ascii.eqb (enc_char true n) (swap6263 (enc_char false n)).
Definition dec_inv_ok u c :=
  match dec_char u c with
  | Some n => (n <? 64) && Ascii.eqb (enc_char u n) c
  | None => true
  end.

(* [P u n = true] for [Hn : n < 64], by evaluating [P] on the 64 sextets for either alphabet *)
Ltac fin_sextets u P Hn :=
  destruct u;
  [ apply (sextet_forall (P true)) | apply (sextet_forall (P false)) ];
  try exact Hn; vm_compute; reflexivity.

Lemma dec_enc u n : n < 64 -> dec_char u (enc_char u n) = Some n.
Proof.
  intros Hn. assert (H : dec_enc_ok u n = true) by fin_sextets u dec_enc_ok Hn.
  unfold dec_enc_ok in H.
  destruct (dec_char u (enc_char u n)); [|discriminate].
  apply N.eqb_eq in H; congruence.
Qed.

(* the arithmetic [enc_char] is the RFC 4648 table lookup *)
Lemma enc_char_table u n :
  n < 64 -> enc_char u n = nth (N.to_nat n) (alphabet u) pad.
Proof.
  intros Hn. apply Ascii.eqb_eq.
  change (enc_table_ok u n = true). fin_sextets u enc_table_ok Hn.
Qed.

Lemma alphabet_length u : List.length (alphabet u) = 64%nat.
Proof. destruct u; reflexivity. Qed.

(* from 63 on [enc_char] is constant, so what holds of the 64 sextets holds of every number *)
Lemma enc_char_ge u n : 63 <= n -> enc_char u n = enc_char u 63.
Proof.
  intros Hn. unfold enc_char.
  destruct (N.ltb_spec n 26); [lia|]. destruct (N.ltb_spec n 52); [lia|].
  destruct (N.ltb_spec n 62); [lia|]. destruct (N.eqb_spec n 62); [lia|]. reflexivity.
Qed.

Lemma enc_in_alphabet u n : In (enc_char u n) (alphabet u).
Proof.
  assert (H : forall m, m < 64 -> In (enc_char u m) (alphabet u)).
  { intros m Hm. rewrite enc_char_table by assumption. apply nth_In. rewrite alphabet_length. lia. }
  destruct (N.lt_ge_cases n 64) as [Hn|Hn]; [apply H, Hn|]. rewrite enc_char_ge by lia. apply H. reflexivity.
Qed.

Lemma enc_swap n : enc_char true n = swap6263 (enc_char false n).
Proof.
  destruct (N.lt_ge_cases n 64) as [Hn|Hn]; [|rewrite !(enc_char_ge _ n) by lia; reflexivity].
  apply Ascii.eqb_eq.
  apply (sextet_forall enc_swap_ok); [vm_compute; reflexivity|exact Hn].
Qed.

(* the decoder accepts exactly the 64 alphabet characters *)
Lemma dec_char_inv u c n :
  dec_char u c = Some n -> n < 64 /\ enc_char u n = c.
Proof.
  intros Hd. assert (H : dec_inv_ok u c = true).
  { destruct u;
      [apply (byte_forall (dec_inv_ok true))|apply (byte_forall (dec_inv_ok false))];
      vm_compute; reflexivity. }
  unfold dec_inv_ok in H. rewrite Hd in H.
  apply andb_true_iff in H; destruct H as [H1 H2].
  apply N.ltb_lt in H1; apply Ascii.eqb_eq in H2; auto.
Qed.

Lemma dec_char_pad u : dec_char u pad = None.
Proof. destruct u; reflexivity. Qed.

(* no sextet is written as the pad character: a sextet's character is decoded, the pad is not *)
Lemma enc_not_pad u n : n < 64 -> Ascii.eqb (enc_char u n) pad = false.
Proof.
  intros Hn. destruct (Ascii.eqb_spec (enc_char u n) pad) as [E|_]; [|reflexivity].
  pose proof (dec_enc u n Hn) as H. rewrite E, dec_char_pad in H. discriminate.
Qed.

Lemma in_alphabetb_spec u c : in_alphabetb u c = true <-> in_alphabet u c.
Proof.
  unfold in_alphabetb, in_alphabet. rewrite existsb_exists. split.
  - intros [x [Hin He]]. apply Ascii.eqb_eq in He. subst; assumption.
  - intros H. exists c. split; [assumption|apply Ascii.eqb_refl].
Qed.

(* regrouping bits: a number written h * k + l with l < k has quotient h and remainder l, and
   every number is its quotient and remainder put together.  Three octets and four sextets are
   related by nothing else. *)

Lemma div_hkl h k l : l < k -> (h * k + l) / k = h.
Proof. intros H. rewrite N.div_add_l, N.div_small by lia. apply N.add_0_r. Qed.

Lemma mod_hkl h k l : l < k -> (h * k + l) mod k = l.
Proof. intros H. rewrite N.add_comm, N.mod_add by lia. apply N.mod_small, H. Qed.

Lemma hkl_div_mod n k : k <> 0 -> n / k * k + n mod k = n.
Proof. intros H. rewrite N.mul_comm. symmetry. apply N.div_mod, H. Qed.

Lemma hkl_lt h k l m : h < m -> l < k -> h * k + l < m * k.
Proof.
  intros Hh Hl. apply N.lt_le_trans with (h * k + k); [lia|].
  rewrite <- N.mul_succ_l. apply N.mul_le_mono_r. lia.
Qed.

(* the bounds of quotients and remainders by constants *)
Ltac small :=
  first [assumption | reflexivity | apply N.mod_lt; discriminate | apply N.div_lt_upper_bound; lia].
(* [h * k + l < n] for [n] = 64 or 256, a multiple of [k] *)
Ltac digits :=
  match goal with
  | |- _ * ?k + _ < ?n => let m := eval compute in (n / k) in apply (hkl_lt _ k _ m); small
  end.

Lemma list_ind3 {A} (P : list A -> Prop) :
  P [] -> (forall x, P [x]) -> (forall x y, P [x; y]) ->
  (forall x y z l, P l -> P (x :: y :: z :: l)) -> forall l, P l.
Proof.
  intros H0 H1 H2 H3. fix IH 1.
  intros [|x [|y [|z l]]];
    [exact H0|exact (H1 _)|exact (H2 _ _)|exact (H3 _ _ _ _ (IH l))].
Qed.

Lemma b64_encode_cons3 u x y z l :
  b64_encode u (x :: y :: z :: l) = enc3 u x y z ++ b64_encode u l.
Proof. reflexivity. Qed.

Lemma b64_encode_nonempty u w l : exists c s, b64_encode u (w :: l) = c :: s.
Proof. destruct l as [|? [|? ?]]; eexists; eexists; reflexivity. Qed.

Lemma dec_last_enc1 u x :
  let p := code x in
  dec_last u (enc_char u (p / 4)) (enc_char u ((p mod 4) * 16)) pad pad
  = Some [x].
Proof.
  intros p. pose proof (code_lt x) as Hp. fold p in Hp.
  unfold dec_last. rewrite !Ascii.eqb_refl.
  rewrite <- (N.add_0_r (p mod 4 * 16)).
  rewrite !dec_enc by (small || digits).
  rewrite div_hkl, mod_hkl, hkl_div_mod by (discriminate || small).
  unfold p. rewrite of_code. reflexivity.
Qed.

Lemma dec_last_enc2 u x y :
  let p := code x in let q := code y in
  dec_last u (enc_char u (p / 4)) (enc_char u ((p mod 4) * 16 + q / 16))
             (enc_char u ((q mod 16) * 4)) pad
  = Some [x; y].
Proof.
  intros p q. pose proof (code_lt x) as Hp. pose proof (code_lt y) as Hq.
  fold p in Hp. fold q in Hq.
  unfold dec_last. rewrite Ascii.eqb_refl.
  rewrite <- (N.add_0_r (q mod 16 * 4)).
  rewrite enc_not_pad by digits.
  rewrite !dec_enc by (small || digits).
  rewrite !div_hkl, !mod_hkl, !hkl_div_mod by (discriminate || small).
  unfold p, q. rewrite !of_code. reflexivity.
Qed.

Lemma dec_quad_enc3 u x y z :
  let p := code x in let q := code y in let r := code z in
  dec_quad u (enc_char u (p / 4)) (enc_char u ((p mod 4) * 16 + q / 16))
             (enc_char u ((q mod 16) * 4 + r / 64)) (enc_char u (r mod 64))
  = Some [x; y; z].
Proof.
  intros p q r. pose proof (code_lt x) as Hp. pose proof (code_lt y) as Hq.
  pose proof (code_lt z) as Hr. fold p in Hp. fold q in Hq. fold r in Hr.
  unfold dec_quad. rewrite !dec_enc by (small || digits).
  rewrite !div_hkl, !mod_hkl, !hkl_div_mod by (discriminate || small).
  unfold p, q, r. rewrite !of_code. reflexivity.
Qed.

Lemma dec_last_enc3 u x y z :
  let p := code x in let q := code y in let r := code z in
  dec_last u (enc_char u (p / 4)) (enc_char u ((p mod 4) * 16 + q / 16))
             (enc_char u ((q mod 16) * 4 + r / 64)) (enc_char u (r mod 64))
  = Some [x; y; z].
Proof.
  intros p q r. unfold dec_last.
  rewrite enc_not_pad by small.
  apply dec_quad_enc3.
Qed.

Theorem b64_roundtrip : forall u bs, b64_decode u (b64_encode u bs) = Some bs.
Proof.
  intros u bs. induction bs as [|x|x y|x y z l IH] using list_ind3.
  - reflexivity.
  - exact (dec_last_enc1 u x).
  - exact (dec_last_enc2 u x y).
  - rewrite b64_encode_cons3. destruct l as [|w l].
    + exact (dec_last_enc3 u x y z).
    + destruct (b64_encode_nonempty u w l) as [c [s E]].
      rewrite E in *.
      change (match dec_quad u (enc_char u (code x / 4))
                      (enc_char u ((code x mod 4) * 16 + code y / 16))
                      (enc_char u ((code y mod 16) * 4 + code z / 64))
                      (enc_char u (code z mod 64)),
                    b64_decode u (c :: s) with
              | Some a, Some r => Some (a ++ r)
              | _, _ => None
              end = Some (x :: y :: z :: w :: l)).
      rewrite IH. rewrite (dec_quad_enc3 u x y z). reflexivity.
Qed.

Theorem b64_length : forall u bs,
  List.length (b64_encode u bs) = (4 * ((List.length bs + 2) / 3))%nat.
Proof.
  intros u bs. induction bs as [|x|x y|x y z l IH] using list_ind3;
    try reflexivity.
  rewrite b64_encode_cons3, app_length, IH.
  change (List.length (enc3 u x y z)) with 4%nat.
  change (List.length (x :: y :: z :: l)) with (S (S (S (List.length l)))).
  replace (S (S (S (List.length l))) + 2)%nat with ((List.length l + 2) + 1 * 3)%nat by lia.
  rewrite Nat.div_add by discriminate. lia.
Qed.

Theorem b64_alphabet : forall u bs, Forall (in_alphabet u) (b64_encode u bs).
Proof.
  intros u bs.
  assert (E : forall n, in_alphabet u (enc_char u n)) by (intros n; right; apply enc_in_alphabet).
  assert (Pd : in_alphabet u pad) by (left; reflexivity).
  induction bs as [|x|x y|x y z l IH] using list_ind3;
    [repeat apply Forall_cons; try apply Forall_nil; auto ..|].
  rewrite b64_encode_cons3. apply Forall_app. split; [repeat apply Forall_cons; try apply Forall_nil; auto|exact IH].
Qed.

Theorem b64_variants_differ_only_62_63 : forall bs,
  b64_encode true bs = map swap6263 (b64_encode false bs).
Proof.
  intros bs. induction bs as [|x|x y|x y z l IH] using list_ind3.
  - reflexivity.
  - unfold b64_encode, enc1. cbn [map]. rewrite !enc_swap. reflexivity.
  - unfold b64_encode, enc2. cbn [map]. rewrite !enc_swap. reflexivity.
  - rewrite !b64_encode_cons3, map_app, IH. f_equal.
    unfold enc3. cbn [map]. rewrite !enc_swap. reflexivity.
Qed.

Lemma mod3_SSS n : (S (S (S n)) mod 3 = n mod 3)%nat.
Proof.
  replace (S (S (S n))) with (n + 1 * 3)%nat by lia.
  apply Nat.mod_add. discriminate.
Qed.

Theorem b64_encode_app3 : forall u a b,
  (List.length a mod 3 = 0)%nat ->
  b64_encode u (a ++ b) = b64_encode u a ++ b64_encode u b.
Proof.
  intros u a b0. induction a as [|x|x y|x y z l IH] using list_ind3; intros H.
  - reflexivity.
  - discriminate H.
  - discriminate H.
  - change (List.length (x :: y :: z :: l)) with (S (S (S (List.length l)))) in H.
    rewrite mod3_SSS in H.
    change ((x :: y :: z :: l) ++ b0) with (x :: y :: z :: (l ++ b0)).
    rewrite !b64_encode_cons3, IH by assumption. apply app_assoc.
Qed.

(* strictness of the decoder: it accepts only canonical encodings, so [b64_decode u] and
   [b64_encode u] are mutually inverse bijections between byte strings and the image of the
   encoder. *)

Lemma enc3_of_sextets u c1 c2 c3 c4 p q r s :
  dec_char u c1 = Some p -> dec_char u c2 = Some q ->
  dec_char u c3 = Some r -> dec_char u c4 = Some s ->
  enc3 u (ascii_of_N (p * 4 + q / 16))
         (ascii_of_N ((q mod 16) * 16 + r / 4))
         (ascii_of_N ((r mod 4) * 64 + s)) = [c1; c2; c3; c4].
Proof.
  intros H1 H2 H3 H4.
  apply dec_char_inv in H1, H2, H3, H4.
  destruct H1 as [Lp <-], H2 as [Lq <-], H3 as [Lr <-], H4 as [Ls <-].
  unfold enc3. rewrite !code_of by digits.
  rewrite !div_hkl, !mod_hkl, !hkl_div_mod by (discriminate || small). reflexivity.
Qed.

Lemma dec_quad_inv u c1 c2 c3 c4 x :
  dec_quad u c1 c2 c3 c4 = Some x ->
  exists x1 x2 x3, x = [x1; x2; x3] /\ enc3 u x1 x2 x3 = [c1; c2; c3; c4].
Proof.
  unfold dec_quad.
  destruct (dec_char u c1) as [p|] eqn:E1; [|discriminate].
  destruct (dec_char u c2) as [q|] eqn:E2; [|discriminate].
  destruct (dec_char u c3) as [r|] eqn:E3; [|discriminate].
  destruct (dec_char u c4) as [s|] eqn:E4; [|discriminate].
  intros H; inversion H; subst x; clear H.
  do 3 eexists. split; [reflexivity|].
  eapply enc3_of_sextets; eassumption.
Qed.

Lemma dec_last_inv u c1 c2 c3 c4 x :
  dec_last u c1 c2 c3 c4 = Some x -> b64_encode u x = [c1; c2; c3; c4].
Proof.
  unfold dec_last.
  destruct (Ascii.eqb c4 pad) eqn:P4.
  - apply Ascii.eqb_eq in P4; subst c4.
    destruct (Ascii.eqb c3 pad) eqn:P3.
    + apply Ascii.eqb_eq in P3; subst c3.
      destruct (dec_char u c1) as [p|] eqn:E1; [|discriminate].
      destruct (dec_char u c2) as [q|] eqn:E2; [|discriminate].
      destruct (q mod 16 =? 0) eqn:Z; [|discriminate].
      apply N.eqb_eq in Z.
      intros H; inversion H; subst x; clear H.
      apply dec_char_inv in E1, E2.
      destruct E1 as [Lp <-], E2 as [Lq <-].
      unfold b64_encode, enc1. rewrite !code_of by digits.
      rewrite div_hkl, mod_hkl by small.
      (* no low bits: q is its quotient by 16 times 16 *)
      rewrite <- (hkl_div_mod q 16) at 2 by discriminate. rewrite Z, N.add_0_r. reflexivity.
    + destruct (dec_char u c1) as [p|] eqn:E1; [|discriminate].
      destruct (dec_char u c2) as [q|] eqn:E2; [|discriminate].
      destruct (dec_char u c3) as [r|] eqn:E3; [|discriminate].
      destruct (r mod 4 =? 0) eqn:Z; [|discriminate].
      apply N.eqb_eq in Z.
      intros H; inversion H; subst x; clear H.
      apply dec_char_inv in E1, E2, E3.
      destruct E1 as [Lp <-], E2 as [Lq <-], E3 as [Lr <-].
      unfold b64_encode, enc2. rewrite !code_of by digits.
      rewrite !div_hkl, !mod_hkl, hkl_div_mod by (discriminate || small).
      rewrite <- (hkl_div_mod r 4) at 2 by discriminate. rewrite Z, N.add_0_r. reflexivity.
  - intros H. apply dec_quad_inv in H.
    destruct H as [x1 [x2 [x3 [-> H]]]].
    rewrite b64_encode_cons3, H. reflexivity.
Qed.

Lemma list_ind4 {A} (P : list A -> Prop) :
  P [] -> (forall x, P [x]) -> (forall x y, P [x; y]) ->
  (forall x y z, P [x; y; z]) ->
  (forall x y z w l, P l -> P (x :: y :: z :: w :: l)) -> forall l, P l.
Proof.
  intros H0 H1 H2 H3 H4. fix IH 1.
  intros [|x [|y [|z [|w l]]]];
    [exact H0|exact (H1 _)|exact (H2 _ _)|exact (H3 _ _ _)
    |exact (H4 _ _ _ _ _ (IH l))].
Qed.

Theorem b64_decode_strict : forall u s bs,
  b64_decode u s = Some bs -> b64_encode u bs = s.
Proof.
  intros u s.
  induction s as [|c1|c1 c2|c1 c2 c3|c1 c2 c3 c4 rest IH] using list_ind4;
    intros bs H; try discriminate H.
  - inversion H; reflexivity.
  - destruct rest as [|c5 rest'].
    + apply dec_last_inv. exact H.
    + change (match dec_quad u c1 c2 c3 c4, b64_decode u (c5 :: rest') with
              | Some a, Some r => Some (a ++ r)
              | _, _ => None
              end = Some bs) in H.
      destruct (dec_quad u c1 c2 c3 c4) as [x|] eqn:Q; [|discriminate].
      destruct (b64_decode u (c5 :: rest')) as [r|] eqn:R; [|discriminate].
      inversion H; subst bs; clear H.
      apply dec_quad_inv in Q. destruct Q as [x1 [x2 [x3 [-> Q]]]].
      change ([x1; x2; x3] ++ r) with (x1 :: x2 :: x3 :: r).
      rewrite b64_encode_cons3, Q, (IH r eq_refl). reflexivity.
Qed.

Corollary b64_decode_Some_iff : forall u s bs,
  b64_decode u s = Some bs <-> s = b64_encode u bs.
Proof.
  intros u s bs. split.
  - intros H. symmetry. apply b64_decode_strict, H.
  - intros ->. apply b64_roundtrip.
Qed.

Corollary b64_encode_inj : forall u x y,
  b64_encode u x = b64_encode u y -> x = y.
Proof.
  intros u x y H. pose proof (b64_roundtrip u x) as Hx.
  rewrite H, b64_roundtrip in Hx. congruence.
Qed.

Definition bytes_of (l : list N) : bytes := map ascii_of_N l.

(* RFC 4648 section 10 *)
Example rfc_0 : b64_encode false (b "") = b "". Proof. vm_compute; reflexivity. Qed.
Example rfc_1 : b64_encode false (b "f") = b "Zg==". Proof. vm_compute; reflexivity. Qed.
Example rfc_2 : b64_encode false (b "fo") = b "Zm8=". Proof. vm_compute; reflexivity. Qed.
Example rfc_3 : b64_encode false (b "foo") = b "Zm9v". Proof. vm_compute; reflexivity. Qed.
Example rfc_4 : b64_encode false (b "foob") = b "Zm9vYg==". Proof. vm_compute; reflexivity. Qed.
Example rfc_5 : b64_encode false (b "fooba") = b "Zm9vYmE=". Proof. vm_compute; reflexivity. Qed.
Example rfc_6 : b64_encode false (b "foobar") = b "Zm9vYmFy". Proof. vm_compute; reflexivity. Qed.
Example rfc_u : map (b64_encode true) [b ""; b "f"; b "fo"; b "foo"; b "foob"; b "fooba"; b "foobar"]
              = [b ""; b "Zg=="; b "Zm8="; b "Zm9v"; b "Zm9vYg=="; b "Zm9vYmE="; b "Zm9vYmFy"].
Proof. vm_compute; reflexivity. Qed.

(* python3 base64.b64encode / base64.urlsafe_b64encode, and the [base64]
   0.21.7 crate's STANDARD / URL_SAFE engines (same outputs) *)
Definition check (l : list N) (std url : string) : bool :=
  bytes_eqb (b64_encode false (bytes_of l)) (b std)
  && bytes_eqb (b64_encode true (bytes_of l)) (b url)
  && match b64_decode false (b std) with Some x => bytes_eqb x (bytes_of l) | None => false end
  && match b64_decode true (b url) with Some x => bytes_eqb x (bytes_of l) | None => false end.

Example py_1 : check [251;252;253;254;255] "+/z9/v8=" "-_z9_v8=" = true.
Proof. vm_compute; reflexivity. Qed.
Example py_2 : check [255;254;253;252;251;250] "//79/Pv6" "__79_Pv6" = true.
Proof. vm_compute; reflexivity. Qed.
Example py_3 : check [251;255] "+/8=" "-_8=" = true.
Proof. vm_compute; reflexivity. Qed.
Example py_4 : check [255] "/w==" "_w==" = true.
Proof. vm_compute; reflexivity. Qed.
Example py_5 : check [0;0;0;0] "AAAAAA==" "AAAAAA==" = true.
Proof. vm_compute; reflexivity. Qed.
Example py_6 : check [168;66;60;221;120;249;201] "qEI83Xj5yQ==" "qEI83Xj5yQ==" = true.
Proof. vm_compute; reflexivity. Qed.
Example py_7 : check [42;135;4;151;4;175;121;114;234;2] "KocElwSveXLqAg==" "KocElwSveXLqAg==" = true.
Proof. vm_compute; reflexivity. Qed.
Example py_8 : check [56;97;130;213;166;103;118;118;218;254;229;15;39;45;147;235]
                 "OGGC1aZndnba/uUPJy2T6w==" "OGGC1aZndnba_uUPJy2T6w==" = true.
Proof. vm_compute; reflexivity. Qed.
Example py_9 : check [78;144;95;235;217;185;69;222;205;186;250;25;19;62;85;20;60;180;159;109;225;147;42]
                 "TpBf69m5Rd7NuvoZEz5VFDy0n23hkyo=" "TpBf69m5Rd7NuvoZEz5VFDy0n23hkyo=" = true.
Proof. vm_compute; reflexivity. Qed.
Example py_10 : check [0;5;10;15;20;25;30;35;40;45;50;55;60;65;70;75;80;85;90;95;100;105;110;115;120;125;130;135;140;145;150;155;160;165;170;175;180;185;190;195;200;205;210;215;220;225;230;235;240;245;250;255]
   "AAUKDxQZHiMoLTI3PEFGS1BVWl9kaW5zeH2Ch4yRlpugpaqvtLm+w8jN0tfc4ebr8PX6/w=="
   "AAUKDxQZHiMoLTI3PEFGS1BVWl9kaW5zeH2Ch4yRlpugpaqvtLm-w8jN0tfc4ebr8PX6_w==" = true.
Proof. vm_compute; reflexivity. Qed.

(* the strict decoder rejects: wrong alphabet, bad length, misplaced or
   missing padding, non-canonical trailing bits *)
Example rej_alphabet_std : b64_decode false (b "-_8=") = None. Proof. vm_compute; reflexivity. Qed.
Example rej_alphabet_url : b64_decode true (b "+/8=") = None. Proof. vm_compute; reflexivity. Qed.
Example rej_length : b64_decode false (b "Zm8") = None. Proof. vm_compute; reflexivity. Qed.
Example rej_nopad : b64_decode false (b "Zg") = None. Proof. vm_compute; reflexivity. Qed.
Example rej_pad_mid : b64_decode false (b "Zg==Zm8=") = None. Proof. vm_compute; reflexivity. Qed.
Example rej_pad_3 : b64_decode false (b "Z===") = None. Proof. vm_compute; reflexivity. Qed.
Example rej_pad_inner : b64_decode false (b "Zg=v") = None. Proof. vm_compute; reflexivity. Qed.
Example rej_trailing_bits1 : b64_decode false (b "Zh==") = None. Proof. vm_compute; reflexivity. Qed.
Example rej_trailing_bits2 : b64_decode false (b "Zm9=") = None. Proof. vm_compute; reflexivity. Qed.
Example rej_newline : b64_decode false [nl] = None. Proof. vm_compute; reflexivity. Qed.
