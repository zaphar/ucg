(* Proofs about the YAML model: exactly which values are conversion errors.
   - to_yaml fails exactly on a constraint value anywhere inside lists / tuple fields (yaml.rs has no other Err arm
     that can be reached: serde_yaml::to_value of an f64 / i64 cannot fail);
   - yaml_emit never fails (serde_yaml / libyaml report no error for the events of a Value built by the converter);
   - spec_data is defined exactly for the values that are not errors (finite floats must carry a well formed text). *)
From Ucg Require Import base.Bytes base.Bytes_Lemmas data.Val data.Json data.MapJson data.MapJson_Lemmas data.Yaml.
From Ucg Require data.Toml.
Local Open Scope list_scope.

Fixpoint to_yaml_items (l : list val) : yres (list yval) :=
  match l with
  | [] => YOk []
  | x :: xs =>
    match to_yaml x with
    | YErr e => YErr e
    | YOk y => match to_yaml_items xs with YErr e => YErr e | YOk ys => YOk (y :: ys) end
    end
  end.

Fixpoint to_yaml_fields (l : list (bytes * val)) : yres (list (bytes * yval)) :=
  match l with
  | [] => YOk []
  | (k, x) :: r =>
    match to_yaml x with
    | YErr e => YErr e
    | YOk y => match to_yaml_fields r with YErr e => YErr e | YOk ys => YOk ((k, y) :: ys) end
    end
  end.

Lemma to_yaml_VList l :
  to_yaml (VList l) = match to_yaml_items l with YErr e => YErr e | YOk ys => YOk (YSeq ys) end.
Proof. reflexivity. Qed.

Lemma to_yaml_VTuple fs :
  to_yaml (VTuple fs) = match to_yaml_fields fs with YErr e => YErr e | YOk kvs => YOk (YMap (ymap_of kvs)) end.
Proof. reflexivity. Qed.

Fixpoint spec_items (l : list val) : option (list ydoc) :=
  match l with
  | [] => Some []
  | x :: xs => match spec_data x, spec_items xs with Some a, Some r => Some (a :: r) | _, _ => None end
  end.

Fixpoint spec_fields (l : list (bytes * val)) : option (list (bytes * ydoc)) :=
  match l with
  | [] => Some []
  | (k, x) :: r => match spec_data x, spec_fields r with Some a, Some r' => Some ((k, a) :: r') | _, _ => None end
  end.

Lemma spec_data_VList l : spec_data (VList l) = option_map DSeq (spec_items l).
Proof. reflexivity. Qed.

Lemma spec_data_VTuple fs :
  spec_data (VTuple fs)
  = option_map (fun kvs => DMap (map (fun kv => (DStr (fst kv), snd kv)) (ymap_of kvs))) (spec_fields fs).
Proof. reflexivity. Qed.

Definition is_ok {A : Type} (r : yres A) : bool := match r with YOk _ => true | YErr _ => false end.
Definition is_some {A : Type} (o : option A) : bool := match o with Some _ => true | None => false end.

Lemma is_ok_both {A B C : Type} (r1 : yres A) (r2 : yres B) (f : A -> B -> C) :
  is_ok (match r1 with
         | YErr e => YErr e
         | YOk y => match r2 with YErr e => YErr e | YOk ys => YOk (f y ys) end
         end) = is_ok r1 && is_ok r2.
Proof. destruct r1, r2; reflexivity. Qed.

Lemma is_some_both {A B C : Type} (o1 : option A) (o2 : option B) (f : A -> B -> C) :
  is_some (match o1, o2 with Some a, Some r => Some (f a r) | _, _ => None end) = is_some o1 && is_some o2.
Proof. destruct o1, o2; reflexivity. Qed.

(* a constraint value somewhere *)
Fixpoint unrepresentable_yaml (v : val) : bool :=
  match v with
  | VConstraint => true
  | VList l =>
    (fix go (l : list val) : bool :=
       match l with [] => false | x :: xs => unrepresentable_yaml x || go xs end) l
  | VTuple fs =>
    (fix go (l : list (bytes * val)) : bool :=
       match l with [] => false | (_, x) :: r => unrepresentable_yaml x || go r end) fs
  | _ => false
  end.

Lemma to_yaml_ok v : is_ok (to_yaml v) = negb (unrepresentable_yaml v).
Proof.
  induction v as [|x|z|f|s|l IH|fs IH|fs|] using val_ind'; try reflexivity.
  - rewrite to_yaml_VList. cbn [unrepresentable_yaml].
    transitivity (is_ok (to_yaml_items l)); [destruct (to_yaml_items l); reflexivity|].
    induction IH as [|x xs Hx _ IHxs]; [reflexivity|].
    cbn [to_yaml_items]. rewrite is_ok_both, Hx, IHxs, negb_orb. reflexivity.
  - rewrite to_yaml_VTuple. cbn [unrepresentable_yaml].
    transitivity (is_ok (to_yaml_fields fs)); [destruct (to_yaml_fields fs); reflexivity|].
    induction IH as [|[k x] xs Hx _ IHxs]; [reflexivity|]. cbn [snd] in Hx.
    cbn [to_yaml_fields]. rewrite (is_ok_both _ _ (fun y ys => (k, y) :: ys)), Hx, IHxs, negb_orb. reflexivity.
Qed.

(* both sides of each equivalence are decided in the context: close the two equivalences *)
Ltac fin4 := split; split; intros H; try discriminate; try (destruct H; discriminate); eauto.

Theorem to_yaml_error_iff : forall v,
  (to_yaml v = YErr YEConstraint <-> unrepresentable_yaml v = true)
  /\ ((exists y, to_yaml v = YOk y) <-> unrepresentable_yaml v = false).
Proof.
  intros v. pose proof (to_yaml_ok v) as E.
  destruct (to_yaml v) as [y|[]], (unrepresentable_yaml v); try discriminate E; fin4.
Qed.

Theorem yaml_emit_total : forall y, exists out, yaml_emit y = YOk out.
Proof.
  intros y. unfold yaml_emit.
  destruct (emit_node y false None est0) as [o st].
  destruct (write_indent 0 st) as [o2 st2]. eauto.
Qed.

(* the whole converter: an error exactly for the unrepresentable values, and then the only kind there is *)
Theorem yaml_output_error_iff : forall v,
  (yaml_output v = YErr YEConstraint <-> unrepresentable_yaml v = true)
  /\ ((exists out, yaml_output v = YOk out) <-> unrepresentable_yaml v = false).
Proof.
  intros v. pose proof (to_yaml_ok v) as E. unfold yaml_output.
  destruct (to_yaml v) as [y|[]], (unrepresentable_yaml v); try discriminate E; [|fin4].
  destruct (yaml_emit_total y) as [out Eo]. rewrite Eo. fin4.
Qed.

(* every finite float of the value carries a text of the shape Rust's `{}` prints *)
Fixpoint floats_wf (v : val) : bool :=
  match v with
  | VFloat f => match Toml.spec_float f with Some _ => true | None => false end
  | VList l =>
    (fix go (l : list val) : bool :=
       match l with [] => true | x :: xs => floats_wf x && go xs end) l
  | VTuple fs =>
    (fix go (l : list (bytes * val)) : bool :=
       match l with [] => true | (_, x) :: r => floats_wf x && go r end) fs
  | _ => true
  end.

Lemma spec_data_some v : floats_wf v = true -> is_some (spec_data v) = negb (unrepresentable_yaml v).
Proof.
  induction v as [|x|z|f|s|l IH|fs IH|fs|] using val_ind'; intros Hw; try reflexivity.
  - cbn in *. destruct (Toml.spec_float f); [reflexivity|discriminate Hw].
  - rewrite spec_data_VList. cbn [unrepresentable_yaml floats_wf] in *.
    transitivity (is_some (spec_items l)); [destruct (spec_items l); reflexivity|].
    induction IH as [|x xs Hx _ IHxs]; [reflexivity|]. apply andb_true_iff in Hw as [Hw1 Hw2].
    cbn [spec_items]. rewrite is_some_both, (Hx Hw1), (IHxs Hw2), negb_orb. reflexivity.
  - rewrite spec_data_VTuple. cbn [unrepresentable_yaml floats_wf] in *.
    transitivity (is_some (spec_fields fs)); [destruct (spec_fields fs); reflexivity|].
    induction IH as [|[k x] xs Hx _ IHxs]; [reflexivity|]. cbn [snd] in Hx. apply andb_true_iff in Hw as [Hw1 Hw2].
    cbn [spec_fields]. rewrite (is_some_both _ _ (fun a r => (k, a) :: r)), (Hx Hw1), (IHxs Hw2), negb_orb. reflexivity.
Qed.

(* the specification is defined exactly where the converter succeeds *)
Theorem spec_data_defined_iff : forall v, floats_wf v = true ->
  ((exists d, spec_data v = Some d) <-> unrepresentable_yaml v = false).
Proof.
  intros v Hw. pose proof (spec_data_some v Hw) as E.
  destruct (spec_data v) as [d|], (unrepresentable_yaml v); try discriminate E;
    split; intros H; try discriminate; try (destruct H; discriminate); eauto.
Qed.
