(* Proofs about the TOML model: strings and keys.
   Every string token the writer produces (literal, multi-line literal, basic, multi-line basic)
   is read back by the independent reader as the same bytes; same for keys. *)
From Ucg Require Import base.Bytes base.Bytes_Lemmas data.Val data.Json data.Json_Lemmas data.MapJson data.MapJson_Lemmas data.Toml.
Local Open Scope list_scope.

Lemma rev'_spec {A} (l : list A) : rev' l = rev l.
Proof. unfold rev'. rewrite <- rev_alt. reflexivity. Qed.

(* with H : P c = true, every test [ceq c k] in the goal against a k outside P becomes false;
   [P k = false] is found by evaluating P at the one character k: this is how "a digit is not a
   quote" is shown throughout *)
Ltac outside P H :=
  repeat match goal with |- context [ceq ?c ?k] => rewrite (ceq_class P c k H eq_refl) end.

(* the table of escapes, read back entry by entry *)
Lemma parse_basic_step c tl acc :
  parse_basic (std_escape_byte false c ++ tl) acc = parse_basic tl (c :: acc).
Proof.
  destruct c as [[] [] [] [] [] [] [] []]; reflexivity.
Qed.

Lemma parse_mlb_step c tl acc :
  parse_mlb false (std_escape_byte true c ++ tl) acc = parse_mlb false tl (c :: acc).
Proof.
  destruct c as [[] [] [] [] [] [] [] []]; reflexivity.
Qed.

(* a reader [P] that undoes one escape at a time and stops at [close] undoes [std_escape] *)
Lemma unescape_loop (P : bytes -> bytes -> option (bytes * bytes)) ml close :
  (forall c tl acc, P (std_escape_byte ml c ++ tl) acc = P tl (c :: acc)) ->
  (forall rest acc, P (close ++ rest) acc = Some (rev' acc, rest)) ->
  forall s acc rest, P (std_escape ml s ++ close ++ rest) acc = Some (rev acc ++ s, rest).
Proof.
  intros Hstep Hclose. induction s as [|c s IH]; intros acc rest; cbn [std_escape app].
  - rewrite Hclose, rev'_spec, app_nil_r. reflexivity.
  - rewrite <- app_assoc, Hstep, IH. cbn [rev]. rewrite <- app_assoc. reflexivity.
Qed.

Lemma parse_basic_escape s acc rest :
  parse_basic (std_escape false s ++ dq :: rest) acc = Some (rev acc ++ s, rest).
Proof. apply (unescape_loop parse_basic false [dq] parse_basic_step). reflexivity. Qed.

Lemma parse_mlb_escape s acc rest :
  parse_mlb false (std_escape true s ++ dq :: dq :: dq :: rest) acc = Some (rev acc ++ s, rest).
Proof. apply (unescape_loop (parse_mlb false) true [dq; dq; dq] parse_mlb_step). reflexivity. Qed.

(* what may follow a string token without changing how its opening quote is read *)
Definition follow_ok (rest : bytes) : bool :=
  match rest with
  | c :: _ => negb (ceq c dq) && negb (ceq c sq)
  | [] => true
  end.

(* One opening quote, not three.  If the text after it began with two more quotes, the one-line
   reader would have returned the empty string and left the second of them, which [follow_ok]
   excludes; so nothing about the text itself is needed. *)
Lemma parse_string_basic body r :
  parse_basic body [] = Some r -> follow_ok (snd r) = true -> parse_string (dq :: body) = Some r.
Proof.
  intros E Hf. cbn [parse_string]. change (ceq dq dq) with true. cbn iota.
  destruct body as [|c2 [|c3 s3]]; try exact E.
  destruct (ceq c2 dq) eqn:E2, (ceq c3 dq) eqn:E3; try exact E.
  exfalso. cbn [parse_basic] in E. rewrite E2 in E. injection E as <-.
  cbn [snd follow_ok] in Hf. rewrite E3 in Hf. discriminate.
Qed.

Lemma parse_string_literal body r :
  parse_literal body [] = Some r -> follow_ok (snd r) = true -> parse_string (sq :: body) = Some r.
Proof.
  intros E Hf. cbn [parse_string]. change (ceq sq dq) with false. change (ceq sq sq) with true. cbn iota.
  destruct body as [|c2 [|c3 s3]]; try exact E.
  destruct (ceq c2 sq) eqn:E2, (ceq c3 sq) eqn:E3; try exact E.
  exfalso. cbn [parse_literal] in E. rewrite E2 in E. injection E as <-.
  cbn [snd follow_ok] in Hf. rewrite E3, andb_false_r in Hf. discriminate.
Qed.

Lemma parse_emit_std ml s rest :
  follow_ok rest = true ->
  parse_string (emit_std ml s ++ rest) = Some (s, rest).
Proof.
  intros Hf. destruct ml; unfold emit_std; cbn [app]; rewrite <- app_assoc.
  - apply (parse_mlb_escape s []).
  - apply parse_string_basic; [apply (parse_basic_escape s [])|exact Hf].
Qed.

Definition lit_char_ok (c : ascii) : bool :=
  ceq c tab || ceq c nl || negb ((code c <=? 31)%N || (code c =? 127)%N).

(* [s] may be written between ''' delimiters when it is preceded by k quotes: no run of three
   quotes, no quote at the very end, no control character other than tab and newline *)
Fixpoint safe_from (k : nat) (s : bytes) : bool :=
  match s with
  | [] => match k with O => true | S _ => false end
  | c :: r =>
    if ceq c sq then (S k <? 3)%nat && safe_from (S k) r
    else lit_char_ok c && safe_from 0 r
  end.

Definition has_nl (s : bytes) : bool := existsb (fun c => ceq c nl) s.
Definition has_sq (s : bytes) : bool := existsb (fun c => ceq c sq) s.

(* the longest run of quotes seen so far *)
Definition pmeasure (st : pst) : nat := Nat.max (p_found st) (p_max st).

Lemma pretty_step_ok st c :
  p_ok st = true ->
  pretty_step st c =
  if ceq c sq
  then mk_pst (p_nl st || ceq c nl) (p_max st) (S (p_found st)) (negb (3 <=? S (p_found st))%nat)
  else mk_pst (p_nl st || ceq c nl) (pmeasure st) 0 (lit_char_ok c).
Proof.
  intros H. unfold pretty_step, lit_char_ok. rewrite H. destruct (ceq c sq) eqn:Ec.
  - apply Ascii.eqb_eq in Ec. subst c. rewrite andb_true_r. reflexivity.
  - destruct (ceq c tab), (ceq c nl); reflexivity.
Qed.

Lemma fold_pretty_notok s : forall st,
  p_ok st = false -> p_ok (fold_left pretty_step s st) = false.
Proof.
  induction s as [|c s IH]; intros st H; cbn [fold_left]; [exact H|].
  apply IH. unfold pretty_step. rewrite H. reflexivity.
Qed.

Lemma fold_pretty_nl s : forall st,
  p_nl (fold_left pretty_step s st) = p_nl st || has_nl s.
Proof.
  induction s as [|c s IH]; intros st; cbn [fold_left has_nl existsb].
  - rewrite orb_false_r. reflexivity.
  - rewrite IH. fold (has_nl s). rewrite orb_assoc. f_equal.
    unfold pretty_step. destruct (p_ok st); [|reflexivity].
    destruct (ceq c sq); reflexivity.
Qed.

(* A scan that stays ok: the text is safe if it does not end inside a run of quotes, and the
   longest run only grows, so a final 0 means there was no quote at all. *)
Lemma fold_pretty_ok s : forall st,
  p_ok st = true -> p_ok (fold_left pretty_step s st) = true ->
  (p_found (fold_left pretty_step s st) = 0 -> safe_from (p_found st) s = true)
  /\ pmeasure st <= pmeasure (fold_left pretty_step s st)
  /\ (pmeasure (fold_left pretty_step s st) = 0 -> has_sq s = false).
Proof.
  induction s as [|c s IH]; intros st Hok Hfin; cbn [fold_left safe_from has_sq existsb] in *.
  - split; [intros ->; reflexivity|]. split; [lia|reflexivity].
  - destruct (p_ok (pretty_step st c)) eqn:Eo;
      [|rewrite fold_pretty_notok in Hfin by exact Eo; discriminate].
    destruct (IH _ Eo Hfin) as (Hsafe & Hmono & Hnosq). clear IH Hfin.
    set (fin := fold_left pretty_step s (pretty_step st c)) in *. fold (has_sq s).
    rewrite (pretty_step_ok st c Hok) in Eo, Hsafe, Hmono. unfold pmeasure in Hmono at 1.
    destruct (ceq c sq); cbn [p_ok p_found p_max orb] in *.
    + apply negb_true_iff, Nat.leb_gt in Eo.
      split; [|split; [unfold pmeasure at 1; lia|lia]].
      intros Hf. rewrite (Hsafe Hf), andb_true_r. apply Nat.ltb_lt. exact Eo.
    + split; [|split; [lia|exact Hnosq]].
      intros Hf. rewrite Eo, (Hsafe Hf). reflexivity.
Qed.

Lemma do_pretty_cases s :
  let fin := fold_left pretty_step s (mk_pst false 0 0 true) in
  do_pretty s =
  if negb (p_ok fin) || (0 <? p_found fin) then RStd (has_nl s)
  else if has_nl s then RLiteral true true
  else if 1 <=? pmeasure fin then RLiteral false true
  else RLiteral false false.
Proof. unfold do_pretty. rewrite fold_pretty_nl. reflexivity. Qed.

Lemma do_pretty_literal s ml triple :
  do_pretty s = RLiteral ml triple ->
  safe_from 0 s = true /\ ml = has_nl s /\ (triple = false -> has_sq s = false).
Proof.
  rewrite do_pretty_cases. cbv zeta. set (fin := fold_left pretty_step s (mk_pst false 0 0 true)).
  destruct (p_ok fin) eqn:Eok; cbn [negb orb]; [|discriminate].
  destruct (0 <? p_found fin)%nat eqn:Ef; [discriminate|]. apply Nat.ltb_ge in Ef.
  destruct (fold_pretty_ok s (mk_pst false 0 0 true) eq_refl Eok) as (Hsafe & _ & Hnosq). fold fin in Hsafe, Hnosq.
  intros H. split; [apply Hsafe; lia|].
  destruct (has_nl s); [injection H as <- <-; split; [reflexivity|discriminate]|].
  destruct (1 <=? pmeasure fin) eqn:Em; injection H as <- <-; (split; [reflexivity|]); [discriminate|].
  intros _. apply Nat.leb_gt in Em. apply Hnosq. lia.
Qed.

Lemma do_pretty_std s ml : do_pretty s = RStd ml -> ml = has_nl s.
Proof.
  rewrite do_pretty_cases. cbv zeta.
  destruct (negb _ || _); [intros [= <-]; reflexivity|].
  destruct (has_nl s); [discriminate|]. destruct (1 <=? _); discriminate.
Qed.

Lemma lit_char_raw c : lit_char_ok c = true -> ceq c nl = false -> literal_raw_ok c = true.
Proof.
  unfold lit_char_ok, literal_raw_ok, basic_raw_ok. intros H Hn. rewrite Hn in H.
  destruct (ceq c tab); [reflexivity|].
  apply negb_true_iff, orb_false_iff in H as [H31 H127]. apply N.leb_gt in H31.
  rewrite H127, andb_true_r. apply N.leb_le. lia.
Qed.

Lemma safe_from_nosq_any s : forall k, safe_from k s = true -> has_sq s = false -> safe_from 0 s = true.
Proof.
  destruct s as [|c s]; intros k H Hq; cbn [safe_from has_sq existsb] in *.
  - reflexivity.
  - apply orb_false_iff in Hq as [Hc _]. rewrite Hc in *. exact H.
Qed.

Lemma parse_literal_ok s : forall acc rest,
  safe_from 0 s = true -> has_nl s = false -> has_sq s = false ->
  parse_literal (s ++ sq :: rest) acc = Some (rev acc ++ s, rest).
Proof.
  induction s as [|c s IH]; intros acc rest Hs Hn Hq.
  - cbn. change (ceq sq sq) with true. cbn iota. rewrite rev'_spec, app_nil_r. reflexivity.
  - cbn [has_nl has_sq existsb] in Hn, Hq.
    apply orb_false_iff in Hn as [Hcn Hn]. apply orb_false_iff in Hq as [Hcq Hq].
    cbn [safe_from] in Hs. rewrite Hcq in Hs. apply andb_true_iff in Hs as [Hc Hs].
    cbn [app parse_literal]. rewrite Hcq, (lit_char_raw c Hc Hcn).
    rewrite (IH _ _ Hs Hn Hq). cbn [rev]. rewrite <- app_assoc. reflexivity.
Qed.

Lemma parse_mll_ok s : forall k acc rest,
  safe_from k s = true ->
  parse_mll (s ++ sq :: sq :: sq :: rest) acc = Some (rev acc ++ s, rest).
Proof.
  induction s as [|c s IH]; intros k acc rest Hs.
  - cbn. change (ceq sq sq) with true. cbn. rewrite rev'_spec, app_nil_r. reflexivity.
  - cbn [safe_from] in Hs. cbn [app parse_mll].
    assert (Hgo : forall k', safe_from k' s = true ->
              parse_mll (s ++ sq :: sq :: sq :: rest) (c :: acc) = Some (rev acc ++ c :: s, rest)).
    { intros k' Hs'. rewrite (IH _ _ _ Hs'). cbn [rev]. rewrite <- app_assoc. reflexivity. }
    destruct (ceq c sq) eqn:Ec; apply andb_true_iff in Hs as [Hk Hs].
    + (* a quote: the next two characters are not both quotes, [s] being safe after it *)
      apply Nat.ltb_lt in Hk. specialize (Hgo _ Hs).
      destruct s as [|c2 [|c3 s]]; cbn [app safe_from] in Hs |- *; [discriminate| |].
      * destruct (ceq c2 sq); [rewrite andb_false_r in Hs; discriminate|exact Hgo].
      * destruct (ceq c2 sq), (ceq c3 sq); try exact Hgo.
        apply andb_true_iff in Hs as [_ Hs]. apply andb_true_iff in Hs as [H3 _].
        apply Nat.ltb_lt in H3. lia.
    + destruct (ceq c nl) eqn:En; [exact (Hgo _ Hs)|].
      rewrite (ceq_class lit_char_ok c cr Hk eq_refl), (lit_char_raw c Hk En). exact (Hgo _ Hs).
Qed.

Lemma trim_nl_safe s tl :
  safe_from 0 s = true -> has_nl s = false ->
  trim_nl (s ++ sq :: tl) = s ++ sq :: tl.
Proof.
  destruct s as [|c s]; intros Hs Hn; [reflexivity|].
  cbn [app trim_nl]. cbn [has_nl existsb] in Hn. apply orb_false_iff in Hn as [Hn _]. rewrite Hn.
  cbn [safe_from] in Hs. destruct (ceq c sq) eqn:Ec.
  - apply Ascii.eqb_eq in Ec. subst c. reflexivity.
  - apply andb_true_iff in Hs as [Hc _]. rewrite (ceq_class lit_char_ok c cr Hc eq_refl). reflexivity.
Qed.

(* For EVERY byte string s (the writer's choice of representation and its escaping cover all
   bytes; bytes >= 0x80 are copied by the writer and accepted by the reader), the token written
   for the string value s is read back as s, whatever follows it (except another quote
   character, which the writer never puts there). *)
Theorem toml_string_roundtrip : forall s rest,
  follow_ok rest = true ->
  parse_string (emit_value_str s ++ rest) = Some (s, rest).
Proof.
  intros s rest Hf. unfold emit_value_str.
  destruct (do_pretty s) as [ml triple|ml] eqn:Ed; [|apply parse_emit_std, Hf].
  destruct (do_pretty_literal s ml triple Ed) as (Hs & Hml & Hq).
  destruct ml; [|destruct triple]; cbn [app]; rewrite <- app_assoc.
  - (* '''\n s ''' *)
    apply (parse_mll_ok s 0 [] rest Hs).
  - (* ''' s ''' *)
    cbn [parse_string]. change (ceq sq dq) with false. change (ceq sq sq) with true. cbn [andb app].
    rewrite (trim_nl_safe s _ Hs (eq_sym Hml)). apply (parse_mll_ok s 0 [] rest Hs).
  - (* ' s ' *)
    apply parse_string_literal; [|exact Hf].
    apply (parse_literal_ok s [] rest Hs (eq_sym Hml) (Hq eq_refl)).
Qed.

(* a function that splits off the longest prefix of characters of a class p splits k ++ rest
   at the seam, when k is in the class and rest does not start in it *)
Lemma span_class (span : bytes -> bytes * bytes) (p : ascii -> bool) :
  span [] = ([], []) ->
  (forall c s, span (c :: s) = if p c then let (k, r) := span s in (c :: k, r) else ([], c :: s)) ->
  forall k rest, forallb p k = true -> match rest with c :: _ => p c = false | [] => True end ->
  span (k ++ rest) = (k, rest).
Proof.
  intros Hnil Hcons k rest Hk Hr. induction k as [|c k IH]; cbn [app].
  - destruct rest as [|d r]; [exact Hnil|]. rewrite Hcons, Hr. reflexivity.
  - cbn [forallb] in Hk. apply andb_true_iff in Hk as [Hc Hk]. rewrite Hcons, Hc, (IH Hk). reflexivity.
Qed.

Lemma span_bare_app k rest :
  forallb is_bare_char k = true ->
  match rest with c :: _ => is_bare_char c = false | [] => True end ->
  span_bare (k ++ rest) = (k, rest).
Proof. apply (span_class span_bare is_bare_char); reflexivity. Qed.

(* what follows a key: a space, a dot or a closing bracket -- anything that is not a bare-key
   character *)
Definition key_follow_ok (rest : bytes) : Prop :=
  match rest with c :: _ => is_bare_char c = false | [] => True end.

Theorem toml_key_roundtrip : forall k rest,
  key_follow_ok rest ->
  parse_key (escape_key k ++ rest) = Some (k, rest).
Proof.
  intros k rest Hr. unfold escape_key. destruct (bare_key_ok k) eqn:Eb.
  - unfold bare_key_ok in Eb. destruct k as [|c k]; [discriminate|].
    pose proof Eb as Hc. cbn [forallb] in Hc. apply andb_true_iff in Hc as [Hc _].
    cbn [app]. unfold parse_key. outside is_bare_char Hc.
    change (c :: k ++ rest) with ((c :: k) ++ rest).
    rewrite (span_bare_app (c :: k) rest Eb Hr). reflexivity.
  - unfold emit_std. cbn [app]. unfold parse_key. change (ceq dq dq) with true. cbn iota.
    rewrite <- app_assoc. cbn [app]. rewrite parse_basic_escape. reflexivity.
Qed.

(* a quoted key and a bare key are different tokens for different strings *)
Corollary escape_key_inj k1 k2 : escape_key k1 = escape_key k2 -> k1 = k2.
Proof.
  intros H.
  pose proof (toml_key_roundtrip k1 [] I) as H1. pose proof (toml_key_roundtrip k2 [] I) as H2.
  rewrite H in H1. rewrite H1 in H2. inversion H2. reflexivity.
Qed.
