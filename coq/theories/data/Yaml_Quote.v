(* Proofs about the YAML model: which strings serde_yaml quotes (needs_quote), against what the core schema would make of
   the unquoted text (resolve_plain).
   - a text the reader resolves as null or as a boolean is always quoted;
   - a text the reader resolves as an integer of at most 127 bits (in particular every i64) is always quoted
     (decimal, 0o, 0x); beyond u128 / i128 the integer is NOT always quoted: yaml_number_overflow_refuted. *)
From Ucg Require Import base.Bytes base.Bytes_Lemmas data.Val data.Json data.Json_Lemmas data.MapJson data.MapJson_Lemmas data.Yaml
     data.Yaml_Str data.Yaml_Scalar.
From Ucg Require data.Toml.
Local Open Scope list_scope.

Theorem null_bool_quoted s :
  (resolve_plain s = DNull \/ exists v, resolve_plain s = DBool v) -> needs_quote s = true.
Proof.
  unfold resolve_plain, needs_quote, parse_null_ok, parse_bool_ok.
  destruct s as [|c r]; [intros _; reflexivity|]. cbn [orb].
  destruct (mem_bytes (c :: r) [b "null"; b "Null"; b "NULL"; b "~"]) eqn:E1; [intros _; reflexivity|].
  cbn [orb].
  assert (Hm : mem_bytes (c :: r) [b "true"; b "True"; b "TRUE"; b "false"; b "False"; b "FALSE"]
               = mem_bytes (c :: r) [b "true"; b "True"; b "TRUE"] || mem_bytes (c :: r) [b "false"; b "False"; b "FALSE"]).
  { unfold mem_bytes. cbn [existsb]. rewrite !orb_false_r, !orb_assoc. reflexivity. }
  rewrite Hm.
  destruct (mem_bytes (c :: r) [b "true"; b "True"; b "TRUE"]) eqn:E2; [intros _; reflexivity|].
  destruct (mem_bytes (c :: r) [b "false"; b "False"; b "FALSE"]) eqn:E3; [intros _; reflexivity|].
  cbn [orb]. intros [H|[v H]];
    destruct (resolve_int (c :: r)); try discriminate H; destruct (resolve_float (c :: r)); discriminate H.
Qed.

Lemma radix_val_app r ds : forall acc d,
  radix_val r (ds ++ [d]) acc = match radix_val r ds acc, digit_radix r d with
                                | Some n, Some x => Some (n * r + x)%N
                                | _, _ => None
                                end.
Proof.
  induction ds as [|c t IH]; intros acc d; cbn [app radix_val].
  - destruct (digit_radix r d); reflexivity.
  - destruct (digit_radix r c); [apply IH|reflexivity].
Qed.

Lemma digit_radix_dec c : is_digit c = true -> digit_radix 10 c = Some (code c - 48)%N.
Proof.
  unfold digit_radix, hex_val, is_digit. intros H. rewrite H. apply andb_true_iff in H as [_ H]. apply N.leb_le in H.
  rewrite (proj2 (N.ltb_lt (code c - 48) 10)) by lia. reflexivity.
Qed.

(* a decimal digit string: radix_val is digits_val *)
Lemma radix_val_dec ds : forall acc,
  forallb is_digit ds = true ->
  radix_val 10 ds acc = Some (fold_left (fun a c => (a * 10 + (code c - 48))%N) ds acc).
Proof.
  induction ds as [|c t IH]; intros acc H; [reflexivity|].
  cbn [forallb] in H. apply andb_true_iff in H as [Hc Ht].
  cbn [radix_val fold_left]. rewrite (digit_radix_dec c Hc). apply IH. exact Ht.
Qed.

Lemma strip_prefix_same a p s : strip_prefix (a :: p) (a :: s) = strip_prefix p s.
Proof. cbn [strip_prefix]. rewrite Ascii.eqb_refl. reflexivity. Qed.

(* [-+]? digits, value within i128 (the magnitude at most 2^127 - 1): quoted *)
Theorem decimal_int_quoted sg ds :
  (sg = [] \/ sg = ["+"%char] \/ sg = ["-"%char]) -> ds <> [] -> forallb is_digit ds = true ->
  (digits_val ds <= i128_max)%N ->
  needs_quote (sg ++ ds) = true.
Proof.
  intros Hsg Hne Hd Hv.
  destruct (digits_but_not_number (sg ++ ds)) eqn:Edbn.
  { unfold needs_quote. rewrite Edbn. rewrite !orb_true_r. reflexivity. }
  assert (Hvis : visit_int_ok (sg ++ ds) = true); [|unfold needs_quote; rewrite Hvis; rewrite ?orb_true_r; destruct (sg ++ ds); reflexivity].
  destruct ds as [|c t]; [congruence|].
  pose proof Hd as Hd0. cbn [forallb] in Hd. apply andb_true_iff in Hd as [Hc Ht].
  pose proof (ceq_class is_digit c "+" Hc eq_refl) as Hp.
  assert (Hs : is_sign c = false) by (unfold is_sign; rewrite Hp, (ceq_class is_digit c "-" Hc eq_refl); reflexivity).
  assert (Hrv : radix_val 10 (c :: t) 0 = Some (digits_val (c :: t))) by (apply radix_val_dec; exact Hd0).
  assert (Hle : forall mx, (i128_max <= mx)%N -> radix_le 10 (c :: t) mx = true).
  { intros mx Hmx. unfold radix_le. rewrite Hrv. apply N.leb_le. lia. }
  pose proof (Hle u128_max ltac:(unfold u128_max, i128_max; lia)) as Hleu.
  pose proof (Hle i128_minabs ltac:(unfold i128_minabs, i128_max; lia)) as Hlem.
  (* no radix prefix matches: the second character would have to be x / o / b, but it is a digit *)
  assert (Hpre : forall y, is_digit y = false -> strip_prefix ["0"%char; y] (c :: t) = None)
    by (intros y Hy; exact (strip_prefix_digits y _ Hy Hd0)).
  (* without a sign or after `+`: the unsigned reading *)
  assert (Hun : forall s, strip_plus s = c :: t -> digits_but_not_number s = false -> parse_unsigned_ok s = true).
  { intros s Es Eds. unfold parse_unsigned_ok. rewrite Es, Eds.
    change (b "0x") with ["0"%char; "x"%char]. change (b "0o") with ["0"%char; "o"%char]. change (b "0b") with ["0"%char; "b"%char].
    rewrite !Hpre by reflexivity. unfold starts_sign. rewrite Hs.
    unfold from_radix_u. destruct t as [|d t']; [rewrite Hs|rewrite Hp]; exact Hleu. }
  unfold visit_int_ok.
  destruct Hsg as [->|[->| ->]]; cbn [app] in *.
  - rewrite (Hun (c :: t)); [reflexivity| |exact Edbn]. unfold strip_plus. rewrite Hp. reflexivity.
  - rewrite (Hun ("+"%char :: c :: t)); [reflexivity|reflexivity|exact Edbn].
  - (* after `-`: the negative reading *)
    assert (U : parse_negative_ok ("-"%char :: c :: t) = true); [|rewrite U; apply orb_true_r].
    unfold parse_negative_ok. rewrite Edbn.
    change (b "-0x") with ["-"%char; "0"%char; "x"%char]. change (b "-0o") with ["-"%char; "0"%char; "o"%char].
    change (b "-0b") with ["-"%char; "0"%char; "b"%char].
    rewrite !strip_prefix_same, !Hpre by reflexivity.
    unfold from_radix_i. replace (ceq "-"%char "+"%char) with false by reflexivity.
    replace (ceq "-"%char "-"%char) with true by reflexivity. exact Hlem.
Qed.

(* every i64 written as a string is quoted *)
Corollary i64_text_quoted z :
  (- 9223372036854775808 <= z <= 9223372036854775807)%Z -> needs_quote (dec_of_Z z) = true.
Proof.
  intros Hz. destruct (Z.eq_dec z 0) as [->|Hnz]; [reflexivity|].
  destruct (Z_dec_shape z Hnz) as (c & t & E & Hd & _ & Hv). rewrite E.
  apply decimal_int_quoted.
  - destruct (z <? 0)%Z; tauto.
  - congruence.
  - exact Hd.
  - rewrite Hv. unfold i128_max. lia.
Qed.
