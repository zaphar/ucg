(* YAML output: the summary file.  Theorems proved in the other Yaml_*.v files are
   re-exported; this file adds the refutations (the property is FALSE for three classes of values, with witnesses) and
   non-vacuity examples computed with vm_compute. *)
From Ucg Require Import base.Bytes data.Val data.Json data.MapJson data.Yaml.
From Ucg Require Export data.Yaml_Err data.Yaml_Str data.Yaml_Analyze data.Yaml_Scalar data.Yaml_Plain data.Yaml_Doc data.Yaml_Quote.
From Ucg Require data.Toml.
Local Open Scope list_scope.

(* the property for one value: the converter succeeds and the independent reader reads the data back *)
Definition yaml_roundtrips (v : val) : Prop :=
  exists out d, yaml_output v = YOk out /\ yaml_parse out = Some d /\ spec_data v = Some d.

(* the text is what the converter writes, the reader reads something else than the specification says *)
Lemma refuted_by v out d :
  yaml_output v = YOk out -> yaml_parse out = Some d -> spec_data v <> Some d ->
  yaml_output v = YOk out /\ yaml_parse out = Some d /\ ~ yaml_roundtrips v.
Proof.
  intros Ho Hp Hs. split; [exact Ho|]. split; [exact Hp|].
  intros (out' & d' & Ho' & Hp' & Hs'). rewrite Ho in Ho'. injection Ho' as <-.
  rewrite Hp in Hp'. injection Hp' as <-. exact (Hs Hs').
Qed.

Definition ls : bytes := utf8 8232.      (* U+2028 LINE SEPARATOR *)

(* R1. U+2028 / U+2029 in a string without a line feed.  libyaml treats them as line breaks (YAML 1.1): the analysis
   sets `multiline`, the string goes into a single-quoted scalar, the writer copies the character and then indents the
   "next line".  YAML 1.2 does not treat them as breaks: the indentation is read as content. *)
Theorem yaml_ls_string_refuted :
  let v := VStr (b "a" ++ ls ++ b "b") in
  yaml_output v = YOk (b "'a" ++ ls ++ b "  b'" ++ [nl])
  /\ yaml_parse (b "'a" ++ ls ++ b "  b'" ++ [nl]) = Some (DStr (b "a" ++ ls ++ b "  b"))
  /\ ~ yaml_roundtrips v.
Proof.
  cbv zeta. apply refuted_by; vm_compute; (reflexivity || discriminate).
Qed.

(* the same inside a mapping: key and value *)
Example yaml_ls_in_mapping :
  yaml_output (VTuple [(b "k" ++ ls, VStr (ls ++ b "x"))])
  = YOk (b "? 'k" ++ ls ++ b "  '" ++ [nl] ++ b ": '" ++ ls ++ b "  x'" ++ [nl]).
Proof. vm_compute. reflexivity. Qed.

(* R2. A string that a YAML 1.2 core-schema reader resolves as a number, but that serde_yaml does not recognise as one
   because it does not fit its number types (u64/i64/u128/i128, finite f64): it is written as a plain scalar. *)
Theorem yaml_number_overflow_refuted :
  yaml_output (VStr (b "1e999")) = YOk (b "1e999" ++ [nl])
  /\ yaml_parse (b "1e999" ++ [nl]) = Some (DFloat (Toml.DFin false 1 999))
  /\ ~ yaml_roundtrips (VStr (b "1e999"))
  /\ yaml_output (VStr (b "0x100000000000000000000000000000000")) = YOk (b "0x100000000000000000000000000000000" ++ [nl])
  /\ yaml_parse (b "0x100000000000000000000000000000000" ++ [nl]) = Some (DInt (2 ^ 128))
  /\ ~ yaml_roundtrips (VStr (b "0x100000000000000000000000000000000")).
Proof.
  destruct (refuted_by (VStr (b "1e999")) (b "1e999" ++ [nl]) (DFloat (Toml.DFin false 1 999))) as (O1 & P1 & R1);
    [vm_compute; reflexivity|vm_compute; reflexivity|vm_compute; discriminate|].
  destruct (refuted_by (VStr (b "0x100000000000000000000000000000000")) (b "0x100000000000000000000000000000000" ++ [nl])
                       (DInt (2 ^ 128))) as (O2 & P2 & R2);
    [vm_compute; reflexivity|vm_compute; reflexivity|vm_compute; discriminate|].
  repeat split; assumption.
Qed.

(* ... while the same texts within serde_yaml's ranges are quoted *)
Example yaml_number_strings_quoted :
  yaml_output (VList [VStr (b "1e308"); VStr (b "0xFFFFFFFFFFFFFFFFFFFFFFFFFFFFFFFF"); VStr (b "007"); VStr (b "1.")])
  = YOk (b "- '1e308'" ++ [nl] ++ b "- '0xFFFFFFFFFFFFFFFFFFFFFFFFFFFFFFFF'" ++ [nl] ++ b "- '007'" ++ [nl] ++ b "- '1.'" ++ [nl]).
Proof. vm_compute. reflexivity. Qed.

(* R3. The ROOT value is a string with a line feed that begins with a space or a line break: a literal block scalar with
   the indentation indicator `2`, whose content libyaml indents by 2.  The parent indentation of the root node is -1, so
   the indicator says 1 (YAML 1.2, productions 170 and 207); libyaml's own scanner and PyYAML take max(n,0)+2 = 2. *)
Theorem yaml_root_literal_indicator_refuted :
  let v := VStr (b " x" ++ [nl] ++ b "y") in
  yaml_output v = YOk (b "|2-" ++ [nl] ++ b "   x" ++ [nl] ++ b "  y" ++ [nl])
  /\ yaml_parse (b "|2-" ++ [nl] ++ b "   x" ++ [nl] ++ b "  y" ++ [nl]) = Some (DStr (b "  x" ++ [nl] ++ b " y"))
  /\ ~ yaml_roundtrips v.
Proof.
  cbv zeta. apply refuted_by; vm_compute; (reflexivity || discriminate).
Qed.

(* ... the same string below the root reads back *)
Example yaml_literal_indicator_nested :
  yaml_roundtrips (VList [VStr (b " x" ++ [nl] ++ b "y")])
  /\ yaml_roundtrips (VTuple [(b "k", VStr ([nl] ++ b " x" ++ [nl] ++ [nl]))]).
Proof.
  split; eexists; eexists; (split; [vm_compute; reflexivity|]); (split; vm_compute; reflexivity).
Qed.

Definition sample : val :=
  VTuple [(b "a", VInt 1);
          (b "b", VList [VInt 1; VList [VInt 3; VInt (-4)]; VTuple [(b "x", VStr (b "y")); (b "z", VList [])]; VList []]);
          (b "c", VTuple [(b "d", VTuple []); (b "e", VEmpty); (b "f", VStr (b "multi" ++ [nl] ++ b "line" ++ [nl]));
                          (b "g", VStr (b "a" ++ [nl; nl])); (b "h", VStr (b " x")); (b "i", VStr []); ([], VStr (b "true"));
                          (b "a b", VBool true); (b "tab", VStr [tab; "x"%char]); (b "q", VStr (b "it's: #1"))]);
          (b "k" ++ [nl] ++ b "l", VFloat (FFin (b "1.5")));
          (b "f", VList [VFloat (FFin (b "100")); VFloat FNaN; VFloat FNegInf; VFloat (FFin (b "0.000001"))]);
          (b "a", VInt 2)].

Example yaml_sample_text :
  yaml_output sample =
  YOk (b "a: 2" ++ [nl] ++ b "b:" ++ [nl] ++ b "- 1" ++ [nl] ++ b "- - 3" ++ [nl] ++ b "  - -4" ++ [nl] ++ b "- x: y" ++ [nl]
       ++ b "  z: []" ++ [nl] ++ b "- []" ++ [nl] ++ b "c:" ++ [nl] ++ b "  d: {}" ++ [nl] ++ b "  e: null" ++ [nl]
       ++ b "  f: |" ++ [nl] ++ b "    multi" ++ [nl] ++ b "    line" ++ [nl] ++ b "  g: |+" ++ [nl] ++ b "    a" ++ [nl] ++ [nl]
       ++ b "  h: ' x'" ++ [nl] ++ b "  i: ''" ++ [nl] ++ b "  '': 'true'" ++ [nl] ++ b "  a b: true" ++ [nl]
       ++ b "  tab: ""\tx""" ++ [nl] ++ b "  q: 'it''s: #1'" ++ [nl]
       ++ b "? |-" ++ [nl] ++ b "  k" ++ [nl] ++ b "  l" ++ [nl] ++ b ": 1.5" ++ [nl]
       ++ b "f:" ++ [nl] ++ b "- 100.0" ++ [nl] ++ b "- .nan" ++ [nl] ++ b "- -.inf" ++ [nl] ++ b "- 1e-6" ++ [nl]).
Proof. vm_compute. reflexivity. Qed.

Example yaml_sample_roundtrip : yaml_roundtrips sample.
Proof. eexists; eexists; (split; [exact yaml_sample_text|]); (split; vm_compute; reflexivity). Qed.

Example yaml_error_example :
  yaml_output (VTuple [(b "a", VList [VInt 1; VConstraint])]) = YErr YEConstraint
  /\ spec_data (VTuple [(b "a", VList [VInt 1; VConstraint])]) = None.
Proof. split; reflexivity. Qed.

(* a key longer than 128 bytes: `? key` / `: value`, and the sequence below it is indented *)
Example yaml_long_key :
  let k := repeat "k"%char 129 in
  yaml_output (VTuple [(k, VList [VInt 1; VInt 2])]) = YOk (b "? " ++ k ++ [nl] ++ b ": - 1" ++ [nl] ++ b "  - 2" ++ [nl])
  /\ yaml_roundtrips (VTuple [(k, VList [VInt 1; VInt 2])]).
Proof.
  cbv zeta. match goal with |- ?E /\ _ => assert (Ho : E) by (vm_compute; reflexivity) end.
  split; [exact Ho|]. eexists; eexists; (split; [exact Ho|]); (split; vm_compute; reflexivity).
Qed.

(* floats: ryu's text for the float whose `{}` text is given; read back as the same decimal *)
Example yaml_float_examples :
  map (fun t => yfloat_text (FFin (b t)))
      ["0"; "-0"; "1"; "1.5"; "100"; "0.1"; "0.0001"; "0.00001"; "1000000000000000"; "10000000000000000"; "1234567890123456.8";
       "123456789012345680"; "-2.5"; "0.000000000000000000000000000000000000000000000000000000000000000000000005"]%string
  = map b ["0.0"; "-0.0"; "1.0"; "1.5"; "100.0"; "0.1"; "0.0001"; "0.00001"; "1000000000000000.0"; "1e16"; "1234567890123456.8";
           "1.2345678901234568e17"; "-2.5"; "5e-72"]%string
  /\ forallb (fun t => match Toml.spec_float (FFin (b t)) with
                       | Some d => doc_eqb (resolve_plain (yfloat_text (FFin (b t)))) (DFloat d)
                       | None => false
                       end)
       ["0"; "-0"; "1"; "1.5"; "100"; "0.1"; "0.0001"; "0.00001"; "1000000000000000"; "10000000000000000"; "1234567890123456.8";
        "123456789012345680"; "-2.5"; "0.000000000000000000000000000000000000000000000000000000000000000000000005"]%string = true.
Proof. split; vm_compute; reflexivity. Qed.

(* the partial document theorem is not vacuous: its hypotheses hold for this tuple *)
Example yaml_doc_partial_example :
  let fs := [(b "name", VStr (b "web-1.example")); (b "port", VInt 8080); (b "debug", VBool false);
             (b "parent", VEmpty); (b "Null_", VStr (b "nullable")); (b "x", VInt (-9223372036854775808))] in
  forallb simple_vfield fs = true /\ NoDup (map fst fs) /\ yaml_roundtrips (VTuple fs)
  /\ yaml_output (VTuple fs)
     = YOk (b "name: web-1.example" ++ [nl] ++ b "port: 8080" ++ [nl] ++ b "debug: false" ++ [nl] ++ b "parent: null" ++ [nl]
            ++ b "Null_: nullable" ++ [nl] ++ b "x: -9223372036854775808" ++ [nl]).
Proof.
  cbv zeta.
  assert (Hnd : NoDup (map fst [(b "name", VStr (b "web-1.example")); (b "port", VInt 8080); (b "debug", VBool false);
             (b "parent", VEmpty); (b "Null_", VStr (b "nullable")); (b "x", VInt (-9223372036854775808))])).
  { cbn [map fst]. repeat constructor; cbn [In]; intros H; repeat (destruct H as [H|H]; [discriminate H|]); exact H. }
  split; [vm_compute; reflexivity|]. split; [exact Hnd|]. split.
  - apply yaml_doc_roundtrip_partial; [discriminate|exact Hnd|vm_compute; reflexivity].
  - vm_compute. reflexivity.
Qed.

(* R1 also inside a literal block scalar: the "line" after the U+2028 is indented *)
Example yaml_ls_in_literal :
  yaml_output (VStr (b "a" ++ ls ++ b "b" ++ [nl] ++ b "c"))
  = YOk (b "|-" ++ [nl] ++ b "  a" ++ ls ++ b "  b" ++ [nl] ++ b "  c" ++ [nl])
  /\ yaml_parse (b "|-" ++ [nl] ++ b "  a" ++ ls ++ b "  b" ++ [nl] ++ b "  c" ++ [nl])
     = Some (DStr (b "a" ++ ls ++ b "  b" ++ [nl] ++ b "c")).
Proof. split; vm_compute; reflexivity. Qed.
