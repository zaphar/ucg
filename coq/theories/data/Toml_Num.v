(* Proofs about the TOML model: integers and floats. *)
From Ucg Require Import base.Bytes base.Bytes_Lemmas data.Val data.Json data.Json_Lemmas data.MapJson data.MapJson_Lemmas data.Toml data.Toml_Str.
Local Open Scope list_scope.

Lemma forallb_weaken {A} (p q : A -> bool) l :
  (forall a, p a = true -> q a = true) -> forallb p l = true -> forallb q l = true.
Proof. rewrite !forallb_forall. auto. Qed.

(* what may follow a scalar token: anything that cannot continue it *)
Definition tok_follow_ok (rest : bytes) : Prop :=
  match rest with c :: _ => is_tok_char c = false | [] => True end.

Lemma span_tok_app t rest :
  forallb is_tok_char t = true -> tok_follow_ok rest -> span_tok (t ++ rest) = (t, rest).
Proof. apply (span_class span_tok is_tok_char); reflexivity. Qed.

(* [t] is a complete scalar token, which the reader classifies as [d] *)
Definition token (t : bytes) (d : tdoc) : Prop :=
  forallb is_tok_char t = true /\ t <> [] /\ classify_tok t = Some d /\ is_date_tok t = false.

Lemma parse_scalar_token t d rest :
  token t d -> tok_follow_ok rest -> parse_scalar (t ++ rest) = Some (d, rest).
Proof.
  intros (Ht & Hne & Hc & Hd) Hr. unfold parse_scalar. rewrite (span_tok_app _ _ Ht Hr).
  destruct t; [congruence|]. rewrite Hc, Hd. reflexivity.
Qed.

Lemma token_head t d : token t d -> exists c r, t = c :: r /\ is_tok_char c = true.
Proof.
  intros (Ht & Hne & _). destruct t as [|c r]; [congruence|]. exists c, r. split; [reflexivity|].
  cbn [forallb] in Ht. apply andb_true_iff in Ht. tauto.
Qed.

Lemma us_digits_all isd ds : forall p,
  forallb isd ds = true -> (ds <> [] \/ p = true) -> us_digits isd p ds = Some ds.
Proof.
  induction ds as [|c ds IH]; intros p Hd Hp; cbn [us_digits].
  - destruct Hp as [Hp|Hp]; [congruence|]. rewrite Hp. reflexivity.
  - cbn [forallb] in Hd. apply andb_true_iff in Hd as [Hc Hd]. rewrite Hc.
    rewrite (IH true Hd (or_intror eq_refl)). reflexivity.
Qed.

Lemma us_digits_stop isd ds c r : forall p,
  forallb isd ds = true -> isd c = false -> ceq c "_"%char = false ->
  us_digits isd p (ds ++ c :: r) = None.
Proof.
  induction ds as [|d ds IH]; intros p Hd Hc Hu; cbn [app us_digits].
  - rewrite Hc, Hu. reflexivity.
  - cbn [forallb] in Hd. apply andb_true_iff in Hd as [Hd1 Hd]. rewrite Hd1.
    rewrite (IH true Hd Hc Hu). reflexivity.
Qed.

(* a date-time has a colon in third or a hyphen in fifth place *)
Lemma not_datetime t :
  (forall c, In c (tl t) -> ceq c ":"%char = false /\ ceq c "-"%char = false) ->
  is_datetime_tok t = false.
Proof.
  intros H. unfold is_datetime_tok, is_local_time_tok, take_time, take_date.
  destruct t as [|a0 [|a1 [|a2 [|a3 [|a4 t]]]]]; try reflexivity.
  destruct (H a2) as [H2 _]; [cbn; tauto|]. destruct (H a4) as [_ H4]; [cbn; tauto|].
  destruct t as [|a5 [|a6 [|a7 t]]]; try reflexivity.
  rewrite H2, andb_false_r. cbn [andb orb].
  destruct t as [|a8 [|a9 t]]; try reflexivity.
  rewrite H4, !andb_false_r. reflexivity.
Qed.

Lemma not_datetime_not_date t : is_datetime_tok t = false -> is_date_tok t = false.
Proof.
  unfold is_date_tok, is_datetime_tok. destruct (take_date t) as [[|c r]|]; try reflexivity.
  rewrite orb_true_r. discriminate.
Qed.

Definition sign_text (neg : bool) : bytes := if neg then ["-"%char] else [].

Definition digit_or_dot (c : ascii) : bool := is_digit c || ceq c "."%char.

Lemma digit_or_dot_tok c : digit_or_dot c = true -> is_tok_char c = true.
Proof.
  unfold digit_or_dot, is_tok_char. intros H. apply orb_true_iff in H as [H|H].
  - rewrite H. reflexivity.
  - apply Ascii.eqb_eq in H. subst c. reflexivity.
Qed.

Lemma digits_or_dots ds : forallb is_digit ds = true -> forallb digit_or_dot ds = true.
Proof. apply forallb_weaken. intros c H. unfold digit_or_dot. rewrite H. reflexivity. Qed.

Lemma split_sign_numeric neg c t : is_digit c = true ->
  split_sign (sign_text neg ++ c :: t) = ((if neg then Some true else None), c :: t).
Proof.
  intros Hc. destruct neg; [reflexivity|]. cbn [sign_text app split_sign].
  outside is_digit Hc. reflexivity.
Qed.

Lemma head_not_keyword c t k w : ceq c k = false -> bytes_eqb (c :: t) (k :: w) = false.
Proof. intros H. cbn [bytes_eqb]. fold (ceq c k). rewrite H. reflexivity. Qed.

(* such a token is neither a keyword nor a date-time: it is an integer or a float *)
Lemma numeric_token neg c t :
  is_digit c = true -> forallb digit_or_dot t = true ->
  let tok := sign_text neg ++ c :: t in
  forallb is_tok_char tok = true /\ is_date_tok tok = false /\
  classify_tok tok = match parse_int_tok tok with
                     | Some z => Some (DInt z)
                     | None => match parse_float_tok tok with Some f => Some (DFloat f) | None => None end
                     end.
Proof.
  intros Hc Ht tok.
  assert (Hct : forallb digit_or_dot (c :: t) = true)
    by (cbn [forallb]; unfold digit_or_dot at 1; rewrite Hc, Ht; reflexivity).
  assert (Hdt : is_datetime_tok tok = false).
  { apply not_datetime. intros x Hx.
    assert (Hin : In x (c :: t)) by (destruct neg; [exact Hx|right; exact Hx]).
    rewrite forallb_forall in Hct. specialize (Hct x Hin).
    split; [exact (ceq_class digit_or_dot x ":"%char Hct eq_refl)|exact (ceq_class digit_or_dot x "-"%char Hct eq_refl)]. }
  assert (Hkw : forall k w, is_digit k = false -> ceq "-"%char k = false -> bytes_eqb tok (k :: w) = false).
  { intros k w Hk Hm. unfold tok. destruct neg; apply head_not_keyword; [exact Hm|exact (ceq_class is_digit c k Hc Hk)]. }
  split; [|split; [apply not_datetime_not_date, Hdt|]].
  - unfold tok. rewrite forallb_app, (forallb_weaken _ _ _ digit_or_dot_tok Hct). destruct neg; reflexivity.
  - unfold classify_tok.
    rewrite (Hkw "t"%char (b "rue") eq_refl eq_refl : bytes_eqb tok (b "true") = false).
    rewrite (Hkw "f"%char (b "alse") eq_refl eq_refl : bytes_eqb tok (b "false") = false).
    rewrite Hdt. reflexivity.
Qed.

Lemma no_leading_zero_canon c t : ceq c "0"%char = false -> no_leading_zero (c :: t) = true.
Proof. intros H. cbn. destruct t; [reflexivity|]. rewrite H. reflexivity. Qed.

Lemma int_token z : in_i64 z = true -> token (dec_of_Z z) (DInt z).
Proof.
  intros Hr. destruct (Z.eq_dec z 0) as [->|Hz]; [repeat split; discriminate|].
  destruct (Z_dec_shape z Hz) as (c & t & E & Hd & Hc & Hv). change (dec_of_Z z = sign_text (z <? 0)%Z ++ c :: t) in E.
  pose proof Hd as Hct. cbn [forallb] in Hct. apply andb_true_iff in Hct as [Hcd Ht].
  destruct (numeric_token (z <? 0)%Z c t Hcd (digits_or_dots t Ht)) as (Htok & Hdate & Hcl).
  cbv zeta in Htok, Hdate, Hcl. rewrite <- E in Htok, Hdate, Hcl.
  split; [exact Htok|]. split; [rewrite E; destruct (z <? 0)%Z; discriminate|]. split; [|exact Hdate].
  rewrite Hcl, E. unfold parse_int_tok. rewrite (split_sign_numeric _ c t Hcd).
  rewrite (us_digits_all is_digit (c :: t) false Hd) by (left; discriminate).
  rewrite (no_leading_zero_canon c t Hc), Hv.
  replace (if sign_neg (if (z <? 0)%Z then Some true else None) then (- Z.of_N (Z.abs_N z))%Z else Z.of_N (Z.abs_N z))
    with z by (destruct (Z.ltb_spec z 0); cbn [sign_neg]; lia).
  rewrite Hr.
  (* not a 0x / 0o / 0b literal: the first digit is not 0 *)
  destruct (z <? 0)%Z; [reflexivity|]. destruct t as [|x r]; [reflexivity|]. rewrite Hc. reflexivity.
Qed.

Theorem toml_int_roundtrip : forall z rest,
  in_i64 z = true -> tok_follow_ok rest ->
  parse_scalar (dec_of_Z z ++ rest) = Some (DInt z, rest).
Proof. intros z rest Hr Hf. apply parse_scalar_token; [apply int_token, Hr|exact Hf]. Qed.

(* the fuel is never exhausted: every division by 10 at least halves m *)
Lemma strip_zeros_fuel : forall f1 f2 m e,
  (0 < m)%N -> (m < 2 ^ N.of_nat f1)%N -> (m < 2 ^ N.of_nat f2)%N ->
  strip_zeros f1 m e = strip_zeros f2 m e.
Proof.
  induction f1 as [|f1 IH]; intros f2 m e H0 H1 H2.
  - change (2 ^ N.of_nat 0)%N with 1%N in H1. lia.
  - destruct f2 as [|f2]; [change (2 ^ N.of_nat 0)%N with 1%N in H2; lia|].
    cbn [strip_zeros]. destruct (N.eqb_spec m 0) as [Hm|Hm]; [reflexivity|].
    destruct (N.eqb_spec (m mod 10) 0) as [Hd|Hd]; [|reflexivity].
    pose proof (N.div_mod m 10 ltac:(lia)) as Hdm. rewrite Hd in Hdm.
    rewrite Nat2N.inj_succ, N.pow_succ_r' in H1, H2.
    apply IH.
    + lia.
    + apply N.div_lt_upper_bound; lia.
    + apply N.div_lt_upper_bound; lia.
Qed.

(* a trailing decimal zero can be moved into the exponent *)
Lemma norm_dec_times10 m e : m <> 0%N -> norm_dec (m * 10) (e - 1) = norm_dec m e.
Proof.
  intros Hm. unfold norm_dec.
  pose proof (N.log2_spec (m * 10) ltac:(lia)) as [_ Hb]. pose proof (N.log2_spec m ltac:(lia)) as [_ Hb'].
  rewrite N.pow_succ_r' in Hb.
  rewrite (strip_zeros_fuel (S (N.to_nat (N.log2 m))) (N.to_nat (N.log2 (m * 10))) m e)
    by (rewrite ?Nat2N.inj_succ, ?N2Nat.id; lia).
  cbn [strip_zeros]. destruct (N.eqb_spec (m * 10) 0) as [H0|_]; [lia|].
  rewrite N.mod_mul, N.div_mul by lia. cbn [N.eqb]. replace (e - 1 + 1)%Z with e by lia. reflexivity.
Qed.

(* normalisation does not change the number denoted: m * 10^e = m' * 10^e' *)
Lemma strip_zeros_value f : forall m e m' e',
  strip_zeros f m e = (m', e') -> m <> 0%N ->
  exists k : nat, e' = (e + Z.of_nat k)%Z /\ m = (m' * 10 ^ N.of_nat k)%N /\ m' <> 0%N.
Proof.
  induction f as [|f IH]; intros m e m' e' H Hm; cbn [strip_zeros] in H.
  - inversion H; subst. exists 0. cbn. split; [lia|]. split; [lia|exact Hm].
  - destruct (N.eqb_spec m 0) as [H0|H0]; [contradiction|].
    destruct (N.eqb_spec (m mod 10) 0) as [Hd|Hd].
    + assert (Hq : (m / 10)%N <> 0%N).
      { intros Hq. pose proof (N.div_mod m 10 ltac:(lia)). lia. }
      destruct (IH _ _ _ _ H Hq) as (k & He & Hmk & Hm').
      exists (S k). split; [lia|]. split; [|exact Hm'].
      rewrite Nat2N.inj_succ, N.pow_succ_r'.
      pose proof (N.div_mod m 10 ltac:(lia)) as Hdm. rewrite Hd in Hdm. lia.
    + inversion H; subst. exists 0. cbn. split; [lia|]. split; [lia|exact Hm].
Qed.

Theorem norm_dec_value m e m' e' :
  norm_dec m e = (m', e') -> m <> 0%N ->
  exists k : nat, e' = (e + Z.of_nat k)%Z /\ m = (m' * 10 ^ N.of_nat k)%N.
Proof.
  intros H Hm. destruct (strip_zeros_value _ _ _ _ _ H Hm) as (k & H1 & H2 & _). eauto.
Qed.

Lemma norm_dec_zero e : norm_dec 0 e = (0%N, 0%Z).
Proof. reflexivity. Qed.

Lemma span_digits_spec s : forall d r,
  span_digits s = (d, r) ->
  s = d ++ r /\ forallb is_digit d = true /\ match r with c :: _ => is_digit c = false | [] => True end.
Proof.
  induction s as [|c s IH]; intros d r H; cbn [span_digits] in H.
  - inversion H; subst. repeat split.
  - destruct (is_digit c) eqn:Ec.
    + destruct (span_digits s) as [d' r'] eqn:Es. inversion H; subst.
      destruct (IH d' r eq_refl) as (E & Hd & Hr). subst s. repeat split; auto.
      cbn [forallb]. rewrite Ec, Hd. reflexivity.
    + inversion H; subst. repeat split. exact Ec.
Qed.

Lemma rust_float_parts_shape t neg i fd :
  rust_float_parts t = Some (neg, i, fd) ->
  t = sign_text neg ++ i ++ (match fd with [] => [] | _ :: _ => "."%char :: fd end)
  /\ forallb is_digit i = true /\ forallb is_digit fd = true /\ no_leading_zero i = true.
Proof.
  unfold rust_float_parts.
  set (p := match t with
            | c :: r => if ceq c "-"%char then (true, r) else (false, t)
            | [] => (false, [])
            end).
  assert (Et : t = sign_text (fst p) ++ snd p).
  { unfold p. destruct t as [|c r]; [reflexivity|]. destruct (ceq c "-"%char) eqn:Ec; [|reflexivity].
    apply Ascii.eqb_eq in Ec. subst c. reflexivity. }
  destruct p as [neg0 t1]. cbn [fst snd] in Et.
  destruct (span_digits t1) as [i0 r] eqn:Es.
  destruct (span_digits_spec _ _ _ Es) as (E1 & Hi & _).
  destruct (no_leading_zero i0) eqn:Enz; cbn [negb]; [|discriminate].
  destruct r as [|c fr].
  - intros [= <- <- <-]. subst. rewrite app_nil_r. repeat split; assumption.
  - destruct (ceq c "."%char) eqn:Ec; [|discriminate].
    apply Ascii.eqb_eq in Ec. subst c.
    destruct (span_digits fr) as [fd0 r2] eqn:Ef.
    destruct (span_digits_spec _ _ _ Ef) as (E2 & Hfd & _).
    destruct fd0 as [|f0 fd0]; [discriminate|]. destruct r2; [|discriminate].
    intros [= <- <- <-]. subst. rewrite app_nil_r. repeat split; assumption.
Qed.

Lemma has_dot_digits sgn ds : forallb is_digit ds = true -> has_dot (sign_text sgn ++ ds) = false.
Proof.
  intros Hd. unfold has_dot. rewrite existsb_app.
  replace (existsb (fun c => ceq c "."%char) ds) with false; [destruct sgn; reflexivity|].
  symmetry. apply not_true_is_false. intros H. apply existsb_exists in H as (x & Hx & Hxd).
  rewrite forallb_forall in Hd. rewrite (ceq_class is_digit x "."%char (Hd x Hx) eq_refl) in Hxd. discriminate.
Qed.

(* serialize_float! for a finite value: Display, plus ".0" when Display shows no fraction *)
Lemma float_text_fin t : float_text (TFin t) = if has_dot t then t else t ++ b ".0".
Proof.
  unfold float_text.
  destruct (bytes_eqb t (b "-0")) eqn:E1; [apply bytes_eqb_spec in E1; subst; reflexivity|].
  destruct (bytes_eqb t (b "0")) eqn:E2; [apply bytes_eqb_spec in E2; subst; reflexivity|].
  reflexivity.
Qed.

Lemma float_text_shape t neg i fd :
  rust_float_parts t = Some (neg, i, fd) ->
  float_text (TFin t) = sign_text neg ++ i ++ "."%char :: (match fd with [] => ["0"%char] | _ :: _ => fd end).
Proof.
  intros H. destruct (rust_float_parts_shape _ _ _ _ H) as (E & Hi & Hfd & _).
  rewrite float_text_fin. destruct fd as [|f0 fd].
  - rewrite app_nil_r in E. subst t. rewrite (has_dot_digits neg i Hi).
    rewrite <- app_assoc. reflexivity.
  - subst t. unfold has_dot. rewrite !existsb_app. cbn [existsb].
    change (ceq "."%char "."%char) with true. rewrite ?orb_true_r. reflexivity.
Qed.

Lemma span_until_digits p ds r :
  forallb is_digit ds = true -> (forall d, is_digit d = true -> p d = false) ->
  match r with c :: _ => p c = true | [] => True end ->
  span_until p (ds ++ r) = (ds, r).
Proof.
  intros Hd Hp Hr. apply (span_class (span_until p) (fun c => negb (p c))).
  - reflexivity.
  - intros c s. cbn [span_until]. destruct (p c); reflexivity.
  - apply (forallb_weaken is_digit); [|exact Hd]. intros d Hdd. rewrite (Hp d Hdd). reflexivity.
  - destruct r as [|c r]; [exact I|]. rewrite Hr. reflexivity.
Qed.

Lemma no_leading_zero_nonempty i : no_leading_zero i = true -> exists c t, i = c :: t.
Proof. destruct i; [discriminate|eauto]. Qed.

(* the token  [-] c t . fd  with fd non-empty, c :: t without a leading zero *)
Section FloatTok.
  Variables (neg : bool) (c : ascii) (t fd : bytes).
  Hypothesis Hi : forallb is_digit (c :: t) = true.
  Hypothesis Hfd : forallb is_digit fd = true.
  Hypothesis Hnz : no_leading_zero (c :: t) = true.
  Hypothesis Hfne : fd <> [].

  Let tok := sign_text neg ++ (c :: t) ++ "."%char :: fd.

  Let Hc : is_digit c = true.
  Proof. cbn [forallb] in Hi. apply andb_true_iff in Hi. tauto. Qed.

  Lemma ftok_not_int : parse_int_tok tok = None.
  Proof.
    unfold parse_int_tok, tok. cbn [app]. rewrite (split_sign_numeric neg c _ Hc).
    change (c :: t ++ "."%char :: fd) with ((c :: t) ++ "."%char :: fd).
    rewrite (us_digits_stop is_digit (c :: t) "."%char fd false Hi eq_refl eq_refl).
    destruct neg; [reflexivity|]. cbn [app].
    (* not a 0x / 0o / 0b literal either: after a leading 0 comes the dot *)
    destruct t as [|x r]; cbn [app].
    - destruct (ceq c "0"%char); reflexivity.
    - cbn in Hnz. apply negb_true_iff in Hnz. rewrite Hnz. reflexivity.
  Qed.

  Lemma ftok_float :
    parse_float_tok tok = Some (mk_fin neg (digits_val ((c :: t) ++ fd)) (- Z.of_nat (List.length fd))%Z).
  Proof.
    unfold parse_float_tok, tok. cbn [app]. rewrite (split_sign_numeric neg c _ Hc).
    rewrite (head_not_keyword c _ "i"%char (b "nf") (ceq_class is_digit c "i"%char Hc eq_refl)).
    rewrite (head_not_keyword c _ "n"%char (b "an") (ceq_class is_digit c "n"%char Hc eq_refl)).
    change (c :: t ++ "."%char :: fd) with ((c :: t) ++ "."%char :: fd).
    rewrite (span_until_digits (fun c => ceq c "."%char || is_e c) (c :: t) ("."%char :: fd) Hi) by
      (try reflexivity; intros d Hd; unfold is_e; outside is_digit Hd; reflexivity).
    rewrite (us_digits_all is_digit (c :: t) false Hi) by (left; discriminate).
    rewrite Hnz. cbn [negb]. change (ceq "."%char "."%char) with true. cbn iota.
    rewrite <- (app_nil_r fd) at 1.
    rewrite (span_until_digits is_e fd [] Hfd) by
      (try exact I; intros d Hd; unfold is_e; outside is_digit Hd; reflexivity).
    rewrite (us_digits_all is_digit fd false Hfd) by (left; exact Hfne).
    replace (sign_neg (if neg then Some true else None)) with neg by (destruct neg; reflexivity).
    replace (0 - Z.of_nat (List.length fd))%Z with (- Z.of_nat (List.length fd))%Z by lia.
    reflexivity.
  Qed.

  Lemma ftok_token :
    token tok (DFloat (mk_fin neg (digits_val ((c :: t) ++ fd)) (- Z.of_nat (List.length fd))%Z)).
  Proof.
    destruct (numeric_token neg c (t ++ "."%char :: fd) Hc) as (Htok & Hdate & Hcl).
    { cbn [forallb] in Hi. apply andb_true_iff in Hi as [_ Ht].
      rewrite forallb_app. cbn [forallb]. rewrite (digits_or_dots t Ht), (digits_or_dots fd Hfd). reflexivity. }
    split; [exact Htok|]. split; [unfold tok; destruct neg; discriminate|]. split; [|exact Hdate].
    cbv zeta in Hcl. change (sign_text neg ++ c :: t ++ "."%char :: fd) with tok in Hcl.
    rewrite Hcl, ftok_not_int, ftok_float. reflexivity.
  Qed.
End FloatTok.

Lemma mk_fin_dot0 neg i :
  mk_fin neg (digits_val (i ++ ["0"%char])) (- Z.of_nat 1)%Z = mk_fin neg (digits_val i) 0%Z.
Proof.
  rewrite digits_val_app. change (code "0"%char - 48)%N with 0%N. rewrite N.add_0_r.
  unfold mk_fin. destruct (N.eq_dec (digits_val i) 0) as [E|E].
  - rewrite E. reflexivity.
  - change (- Z.of_nat 1)%Z with (0 - 1)%Z. rewrite (norm_dec_times10 _ 0%Z E). reflexivity.
Qed.

Lemma float_token t neg i fd :
  rust_float_parts t = Some (neg, i, fd) ->
  token (float_text (TFin t)) (DFloat (mk_fin neg (digits_val (i ++ fd)) (- Z.of_nat (List.length fd))%Z)).
Proof.
  intros H. destruct (rust_float_parts_shape _ _ _ _ H) as (_ & Hi & Hfd & Hnz).
  rewrite (float_text_shape _ _ _ _ H).
  destruct (no_leading_zero_nonempty i Hnz) as (c & t0 & ->).
  destruct fd as [|f0 fd0].
  - (* Display shows no fraction: ".0" is appended, which normalisation removes again *)
    rewrite app_nil_r, <- mk_fin_dot0. apply ftok_token; [exact Hi|reflexivity|exact Hnz|discriminate].
  - apply ftok_token; [exact Hi|exact Hfd|exact Hnz|discriminate].
Qed.

(* toml_float_text: a finite float, given by the text Rust's Display prints for it
   ([-] digits [ . digits ], no leading zeros), is written as a token that the reader classifies
   as a FLOAT (never as an integer, a boolean or a date), and the float it reads is the decimal
   that the Rust text denotes: sign, mantissa digits_val (i ++ fd), exponent - |fd|, normalised
   (norm_dec_value: normalisation preserves m * 10^e). *)
Theorem toml_float_text : forall t neg i fd rest,
  rust_float_parts t = Some (neg, i, fd) -> tok_follow_ok rest ->
  let d := mk_fin neg (digits_val (i ++ fd)) (- Z.of_nat (List.length fd))%Z in
  parse_scalar (float_text (TFin t) ++ rest) = Some (DFloat d, rest)
  /\ spec_float (FFin t) = Some d.
Proof.
  intros t neg i fd rest H Hr d.
  split; [|unfold spec_float; rewrite H; reflexivity].
  apply parse_scalar_token; [apply float_token, H|exact Hr].
Qed.

Lemma nonfinite_token :
  (forall neg, token (float_text (TNan neg)) (DFloat DNan)) /\
  (forall neg, token (float_text (TInf neg)) (DFloat (DInf neg))).
Proof. split; intros [|]; repeat split; discriminate. Qed.

Lemma bool_token v : token (bool_text v) (DBool v).
Proof. destruct v; repeat split; discriminate. Qed.

Theorem toml_float_nonfinite : forall rest, tok_follow_ok rest ->
  (forall neg, parse_scalar (float_text (TNan neg) ++ rest) = Some (DFloat DNan, rest)) /\
  (forall neg, parse_scalar (float_text (TInf neg) ++ rest) = Some (DFloat (DInf neg), rest)).
Proof.
  intros rest Hr. split; intros neg; apply parse_scalar_token; try exact Hr; apply nonfinite_token.
Qed.

Theorem toml_bool_roundtrip : forall v rest, tok_follow_ok rest ->
  parse_scalar (bool_text v ++ rest) = Some (DBool v, rest).
Proof. intros v rest Hr. apply parse_scalar_token; [apply bool_token|exact Hr]. Qed.
