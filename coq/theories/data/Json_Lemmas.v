(* The RFC 8259 parser of Json.v inverts the serde_json pretty printer of Json.v. *)
From Ucg Require Import base.Bytes base.Bytes_Lemmas data.Json.

Local Open Scope list_scope.

Lemma ceq_class (P : ascii -> bool) c d : P c = true -> P d = false -> ceq c d = false.
Proof. exact (eqb_class P c d). Qed.

Lemma ceq_code c d : ceq c d = (code c =? code d)%N.
Proof.
  unfold ceq. destruct (Ascii.eqb_spec c d) as [->|Hne]; symmetry; [apply N.eqb_refl|].
  apply N.eqb_neq. intros E. exact (Hne (code_inj c d E)).
Qed.

Section JsonInd.
  Variable P : json -> Prop.
  Hypothesis Hnull : P JNull.
  Hypothesis Hbool : forall v, P (JBool v).
  Hypothesis Hnum : forall lit, P (JNum lit).
  Hypothesis Hstr : forall s, P (JStr s).
  Hypothesis Harr : forall l, Forall P l -> P (JArr l).
  Hypothesis Hobj : forall kvs, Forall (fun kv => P (snd kv)) kvs -> P (JObj kvs).

  Fixpoint json_ind' (j : json) : P j :=
    match j with
    | JNull => Hnull
    | JBool v => Hbool v
    | JNum lit => Hnum lit
    | JStr s => Hstr s
    | JArr l =>
      Harr l ((fix go (l : list json) : Forall P l :=
                 match l with
                 | [] => Forall_nil _
                 | x :: xs => Forall_cons x (json_ind' x) (go xs)
                 end) l)
    | JObj kvs =>
      Hobj kvs ((fix go (l : list (bytes * json)) : Forall (fun kv => P (snd kv)) l :=
                   match l with
                   | [] => Forall_nil _
                   | (k, v) :: r => Forall_cons (k, v) (json_ind' v) (go r)
                   end) kvs)
    end.
End JsonInd.

Definition all_ws (w : bytes) : bool := forallb is_ws w.

Lemma skip_ws_app w s : all_ws w = true -> skip_ws (w ++ s) = skip_ws s.
Proof.
  induction w as [|c w IH]; cbn; auto.
  intros H. apply andb_true_iff in H as [Hc Hw]. rewrite Hc. auto.
Qed.

Lemma skip_ws_nonws c s : is_ws c = false -> skip_ws (c :: s) = c :: s.
Proof. intros H; cbn. rewrite H. reflexivity. Qed.

Lemma skip_ws_nl ind s : all_ws ind = true -> skip_ws (nl :: ind ++ s) = skip_ws s.
Proof. intros H. apply (skip_ws_app (nl :: ind)). exact H. Qed.

Lemma all_ws_indent ind : all_ws ind = true -> all_ws (sp :: sp :: ind) = true.
Proof. intros H; cbn. exact H. Qed.

Lemma all_ws_nl ind : all_ws ind = true -> all_ws (nl :: ind) = true.
Proof. intros H; cbn. exact H. Qed.

(* the string parser undoes [escape_byte] on every byte: serde_json's ESCAPE is a table of 256
   entries, and so is this proof *)
Lemma parse_str_step c tl acc :
  parse_str (escape_byte c ++ tl) acc = parse_str tl (c :: acc).
Proof.
  destruct c as [[] [] [] [] [] [] [] []]; reflexivity.
Qed.

Lemma parse_str_escape s : forall acc rest,
  parse_str (escape s ++ dq :: rest) acc = Some (rev acc ++ s, rest).
Proof.
  induction s as [|c s IH]; intros acc rest.
  - cbn. unfold rev'. rewrite <- rev_alt, app_nil_r. reflexivity.
  - cbn [escape]. rewrite <- app_assoc, parse_str_step, IH.
    cbn [rev]. rewrite <- app_assoc. reflexivity.
Qed.

Lemma parse_print_string s rest :
  parse_str (escape s ++ [dq] ++ rest) [] = Some (s, rest).
Proof. cbn [app]. rewrite parse_str_escape. reflexivity. Qed.

(* what may follow a printed value: end of text or a non-number character *)
Definition term_ok (rest : bytes) : bool :=
  match rest with
  | [] => true
  | c :: _ => negb (num_char c)
  end.

Lemma span_num_app lit rest :
  forallb num_char lit = true -> term_ok rest = true ->
  span_num (lit ++ rest) = (lit, rest).
Proof.
  intros Hl Hr. induction lit as [|c lit IH]; cbn.
  - destruct rest as [|d rest]; cbn in *; auto.
    apply negb_true_iff in Hr. rewrite Hr. reflexivity.
  - cbn in Hl. apply andb_true_iff in Hl as [Hc Hl].
    rewrite Hc, (IH Hl). reflexivity.
Qed.

Lemma scan_number_ok lit rest :
  num_lit_ok lit = true -> term_ok rest = true ->
  scan_number (lit ++ rest) = Some (lit, rest).
Proof.
  intros Hl Hr. unfold scan_number.
  assert (Hc : forallb num_char lit = true).
  { unfold num_lit_ok in Hl. apply andb_true_iff in Hl as [H _]. exact H. }
  rewrite (span_num_app _ _ Hc Hr), Hl. reflexivity.
Qed.

Definition num_start (c : ascii) : bool := ceq c "-"%char || is_digit c.

Lemma num_lit_head lit :
  num_lit_ok lit = true -> exists c t, lit = c :: t /\ num_start c = true.
Proof.
  unfold num_lit_ok. intros H. apply andb_true_iff in H as [_ H].
  destruct lit as [|c t].
  - cbn in H. discriminate.
  - exists c, t. split; [reflexivity|].
    unfold num_split, scan_sign, num_start in *.
    destruct (ceq c "-"%char) eqn:E; [reflexivity|]. cbn [orb].
    unfold scan_int in H.
    destruct (ceq c "0"%char) eqn:E0.
    + apply Ascii.eqb_eq in E0. subst c. reflexivity.
    + destruct (is_digit c); [reflexivity|discriminate].
Qed.

Lemma num_start_dispatch c :
  num_start c = true ->
  is_ws c = false /\ ceq c "n"%char = false /\ ceq c "t"%char = false /\
  ceq c "f"%char = false /\ ceq c dq = false /\ ceq c "["%char = false /\
  ceq c "{"%char = false /\ ceq c "]"%char = false /\ ceq c "}"%char = false.
Proof.
  intros H. unfold is_ws, ceq. rewrite !(eqb_class num_start c _ H) by reflexivity. repeat split.
Qed.

Definition arr_tail (ind : bytes) : list json -> bytes :=
  fix tail (l : list json) : bytes :=
    match l with
    | [] => nl :: ind ++ ["]"%char]
    | y :: ys =>
      ","%char :: nl :: (sp :: sp :: ind) ++ print_value (sp :: sp :: ind) y ++ tail ys
    end.

Definition obj_tail (ind : bytes) : list (bytes * json) -> bytes :=
  fix tail (l : list (bytes * json)) : bytes :=
    match l with
    | [] => nl :: ind ++ ["}"%char]
    | (k', v') :: r =>
      ","%char :: nl :: (sp :: sp :: ind) ++ print_string k' ++
      ":"%char :: sp :: print_value (sp :: sp :: ind) v' ++ tail r
    end.

Lemma print_value_arr ind x xs :
  print_value ind (JArr (x :: xs))
  = "["%char :: nl :: (sp :: sp :: ind) ++ print_value (sp :: sp :: ind) x ++ arr_tail ind xs.
Proof. reflexivity. Qed.

Lemma print_value_obj ind k v kvs :
  print_value ind (JObj ((k, v) :: kvs))
  = "{"%char :: nl :: (sp :: sp :: ind) ++ print_string k ++
    ":"%char :: sp :: print_value (sp :: sp :: ind) v ++ obj_tail ind kvs.
Proof. reflexivity. Qed.

Lemma arr_tail_nil ind : arr_tail ind [] = nl :: ind ++ ["]"%char].
Proof. reflexivity. Qed.
Lemma arr_tail_cons ind y ys :
  arr_tail ind (y :: ys)
  = ","%char :: nl :: (sp :: sp :: ind) ++ print_value (sp :: sp :: ind) y ++ arr_tail ind ys.
Proof. reflexivity. Qed.
Lemma obj_tail_nil ind : obj_tail ind [] = nl :: ind ++ ["}"%char].
Proof. reflexivity. Qed.
Lemma obj_tail_cons ind k v r :
  obj_tail ind ((k, v) :: r)
  = ","%char :: nl :: (sp :: sp :: ind) ++ print_string k ++
    ":"%char :: sp :: print_value (sp :: sp :: ind) v ++ obj_tail ind r.
Proof. reflexivity. Qed.

Lemma term_ok_arr_tail ind xs rest : term_ok (arr_tail ind xs ++ rest) = true.
Proof. destruct xs; reflexivity. Qed.

Lemma term_ok_obj_tail ind kvs rest : term_ok (obj_tail ind kvs ++ rest) = true.
Proof. destruct kvs as [|[k v] r]; reflexivity. Qed.

(* a printed value starts with a character that is neither whitespace nor a
   closing bracket *)
Lemma print_value_head ind j :
  json_wf j = true ->
  exists c t, print_value ind j = c :: t /\ is_ws c = false /\ ceq c "]"%char = false.
Proof.
  intros Hwf. destruct j as [|[]|lit|s|[|x xs]|[|[k v] kvs]];
    try (eexists; eexists; split; [reflexivity|repeat split]; fail).
  cbn in Hwf. destruct (num_lit_head _ Hwf) as (c & t & -> & Hc).
  exists c, t. split; [reflexivity|].
  destruct (num_start_dispatch _ Hc) as (? & _ & _ & _ & _ & _ & _ & ? & _). auto.
Qed.

(* [pv] inverts the printer on [j] printed at indentation [ind] *)
Definition PV (pv : bytes -> option (json * bytes)) (ind : bytes) (j : json) : Prop :=
  forall w rest, all_ws w = true -> term_ok rest = true ->
                 pv (w ++ print_value ind j ++ rest) = Some (j, rest).

(* reading one printed item / member leaves the loop at the separator that follows it *)
Lemma items_step pv ind x n w rest acc :
  PV pv ind x -> all_ws w = true -> term_ok rest = true ->
  items_loop pv (S n) (w ++ print_value ind x ++ rest) acc =
  match skip_ws rest with
  | c :: r' =>
    if ceq c ","%char then items_loop pv n r' (x :: acc)
    else if ceq c "]"%char then Some (rev' (x :: acc), r') else None
  | [] => None
  end.
Proof. intros Hx Hw Hr. cbn [items_loop]. rewrite (Hx w rest Hw Hr). reflexivity. Qed.

Lemma members_step pv ind k v n w rest acc :
  PV pv ind v -> all_ws w = true -> term_ok rest = true ->
  members_loop pv (S n) (w ++ print_string k ++ ":"%char :: sp :: print_value ind v ++ rest) acc =
  match skip_ws rest with
  | d :: r' =>
    if ceq d ","%char then members_loop pv n r' ((k, v) :: acc)
    else if ceq d "}"%char then Some (rev' ((k, v) :: acc), r') else None
  | [] => None
  end.
Proof.
  intros Hv Hw Hr. cbn [members_loop]. rewrite (skip_ws_app w) by exact Hw.
  unfold print_string. cbn [app]. rewrite skip_ws_nonws by reflexivity.
  replace (ceq dq dq) with true by reflexivity.
  rewrite <- app_assoc. cbn [app]. rewrite parse_str_escape. cbn [rev app].
  rewrite skip_ws_nonws by reflexivity.
  replace (ceq ":"%char ":"%char) with true by reflexivity.
  change (sp :: print_value ind v ++ rest) with ([sp] ++ print_value ind v ++ rest).
  rewrite (Hv [sp] rest eq_refl Hr). reflexivity.
Qed.

Lemma items_loop_ok pv ind :
  all_ws ind = true ->
  forall xs x acc n w rest,
    (forall y, In y (x :: xs) -> PV pv (sp :: sp :: ind) y) ->
    List.length xs < n -> all_ws w = true ->
    items_loop pv n (w ++ print_value (sp :: sp :: ind) x ++ arr_tail ind xs ++ rest) acc
    = Some (rev acc ++ x :: xs, rest).
Proof.
  intros Hind. induction xs as [|y ys IH]; intros x acc n w rest Hpv Hn Hw;
    (destruct n as [|n]; [inversion Hn|]);
    rewrite items_step by (auto using term_ok_arr_tail; apply Hpv; left; reflexivity).
  - rewrite arr_tail_nil. cbn [app]. rewrite <- app_assoc, skip_ws_nl by exact Hind.
    cbn. rewrite rev_append_rev. reflexivity.
  - rewrite arr_tail_cons. cbn [app]. rewrite skip_ws_nonws by reflexivity.
    replace (ceq ","%char ","%char) with true by reflexivity.
    rewrite <- !app_assoc.
    pose proof (IH y (x :: acc) n (nl :: sp :: sp :: ind) rest) as IH'.
    cbn [app] in IH'. rewrite IH'.
    + cbn [rev]. rewrite <- app_assoc. reflexivity.
    + intros z Hz. apply Hpv. right. exact Hz.
    + cbn in Hn. apply Nat.succ_lt_mono. exact Hn.
    + apply all_ws_nl, all_ws_indent, Hind.
Qed.

Lemma members_loop_ok pv ind :
  all_ws ind = true ->
  forall kvs k v acc n w rest,
    (forall kv, In kv ((k, v) :: kvs) -> PV pv (sp :: sp :: ind) (snd kv)) ->
    List.length kvs < n -> all_ws w = true ->
    members_loop pv n
      (w ++ print_string k ++ ":"%char :: sp :: print_value (sp :: sp :: ind) v
         ++ obj_tail ind kvs ++ rest) acc
    = Some (rev acc ++ (k, v) :: kvs, rest).
Proof.
  intros Hind. induction kvs as [|[k' v'] r IH]; intros k v acc n w rest Hpv Hn Hw;
    (destruct n as [|n]; [inversion Hn|]);
    rewrite members_step by (auto using term_ok_obj_tail; apply (Hpv (k, v)); left; reflexivity).
  - rewrite obj_tail_nil. cbn [app]. rewrite <- app_assoc, skip_ws_nl by exact Hind.
    cbn. rewrite rev_append_rev. reflexivity.
  - rewrite obj_tail_cons. cbn [app]. rewrite skip_ws_nonws by reflexivity.
    replace (ceq ","%char ","%char) with true by reflexivity.
    rewrite <- !app_assoc. cbn [app]. rewrite <- !app_assoc. cbn [app].
    pose proof (IH k' v' ((k, v) :: acc) n (nl :: sp :: sp :: ind) rest) as IH'.
    cbn [app] in IH'. rewrite IH'.
    + cbn [rev]. rewrite <- app_assoc. reflexivity.
    + intros z Hz. apply Hpv. right. exact Hz.
    + cbn in Hn. apply Nat.succ_lt_mono. exact Hn.
    + apply all_ws_nl, all_ws_indent, Hind.
Qed.

Fixpoint json_size (j : json) : nat :=
  match j with
  | JArr l => S (list_sum (map json_size l) + List.length l)
  | JObj kvs => S (list_sum (map (fun kv => json_size (snd kv)) kvs) + List.length kvs)
  | _ => 0
  end.

Lemma size_in_arr y l :
  In y l -> json_size y < list_sum (map json_size l) + List.length l.
Proof.
  induction l as [|x xs IH]; cbn; [tauto|].
  intros [->|H]; [lia|]. specialize (IH H). unfold list_sum in *. cbn in *. lia.
Qed.

Lemma size_in_obj (kv : bytes * json) kvs :
  In kv kvs ->
  json_size (snd kv) < list_sum (map (fun kv => json_size (snd kv)) kvs) + List.length kvs.
Proof.
  induction kvs as [|x xs IH]; cbn; [tauto|].
  intros [->|H]; [lia|]. specialize (IH H). unfold list_sum in *. cbn in *. lia.
Qed.

Lemma pv_dq f w s1 : all_ws w = true ->
  parse_value (S f) (w ++ dq :: s1)
  = match parse_str s1 [] with Some (str, r) => Some (JStr str, r) | None => None end.
Proof. intros Hw. cbn [parse_value]. rewrite (skip_ws_app w) by exact Hw. reflexivity. Qed.

Lemma pv_lbracket f w s1 : all_ws w = true ->
  parse_value (S f) (w ++ "["%char :: s1)
  = match skip_ws s1 with
    | [] => None
    | c2 :: r2 =>
      if ceq c2 "]"%char then Some (JArr [], r2)
      else match items_loop (parse_value f) f (c2 :: r2) [] with
           | Some (l, r) => Some (JArr l, r)
           | None => None
           end
    end.
Proof. intros Hw. cbn [parse_value]. rewrite (skip_ws_app w) by exact Hw. reflexivity. Qed.

Lemma pv_lbrace f w s1 : all_ws w = true ->
  parse_value (S f) (w ++ "{"%char :: s1)
  = match skip_ws s1 with
    | [] => None
    | c2 :: r2 =>
      if ceq c2 "}"%char then Some (JObj [], r2)
      else match members_loop (parse_value f) f (c2 :: r2) [] with
           | Some (l, r) => Some (JObj l, r)
           | None => None
           end
    end.
Proof. intros Hw. cbn [parse_value]. rewrite (skip_ws_app w) by exact Hw. reflexivity. Qed.

Lemma pv_num f w c s1 : all_ws w = true -> num_start c = true ->
  parse_value (S f) (w ++ c :: s1)
  = match scan_number (c :: s1) with
    | Some (lit, r) => Some (JNum lit, r)
    | None => None
    end.
Proof.
  intros Hw Hc. cbn [parse_value]. rewrite (skip_ws_app w) by exact Hw.
  destruct (num_start_dispatch _ Hc) as (H0 & H1 & H2 & H3 & H4 & H5 & H6 & _).
  rewrite skip_ws_nonws by exact H0.
  rewrite H1, H2, H3, H4, H5, H6. unfold num_start in Hc. rewrite Hc. reflexivity.
Qed.

Lemma parse_print_value : forall j,
  json_wf j = true ->
  forall fuel ind w rest,
    json_size j < fuel -> all_ws ind = true -> all_ws w = true -> term_ok rest = true ->
    parse_value fuel (w ++ print_value ind j ++ rest) = Some (j, rest).
Proof.
  induction j as [|v|lit|s|l IH|kvs IH] using json_ind';
    intros Hwf fuel ind w rest Hf Hind Hw Hr;
    (destruct fuel as [|f]; [inversion Hf|]).
  - cbn [parse_value]. rewrite (skip_ws_app w) by exact Hw. reflexivity.
  - cbn [parse_value]. rewrite (skip_ws_app w) by exact Hw. destruct v; reflexivity.
  - cbn in Hwf. destruct (num_lit_head _ Hwf) as (c & t & E & Hc).
    cbn [print_value]. rewrite E at 1. cbn [app].
    rewrite (pv_num f w c _ Hw Hc).
    change (c :: t ++ rest) with ((c :: t) ++ rest). rewrite <- E.
    rewrite (scan_number_ok _ _ Hwf Hr). reflexivity.
  - cbn [print_value]. unfold print_string. cbn [app].
    rewrite <- ?app_assoc. cbn [app].
    rewrite (pv_dq f w _ Hw). rewrite parse_str_escape. reflexivity.
  - destruct l as [|x xs].
    + cbn [parse_value]. rewrite (skip_ws_app w) by exact Hw. reflexivity.
    + rewrite print_value_arr. cbn [app]. rewrite (pv_lbracket f w _ Hw).
      rewrite <- ?app_assoc. cbn [app]. rewrite <- ?app_assoc.
      pose proof (all_ws_indent _ Hind) as Hind'.
      assert (Hwfx : forall y, In y (x :: xs) -> json_wf y = true).
      { cbn [json_wf] in Hwf. intros y Hy. eapply forallb_forall in Hwf; eauto. }
      change (nl :: sp :: sp :: ind ++ ?X) with (nl :: (sp :: sp :: ind) ++ X).
      rewrite skip_ws_nl by exact Hind'.
      destruct (print_value_head (sp :: sp :: ind) x (Hwfx x (or_introl eq_refl)))
        as (c & t & E & Hc1 & Hc2).
      rewrite E. cbn [app]. rewrite skip_ws_nonws by exact Hc1. rewrite Hc2.
      change (c :: t ++ ?X) with ((c :: t) ++ X). rewrite <- E.
      pose proof (items_loop_ok (parse_value f) ind Hind xs x [] f [] rest) as HL.
      cbn [app rev] in HL. rewrite HL; [reflexivity| | |reflexivity].
      * intros y Hy w' rest' Hw' Hr'.
        rewrite Forall_forall in IH. apply IH; auto.
        cbn [json_size] in Hf. pose proof (size_in_arr y (x :: xs) Hy). lia.
      * cbn [json_size] in Hf. cbn [List.length] in Hf. lia.
  - destruct kvs as [|[k v] kvs].
    + cbn [parse_value]. rewrite (skip_ws_app w) by exact Hw. reflexivity.
    + rewrite print_value_obj. cbn [app]. rewrite (pv_lbrace f w _ Hw).
      rewrite <- ?app_assoc. cbn [app]. rewrite <- ?app_assoc. cbn [app].
      pose proof (all_ws_indent _ Hind) as Hind'.
      assert (Hwfx : forall kv, In kv ((k, v) :: kvs) -> json_wf (snd kv) = true).
      { cbn [json_wf] in Hwf. intros y Hy.
        eapply forallb_forall in Hwf; eauto. }
      change (nl :: sp :: sp :: ind ++ ?X) with (nl :: (sp :: sp :: ind) ++ X).
      rewrite skip_ws_nl by exact Hind'.
      unfold print_string at 1. cbn [app]. rewrite skip_ws_nonws by reflexivity.
      replace (ceq dq "}"%char) with false by reflexivity.
      pose proof (members_loop_ok (parse_value f) ind Hind kvs k v [] f [] rest) as HL.
      unfold print_string at 1 in HL. cbn [app rev] in HL.
      rewrite <- ?app_assoc in HL. cbn [app] in HL.
      rewrite <- ?app_assoc. cbn [app].
      rewrite HL; [reflexivity| | |reflexivity].
      * intros kv Hkv w' rest' Hw' Hr'.
        rewrite Forall_forall in IH. apply IH; auto.
        cbn [json_size] in Hf. pose proof (size_in_obj kv ((k, v) :: kvs) Hkv). lia.
      * cbn [json_size] in Hf. cbn [List.length] in Hf. lia.
Qed.

Lemma arr_tail_len ind xs :
  (forall y, In y xs -> forall ind', json_size y <= List.length (print_value ind' y)) ->
  list_sum (map json_size xs) + List.length xs < List.length (arr_tail ind xs).
Proof.
  induction xs as [|y ys IH]; intros H.
  - rewrite arr_tail_nil. cbn. lia.
  - rewrite arr_tail_cons. cbn [List.length map list_sum fold_right].
    rewrite !app_length.
    pose proof (H y (or_introl eq_refl) (sp :: sp :: ind)).
    assert (IH' := IH (fun z Hz => H z (or_intror Hz))).
    unfold list_sum in *. cbn [List.length] in *. lia.
Qed.

Lemma obj_tail_len ind kvs :
  (forall kv, In kv kvs -> forall ind', json_size (snd kv) <= List.length (print_value ind' (snd kv))) ->
  list_sum (map (fun kv => json_size (snd kv)) kvs) + List.length kvs
  < List.length (obj_tail ind kvs).
Proof.
  induction kvs as [|[k v] r IH]; intros H.
  - rewrite obj_tail_nil. cbn. lia.
  - rewrite obj_tail_cons. cbn [List.length map list_sum fold_right snd].
    rewrite !app_length. cbn [List.length]. rewrite !app_length.
    pose proof (H (k, v) (or_introl eq_refl) (sp :: sp :: ind)) as Hv. cbn [snd] in Hv.
    assert (IH' := IH (fun z Hz => H z (or_intror Hz))).
    unfold list_sum in *. cbn [List.length] in *. lia.
Qed.

(* the fuel [S (length text)] of [json_parse] is enough *)
Lemma json_size_le : forall j ind, json_size j <= List.length (print_value ind j).
Proof.
  induction j as [|v|lit|s|l IH|kvs IH] using json_ind'; intros ind;
    try (cbn [json_size]; lia).
  - destruct l as [|x xs]; [cbn; lia|].
    rewrite print_value_arr. cbn [json_size map list_sum fold_right List.length].
    rewrite !app_length.
    rewrite Forall_forall in IH.
    pose proof (IH x (or_introl eq_refl) (sp :: sp :: ind)).
    pose proof (arr_tail_len ind xs (fun y Hy => IH y (or_intror Hy))).
    unfold list_sum in *. cbn [List.length] in *. lia.
  - destruct kvs as [|[k v] kvs]; [cbn; lia|].
    rewrite print_value_obj. cbn [json_size map list_sum fold_right List.length snd].
    rewrite !app_length. cbn [List.length]. rewrite !app_length.
    rewrite Forall_forall in IH.
    pose proof (IH (k, v) (or_introl eq_refl) (sp :: sp :: ind)) as Hv. cbn [snd] in Hv.
    pose proof (obj_tail_len ind kvs (fun y Hy => IH y (or_intror Hy))).
    unfold list_sum in *. cbn [List.length] in *. lia.
Qed.

(* the parser inverts the printer at any indentation level, within any whitespace *)
Lemma all_ws_term_ok w : all_ws w = true -> term_ok w = true.
Proof.
  destruct w as [|c w]; [reflexivity|]. cbn. intros H. apply andb_true_iff in H as [Hc _]. apply negb_true_iff.
  unfold num_char, ceq. rewrite !(eqb_class is_ws c _ Hc) by reflexivity.
  rewrite !orb_false_r. destruct (is_digit c) eqn:Hd; [|reflexivity].
  (* a digit is none of the four whitespace characters *)
  unfold is_ws, ceq in Hc. rewrite !(eqb_class is_digit c _ Hd) in Hc by reflexivity. discriminate.
Qed.

Theorem json_text_roundtrip_ws : forall j ind w1 w2,
  json_wf j = true -> all_ws ind = true -> all_ws w1 = true -> all_ws w2 = true ->
  json_parse (w1 ++ print_value ind j ++ w2) = Some j.
Proof.
  intros j ind w1 w2 Hwf Hind H1 H2. unfold json_parse.
  rewrite (parse_print_value j Hwf _ ind w1 w2); auto using all_ws_term_ok.
  - rewrite <- (app_nil_r w2), skip_ws_app by exact H2. reflexivity.
  - pose proof (json_size_le j ind). rewrite !app_length. lia.
Qed.

Theorem json_text_roundtrip : forall j,
  json_wf j = true -> json_parse (json_print j) = Some j.
Proof.
  intros j Hwf. pose proof (json_text_roundtrip_ws j [] [] [] Hwf eq_refl eq_refl eq_refl) as H.
  cbn [app] in H. rewrite app_nil_r in H. exact H.
Qed.

Lemma scan_number_wf s lit r : scan_number s = Some (lit, r) -> num_lit_ok lit = true.
Proof.
  unfold scan_number. destruct (span_num s) as [tok r'].
  destruct (num_lit_ok tok) eqn:E; [|discriminate].
  intros H; inversion H; subst; exact E.
Qed.

Lemma items_loop_wf pv :
  (forall s j r, pv s = Some (j, r) -> json_wf j = true) ->
  forall n s acc l r, forallb json_wf acc = true ->
    items_loop pv n s acc = Some (l, r) -> forallb json_wf l = true.
Proof.
  intros Hpv. induction n as [|n IH]; intros s acc l r Hacc; cbn [items_loop]; [discriminate|].
  destruct (pv s) as [[v r1]|] eqn:E; [|discriminate].
  apply Hpv in E.
  destruct (skip_ws r1) as [|c r']; [discriminate|].
  destruct (ceq c ","%char).
  - apply IH. cbn. rewrite E, Hacc. reflexivity.
  - destruct (ceq c "]"%char); [|discriminate].
    intros H; inversion H; subst. unfold rev'. rewrite <- rev_alt.
    apply forallb_forall. intros y Hy. apply in_rev in Hy.
    destruct Hy as [<-|Hy]; [exact E|].
    eapply forallb_forall in Hacc; eauto.
Qed.

Lemma members_loop_wf pv :
  (forall s j r, pv s = Some (j, r) -> json_wf j = true) ->
  forall n s acc l r, forallb (fun kv => json_wf (snd kv)) acc = true ->
    members_loop pv n s acc = Some (l, r) -> forallb (fun kv => json_wf (snd kv)) l = true.
Proof.
  intros Hpv. induction n as [|n IH]; intros s acc l r Hacc; cbn [members_loop]; [discriminate|].
  destruct (skip_ws s) as [|q s1]; [discriminate|].
  destruct (ceq q dq); [|discriminate].
  destruct (parse_str s1 []) as [[k r1]|]; [|discriminate].
  destruct (skip_ws r1) as [|c r2]; [discriminate|].
  destruct (ceq c ":"%char); [|discriminate].
  destruct (pv r2) as [[v r3]|] eqn:E; [|discriminate].
  apply Hpv in E.
  destruct (skip_ws r3) as [|d r4]; [discriminate|].
  destruct (ceq d ","%char).
  - apply IH. cbn. rewrite E, Hacc. reflexivity.
  - destruct (ceq d "}"%char); [|discriminate].
    intros H; inversion H; subst. unfold rev'. rewrite <- rev_alt.
    apply forallb_forall. intros y Hy. apply in_rev in Hy.
    destruct Hy as [<-|Hy]; [exact E|].
    eapply forallb_forall in Hacc; eauto.
Qed.

Lemma parse_value_wf : forall fuel s j r,
  parse_value fuel s = Some (j, r) -> json_wf j = true.
Proof.
  induction fuel as [|f IH]; intros s j r; cbn [parse_value]; [discriminate|].
  destruct (skip_ws s) as [|c s1]; [discriminate|].
  destruct (ceq c "n"%char).
  { destruct (strip_prefix _ s1); [|discriminate]. intros H; inversion H; reflexivity. }
  destruct (ceq c "t"%char).
  { destruct (strip_prefix _ s1); [|discriminate]. intros H; inversion H; reflexivity. }
  destruct (ceq c "f"%char).
  { destruct (strip_prefix _ s1); [|discriminate]. intros H; inversion H; reflexivity. }
  destruct (ceq c dq).
  { destruct (parse_str s1 []) as [[str r']|]; [|discriminate].
    intros H; inversion H; reflexivity. }
  destruct (ceq c "["%char).
  { destruct (skip_ws s1) as [|c2 r2]; [discriminate|].
    destruct (ceq c2 "]"%char); [intros H; inversion H; reflexivity|].
    destruct (items_loop _ f (c2 :: r2) []) as [[l r']|] eqn:E; [|discriminate].
    intros H; inversion H; subst. cbn [json_wf].
    exact (items_loop_wf _ IH _ _ [] _ _ eq_refl E). }
  destruct (ceq c "{"%char).
  { destruct (skip_ws s1) as [|c2 r2]; [discriminate|].
    destruct (ceq c2 "}"%char); [intros H; inversion H; reflexivity|].
    destruct (members_loop _ f (c2 :: r2) []) as [[l r']|] eqn:E; [|discriminate].
    intros H; inversion H; subst. cbn [json_wf].
    exact (members_loop_wf _ IH _ _ [] _ _ eq_refl E). }
  destruct (ceq c "-"%char || is_digit c); [|discriminate].
  destruct (scan_number (c :: s1)) as [[lit r']|] eqn:E; [|discriminate].
  intros H; inversion H; subst. cbn [json_wf]. eapply scan_number_wf; eauto.
Qed.

Theorem json_parse_wf : forall s j, json_parse s = Some j -> json_wf j = true.
Proof.
  intros s j. unfold json_parse.
  destruct (parse_value _ s) as [[j' r]|] eqn:E; [|discriminate].
  destruct (skip_ws r); [|discriminate].
  intros H; inversion H; subst. eapply parse_value_wf; eauto.
Qed.
