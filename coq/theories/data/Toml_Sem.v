(* Proofs about the TOML model: the table structure defined by the lines of a document.
   [flat] lists, for a well-formed value, the lines (items) the writer produces;
   [build_flat]: the reader's table builder, run on these items, constructs exactly the
   value's tree ([node_of]), entries in the order in which they were written. *)
From Ucg Require Import base.Bytes base.Bytes_Lemmas data.Val data.Json data.MapJson data.MapJson_Lemmas data.Toml data.Toml_Err.
Local Open Scope list_scope.

Definition obind {A B} (x : option A) (f : A -> option B) : option B :=
  match x with Some a => f a | None => None end.

Definition efun := entries -> option entries.

Definition kcomp (f g : efun) : efun := fun e => obind (f e) g.

(* F refines G: wherever F succeeds, G succeeds with the same result *)
Definition refines (F G : efun) : Prop := forall E E', F E = Some E' -> G E = Some E'.

Lemma refines_refl F : refines F F.
Proof. intros E E' H; exact H. Qed.

Lemma refines_trans F G H : refines F G -> refines G H -> refines F H.
Proof. intros A B E E' X. apply B, A, X. Qed.

Lemma kcomp_mono f f' g g' : refines f f' -> refines g g' -> refines (kcomp f g) (kcomp f' g').
Proof.
  intros Hf Hg E E'. unfold kcomp, obind. destruct (f E) as [e1|] eqn:E1; [|discriminate].
  rewrite (Hf _ _ E1). apply Hg.
Qed.

Lemma lookup_app_none {V} k (l1 l2 : list (bytes * V)) :
  lookup k l1 = None -> lookup k (l1 ++ l2) = lookup k l2.
Proof.
  induction l1 as [|[k1 v1] l1 IH]; cbn [app lookup]; [reflexivity|].
  destruct (bytes_eqb k k1); [discriminate|exact IH].
Qed.

Lemma lookup_app_some {V} k (l1 l2 : list (bytes * V)) v :
  lookup k l1 = Some v -> lookup k (l1 ++ l2) = Some v.
Proof.
  induction l1 as [|[k1 v1] l1 IH]; cbn [app lookup]; [discriminate|].
  destruct (bytes_eqb k k1); [auto|exact IH].
Qed.

Lemma lookup_single {V} k (v : V) : lookup k [(k, v)] = Some v.
Proof. cbn. rewrite bytes_eqb_refl. reflexivity. Qed.

Lemma set_key_app_absent k n n0 (es : entries) :
  lookup k es = None -> set_key k n (es ++ [(k, n0)]) = es ++ [(k, n)].
Proof.
  induction es as [|[k1 v1] es IH]; cbn [app set_key lookup].
  - rewrite bytes_eqb_refl. reflexivity.
  - destruct (bytes_eqb k k1); [discriminate|]. intros H. rewrite (IH H). reflexivity.
Qed.

Lemma lookup_set_key k n (es : entries) n0 :
  lookup k es = Some n0 -> lookup k (set_key k n es) = Some n.
Proof.
  induction es as [|[k1 v1] es IH]; cbn [set_key lookup]; [discriminate|].
  destruct (bytes_eqb k k1) eqn:E.
  - intros _. cbn [lookup]. rewrite bytes_eqb_refl. reflexivity.
  - intros H. cbn [lookup]. rewrite E. exact (IH H).
Qed.

Lemma set_key_same k n (es : entries) : lookup k es = Some n -> set_key k n es = es.
Proof.
  induction es as [|[k1 v1] es IH]; cbn [lookup set_key]; [discriminate|].
  destruct (bytes_eqb k k1) eqn:Ek.
  - apply bytes_eqb_spec in Ek. intros H. inversion H. subst. reflexivity.
  - intros H. rewrite (IH H). reflexivity.
Qed.

Lemma set_key_twice k n1 n2 (es : entries) :
  set_key k n2 (set_key k n1 es) = set_key k n2 es.
Proof.
  induction es as [|[k1 v1] es IH]; cbn [set_key]; [reflexivity|].
  destruct (bytes_eqb k k1) eqn:E.
  - cbn [set_key]. rewrite bytes_eqb_refl. reflexivity.
  - cbn [set_key]. rewrite E, IH. reflexivity.
Qed.

Lemma lookup_app_new {V} k (v : V) l : lookup k l = None -> lookup k (l ++ [(k, v)]) = Some v.
Proof. intros H. rewrite (lookup_app_none k l _ H). apply lookup_single. Qed.

(* what descend does, by what k is bound to *)
Lemma descend_absent k g es : lookup k es = None ->
  descend k g es = option_map (fun r => es ++ [(k, NTab false r)]) (g []).
Proof. intros H. unfold descend. rewrite H. destruct (g []); reflexivity. Qed.

Lemma descend_present k g es n : lookup k es = Some n ->
  descend k g es =
  match n with
  | NVal _ => None
  | NTab ex c => option_map (fun r => set_key k (NTab ex r) es) (g c)
  | NAot dn cur => option_map (fun r => set_key k (NAot dn r) es) (g cur)
  end.
Proof. intros H. unfold descend. rewrite H. destruct n as [d|ex c|dn cur]; [reflexivity|destruct (g c)|destruct (g cur)]; reflexivity. Qed.

(* descend as a lens: unless k holds a value, there are the entries c under k (none if k is new)
   and a way to put entries back, and after a put the same holds with what was put *)
Lemma descend_view k es :
  (forall g, descend k g es = None) \/
  exists c put, (forall g, descend k g es = option_map put (g c))
                /\ (forall r g, descend k g (put r) = option_map put (g r)).
Proof.
  destruct (lookup k es) as [[d|ex c|dn cur]|] eqn:El.
  - left. intros g. apply (descend_present k g es _ El).
  - right. exists c, (fun r => set_key k (NTab ex r) es). split; intros; [apply (descend_present k g es _ El)|].
    rewrite (descend_present k g _ _ (lookup_set_key k _ es _ El)). destruct (g r); [|reflexivity].
    cbn [option_map]. rewrite set_key_twice. reflexivity.
  - right. exists cur, (fun r => set_key k (NAot dn r) es). split; intros; [apply (descend_present k g es _ El)|].
    rewrite (descend_present k g _ _ (lookup_set_key k _ es _ El)). destruct (g r); [|reflexivity].
    cbn [option_map]. rewrite set_key_twice. reflexivity.
  - right. exists [], (fun r => es ++ [(k, NTab false r)]). split; intros; [apply (descend_absent k g es El)|].
    rewrite (descend_present k g _ _ (lookup_app_new k _ es El)). destruct (g r); [|reflexivity].
    cbn [option_map]. rewrite (set_key_app_absent k _ _ es El). reflexivity.
Qed.

Lemma descend_seq k f g es :
  descend k (kcomp f g) es = obind (descend k f es) (descend k g).
Proof.
  destruct (descend_view k es) as [Hn|(c & put & H1 & H2)]; [rewrite !Hn; reflexivity|].
  rewrite !H1. unfold kcomp, obind. destruct (f c) as [r|]; [|reflexivity].
  cbn [option_map]. rewrite H2. reflexivity.
Qed.

Lemma descend_ext k f g es : (forall e, f e = g e) -> descend k f es = descend k g es.
Proof.
  intros H. destruct (descend_view k es) as [Hn|(c & put & H1 & _)]; [rewrite !Hn|rewrite !H1, H]; reflexivity.
Qed.

Lemma at_path_ext p : forall f g es, (forall e, f e = g e) -> at_path p f es = at_path p g es.
Proof.
  induction p as [|k p IH]; intros f g es H; cbn [at_path]; [apply H|].
  apply descend_ext. intros e. apply IH, H.
Qed.

Lemma at_path_seq p : forall f g es,
  at_path p (kcomp f g) es = obind (at_path p f es) (at_path p g).
Proof.
  induction p as [|k p IH]; intros f g es; cbn [at_path]; [reflexivity|].
  rewrite <- descend_seq. apply descend_ext. intros e. apply IH.
Qed.

Lemma descend_mono k f g : refines f g -> refines (descend k f) (descend k g).
Proof.
  intros H E E'. destruct (descend_view k E) as [Hn|(c & put & H1 & _)]; [rewrite Hn; discriminate|].
  rewrite !H1. destruct (f c) eqn:Ef; [|discriminate]. rewrite (H _ _ Ef). auto.
Qed.

Lemma at_path_mono p : forall f g, refines f g -> refines (at_path p f) (at_path p g).
Proof.
  induction p as [|k p IH]; intros f g H; cbn [at_path]; [exact H|].
  apply descend_mono, IH, H.
Qed.

(* bind k to n; k must be new *)
Definition add_node (k : bytes) (n : node) : efun :=
  fun E => match lookup k E with None => Some (E ++ [(k, n)]) | Some _ => None end.

Fixpoint add_all (l : entries) : efun :=
  match l with
  | [] => fun E => Some E
  | (k, n) :: r => kcomp (add_node k n) (add_all r)
  end.

Lemma add_kv_add_node k d : forall E, add_kv k d E = add_node k (NVal d) E.
Proof. reflexivity. Qed.

Lemma add_all_app l1 l2 E : add_all (l1 ++ l2) E = kcomp (add_all l1) (add_all l2) E.
Proof.
  revert E. induction l1 as [|[k n] l1 IH]; intros E; cbn [app add_all]; [reflexivity|].
  unfold kcomp at 1 2 3. unfold obind. destruct (add_node k n E); [|reflexivity]. apply IH.
Qed.

Lemma lookup_not_in {V} k (l : list (bytes * V)) : ~ In k (map fst l) -> lookup k l = None.
Proof.
  induction l as [|[k1 v1] l IH]; cbn; [reflexivity|]. intros H.
  destruct (bytes_eqb k k1) eqn:E.
  - apply bytes_eqb_spec in E. subst. tauto.
  - apply IH. tauto.
Qed.

Lemma add_all_fresh l : forall E,
  NoDup (map fst l) -> (forall k, In k (map fst l) -> lookup k E = None) ->
  add_all l E = Some (E ++ l).
Proof.
  induction l as [|[k n] l IH]; intros E Hnd Hf; cbn [add_all].
  - rewrite app_nil_r. reflexivity.
  - cbn [map fst] in Hnd. inversion Hnd as [|? ? Hk Hnd']; subst.
    unfold kcomp, add_node. rewrite (Hf k (or_introl eq_refl)). cbn [obind].
    rewrite IH; [rewrite <- app_assoc; reflexivity|exact Hnd'|].
    intros k' Hk'. rewrite lookup_app_none by (apply Hf; right; exact Hk').
    cbn. destruct (bytes_eqb k' k) eqn:E'; [|reflexivity].
    apply bytes_eqb_spec in E'. subst. contradiction.
Qed.

(* a [header] followed by the table's lines *)
Lemma add_tab_explicit k ns : add_all ns [] = Some ns ->
  refines (add_node k (NTab true ns)) (kcomp (define_tab k) (descend k (add_all ns))).
Proof.
  intros Hns E E'. unfold add_node, kcomp, define_tab. destruct (lookup k E) eqn:El; [discriminate|].
  intros H. inversion H; subst. cbn [obind].
  rewrite (descend_present k _ _ _ (lookup_app_new k _ E El)), Hns. cbn [option_map].
  rewrite (set_key_app_absent k _ _ E El). reflexivity.
Qed.

(* no [header]: the table comes into existence through the headers of its sub-tables *)
Lemma add_tab_implicit k ns : add_all ns [] = Some ns ->
  refines (add_node k (NTab false ns)) (descend k (add_all ns)).
Proof.
  intros Hns E E'. unfold add_node. destruct (lookup k E) eqn:El; [discriminate|].
  intros H. inversion H; subst. rewrite (descend_absent k _ E El), Hns. reflexivity.
Qed.

(* [[header]] + lines, repeated *)
Fixpoint aot_node (dn : list entries) (cur : entries) (l : list entries) : node :=
  match l with
  | [] => NAot dn cur
  | e :: r => aot_node (dn ++ [cur]) e r
  end.

Definition aot_step (k : bytes) (e : entries) : efun := kcomp (append_aot k) (descend k (add_all e)).

Fixpoint aot_steps (k : bytes) (l : list entries) : efun :=
  match l with
  | [] => fun E => Some E
  | e :: r => kcomp (aot_step k e) (aot_steps k r)
  end.

Lemma aot_steps_present k l : Forall (fun e => add_all e [] = Some e) l -> forall dn cur E,
  lookup k E = Some (NAot dn cur) ->
  aot_steps k l E = Some (set_key k (aot_node dn cur l) E).
Proof.
  induction 1 as [|e l He _ IH]; intros dn cur E El; cbn [aot_steps aot_node].
  - rewrite (set_key_same k _ E El). reflexivity.
  - unfold kcomp at 1. unfold aot_step, kcomp at 1, append_aot. rewrite El. cbn [obind].
    rewrite (descend_present k _ _ _ (lookup_set_key k _ E _ El)), He. cbn [option_map obind]. rewrite set_key_twice.
    rewrite (IH (dn ++ [cur]) e (set_key k (NAot (dn ++ [cur]) e) E)).
    + rewrite set_key_twice. reflexivity.
    + apply (lookup_set_key k _ E _ El).
Qed.

Lemma add_aot k e l : add_all e [] = Some e -> Forall (fun e => add_all e [] = Some e) l ->
  refines (add_node k (aot_node [] e l)) (aot_steps k (e :: l)).
Proof.
  intros He Hl E E'. unfold add_node. destruct (lookup k E) eqn:El; [discriminate|].
  intros H. inversion H; subst. cbn [aot_steps]. unfold kcomp at 1, aot_step, kcomp at 1, append_aot.
  rewrite El. cbn [obind].
  rewrite (descend_present k _ _ _ (lookup_app_new k _ E El)), He. cbn [option_map obind].
  rewrite (set_key_app_absent k _ _ E El).
  rewrite (aot_steps_present k l Hl [] e (E ++ [(k, NAot [] e)]) (lookup_app_new k _ E El)).
  rewrite (set_key_app_absent k _ _ E El). reflexivity.
Qed.

(* the data an inline value denotes *)
Definition dfloat_of (f : tfloat) : dfloat :=
  match f with
  | TFin t =>
    match rust_float_parts t with
    | Some (neg, i, fd) => mk_fin neg (digits_val (i ++ fd)) (- Z.of_nat (List.length fd))%Z
    | None => DNan                                   (* excluded by tval_wf *)
    end
  | TNan _ => DNan
  | TInf neg => DInf neg
  end.

Fixpoint tdoc_of (v : tval) : tdoc :=
  match v with
  | TStr s => DStr s
  | TInt z => DInt z
  | TFloat f => DFloat (dfloat_of f)
  | TBool x => DBool x
  | TArr l => DArr (map tdoc_of l)
  | TTab es => DTab (map (fun kv => (fst kv, tdoc_of (snd kv))) es)
  end.

Definition is_nil {A} (l : list A) : bool := match l with [] => true | _ => false end.

Definition has_simple (es : list (bytes * tval)) : bool := existsb (fun kv => pass1 (snd kv)) es.

Definition kv_items (es : list (bytes * tval)) : list item :=
  flat_map (fun kv => if pass1 (snd kv) then [IKV (fst kv) (tdoc_of (snd kv))] else []) es.

Definition sub_items (f : bytes -> tval -> list item) (p : tval -> bool) (es : list (bytes * tval)) : list item :=
  flat_map (fun kv => if p (snd kv) then f (fst kv) (snd kv) else []) es.

Definition body_with (f : bytes -> tval -> list item) (es : list (bytes * tval)) : list item :=
  kv_items es ++ sub_items f pass2 es ++ sub_items f pass3 es.

(* the lines written for the entry k = v of the table at path p *)
Fixpoint flat (p : list bytes) (k : bytes) (v : tval) : list item :=
  match v with
  | TTab es =>
    (if has_simple es || is_nil es then [IHead (p ++ [k])] else [])
      ++ body_with (flat (p ++ [k])) es
  | TArr l =>
    if existsb is_table l then
      flat_map (fun x => match x with
                         | TTab es => IAHead (p ++ [k]) :: body_with (flat (p ++ [k])) es
                         | _ => []
                         end) l
    else [IKV k (tdoc_of v)]
  | _ => [IKV k (tdoc_of v)]
  end.

Definition flat_root (es : list (bytes * tval)) : list item := body_with (flat []) es.

(* ... and the tree they build, entries in the order written *)
Definition kv_nodes (es : list (bytes * tval)) : entries :=
  flat_map (fun kv => if pass1 (snd kv) then [(fst kv, NVal (tdoc_of (snd kv)))] else []) es.

Definition sub_nodes (f : tval -> node) (p : tval -> bool) (es : list (bytes * tval)) : entries :=
  flat_map (fun kv => if p (snd kv) then [(fst kv, f (snd kv))] else []) es.

Definition ents_with (f : tval -> node) (es : list (bytes * tval)) : entries :=
  kv_nodes es ++ sub_nodes f pass2 es ++ sub_nodes f pass3 es.

Fixpoint node_of (v : tval) : node :=
  match v with
  | TTab es => NTab (has_simple es || is_nil es) (ents_with node_of es)
  | TArr l =>
    if existsb is_table l then
      match map (fun x => match x with TTab es => ents_with node_of es | _ => [] end) l with
      | [] => NVal (DArr [])
      | e :: r => aot_node [] e r
      end
    else NVal (tdoc_of v)
  | _ => NVal (tdoc_of v)
  end.

(* well-formed: every array either contains no table at any depth, or consists of tables only
   (which the writer renders as [[headers]]; an empty array has no table in it) *)
Fixpoint good (v : tval) : bool :=
  match v with
  | TTab es => forallb (fun kv => good (snd kv)) es
  | TArr l => negb (existsb has_tab l) || (forallb is_table l && forallb good l)
  | _ => true
  end.

(* the keys of every table are distinct *)
Fixpoint keys_nodup (v : tval) : Prop :=
  match v with
  | TTab es => NoDup (map fst es) /\
               (fix all (l : list (bytes * tval)) : Prop :=
                  match l with [] => True | (k, x) :: r => keys_nodup x /\ all r end) es
  | TArr l => (fix all (l : list tval) : Prop :=
                 match l with [] => True | x :: r => keys_nodup x /\ all r end) l
  | _ => True
  end.

Lemma flat_map_filter {A B} (p : A -> bool) (g : A -> B) (l : list A) :
  flat_map (fun a => if p a then [g a] else []) l = map g (filter p l).
Proof.
  induction l as [|a l IH]; cbn [flat_map filter]; [reflexivity|].
  destruct (p a); cbn [app map]; rewrite IH; reflexivity.
Qed.

Lemma kv_nodes_filter es :
  kv_nodes es = map (fun kv => (fst kv, NVal (tdoc_of (snd kv)))) (filter (fun kv => pass1 (snd kv)) es).
Proof. apply (flat_map_filter (fun kv => pass1 (snd kv))). Qed.

Lemma sub_nodes_filter f p es :
  sub_nodes f p es = map (fun kv => (fst kv, f (snd kv))) (filter (fun kv => p (snd kv)) es).
Proof. apply (flat_map_filter (fun kv => p (snd kv))). Qed.

Lemma pass_exclusive v :
  (pass1 v = true -> pass2 v = false /\ pass3 v = false) /\
  (pass2 v = true -> pass3 v = false) /\
  (pass1 v || pass2 v || pass3 v = true).
Proof.
  destruct v; cbn; try (repeat split; congruence).
  destruct (existsb is_table l); cbn; repeat split; congruence.
Qed.

Lemma in_map_fst_filter {V} (p : bytes * V -> bool) (l : list (bytes * V)) k :
  In k (map fst (filter p l)) -> exists v, In (k, v) l /\ p (k, v) = true.
Proof.
  intros H. apply in_map_iff in H as ([k' v] & Ek & Hin). cbn in Ek. subst k'.
  apply filter_In in Hin as [Hin Hp]. eauto.
Qed.

Lemma nodup_lookup_in {V} (l : list (bytes * V)) k v :
  NoDup (map fst l) -> In (k, v) l -> lookup k l = Some v.
Proof.
  induction l as [|[k1 v1] l IH]; cbn [map fst In lookup]; [tauto|].
  intros Hnd [H|H].
  - inversion H; subst. rewrite bytes_eqb_refl. reflexivity.
  - inversion Hnd as [|? ? Hk Hnd']; subst. destruct (bytes_eqb k k1) eqn:E.
    + apply bytes_eqb_spec in E. subst k1. exfalso. apply Hk. apply in_map_iff. exists (k, v). auto.
    + auto.
Qed.

Lemma nodup_fst_unique {V} (l : list (bytes * V)) k v1 v2 :
  NoDup (map fst l) -> In (k, v1) l -> In (k, v2) l -> v1 = v2.
Proof.
  intros Hnd H1 H2. apply (nodup_lookup_in l k _ Hnd) in H1, H2. congruence.
Qed.

Lemma nodup_fst_filter {V} (p : bytes * V -> bool) (l : list (bytes * V)) :
  NoDup (map fst l) -> NoDup (map fst (filter p l)).
Proof.
  induction l as [|[k v] l IH]; cbn [map fst filter]; [auto|].
  intros Hnd. inversion Hnd as [|? ? Hk Hnd']; subst.
  destruct (p (k, v)); [|auto]. cbn [map fst]. constructor; [|auto].
  intros Hin. apply Hk. apply in_map_fst_filter in Hin as (v' & Hin & _).
  apply in_map_iff. exists (k, v'). auto.
Qed.

Lemma map_fst_map {V W} (g : V -> W) (l : list (bytes * V)) :
  map fst (map (fun kv => (fst kv, g (snd kv))) l) = map fst l.
Proof. rewrite map_map. apply map_ext. reflexivity. Qed.

Lemma nodup_app_intro {A} (a b : list A) :
  NoDup a -> NoDup b -> (forall x, In x a -> In x b -> False) -> NoDup (a ++ b).
Proof.
  induction a as [|x a IH]; cbn [app]; intros Ha Hb Hd; [exact Hb|].
  inversion Ha as [|? ? Hx Ha']; subst. constructor.
  - intros Hin. apply in_app_or in Hin as [Hin|Hin]; [contradiction|].
    apply (Hd x); [left; reflexivity|exact Hin].
  - apply IH; auto. intros y Hy. apply Hd. right. exact Hy.
Qed.

(* the entries in the order written = the three filters *)
Definition part (es : list (bytes * tval)) : list (bytes * tval) :=
  filter (fun kv => pass1 (snd kv)) es ++ filter (fun kv => pass2 (snd kv)) es ++ filter (fun kv => pass3 (snd kv)) es.

Lemma in_part es kv : In kv (part es) <-> In kv es.
Proof.
  unfold part. rewrite !in_app_iff, !filter_In. destruct kv as [k x]. cbn [snd].
  destruct (pass_exclusive x) as (_ & _ & H). split; [tauto|]. intros Hin.
  destruct (pass1 x); [auto|]. destruct (pass2 x); [auto|]. cbn [orb] in H. rewrite H. auto.
Qed.

Lemma part_nodup es : NoDup (map fst es) -> NoDup (map fst (part es)).
Proof.
  intros Hnd. unfold part. rewrite !map_app.
  assert (Hd : forall (p1 p2 : tval -> bool) k,
             (forall v, p1 v = true -> p2 v = false) ->
             In k (map fst (filter (fun kv => p1 (snd kv)) es)) ->
             In k (map fst (filter (fun kv => p2 (snd kv)) es)) -> False).
  { intros p1 p2 k Hex H1 H2.
    apply in_map_fst_filter in H1 as (v1 & Hi1 & Hp1). apply in_map_fst_filter in H2 as (v2 & Hi2 & Hp2).
    cbn [snd] in *. rewrite (nodup_fst_unique es k v1 v2 Hnd Hi1 Hi2) in Hp1.
    rewrite (Hex v2 Hp1) in Hp2. discriminate. }
  apply nodup_app_intro.
  - apply nodup_fst_filter, Hnd.
  - apply nodup_app_intro; try (apply nodup_fst_filter, Hnd).
    intros k H2 H3. apply (Hd pass2 pass3 k); auto. intros v. apply (pass_exclusive v).
  - intros k H1 H23. apply in_app_or in H23 as [H2|H3].
    + apply (Hd pass1 pass2 k); auto. intros v H. apply (pass_exclusive v) in H. tauto.
    + apply (Hd pass1 pass3 k); auto. intros v H. apply (pass_exclusive v) in H. tauto.
Qed.

Lemma node_of_pass1 x : pass1 x = true -> node_of x = NVal (tdoc_of x).
Proof.
  destruct x as [s|z|f|b0|l|es]; try reflexivity; [|discriminate].
  cbn [pass1 node_of]. intros H. apply negb_true_iff in H. rewrite H. reflexivity.
Qed.

Lemma ents_with_part es : ents_with node_of es = map (fun kv => (fst kv, node_of (snd kv))) (part es).
Proof.
  unfold ents_with, part. rewrite kv_nodes_filter, !sub_nodes_filter, !map_app. f_equal.
  apply map_ext_in. intros [k x] Hin. apply filter_In in Hin as [_ Hp]. cbn [fst snd] in *.
  rewrite (node_of_pass1 x Hp). reflexivity.
Qed.

Lemma ents_with_nil es : ents_with node_of es = [] -> es = [].
Proof.
  rewrite ents_with_part. intros H. apply map_eq_nil in H.
  destruct es as [|kv es]; [reflexivity|]. pose proof (proj2 (in_part (kv :: es) kv) (or_introl eq_refl)) as Hin.
  rewrite H in Hin. destruct Hin.
Qed.

Lemma build_st_app a : forall b st, build_st (a ++ b) st = obind (build_st a st) (build_st b).
Proof.
  induction a as [|it a IH]; intros b st; cbn [app build_st obind]; [reflexivity|].
  destruct (build_step it st); [apply IH|reflexivity].
Qed.

Lemma split_last_snoc p k : split_last (p ++ [k]) = Some (p, k).
Proof.
  induction p as [|a p IH]; [reflexivity|]. cbn [app split_last].
  rewrite IH. destruct (p ++ [k]) eqn:E; [destruct p; discriminate|reflexivity].
Qed.

Lemma at_path_snoc p k f : forall es, at_path (p ++ [k]) f es = at_path p (descend k f) es.
Proof.
  induction p as [|a p IH]; intros es; cbn [app at_path]; apply descend_ext; [reflexivity|exact IH].
Qed.

Lemma has_tab_of_table v : is_table v = true -> has_tab v = true.
Proof. destruct v; cbn; congruence. Qed.

Lemma has_tab_of_pass2 v : pass2 v = true -> has_tab v = true.
Proof.
  destruct v; cbn; try congruence. intros H. apply existsb_exists in H as (x & Hx & Ht).
  apply existsb_exists. exists x. split; [exact Hx|apply has_tab_of_table, Ht].
Qed.

Lemma is_table_has_tab_list l : existsb is_table l = true -> existsb has_tab l = true.
Proof.
  intros H. apply existsb_exists in H as (x & Hx & Ht). apply existsb_exists.
  exists x. split; [exact Hx|apply has_tab_of_table, Ht].
Qed.

(* a well-formed array is inline, or an array of tables *)
Lemma good_arr l : good (TArr l) = true ->
  if existsb is_table l then forallb is_table l = true /\ forallb good l = true
  else existsb has_tab l = false.
Proof.
  cbn [good]. destruct (existsb is_table l) eqn:Et.
  - rewrite (is_table_has_tab_list l Et). apply andb_true_iff.
  - intros Hg. destruct (existsb has_tab l) eqn:Eh; [|reflexivity].
    apply andb_true_iff in Hg as [Hall _]. destruct l as [|y l]; [discriminate Eh|].
    cbn [existsb forallb] in Et, Hall. apply andb_true_iff in Hall as [Hy _]. rewrite Hy in Et. discriminate.
Qed.

Lemma pass1_good_inline x : pass1 x = true -> good x = true -> has_tab x = false.
Proof.
  destruct x as [s|z|f|b0|l|es]; try reflexivity; [|discriminate].
  cbn [pass1]. intros Hp Hg. apply good_arr in Hg. apply negb_true_iff in Hp. rewrite Hp in Hg. exact Hg.
Qed.

(* adding a list of entries to the table at path q; nothing to add = nothing done *)

Definition upd (q : list bytes) (l : entries) : efun :=
  match l with
  | [] => fun R => Some R
  | _ :: _ => at_path q (add_all l)
  end.

Lemma kcomp_some_r f E : kcomp f (fun e => Some e) E = f E.
Proof. unfold kcomp, obind. destruct (f E); reflexivity. Qed.

Lemma upd_cons q k n l R :
  upd q ((k, n) :: l) R = obind (at_path q (add_node k n) R) (upd q l).
Proof.
  cbn [upd add_all]. destruct l as [|kn l].
  - cbn [upd add_all]. rewrite (at_path_ext q _ (add_node k n) R (kcomp_some_r _)).
    destruct (at_path q (add_node k n) R); reflexivity.
  - rewrite at_path_seq. reflexivity.
Qed.

Lemma upd_app q l1 : forall l2 R, upd q (l1 ++ l2) R = obind (upd q l1 R) (upd q l2).
Proof.
  induction l1 as [|[k n] l1 IH]; intros l2 R; [reflexivity|].
  cbn [app]. rewrite !upd_cons. destruct (at_path q (add_node k n) R); cbn [obind]; [apply IH|reflexivity].
Qed.

(* after an operation at path p that leaves the table k in place, path p ++ [k] exists *)
Lemma descend_fix k f g es es1 :
  (forall E E1, f E = Some E1 -> g E1 = Some E1) ->
  descend k f es = Some es1 -> descend k g es1 = Some es1.
Proof.
  intros Hfg. destruct (descend_view k es) as [Hn|(c & put & H1 & H2)]; [rewrite Hn; discriminate|].
  rewrite H1. destruct (f c) as [r|] eqn:Ef; [|discriminate]. intros [= <-].
  rewrite H2, (Hfg _ _ Ef). reflexivity.
Qed.

Lemma at_path_fix p : forall f g R R1,
  (forall E E1, f E = Some E1 -> g E1 = Some E1) ->
  at_path p f R = Some R1 -> at_path p g R1 = Some R1.
Proof.
  induction p as [|k p IH]; intros f g R R1 Hfg; cbn [at_path]; [apply Hfg|].
  apply descend_fix. intros E E1. apply IH, Hfg.
Qed.

(* a table or an array of tables bound to k stays as it is when nothing is done inside it *)
Lemma descend_id k E n : lookup k E = Some n -> (forall d, n <> NVal d) -> descend k (fun e => Some e) E = Some E.
Proof.
  intros El Hn. rewrite (descend_present k _ E n El).
  destruct n as [d|ex c|dn cur]; [destruct (Hn d eq_refl)| |]; cbn [option_map]; rewrite (set_key_same k _ E El); reflexivity.
Qed.

Lemma define_tab_fix k E E1 : define_tab k E = Some E1 -> descend k (fun e => Some e) E1 = Some E1.
Proof.
  unfold define_tab. destruct (lookup k E) as [[d|[|] c|dn cur]|] eqn:El; try discriminate; intros [= <-].
  - apply (descend_id k _ _ (lookup_set_key k _ E _ El)). discriminate.
  - apply (descend_id k _ _ (lookup_app_new k _ E El)). discriminate.
Qed.

Lemma append_aot_fix k E E1 : append_aot k E = Some E1 -> descend k (fun e => Some e) E1 = Some E1.
Proof.
  unfold append_aot. destruct (lookup k E) as [[d|ex c|dn cur]|] eqn:El; try discriminate; intros [= <-].
  - apply (descend_id k _ _ (lookup_set_key k _ E _ El)). discriminate.
  - apply (descend_id k _ _ (lookup_app_new k _ E El)). discriminate.
Qed.

(* the lines of a table, right after the line that created it *)
Lemma upd_after p k f ns R R0 R1 :
  (forall E E1, f E = Some E1 -> descend k (fun e => Some e) E1 = Some E1) ->
  at_path p f R = Some R0 ->
  at_path p (descend k (add_all ns)) R0 = Some R1 ->
  upd (p ++ [k]) ns R0 = Some R1.
Proof.
  intros Hf H0 H1. destruct ns as [|kn ns].
  - cbn [upd]. cbn [add_all] in H1. rewrite (at_path_fix p f _ R R0 Hf H0) in H1. exact H1.
  - cbn [upd]. rewrite at_path_snoc. exact H1.
Qed.

(* what processing the lines of one entry must achieve *)
Definition Ent (p : list bytes) (k : bytes) (v : tval) : Prop :=
  forall R R' c, (has_tab v = false -> c = p) ->
    at_path p (add_node k (node_of v)) R = Some R' ->
    exists c', build_st (flat p k v) (R, c) = Some (R', c') /\ (has_tab v = false -> c' = p).

Lemma kv_ok q es : forall R R' c, (has_simple es = true -> c = q) ->
  upd q (kv_nodes es) R = Some R' ->
  build_st (kv_items es) (R, c) = Some (R', c).
Proof.
  induction es as [|[k x] es IH]; intros R R' c Hc H.
  - cbn in H. inversion H. reflexivity.
  - unfold kv_items, kv_nodes in *. cbn [flat_map fst snd] in *.
    unfold has_simple in Hc. cbn [existsb snd] in Hc.
    destruct (pass1 x) eqn:Ep.
    + cbn [orb] in Hc. specialize (Hc eq_refl). subst c.
      cbn [app] in H. rewrite upd_cons in H.
      destruct (at_path q (add_node k (NVal (tdoc_of x))) R) as [R1|] eqn:E1; [|discriminate H].
      cbn [obind] in H. cbn [app build_st build_step].
      rewrite (at_path_ext q (add_kv k (tdoc_of x)) (add_node k (NVal (tdoc_of x))) R (add_kv_add_node k _)), E1.
      apply IH; [auto|exact H].
    + cbn [app orb] in *. apply IH; assumption.
Qed.

Lemma subs_ok q (ps : tval -> bool) es :
  (forall k x, In (k, x) es -> ps x = true -> has_tab x = true /\ Ent q k x) ->
  forall R R' c, upd q (sub_nodes node_of ps es) R = Some R' ->
  exists c', build_st (sub_items (flat q) ps es) (R, c) = Some (R', c').
Proof.
  induction es as [|[k x] es IH]; intros Hent R R' c H.
  - cbn in H. inversion H. exists c. reflexivity.
  - unfold sub_items, sub_nodes in *. cbn [flat_map fst snd] in *.
    assert (Hent' : forall k0 x0, In (k0, x0) es -> ps x0 = true -> has_tab x0 = true /\ Ent q k0 x0)
      by (intros; apply Hent; [right|]; assumption).
    destruct (ps x) eqn:Ep.
    + destruct (Hent k x (or_introl eq_refl) Ep) as [Ht He].
      cbn [app] in H. rewrite upd_cons in H.
      destruct (at_path q (add_node k (node_of x)) R) as [R1|] eqn:E1; [|discriminate H].
      cbn [obind] in H.
      destruct (He R R1 c ltac:(intros Hc; congruence) E1) as (c1 & B1 & _).
      destruct (IH Hent' R1 R' c1 H) as (c2 & B2).
      exists c2. rewrite build_st_app, B1. exact B2.
    + cbn [app]. apply IH; assumption.
Qed.

Lemma body_ok q es :
  (forall k x, In (k, x) es -> Ent q k x) ->
  forall R R' c, (has_simple es = true -> c = q) ->
  upd q (ents_with node_of es) R = Some R' ->
  exists c', build_st (body_with (flat q) es) (R, c) = Some (R', c').
Proof.
  intros Hent R R' c Hc H. unfold ents_with in H.
  rewrite upd_app in H.
  destruct (upd q (kv_nodes es) R) as [R1|] eqn:E1; [|discriminate H]. cbn [obind] in H.
  rewrite upd_app in H.
  destruct (upd q (sub_nodes node_of pass2 es) R1) as [R2|] eqn:E2; [|discriminate H]. cbn [obind] in H.
  pose proof (kv_ok q es R R1 c Hc E1) as B1.
  destruct (subs_ok q pass2 es ltac:(intros k x Hin Hp; split; [apply has_tab_of_pass2, Hp|apply Hent, Hin]) R1 R2 c E2) as (c2 & B2).
  destruct (subs_ok q pass3 es ltac:(intros k x Hin Hp; split; [apply has_tab_of_table, Hp|apply Hent, Hin]) R2 R' c2 H) as (c3 & B3).
  exists c3. unfold body_with. rewrite build_st_app, B1. cbn [obind]. rewrite build_st_app, B2. cbn [obind]. exact B3.
Qed.

(* array-of-tables elements, one after the other *)
Definition elem_ents (x : tval) : entries :=
  match x with TTab es => ents_with node_of es | _ => [] end.

Definition aot_upd (p : list bytes) (k : bytes) (l : list entries) : efun :=
  match l with
  | [] => fun R => Some R
  | _ :: _ => at_path p (aot_steps k l)
  end.

Lemma aot_upd_cons p k e l R :
  aot_upd p k (e :: l) R = obind (at_path p (aot_step k e) R) (aot_upd p k l).
Proof.
  cbn [aot_upd aot_steps]. destruct l as [|e2 l].
  - cbn [aot_upd aot_steps]. rewrite (at_path_ext p _ (aot_step k e) R (kcomp_some_r _)).
    destruct (at_path p (aot_step k e) R); reflexivity.
  - rewrite at_path_seq. reflexivity.
Qed.

(* the lines of one element, as in [flat] *)
Definition elem_items (q : list bytes) (x : tval) : list item :=
  match x with
  | TTab es => IAHead q :: body_with (flat q) es
  | _ => []
  end.

Lemma aot_ok p k (l : list tval) :
  Forall (fun x => exists es, x = TTab es /\ forall k' x', In (k', x') es -> Ent (p ++ [k]) k' x') l ->
  forall R R' c,
    aot_upd p k (map elem_ents l) R = Some R' ->
    exists c', build_st (flat_map (elem_items (p ++ [k])) l) (R, c) = Some (R', c').
Proof.
  induction 1 as [|x l (es & -> & Hent) _ IH]; intros R R' c H.
  - cbn in H. inversion H. exists c. reflexivity.
  - cbn [map elem_ents] in H. rewrite aot_upd_cons in H.
    destruct (at_path p (aot_step k (ents_with node_of es)) R) as [R1|] eqn:E1; [|discriminate H]. cbn [obind] in H.
    unfold aot_step in E1. rewrite at_path_seq in E1.
    destruct (at_path p (append_aot k) R) as [R0|] eqn:E0; [|discriminate E1]. cbn [obind] in E1.
    pose proof (upd_after p k _ _ R R0 R1 (append_aot_fix k) E0 E1) as U.
    destruct (body_ok (p ++ [k]) es Hent R0 R1 (p ++ [k]) ltac:(reflexivity) U) as (c1 & B1).
    destruct (IH R1 R' c1 H) as (c2 & B2).
    exists c2. cbn [flat_map elem_items]. rewrite build_st_app. cbn [build_st build_step].
    rewrite split_last_snoc, E0, B1. exact B2.
Qed.

Lemma ents_nodup_ok es : NoDup (map fst es) -> add_all (ents_with node_of es) [] = Some (ents_with node_of es).
Proof.
  intros H. rewrite add_all_fresh; [reflexivity| |intros; reflexivity].
  rewrite ents_with_part, map_fst_map. apply part_nodup, H.
Qed.

Lemma keys_nodup_tab es :
  keys_nodup (TTab es) <-> NoDup (map fst es) /\ Forall (fun kv => keys_nodup (snd kv)) es.
Proof.
  cbn [keys_nodup]. split; intros [H1 H2]; split; auto.
  - clear H1. induction es as [|[k x] es IH]; [constructor|]. destruct H2 as [Hx H2]. constructor; [exact Hx|].
    apply IH. exact H2.
  - clear H1. induction H2 as [|[k x] es Hx _ IH]; [exact I|]. split; [exact Hx|exact IH].
Qed.

Lemma keys_nodup_arr l : keys_nodup (TArr l) <-> Forall keys_nodup l.
Proof.
  cbn [keys_nodup]. split.
  - induction l as [|x l IH]; [constructor|]. intros [Hx H]. constructor; auto.
  - induction 1 as [|x l Hx _ IH]; [exact I|]. split; assumption.
Qed.

(* the statement proved by induction: Ent for the value as an entry, and, for a table, Ent for
   each of its entries at any path *)
Definition EntP (v : tval) : Prop :=
  (forall p k, Ent p k v) /\
  match v with TTab es => forall q k' x', In (k', x') es -> Ent q k' x' | _ => True end.

(* a value without tables is one key/value line and one value node *)
Lemma notab_pass1 x : has_tab x = false -> pass1 x = true.
Proof.
  destruct x as [s|z|f|b0|l|es]; try reflexivity; [|discriminate].
  cbn [has_tab pass1]. intros H. destruct (existsb is_table l) eqn:E; [|reflexivity].
  rewrite (is_table_has_tab_list l E) in H. discriminate.
Qed.

Lemma flat_inline x p k : has_tab x = false -> flat p k x = [IKV k (tdoc_of x)].
Proof.
  intros H. apply notab_pass1 in H. destruct x as [s|z|f|b0|l|es]; try reflexivity; [|discriminate].
  cbn [pass1] in H. apply negb_true_iff in H. cbn [flat]. rewrite H. reflexivity.
Qed.

Lemma ent_inline v : has_tab v = false -> forall p k, Ent p k v.
Proof.
  intros Hh p k R R' c Hc H. specialize (Hc Hh). subst c.
  rewrite (flat_inline v p k Hh). rewrite (node_of_pass1 v (notab_pass1 v Hh)) in H.
  exists p. split; [|auto]. cbn [build_st build_step].
  rewrite (at_path_ext p _ _ R (add_kv_add_node k _)), H. reflexivity.
Qed.

Lemma ent_aot l :
  existsb is_table l = true -> forallb is_table l = true -> Forall keys_nodup l ->
  (forall x, In x l -> EntP x) -> forall p k, Ent p k (TArr l).
Proof.
  intros Et Hall Hn IH p k R R' c _ H. cbn [flat node_of] in *. rewrite Et in *.
  rewrite Forall_forall in Hn. rewrite forallb_forall in Hall.
  assert (Hel : Forall (fun x => exists es, x = TTab es /\ forall k' x', In (k', x') es -> Ent (p ++ [k]) k' x') l).
  { apply Forall_forall. intros x Hx. specialize (Hall x Hx). destruct x as [| | | | |es]; try discriminate Hall.
    exists es. split; [reflexivity|]. intros k' x'. apply (IH _ Hx). }
  assert (Hnd : Forall (fun e => add_all e [] = Some e) (map elem_ents l)).
  { apply Forall_forall. intros e He. apply in_map_iff in He as (x & <- & Hx).
    destruct x as [| | | | |es]; try reflexivity. apply ents_nodup_ok, (proj1 (keys_nodup_tab es) (Hn _ Hx)). }
  change (map (fun x => match x with TTab es => ents_with node_of es | _ => [] end) l) with (map elem_ents l) in H.
  destruct (map elem_ents l) as [|e r] eqn:Em; [destruct l; [discriminate Et|discriminate Em]|].
  inversion Hnd as [|? ? He Hr]; subst.
  pose proof (at_path_mono p _ _ (add_aot k e r He Hr) R R' H) as H'.
  assert (U : aot_upd p k (map elem_ents l) R = Some R') by (rewrite Em; exact H').
  destruct (aot_ok p k l Hel R R' c U) as (c' & B). exists c'. split; [exact B|].
  cbn [has_tab]. rewrite (is_table_has_tab_list l Et). discriminate.
Qed.

Lemma ent_table es :
  NoDup (map fst es) -> (forall q k' x', In (k', x') es -> Ent q k' x') -> forall p k, Ent p k (TTab es).
Proof.
  intros Hnd Hents p k R R' c _ H. cbn [flat node_of] in *.
  pose proof (ents_nodup_ok es Hnd) as Hns.
  set (ns := ents_with node_of es) in *.
  destruct (has_simple es || is_nil es) eqn:Eh.
  - (* [header], then the lines *)
    pose proof (at_path_mono p _ _ (add_tab_explicit k ns Hns) R R' H) as H'.
    rewrite at_path_seq in H'.
    destruct (at_path p (define_tab k) R) as [R0|] eqn:E0; [|discriminate H']. cbn [obind] in H'.
    pose proof (upd_after p k _ _ R R0 R' (define_tab_fix k) E0 H') as U.
    destruct (body_ok (p ++ [k]) es (Hents _) R0 R' (p ++ [k]) ltac:(reflexivity) U) as (c1 & B1).
    exists c1. split; [|discriminate]. cbn [app build_st build_step]. rewrite split_last_snoc, E0. exact B1.
  - (* no header of its own: es is not empty, so its first line creates the table *)
    pose proof (at_path_mono p _ _ (add_tab_implicit k ns Hns) R R' H) as H'.
    apply orb_false_iff in Eh as [Hs Hnil].
    assert (U : upd (p ++ [k]) ns R = Some R').
    { destruct ns as [|kn ns'] eqn:Ens; [rewrite (ents_with_nil es Ens) in Hnil; discriminate Hnil|].
      cbn [upd]. rewrite at_path_snoc. exact H'. }
    destruct (body_ok (p ++ [k]) es (Hents _) R R' c ltac:(intros Hc; congruence) U) as (c1 & B1).
    exists c1. split; [|discriminate]. cbn [app]. exact B1.
Qed.

Theorem entry_ok : forall v, good v = true -> keys_nodup v -> EntP v.
Proof.
  induction v as [s|z|f|x|l IH|es IH] using tval_ind'; intros Hg Hn.
  1-4: split; [apply ent_inline; reflexivity|exact I].
  - split; [|exact I]. apply good_arr in Hg. apply keys_nodup_arr in Hn.
    destruct (existsb is_table l) eqn:Et; [|apply ent_inline; exact Hg]. destruct Hg as [Hall Hgood].
    apply ent_aot; try assumption. intros x Hx.
    rewrite Forall_forall in IH, Hn. rewrite forallb_forall in Hgood. apply (IH x Hx (Hgood x Hx) (Hn x Hx)).
  - cbn [good] in Hg. apply keys_nodup_tab in Hn as [Hnd Hsub].
    assert (Hents : forall q k' x', In (k', x') es -> Ent q k' x').
    { intros q k' x' Hin. rewrite Forall_forall in IH, Hsub. rewrite forallb_forall in Hg.
      apply (IH (k', x') Hin (Hg _ Hin) (Hsub _ Hin)). }
    split; [apply ent_table; assumption|exact Hents].
Qed.

(* the builder, run on the lines of a well-formed root table, constructs its tree *)
Theorem build_flat es :
  good (TTab es) = true -> keys_nodup (TTab es) ->
  build (flat_root es) = Some (ents_with node_of es).
Proof.
  intros Hg Hn. destruct (entry_ok (TTab es) Hg Hn) as [_ Hents].
  apply keys_nodup_tab in Hn as [Hnd _].
  assert (U : upd [] (ents_with node_of es) [] = Some (ents_with node_of es)).
  { destruct (ents_with node_of es) eqn:E; [reflexivity|]. cbn [upd at_path]. rewrite <- E. apply ents_nodup_ok, Hnd. }
  destruct (body_ok [] es (Hents []) [] _ [] ltac:(reflexivity) U) as (c & B).
  unfold build, flat_root.
  match goal with |- context [build_st ?a ?b] =>
    replace (build_st a b) with (Some (ents_with node_of es, c)) by (symmetry; exact B) end.
  reflexivity.
Qed.
