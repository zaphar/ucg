(* The mappings of MapJson.v: [to_json] loses nothing and fails exactly on what JSON cannot hold;
   [from_json] is its specification; BTreeMap insertion as sorting with first or last wins. *)
From Ucg Require Import base.Bytes base.Bytes_Lemmas data.Val data.Json data.Json_Lemmas data.MapJson.
From Ucg Require Export data.Val_Lemmas.
From Coq Require Import QArith.
Close Scope Q_scope.
Local Open Scope list_scope.

Lemma digits_val_app ds c :
  digits_val (ds ++ [c]) = (digits_val ds * 10 + (code c - 48))%N.
Proof. exact (dec_value_app ds c). Qed.

Lemma span_digits_app ds r :
  forallb is_digit ds = true ->
  match r with [] => True | c :: _ => is_digit c = false end ->
  span_digits (ds ++ r) = (ds, r).
Proof.
  intros Hd Hr. induction ds as [|c ds IH]; cbn [app span_digits].
  - destruct r as [|d r]; [reflexivity|]. cbn [span_digits]. rewrite Hr. reflexivity.
  - cbn [forallb] in Hd. apply andb_true_iff in Hd as [Hc Hd]. rewrite Hc, (IH Hd). reflexivity.
Qed.

Lemma digits_num_chars ds : forallb is_digit ds = true -> forallb num_char ds = true.
Proof.
  induction ds as [|c ds IH]; cbn [forallb]; [reflexivity|].
  intros H. apply andb_true_iff in H as [Hc Hd].
  unfold num_char at 1. rewrite Hc, (IH Hd). reflexivity.
Qed.

Lemma is_digit_not_minus c : is_digit c = true -> ceq c "-"%char = false.
Proof.
  intros H. destruct (ceq c "-"%char) eqn:E; [|reflexivity].
  apply Ascii.eqb_eq in E. subst c. discriminate H.
Qed.

(* literal = [-] ds ".0" with ds a canonical digit string *)
Lemma num_split_int_dot0 (neg : bool) c t :
  forallb is_digit (c :: t) = true -> ceq c "0"%char = false ->
  num_split ((if neg then ["-"%char] else []) ++ (c :: t) ++ b ".0")
  = Some (mk_num_parts neg (c :: t) (b "0") false []).
Proof.
  intros Hd Hc.
  assert (Hcd : is_digit c = true).
  { cbn [forallb] in Hd. apply andb_true_iff in Hd as [H _]. exact H. }
  assert (Htd : forallb is_digit t = true).
  { cbn [forallb] in Hd. apply andb_true_iff in Hd as [_ H]. exact H. }
  assert (E : scan_int ((c :: t) ++ b ".0") = Some (c :: t, b ".0")).
  { cbn [app]. unfold scan_int. rewrite Hc, Hcd.
    rewrite (span_digits_app t (b ".0") Htd) by reflexivity. reflexivity. }
  unfold num_split. destruct neg.
  - cbn [app]. unfold scan_sign.
    replace (ceq "-"%char "-"%char) with true by reflexivity.
    change (c :: t ++ b ".0") with ((c :: t) ++ b ".0"). rewrite E. reflexivity.
  - cbn [app]. unfold scan_sign. rewrite (is_digit_not_minus c Hcd).
    change (c :: t ++ b ".0") with ((c :: t) ++ b ".0"). rewrite E. reflexivity.
Qed.

(* [Val_Lemmas.dec_of_Z_spec] with the digit test and digit value of the JSON model *)
Lemma Z_dec_shape z :
  z <> 0%Z ->
  exists c t,
    Val.dec_of_Z z = (if (z <? 0)%Z then ["-"%char] else []) ++ c :: t /\
    forallb is_digit (c :: t) = true /\ ceq c "0"%char = false /\
    digits_val (c :: t) = Z.abs_N z.
Proof. exact (dec_of_Z_spec z). Qed.

Lemma num_lit_ok_int z : num_lit_ok (Val.dec_of_Z z ++ b ".0") = true.
Proof.
  destruct (Z.eq_dec z 0) as [->|Hz]; [reflexivity|].
  destruct (Z_dec_shape z Hz) as (c & t & E & Hd & Hc & _).
  rewrite E. unfold num_lit_ok. rewrite <- app_assoc.
  rewrite (num_split_int_dot0 (z <? 0)%Z c t Hd Hc).
  rewrite andb_true_r. rewrite !forallb_app.
  rewrite (digits_num_chars _ Hd). destruct (z <? 0)%Z; reflexivity.
Qed.

(* the integer literal as mantissa and exponent *)
Lemma num_value_int z : num_value (Val.dec_of_Z z ++ b ".0") = Some (z * 10, -1)%Z.
Proof.
  destruct (Z.eq_dec z 0) as [->|Hz]; [reflexivity|].
  destruct (Z_dec_shape z Hz) as (c & t & E & Hd & Hc & Hv).
  rewrite E. unfold num_value. rewrite <- app_assoc.
  rewrite (num_split_int_dot0 (z <? 0)%Z c t Hd Hc).
  cbn [np_neg np_int np_frac np_eneg np_exp].
  change (b "0") with ["0"%char]. rewrite digits_val_app, Hv.
  cbn [List.length digits_val fold_left].
  f_equal. f_equal.
  - destruct (Z.ltb_spec z 0); cbn; lia.
Qed.

(* ... and that (z*10, -1) denotes z *)
Lemma num_q_int z : (num_q (z * 10, -1)%Z == inject_Z z)%Q.
Proof.
  unfold num_q. cbn. unfold Qeq. cbn. lia.
Qed.

Lemma num_denotes_int z :
  exists me, num_value (Val.dec_of_Z z ++ b ".0") = Some me /\ (num_q me == inject_Z z)%Q.
Proof. exists (z * 10, -1)%Z. split; [apply num_value_int|apply num_q_int]. Qed.

Lemma bytes_cmp_eq x y : bytes_cmp x y = Eq <-> x = y.
Proof.
  revert y. induction x as [|c x IH]; intros [|d y]; cbn; try (split; congruence).
  destruct (N.compare_spec (code c) (code d)) as [E|E|E].
  - apply code_inj in E. subst d. rewrite IH. split; [intros ->; reflexivity|congruence].
  - split; [discriminate|]. intros H; inversion H; subst. lia.
  - split; [discriminate|]. intros H; inversion H; subst. lia.
Qed.

Lemma bytes_cmp_refl x : bytes_cmp x x = Eq.
Proof. apply bytes_cmp_eq. reflexivity. Qed.

Lemma bytes_cmp_antisym x y : bytes_cmp y x = CompOpp (bytes_cmp x y).
Proof.
  revert y. induction x as [|c x IH]; intros [|d y]; cbn; try reflexivity.
  rewrite (N.compare_antisym (code c) (code d)).
  destruct (code c ?= code d)%N; cbn; auto.
Qed.

Lemma bytes_cmp_lt_trans x y z :
  bytes_cmp x y = Lt -> bytes_cmp y z = Lt -> bytes_cmp x z = Lt.
Proof.
  revert y z. induction x as [|c x IH]; intros [|d y] [|e z]; cbn; try congruence.
  destruct (N.compare_spec (code c) (code d)) as [E1|E1|E1];
    destruct (N.compare_spec (code d) (code e)) as [E2|E2|E2]; try congruence;
    intros H1 H2.
  - rewrite E1, E2, N.compare_refl. eapply IH; eauto.
  - rewrite E1. apply N.compare_lt_iff in E2. rewrite E2. reflexivity.
  - rewrite <- E2. apply N.compare_lt_iff in E1. rewrite E1. reflexivity.
  - assert (E : (code c < code e)%N) by lia. apply N.compare_lt_iff in E. rewrite E. reflexivity.
Qed.

Lemma bytes_cmp_gt_lt x y : bytes_cmp x y = Gt <-> bytes_cmp y x = Lt.
Proof.
  rewrite (bytes_cmp_antisym x y). destruct (bytes_cmp x y); cbn; split; congruence.
Qed.

Lemma bytes_eqb_cmp x y : bytes_eqb x y = true <-> bytes_cmp x y = Eq.
Proof. rewrite bytes_eqb_spec, bytes_cmp_eq. reflexivity. Qed.

Lemma bytes_eqb_false_cmp x y : bytes_cmp x y <> Eq -> bytes_eqb x y = false.
Proof.
  intros H. destruct (bytes_eqb x y) eqn:E; [|reflexivity].
  apply bytes_eqb_cmp in E. contradiction.
Qed.

Lemma bytes_eqb_sym x y : bytes_eqb x y = bytes_eqb y x.
Proof. exact (Bytes_Lemmas.bytes_eqb_sym x y). Qed.

Section SMapLemmas.
  Context {V : Type}.
  Implicit Types (m l : list (bytes * V)) (k : bytes) (v : V).

  (* strictly increasing keys *)
  Fixpoint ssorted m : Prop :=
    match m with
    | [] => True
    | (k, _) :: m' => (forall k', In k' (map fst m') -> bytes_cmp k k' = Lt) /\ ssorted m'
    end.

  Lemma lookup_none_below k m :
    (forall k', In k' (map fst m) -> bytes_cmp k k' = Lt) -> lookup k m = None.
  Proof.
    induction m as [|[k1 v1] m IH]; cbn; [reflexivity|]. intros H.
    rewrite bytes_eqb_false_cmp.
    - apply IH. intros k' Hk'. apply H. right. exact Hk'.
    - rewrite (H k1 (or_introl eq_refl)). discriminate.
  Qed.

  Lemma lookup_in k m w : lookup k m = Some w -> In k (map fst m).
  Proof.
    induction m as [|[k1 v1] m IH]; cbn; [discriminate|].
    destruct (bytes_eqb k k1) eqn:E.
    - apply bytes_eqb_spec in E. subst. left. reflexivity.
    - intros H. right. apply IH. exact H.
  Qed.

  Lemma in_lookup k m : In k (map fst m) -> exists w, lookup k m = Some w.
  Proof.
    induction m as [|[k1 v1] m IH]; cbn; [tauto|].
    intros [->|H].
    - rewrite bytes_eqb_refl. eauto.
    - destruct (bytes_eqb k k1); eauto.
  Qed.

  Lemma ins_first_keys k v m k' :
    In k' (map fst (ins_first k v m)) <-> k' = k \/ In k' (map fst m).
  Proof.
    induction m as [|[k1 v1] m IH]; cbn.
    - intuition congruence.
    - destruct (bytes_cmp k k1) eqn:E; cbn.
      + apply bytes_cmp_eq in E. subst. intuition congruence.
      + intuition congruence.
      + rewrite IH. intuition congruence.
  Qed.

  Lemma ins_first_sorted k v m : ssorted m -> ssorted (ins_first k v m).
  Proof.
    induction m as [|[k1 v1] m IH]; cbn.
    - intros _. split; [intros k' []|exact I].
    - intros [H1 H2]. destruct (bytes_cmp k k1) eqn:E.
      + cbn. auto.
      + cbn. split; [|auto]. intros k' [<-|Hk']; [exact E|].
        eapply bytes_cmp_lt_trans; eauto.
      + cbn. split; [|auto]. intros k' Hk'. apply ins_first_keys in Hk' as [->|Hk'].
        * apply bytes_cmp_gt_lt. exact E.
        * auto.
  Qed.

  Lemma lookup_ins_first k v m k' :
    ssorted m ->
    lookup k' (ins_first k v m)
    = if bytes_eqb k' k
      then match lookup k m with Some w => Some w | None => Some v end
      else lookup k' m.
  Proof.
    induction m as [|[k1 v1] m IH]; cbn [ins_first lookup].
    - intros _. destruct (bytes_eqb k' k); reflexivity.
    - intros [H1 H2]. destruct (bytes_cmp k k1) eqn:E.
      + apply bytes_cmp_eq in E. subst k1. cbn [lookup]. rewrite bytes_eqb_refl.
        destruct (bytes_eqb k' k); reflexivity.
      + cbn [lookup]. destruct (bytes_eqb k' k) eqn:E'; [|reflexivity].
        rewrite (bytes_eqb_false_cmp k k1) by (rewrite E; discriminate).
        rewrite lookup_none_below; [reflexivity|].
        intros k2 Hk2. eapply bytes_cmp_lt_trans; eauto.
      + cbn [lookup]. rewrite (IH H2).
        rewrite (bytes_eqb_false_cmp k k1) by (rewrite E; discriminate).
        destruct (bytes_eqb k' k) eqn:E'; [|reflexivity].
        apply bytes_eqb_spec in E'. subst k'.
        rewrite (bytes_eqb_false_cmp k k1) by (rewrite E; discriminate). reflexivity.
  Qed.

  Lemma ins_last_keys k v m k' :
    In k' (map fst (ins_last k v m)) <-> k' = k \/ In k' (map fst m).
  Proof.
    induction m as [|[k1 v1] m IH]; cbn.
    - intuition congruence.
    - destruct (bytes_cmp k k1) eqn:E; cbn.
      + apply bytes_cmp_eq in E. subst. intuition congruence.
      + intuition congruence.
      + rewrite IH. intuition congruence.
  Qed.

  Lemma ins_last_sorted k v m : ssorted m -> ssorted (ins_last k v m).
  Proof.
    induction m as [|[k1 v1] m IH]; cbn.
    - intros _. split; [intros k' []|exact I].
    - intros [H1 H2]. destruct (bytes_cmp k k1) eqn:E.
      + apply bytes_cmp_eq in E. subst k1. cbn. auto.
      + cbn. split; [|auto]. intros k' [<-|Hk']; [exact E|].
        eapply bytes_cmp_lt_trans; eauto.
      + cbn. split; [|auto]. intros k' Hk'. apply ins_last_keys in Hk' as [->|Hk'].
        * apply bytes_cmp_gt_lt. exact E.
        * auto.
  Qed.

  Lemma lookup_ins_last k v m k' :
    lookup k' (ins_last k v m) = if bytes_eqb k' k then Some v else lookup k' m.
  Proof.
    induction m as [|[k1 v1] m IH]; cbn [ins_last lookup].
    - reflexivity.
    - destruct (bytes_cmp k k1) eqn:E.
      + apply bytes_cmp_eq in E. subst k1. cbn [lookup].
        destruct (bytes_eqb k' k); reflexivity.
      + cbn [lookup]. reflexivity.
      + cbn [lookup]. rewrite IH.
        destruct (bytes_eqb k' k) eqn:E'; [|reflexivity].
        apply bytes_eqb_spec in E'. subst k'.
        rewrite (bytes_eqb_false_cmp k k1) by (rewrite E; discriminate). reflexivity.
  Qed.

  Lemma fold_ins_first_sorted l : forall m,
    ssorted m -> ssorted (fold_left (fun m kv => ins_first (fst kv) (snd kv) m) l m).
  Proof.
    induction l as [|[k v] l IH]; intros m Hm; cbn; [exact Hm|].
    apply IH, ins_first_sorted, Hm.
  Qed.

  Lemma fold_ins_first_lookup l : forall m k,
    ssorted m ->
    lookup k (fold_left (fun m kv => ins_first (fst kv) (snd kv) m) l m)
    = match lookup k m with Some w => Some w | None => lookup k l end.
  Proof.
    induction l as [|[k1 v1] l IH]; intros m k Hm; cbn [fold_left lookup fst snd].
    - destruct (lookup k m); reflexivity.
    - rewrite IH by (apply ins_first_sorted, Hm).
      rewrite (lookup_ins_first k1 v1 m k Hm).
      destruct (bytes_eqb k k1) eqn:E.
      + apply bytes_eqb_spec in E. subst k1. destruct (lookup k m); reflexivity.
      + reflexivity.
  Qed.

  Lemma fold_ins_last_sorted l : forall m,
    ssorted m -> ssorted (fold_left (fun m kv => ins_last (fst kv) (snd kv) m) l m).
  Proof.
    induction l as [|[k v] l IH]; intros m Hm; cbn; [exact Hm|].
    apply IH, ins_last_sorted, Hm.
  Qed.

  Lemma fold_ins_last_lookup l : forall m k,
    lookup k (fold_left (fun m kv => ins_last (fst kv) (snd kv) m) l m)
    = match lookup_last k l with Some w => Some w | None => lookup k m end.
  Proof.
    induction l as [|[k1 v1] l IH]; intros m k; cbn [fold_left lookup_last fst snd].
    - reflexivity.
    - rewrite IH. destruct (lookup_last k l); [reflexivity|].
      rewrite lookup_ins_last. destruct (bytes_eqb k k1); reflexivity.
  Qed.

  (* The two facts that characterise [map_first]: BTreeMap iteration order and
     entry().or_insert() semantics. *)
  Theorem map_first_sorted l : ssorted (map_first l).
  Proof. apply fold_ins_first_sorted. exact I. Qed.

  Theorem map_first_lookup l k : lookup k (map_first l) = lookup k l.
  Proof. unfold map_first. rewrite fold_ins_first_lookup by exact I. reflexivity. Qed.

  (* ... and [map_last]: insert() semantics. *)
  Theorem map_last_sorted l : ssorted (map_last l).
  Proof. apply fold_ins_last_sorted. exact I. Qed.

  Theorem map_last_lookup l k : lookup k (map_last l) = lookup_last k l.
  Proof.
    unfold map_last. rewrite fold_ins_last_lookup. destruct (lookup_last k l); reflexivity.
  Qed.

  (* a strictly sorted association list is determined by its lookup function *)
  Lemma ssorted_ext m1 : forall m2,
    ssorted m1 -> ssorted m2 -> (forall k, lookup k m1 = lookup k m2) -> m1 = m2.
  Proof.
    induction m1 as [|[k1 v1] m1 IH]; intros [|[k2 v2] m2] S1 S2 H.
    - reflexivity.
    - specialize (H k2). cbn in H. rewrite bytes_eqb_refl in H. discriminate.
    - specialize (H k1). cbn in H. rewrite bytes_eqb_refl in H. discriminate.
    - destruct S1 as [A1 S1], S2 as [A2 S2].
      assert (Ek : k1 = k2).
      { destruct (bytes_cmp k1 k2) eqn:E.
        - apply bytes_cmp_eq. exact E.
        - (* k1 < k2: k1 is not a key of the second list *)
          pose proof (H k1) as Hk. cbn in Hk. rewrite bytes_eqb_refl in Hk.
          rewrite (bytes_eqb_false_cmp k1 k2) in Hk by (rewrite E; discriminate).
          rewrite lookup_none_below in Hk; [discriminate|].
          intros k' Hk'. eapply bytes_cmp_lt_trans; eauto.
        - pose proof (H k2) as Hk. cbn in Hk. rewrite bytes_eqb_refl in Hk.
          apply bytes_cmp_gt_lt in E.
          rewrite (bytes_eqb_false_cmp k2 k1) in Hk by (rewrite E; discriminate).
          rewrite lookup_none_below in Hk; [discriminate|].
          intros k' Hk'. eapply bytes_cmp_lt_trans; eauto. }
      subst k2.
      assert (Ev : v1 = v2).
      { specialize (H k1). cbn in H. rewrite bytes_eqb_refl in H. congruence. }
      subst v2. f_equal. apply IH; auto.
      intros k. specialize (H k). cbn in H.
      destruct (bytes_eqb k k1) eqn:E; [|exact H].
      apply bytes_eqb_spec in E. subst k.
      rewrite !lookup_none_below; auto.
  Qed.

  Lemma insert_sorted_keys kv l k' :
    In k' (map fst (insert_sorted kv l)) <-> k' = fst kv \/ In k' (map fst l).
  Proof.
    induction l as [|[k1 v1] l IH]; cbn.
    - intuition congruence.
    - destruct (bytes_ltb k1 (fst kv)); cbn.
      + rewrite IH. intuition congruence.
      + intuition congruence.
  Qed.

  Lemma insert_sorted_sorted kv l :
    ssorted l -> ~ In (fst kv) (map fst l) -> ssorted (insert_sorted kv l).
  Proof.
    destruct kv as [k v]. cbn [fst].
    induction l as [|[k1 v1] l IH]; cbn [insert_sorted ssorted map fst In].
    - intros _ _. split; [intros k' []|exact I].
    - intros [H1 H2] Hn. unfold bytes_ltb. destruct (bytes_cmp k1 k) eqn:E.
      + apply bytes_cmp_eq in E. subst. exfalso. apply Hn. left. reflexivity.
      + cbn [ssorted fst]. split.
        * intros k' Hk'. apply insert_sorted_keys in Hk' as [->|Hk']; auto.
        * apply IH; auto.
      + cbn [ssorted fst map]. split; [|split; auto].
        intros k' [<-|Hk'].
        * apply bytes_cmp_gt_lt. exact E.
        * apply bytes_cmp_gt_lt in E. eapply bytes_cmp_lt_trans; eauto.
  Qed.

  Lemma lookup_insert_sorted kv l k :
    ~ In (fst kv) (map fst l) ->
    lookup k (insert_sorted kv l) = if bytes_eqb k (fst kv) then Some (snd kv) else lookup k l.
  Proof.
    destruct kv as [k0 v0]. cbn [fst snd].
    induction l as [|[k1 v1] l IH]; cbn [insert_sorted lookup map fst In]; intros Hn.
    - reflexivity.
    - destruct (bytes_ltb k1 k0); cbn [lookup fst].
      + rewrite IH by tauto.
        destruct (bytes_eqb k k0) eqn:E; [|reflexivity].
        apply bytes_eqb_spec in E. subst k.
        destruct (bytes_eqb k0 k1) eqn:E1; [|reflexivity].
        apply bytes_eqb_spec in E1. subst. tauto.
      + reflexivity.
  Qed.

  Lemma keep_last_keys l k : In k (map fst (keep_last l)) <-> In k (map fst l).
  Proof.
    induction l as [|[k1 v1] l IH]; cbn [keep_last map fst In]; [tauto|].
    destruct (existsb (fun kv => bytes_eqb k1 (fst kv)) l) eqn:E.
    - rewrite IH. split; [tauto|]. intros [<-|H]; [|exact H].
      apply existsb_exists in E as ([k2 v2] & Hin & Heq). cbn in Heq.
      apply bytes_eqb_spec in Heq. subst k2.
      apply in_map_iff. exists (k1, v2). auto.
    - cbn [map fst In]. rewrite IH. tauto.
  Qed.

  Lemma keep_last_nodup l : NoDup (map fst (keep_last l)).
  Proof.
    induction l as [|[k1 v1] l IH]; cbn [keep_last map]; [constructor|].
    destruct (existsb (fun kv => bytes_eqb k1 (fst kv)) l) eqn:E; [exact IH|].
    cbn [map fst]. constructor; [|exact IH].
    rewrite keep_last_keys. intros Hin. apply in_map_iff in Hin as ([k2 v2] & Hk & Hin).
    cbn in Hk. subst k2.
    assert (existsb (fun kv => bytes_eqb k1 (fst kv)) l = true); [|congruence].
    apply existsb_exists. exists (k1, v2). split; [exact Hin|apply bytes_eqb_refl].
  Qed.

  Lemma lookup_last_none k l : ~ In k (map fst l) -> lookup_last k l = None.
  Proof.
    induction l as [|[k1 v1] l IH]; cbn [lookup_last map fst In]; [reflexivity|].
    intros H. rewrite IH by tauto.
    destruct (bytes_eqb k k1) eqn:E; [|reflexivity].
    apply bytes_eqb_spec in E. subst. tauto.
  Qed.

  Lemma lookup_keep_last l k : lookup k (keep_last l) = lookup_last k l.
  Proof.
    induction l as [|[k1 v1] l IH]; cbn [keep_last lookup lookup_last]; [reflexivity|].
    destruct (existsb (fun kv => bytes_eqb k1 (fst kv)) l) eqn:E.
    - rewrite IH. destruct (lookup_last k l) eqn:EL; [reflexivity|].
      destruct (bytes_eqb k k1) eqn:E1; [|reflexivity].
      apply bytes_eqb_spec in E1. subst k1.
      (* k occurs later, so lookup_last k l cannot be None *)
      exfalso. apply existsb_exists in E as ([k2 v2] & Hin & Heq). cbn in Heq.
      apply bytes_eqb_spec in Heq. subst k2.
      assert (In k (map fst (keep_last l))).
      { apply keep_last_keys. apply in_map_iff. exists (k, v2). auto. }
      apply in_lookup in H as (w & Hw). congruence.
    - cbn [lookup]. rewrite IH.
      destruct (bytes_eqb k k1) eqn:E1.
      + apply bytes_eqb_spec in E1. subst k1.
        rewrite lookup_last_none; [reflexivity|].
        intros Hin. apply in_map_iff in Hin as ([k2 v2] & Hk & Hin). cbn in Hk. subst k2.
        assert (existsb (fun kv => bytes_eqb k (fst kv)) l = true); [|congruence].
        apply existsb_exists. exists (k, v2). split; [exact Hin|apply bytes_eqb_refl].
      + destruct (lookup_last k l); reflexivity.
  Qed.

  Lemma sort_keys_keys l k : In k (map fst (sort_keys l)) <-> In k (map fst l).
  Proof.
    induction l as [|kv l IH]; cbn [sort_keys fold_right map In]; [tauto|].
    fold (sort_keys l). rewrite insert_sorted_keys, IH. intuition congruence.
  Qed.

  Lemma sort_keys_sorted l : NoDup (map fst l) -> ssorted (sort_keys l).
  Proof.
    induction l as [|kv l IH]; cbn [sort_keys fold_right map]; [intros _; exact I|].
    fold (sort_keys l). intros H. inversion H; subst.
    apply insert_sorted_sorted; [auto|]. rewrite sort_keys_keys. assumption.
  Qed.

  Lemma lookup_sort_keys l k : NoDup (map fst l) -> lookup k (sort_keys l) = lookup k l.
  Proof.
    induction l as [|[k1 v1] l IH]; cbn [sort_keys fold_right map fst]; [reflexivity|].
    fold (sort_keys l). intros H. inversion H; subst.
    rewrite lookup_insert_sorted by (rewrite sort_keys_keys; assumption).
    cbn [fst snd lookup]. rewrite IH by assumption. reflexivity.
  Qed.

  (* implementation (BTreeMap::insert) = specification (sort, last wins) *)
  Theorem map_last_spec l : map_last l = sort_keys (keep_last l).
  Proof.
    apply ssorted_ext.
    - apply map_last_sorted.
    - apply sort_keys_sorted, keep_last_nodup.
    - intros k. rewrite map_last_lookup, lookup_sort_keys by apply keep_last_nodup.
      symmetry. apply lookup_keep_last.
  Qed.
End SMapLemmas.

Fixpoint to_json_list (l : list val) : res (list json) :=
  match l with
  | [] => Ok []
  | x :: xs => res_cons (to_json x) (to_json_list xs)
  end.

Fixpoint to_json_fields (l : list (bytes * val)) : res (list (bytes * json)) :=
  match l with
  | [] => Ok []
  | (k, x) :: r => res_cons (res_map (pair k) (to_json x)) (to_json_fields r)
  end.

Lemma to_json_VList l : to_json (VList l) = res_map JArr (to_json_list l).
Proof. reflexivity. Qed.

Lemma to_json_VTuple fs :
  to_json (VTuple fs) = res_map (fun kvs => JObj (map_first kvs)) (to_json_fields fs).
Proof. reflexivity. Qed.

Lemma res_cons_ok {A} (r : res A) rs l :
  res_cons r rs = Ok l -> exists a l', r = Ok a /\ rs = Ok l' /\ l = a :: l'.
Proof.
  destruct r, rs; cbn; try discriminate. intros H; inversion H; eauto.
Qed.

Lemma res_cons_err {A} (r : res A) rs : res_cons r rs = Err <-> r = Err \/ rs = Err.
Proof.
  destruct r, rs; cbn; split; try discriminate; try tauto; intros [H|H]; discriminate.
Qed.

Lemma res_map_err {A B} (f : A -> B) r : res_map f r = Err <-> r = Err.
Proof. destruct r; cbn; split; congruence. Qed.

Lemma res_map_ok {A B} (f : A -> B) r y : res_map f r = Ok y -> exists a, r = Ok a /\ y = f a.
Proof. destruct r; cbn; try discriminate. intros H; inversion H; eauto. Qed.

Lemma to_json_list_ok l : forall js,
  to_json_list l = Ok js -> Forall2 (fun v j => to_json v = Ok j) l js.
Proof.
  induction l as [|x xs IH]; intros js; cbn [to_json_list].
  - intros H; inversion H. constructor.
  - intros H. apply res_cons_ok in H as (a & l' & Ha & Hl & ->).
    constructor; auto.
Qed.

Lemma to_json_fields_ok l : forall kjs,
  to_json_fields l = Ok kjs ->
  Forall2 (fun kv kj => fst kv = fst kj /\ to_json (snd kv) = Ok (snd kj)) l kjs.
Proof.
  induction l as [|[k x] r IH]; intros kjs; cbn [to_json_fields].
  - intros H; inversion H. constructor.
  - intros H. apply res_cons_ok in H as (a & l' & Ha & Hl & ->).
    apply res_map_ok in Ha as (j & Hj & ->).
    constructor; auto.
Qed.

Lemma ins_first_in {V} k (v : V) m x : In x (ins_first k v m) -> x = (k, v) \/ In x m.
Proof.
  induction m as [|[k1 v1] m IH]; cbn.
  - intuition congruence.
  - destruct (bytes_cmp k k1); cbn; intuition congruence.
Qed.

Lemma map_first_in {V} (l : list (bytes * V)) x : In x (map_first l) -> In x l.
Proof.
  unfold map_first.
  assert (G : forall m, In x (fold_left (fun m kv => ins_first (fst kv) (snd kv) m) l m) ->
                        In x l \/ In x m).
  { induction l as [|[k v] l IH]; intros m; cbn [fold_left fst snd].
    - tauto.
    - intros H. apply IH in H as [H|H]; [left; right; exact H|].
      apply ins_first_in in H as [->|H]; [left; left; reflexivity|right; exact H]. }
  intros H. apply G in H as [H|[]]. exact H.
Qed.

Theorem to_json_wf : forall v j, to_json v = Ok j -> json_wf j = true.
Proof.
  induction v as [|x|z|f|s|l IH|fs IH|fs|] using val_ind'; intros j H.
  - inversion H; reflexivity.
  - inversion H; reflexivity.
  - cbn [to_json] in H. destruct (Z.abs z <=? two53)%Z; [|discriminate].
    inversion H; subst. cbn [json_wf]. apply num_lit_ok_int.
  - destruct f as [t| | |]; cbn [to_json] in H; try discriminate.
    destruct (num_lit_ok t) eqn:E; cbn [andb] in H; [|discriminate].
    destruct (has_dot_or_e t); [|discriminate].
    inversion H; subst. exact E.
  - inversion H; reflexivity.
  - rewrite to_json_VList in H. apply res_map_ok in H as (js & Hjs & ->).
    apply to_json_list_ok in Hjs. cbn [json_wf].
    induction Hjs as [|v j' l js Hv Hl IHl]; [reflexivity|].
    inversion IH; subst. cbn [forallb]. rewrite (H1 _ Hv), IHl by assumption. reflexivity.
  - rewrite to_json_VTuple in H. apply res_map_ok in H as (kjs & Hk & ->).
    apply to_json_fields_ok in Hk. cbn [json_wf].
    apply forallb_forall. intros kj Hin. apply map_first_in in Hin.
    clear - IH Hk Hin. induction Hk as [|kv kj' l kjs [_ Hv] Hl IHl]; [destruct Hin|].
    inversion IH; subst. destruct Hin as [<-|Hin]; eauto.
  - cbn [to_json] in H. inversion H; subst. cbn [json_wf].
    apply forallb_forall. intros kj Hin. apply map_first_in in Hin.
    apply in_map_iff in Hin as (kv & <- & _). reflexivity.
  - discriminate.
Qed.

Fixpoint json_abs_list (l : list json) : option (list aval) :=
  match l with
  | [] => Some []
  | x :: xs =>
    match json_abs x, json_abs_list xs with
    | Some a, Some r => Some (a :: r)
    | _, _ => None
    end
  end.

Fixpoint json_abs_fields (l : list (bytes * json)) : option (list (bytes * aval)) :=
  match l with
  | [] => Some []
  | (k, x) :: xs =>
    match json_abs x, json_abs_fields xs with
    | Some a, Some r => Some ((k, a) :: r)
    | _, _ => None
    end
  end.

Lemma json_abs_JArr l : json_abs (JArr l) = option_map AList (json_abs_list l).
Proof. reflexivity. Qed.
Lemma json_abs_JObj kvs : json_abs (JObj kvs) = option_map AMap (json_abs_fields kvs).
Proof. reflexivity. Qed.

(* key-wise relation between a JSON object body and an abstract map body *)
Definition absR (kj : bytes * json) (ka : bytes * aval) : Prop :=
  fst kj = fst ka /\ json_abs (snd kj) = Some (snd ka).

Lemma json_abs_fields_R m m' : Forall2 absR m m' -> json_abs_fields m = Some m'.
Proof.
  induction 1 as [|[k j] [k' a] m m' [Hk Hj] _ IH]; [reflexivity|].
  cbn in Hk, Hj. subst k'. cbn [json_abs_fields]. rewrite Hj, IH. reflexivity.
Qed.

Lemma ins_first_R k j a m m' :
  json_abs j = Some a -> Forall2 absR m m' ->
  Forall2 absR (ins_first k j m) (ins_first k a m').
Proof.
  intros Hj. induction 1 as [|[k1 j1] [k1' a1] m m' [Hk Hj1] Hm IH].
  - cbn. constructor; [split; auto|constructor].
  - cbn in Hk. subst k1'. cbn [ins_first].
    destruct (bytes_cmp k k1).
    + constructor; [split; auto|exact Hm].
    + constructor; [split; auto|]. constructor; [split; auto|exact Hm].
    + constructor; [split; auto|exact IH].
Qed.

Lemma map_first_R l l' : Forall2 absR l l' -> Forall2 absR (map_first l) (map_first l').
Proof.
  unfold map_first.
  assert (G : forall m m', Forall2 absR l l' -> Forall2 absR m m' ->
    Forall2 absR (fold_left (fun m kv => ins_first (fst kv) (snd kv) m) l m)
                 (fold_left (fun m kv => ins_first (fst kv) (snd kv) m) l' m')).
  { intros m m' H. revert m m'.
    induction H as [|[k j] [k' a] l l' [Hk Hj] _ IH]; intros m m' Hm; [exact Hm|].
    cbn in Hk, Hj. subst k'. cbn [fold_left fst snd]. apply IH. apply ins_first_R; auto. }
  intros H. apply G; [exact H|constructor].
Qed.

Theorem to_json_lossless : forall v j, to_json v = Ok j -> json_abs j = Some (canon v).
Proof.
  induction v as [|x|z|f|s|l IH|fs IH|fs|] using val_ind'; intros j H.
  - inversion H; reflexivity.
  - inversion H; reflexivity.
  - cbn [to_json] in H. destruct (Z.abs z <=? two53)%Z; [|discriminate].
    inversion H; subst. cbn [json_abs canon]. rewrite num_value_int.
    do 2 f_equal. apply Qred_complete, num_q_int.
  - destruct f as [t| | |]; cbn [to_json] in H; try discriminate.
    destruct (num_lit_ok t) eqn:E; cbn [andb] in H; [|discriminate].
    destruct (has_dot_or_e t); [|discriminate].
    inversion H; subst. cbn [json_abs canon].
    unfold num_lit_ok in E. apply andb_true_iff in E as [_ E].
    unfold num_value. destruct (num_split t); [reflexivity|discriminate].
  - inversion H; reflexivity.
  - rewrite to_json_VList in H. apply res_map_ok in H as (js & Hjs & ->).
    apply to_json_list_ok in Hjs. rewrite json_abs_JArr. cbn [canon].
    assert (G : json_abs_list js = Some (map canon l)).
    { induction Hjs as [|v j' l js Hv Hl IHl]; [reflexivity|].
      inversion IH; subst. cbn [json_abs_list map].
      rewrite (H1 _ Hv), IHl by assumption. reflexivity. }
    rewrite G. reflexivity.
  - rewrite to_json_VTuple in H. apply res_map_ok in H as (kjs & Hk & ->).
    apply to_json_fields_ok in Hk. rewrite json_abs_JObj. cbn [canon].
    assert (G : Forall2 absR kjs (map (fun kv => (fst kv, canon (snd kv))) fs)).
    { induction Hk as [|kv kj l kjs [Hkey Hv] Hl IHl]; [constructor|].
      inversion IH; subst. cbn [map]. constructor; [|auto].
      split; cbn [fst snd]; [congruence|auto]. }
    rewrite (json_abs_fields_R _ _ (map_first_R _ _ G)). reflexivity.
  - cbn [to_json] in H. inversion H; subst. rewrite json_abs_JObj. cbn [canon].
    assert (G : Forall2 absR (map (fun kv => (fst kv, JStr (snd kv))) fs)
                             (map (fun kv => (fst kv, AStr (snd kv))) fs)).
    { clear H. induction fs as [|kv fs IHfs]; cbn [map]; constructor;
        [split; reflexivity|exact IHfs]. }
    rewrite (json_abs_fields_R _ _ (map_first_R _ _ G)). reflexivity.
  - discriminate.
Qed.

(* What [canon] of a tuple is, stated without reference to the insertion
   procedure: strictly key-sorted, and each key bound to the value of its
   FIRST occurrence in the tuple. *)
Theorem canon_tuple_spec fs :
  exists m, canon (VTuple fs) = AMap m /\ ssorted m /\
            forall k, lookup k m = option_map canon (lookup k fs).
Proof.
  eexists. split; [reflexivity|]. split; [apply map_first_sorted|].
  intros k. rewrite map_first_lookup.
  induction fs as [|[k1 v1] fs IH]; cbn [map lookup fst snd]; [reflexivity|].
  destruct (bytes_eqb k k1); [reflexivity|exact IH].
Qed.

Theorem to_json_error_iff : forall v, to_json v = Err <-> unrepresentable_json v = true.
Proof.
  induction v as [|x|z|f|s|l IH|fs IH|fs|] using val_ind'.
  - cbn. split; discriminate.
  - cbn. split; discriminate.
  - cbn [to_json unrepresentable_json]. destruct (Z.abs z <=? two53)%Z; split; discriminate.
  - destruct f as [t| | |]; cbn [to_json unrepresentable_json];
      try (split; reflexivity).
    destruct (num_lit_ok t && has_dot_or_e t); split; discriminate.
  - cbn. split; discriminate.
  - rewrite to_json_VList, res_map_err. cbn [unrepresentable_json].
    induction IH as [|x l Hx _ IHl]; cbn [to_json_list existsb].
    + split; discriminate.
    + rewrite res_cons_err, orb_true_iff, Hx, IHl. reflexivity.
  - rewrite to_json_VTuple, res_map_err. cbn [unrepresentable_json].
    induction IH as [|[k x] l Hx _ IHl]; cbn [to_json_fields existsb snd].
    + split; discriminate.
    + rewrite res_cons_err, res_map_err, orb_true_iff. cbn [snd] in Hx.
      rewrite Hx, IHl. reflexivity.
  - cbn. split; discriminate.
  - cbn. split; reflexivity.
Qed.

Corollary json_out_decodes : forall v j,
  to_json v = Ok j ->
  json_parse (json_print j) = Some j /\ json_abs j = Some (canon v).
Proof.
  intros v j H. split.
  - apply json_text_roundtrip. eapply to_json_wf; eauto.
  - apply to_json_lossless; exact H.
Qed.

(* The same, phrased on the bytes the converter writes. *)
Corollary json_output_decodes : forall v t,
  json_output v = Ok t ->
  exists j, json_parse t = Some j /\ json_abs j = Some (canon v).
Proof.
  intros v t H. unfold json_output in H. apply res_map_ok in H as (j & Hj & ->).
  exists j. apply json_out_decodes; exact Hj.
Qed.

(* "to_json (VInt z) denotes z for every i64 z" is false of the real code (floats are not
   modelled).  Witness z = 9007199254740993 = 2^53 + 1: convert_value does `i as f64`, which
   rounds to 9007199254740992.0, and serde_json writes the text 9007199254740992.0.  From
   |z| >= 10^16 the text moreover switches to exponent form (Int(10000000000000000) -> 1e+16,
   i64::MAX -> 9.223372036854776e+18).  The model returns [Unsupported] for |z| > 2^53. *)
Example to_json_int_unsupported : to_json (VInt 9007199254740993) = Unsupported.
Proof. reflexivity. Qed.

Definition digit_step (a : N) (c : ascii) : N := (a * 10 + (code c - 48))%N.

Lemma fold_digit_step_ge ds : forall a, (a <= fold_left digit_step ds a)%N.
Proof.
  induction ds as [|c ds IH]; intros a; cbn [fold_left]; [lia|].
  specialize (IH (digit_step a c)). unfold digit_step in *. lia.
Qed.

(* serde_json's overflow-checked accumulation returns the digit value exactly
   when that value fits u64 *)
Lemma acc_u64_spec ds : forall a,
  (a <= u64_max)%N ->
  acc_u64 ds a = if (fold_left digit_step ds a <=? u64_max)%N
                 then Some (fold_left digit_step ds a) else None.
Proof.
  induction ds as [|c ds IH]; intros a Ha; cbn [acc_u64 fold_left].
  - apply N.leb_le in Ha. rewrite Ha. reflexivity.
  - fold (digit_step a c). destruct (N.ltb_spec u64_max (digit_step a c)) as [Hlt|Hle].
    + pose proof (fold_digit_step_ge ds (digit_step a c)).
      destruct (N.leb_spec (fold_left digit_step ds (digit_step a c)) u64_max); [lia|reflexivity].
    + apply IH. exact Hle.
Qed.

Lemma classify_num_spec lit : classify_num lit = spec_num lit.
Proof.
  unfold classify_num, spec_num, num_value.
  destruct (num_split lit) as [p|]; [|reflexivity].
  destruct (np_frac p) as [|f0 fr] eqn:Ef; [|reflexivity].
  destruct (np_exp p) as [|e0 er] eqn:Ee; [|reflexivity].
  rewrite app_nil_r.
  rewrite (acc_u64_spec (np_int p) 0%N) by (unfold u64_max; lia).
  change (fold_left digit_step (np_int p) 0%N) with (digits_val (np_int p)).
  set (D := digits_val (np_int p)).
  cbn [andb].
  unfold u64_max, i64_max, i64_min.
  change (2 ^ 63)%N with 9223372036854775808%N.
  change (2 ^ 64)%Z with 18446744073709551616%Z.
  destruct (np_neg p).
  - (* negative literal: the wrapped negation is negative exactly for 1 <= D <= 2^63 *)
    destruct (N.leb_spec D 18446744073709551615) as [Hle|Hgt].
    + destruct (N.ltb_spec D 9223372036854775808) as [Hs|Hs].
      * destruct (Z.eqb_spec (Z.of_N D) (-9223372036854775808)) as [Hm|Hm]; [lia|].
        destruct (Z.leb_spec 0 (- Z.of_N D)) as [H0|H0].
        -- assert (D = 0%N) by lia.
           destruct (Z.leb_spec (-9223372036854775808) (- Z.of_N D));
             destruct (Z.leb_spec (- Z.of_N D) 9223372036854775807);
             destruct (Z.eqb_spec (- Z.of_N D) 0); cbn; try reflexivity; lia.
        -- destruct (Z.leb_spec (-9223372036854775808) (- Z.of_N D));
             destruct (Z.leb_spec (- Z.of_N D) 9223372036854775807);
             destruct (Z.eqb_spec (- Z.of_N D) 0); cbn; try reflexivity; lia.
      * destruct (Z.eqb_spec (Z.of_N D - 18446744073709551616) (-9223372036854775808)) as [Hm|Hm].
        -- assert (HD : Z.of_N D = 9223372036854775808%Z) by lia.
           destruct (Z.leb_spec 0 (Z.of_N D - 18446744073709551616)); [lia|].
           rewrite Hm, HD. reflexivity.
        -- destruct (Z.leb_spec 0 (- (Z.of_N D - 18446744073709551616))); [|lia].
           destruct (Z.leb_spec (-9223372036854775808) (- Z.of_N D)); [lia|].
           reflexivity.
    + destruct (Z.leb_spec (-9223372036854775808) (- Z.of_N D)); [lia|]. reflexivity.
  - (* non-negative literal *)
    destruct (N.leb_spec D 18446744073709551615) as [Hle|Hgt].
    + destruct (Z.leb_spec (Z.of_N D) 9223372036854775807);
        destruct (Z.leb_spec (-9223372036854775808) (Z.of_N D)); cbn; try reflexivity; lia.
    + destruct (Z.leb_spec (Z.of_N D) 9223372036854775807); [lia|].
      rewrite andb_false_r. reflexivity.
Qed.

Theorem from_json_spec : forall j, from_json j = val_of_json_spec j.
Proof.
  induction j as [|v|lit|s|l IH|kvs IH] using json_ind'; cbn [from_json val_of_json_spec];
    try reflexivity.
  - apply classify_num_spec.
  - f_equal. apply map_ext_in. rewrite Forall_forall in IH. exact IH.
  - f_equal. rewrite map_last_spec. do 2 f_equal.
    apply map_ext_in. rewrite Forall_forall in IH. intros kv Hkv. rewrite (IH kv Hkv). reflexivity.
Qed.

(* the properties that pin down the object case of the specification *)
Theorem from_json_object_spec kvs :
  exists m, from_json (JObj kvs) = VTuple m /\ ssorted m /\
            forall k, lookup k m = option_map from_json (lookup_last k kvs).
Proof.
  eexists. split; [reflexivity|]. split; [apply map_last_sorted|].
  intros k. rewrite map_last_lookup.
  induction kvs as [|[k1 j1] kvs IH]; cbn [map lookup_last fst snd]; [reflexivity|].
  rewrite IH. destruct (lookup_last k kvs); cbn [option_map]; [reflexivity|].
  destruct (bytes_eqb k k1); reflexivity.
Qed.

(* characterisation of the number case in arithmetic terms *)
Theorem from_json_int_iff lit z :
  from_json (JNum lit) = VInt z <->
  exists p, num_split lit = Some p /\ np_frac p = [] /\ np_exp p = [] /\
            z = (if np_neg p then - Z.of_N (digits_val (np_int p)) else Z.of_N (digits_val (np_int p)))%Z /\
            (i64_min <= z <= i64_max)%Z /\ ~ (np_neg p = true /\ z = 0%Z).
Proof.
  cbn [from_json]. rewrite classify_num_spec. unfold spec_num, num_value.
  destruct (num_split lit) as [p|].
  2:{ split; [discriminate|]. intros (p & H & _). discriminate. }
  destruct (np_frac p) as [|f0 fr] eqn:Ef.
  2:{ cbn [andb]. split; [discriminate|]. intros (p' & H & H1 & _). inversion H; subst. congruence. }
  destruct (np_exp p) as [|e0 er] eqn:Ee.
  2:{ cbn [andb]. split; [discriminate|]. intros (p' & H & _ & H1 & _). inversion H; subst. congruence. }
  rewrite app_nil_r. cbn [andb].
  set (m := (if np_neg p then _ else _)%Z).
  destruct (Z.leb_spec i64_min m); destruct (Z.leb_spec m i64_max); cbn [andb];
    try (split; [discriminate|]; intros (p' & H' & _ & _ & Hz & Hr & _); inversion H'; subst p';
         fold m in Hz; lia).
  destruct (np_neg p) eqn:En; cbn [andb negb].
  - destruct (Z.eqb_spec m 0) as [Hm0|Hm0]; cbn [negb].
    + split; [discriminate|]. intros (p' & H' & _ & _ & Hz & _ & Hn). inversion H'; subst p'.
      exfalso. apply Hn. rewrite En in *. split; [reflexivity|]. rewrite Hz. exact Hm0.
    + split.
      * intros Hv. inversion Hv. exists p. rewrite En. repeat split; auto; try lia.
        all: try (intros [_ Hz0]; lia).
      * intros (p' & H' & _ & _ & Hz & _). inversion H'; subst p'. rewrite En in Hz.
        subst m. rewrite Hz. reflexivity.
  - split.
    + intros Hv. inversion Hv. exists p. rewrite En. repeat split; auto; try lia.
      all: try (intros [Hc _]; discriminate).
    + intros (p' & H' & _ & _ & Hz & _). inversion H'; subst p'. rewrite En in Hz.
      subst m. rewrite Hz. reflexivity.
Qed.
