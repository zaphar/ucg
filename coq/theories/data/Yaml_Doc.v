(* Proofs about the YAML model: whole documents.
   yaml_doc_roundtrip_partial: a tuple (mapping) whose field names are identifiers (at most 128 bytes, pairwise
   different) and whose values are null, booleans, integers or identifier strings -- the text is
   `name: value` lines, and the independent reader reads exactly the specified data back.
   yaml_doc_roundtrip_list_partial: the same for a list of such values, `- value` lines.
   Nested collections are NOT covered by a proof: they are covered by the examples of Yaml_Lemmas.v and by the
   correspondence run. *)
From Ucg Require Import base.Bytes base.Bytes_Lemmas data.Val data.Json data.Json_Lemmas data.MapJson data.MapJson_Lemmas data.Yaml
     data.Yaml_Err data.Yaml_Str data.Yaml_Analyze data.Yaml_Scalar data.Yaml_Plain.
From Ucg Require data.Toml.
Local Open Scope list_scope.

Definition simple_scalar (y : yval) : bool :=
  match y with
  | YNull | YBool _ | YInt _ => true
  | YStr s => ident s
  | _ => false
  end.

Definition stext (y : yval) : bytes :=
  match y with
  | YNull => b "null"
  | YBool v => ybool_text v
  | YInt z => dec_of_Z z
  | YStr s => s
  | _ => []
  end.

Definition sdoc (y : yval) : ydoc :=
  match y with
  | YNull => DNull
  | YBool v => DBool v
  | YInt z => DInt z
  | YStr s => DStr s
  | _ => DNull
  end.

Lemma simple_scalar_facts y : simple_scalar y = true ->
  plain_ok (stext y) /\ resolve_plain (stext y) = sdoc y
  /\ (forall m indent st, emit_node y m indent st
        = ((if e_ws st then [] else [sp]) ++ stext y,
           mk_est (e_col st + (if e_ws st then 0 else 1) + List.length (stext y)) false false)).
Proof.
  intros H.
  assert (Hok : plain_ok (stext y) /\ resolve_plain (stext y) = sdoc y
                /\ exists req, (req = SAny \/ req = SPlain)
                               /\ forall m indent st, emit_node y m indent st = emit_scalar req (stext y) false indent st).
  { destruct y as [|v|z|f|s|l|kvs]; try discriminate H; cbn [stext sdoc].
    - split; [apply tok_plain_ok; [reflexivity|left; reflexivity|reflexivity]|]. split; [reflexivity|].
      exists SPlain. split; [right|]; reflexivity.
    - split; [destruct v; apply tok_plain_ok; (reflexivity || (left; reflexivity))|]. split; [destruct v; reflexivity|].
      exists SPlain. split; [right|]; reflexivity.
    - split; [apply dec_of_Z_plain|]. split; [apply resolve_plain_int|].
      exists SPlain. split; [right|]; reflexivity.
    - destruct (ident_plain_string s H) as (Hq & Hr & Hp). split; [exact Hp|]. split; [exact Hr|].
      exists (str_style s). split; [left; exact (str_style_plain s (plain_ok_line s Hp) Hq)|reflexivity]. }
  destruct Hok as (Hp & Hr & req & Hreq & He). split; [exact Hp|]. split; [exact Hr|].
  intros m indent st. rewrite He. apply emit_scalar_plain; assumption.
Qed.

(* a line break and the indentation, once something has been written on the line *)
Lemma write_indent_break i st : e_ind st = false -> write_indent i st = (nl :: repeat sp i, mk_est i true true).
Proof. intros H. unfold write_indent. rewrite H. cbn [negb orb Nat.max app]. rewrite Nat.sub_0_r. reflexivity. Qed.

Section Block.
  Variables (A : Type) (emit : list A -> est -> bytes * est) (line : A -> bytes) (ok : A -> bool) (i : nat).
  Hypothesis emit_nil : forall st, emit [] st = ([], st).
  (* one item: the indentation, its line, and nothing open on the line *)
  Hypothesis emit_cons : forall x r st, ok x = true ->
    exists n, emit (x :: r) st
              = let (o, st') := emit r (mk_est n false false) in (fst (write_indent i st) ++ line x ++ o, st').

  Lemma emit_block_flat l : forall st,
    e_ind st = false -> forallb ok l = true ->
    exists st', emit l st = (flat_map (fun x => nl :: repeat sp i ++ line x) l, st') /\ e_ind st' = false.
  Proof.
    induction l as [|x r IH]; intros st Hind Hl.
    - exists st. split; [apply emit_nil|exact Hind].
    - cbn [forallb] in Hl. apply andb_true_iff in Hl as [Hx Hr].
      destruct (emit_cons x r st Hx) as [n E]. rewrite E, (write_indent_break i st Hind). cbn [fst].
      destruct (IH (mk_est n false false) eq_refl Hr) as (st' & E' & Hst'). rewrite E'.
      exists st'. split; [|exact Hst']. cbn [flat_map app]. rewrite <- !app_assoc. reflexivity.
  Qed.
End Block.

Lemma lines_join {A : Type} (f : A -> bytes) x r :
  f x ++ flat_map (fun y => nl :: f y) r ++ [nl] = flat_map (fun y => f y ++ [nl]) (x :: r).
Proof.
  revert x. induction r as [|x1 r IH]; intros x.
  - cbn [flat_map app]. rewrite app_nil_r. reflexivity.
  - change (flat_map (fun y => f y ++ [nl]) (x :: x1 :: r)) with ((f x ++ [nl]) ++ flat_map (fun y => f y ++ [nl]) (x1 :: r)).
    rewrite <- (IH x1). cbn [flat_map app]. rewrite <- !app_assoc. reflexivity.
Qed.

(* the block that is the whole document: no line break before the first line, one after the last *)
Lemma emit_block_doc {A : Type} (emit : list A -> est -> bytes * est) (line : A -> bytes) (ok : A -> bool) x r :
  (forall st, emit [] st = ([], st)) ->
  (forall x r st, ok x = true ->
     exists n, emit (x :: r) st
               = let (o, st') := emit r (mk_est n false false) in (fst (write_indent 0 st) ++ line x ++ o, st')) ->
  forallb ok (x :: r) = true ->
  (let (o, st) := emit (x :: r) est0 in let (o2, _) := write_indent 0 st in YOk (o ++ o2))
  = YOk (flat_map (fun y => line y ++ [nl]) (x :: r)).
Proof.
  intros Hnil Hcons Hall. cbn [forallb] in Hall. apply andb_true_iff in Hall as [Hx Hr].
  destruct (Hcons x r est0 Hx) as [n E]. rewrite E.
  destruct (emit_block_flat A emit line ok 0 Hnil Hcons r (mk_est n false false) eq_refl Hr) as (st' & E' & Hst'). rewrite E'.
  rewrite (write_indent_break 0 st' Hst'). change (fst (write_indent 0 est0)) with (@nil ascii).
  cbn [app repeat]. rewrite <- app_assoc, lines_join. reflexivity.
Qed.

Lemma flat_map_map {A B C : Type} (g : A -> B) (f : B -> list C) l : flat_map f (map g l) = flat_map (fun x => f (g x)) l.
Proof. induction l as [|x r IH]; [reflexivity|]. cbn [map flat_map]. rewrite IH. reflexivity. Qed.

(* the entries of a block mapping, as a function of its own *)
Section Entries.
  Variable i : nat.
  Fixpoint emit_entries (l : list (bytes * yval)) (st : est) : bytes * est :=
    match l with
    | [] => ([], st)
    | (k, x) :: r =>
      let (o1, st1) := write_indent i st in
      if simple_key_ok k then
        let (o2, st2) := emit_scalar (str_style k) k true (Some i) st1 in
        let (o3, st3) := write_indicator (b ":") false false false st2 in
        let (o4, st4) := emit_node x true (Some i) st3 in
        let (o5, st5) := emit_entries r st4 in
        (o1 ++ o2 ++ o3 ++ o4 ++ o5, st5)
      else
        let (o2, st2) := write_indicator (b "?") true false true st1 in
        let (o3, st3) := emit_scalar (str_style k) k false (Some i) st2 in
        let (o4, st4) := write_indent i st3 in
        let (o5, st5) := write_indicator (b ":") true false true st4 in
        let (o6, st6) := emit_node x true (Some i) st5 in
        let (o7, st7) := emit_entries r st6 in
        (o1 ++ o2 ++ o3 ++ o4 ++ o5 ++ o6 ++ o7, st7)
    end.
End Entries.

Lemma emit_node_map kv r m indent st :
  emit_node (YMap (kv :: r)) m indent st
  = emit_entries (match indent with None => 0 | Some n => n + 2 end) (kv :: r) st.
Proof. reflexivity. Qed.

(* a field: an identifier of at most 128 bytes and a simple scalar *)
Definition simple_field (kv : bytes * yval) : bool :=
  ident (fst kv) && (List.length (fst kv) <=? 128)%nat && simple_scalar (snd kv).

Definition field_line (kv : bytes * yval) : bytes := fst kv ++ ":"%char :: sp :: stext (snd kv).

Lemma simple_field_parts kv : simple_field kv = true ->
  needs_quote (fst kv) = false /\ resolve_plain (fst kv) = DStr (fst kv) /\ plain_ok (fst kv)
  /\ (List.length (fst kv) <=? 128)%nat = true /\ simple_scalar (snd kv) = true.
Proof.
  unfold simple_field. intros H. apply andb_true_iff in H as [H Hx]. apply andb_true_iff in H as [Hk Hlen].
  destruct (ident_plain_string _ Hk) as (Hq & Hr & Hp). repeat split; try assumption; apply Hp.
Qed.

Lemma emit_entry_simple i kv r st : simple_field kv = true ->
  exists n, emit_entries i (kv :: r) st
            = let (o, st') := emit_entries i r (mk_est n false false) in (fst (write_indent i st) ++ field_line kv ++ o, st').
Proof.
  intros H. destruct (simple_field_parts kv H) as (Hq & _ & Hp & Hlen & Hx). destruct kv as [k x]. cbn [fst snd] in *.
  destruct (simple_scalar_facts x Hx) as (_ & _ & Hemit).
  cbn [emit_entries]. unfold write_indent. cbn [fst].
  rewrite (plain_ok_simple_key k Hp Hlen).
  rewrite (emit_scalar_plain _ k true (Some i) _ Hp (or_introl (str_style_plain k (plain_ok_line k Hp) Hq))).
  unfold write_indicator. cbn [e_ws e_col e_ind andb negb app List.length]. rewrite Hemit. cbn [e_ws e_col].
  match goal with |- context [emit_entries i r (mk_est ?n false false)] => exists n end.
  destruct (emit_entries i r _) as [o st']. unfold field_line. cbn [fst snd b list_ascii_of_string].
  rewrite <- !app_assoc. reflexivity.
Qed.

Definition field_doc (kv : bytes * yval) : ydoc * ydoc := (DStr (fst kv), sdoc (snd kv)).

Record field_ok (kv : bytes * yval) : Prop := mk_field_ok {
  fo_line : line_ok (field_line kv);
  fo_doc : doc_marker (b "---") (field_line kv) = false;
  fo_q : entry_of "?"%char (field_line kv) = None;
  fo_seq : is_seq_entry (field_line kv) = false;
  fo_key : scan_key (field_line kv) = Some (DStr (fst kv), sp :: stext (snd kv));
  fo_vblank : blank_text (sp :: stext (snd kv)) = false;
  fo_val : forall pind rest, scalar_node pind (skip_wsp (sp :: stext (snd kv))) rest = Some (sdoc (snd kv), rest)
}.

Lemma simple_field_ok kv : simple_field kv = true -> field_ok kv.
Proof.
  intros H. destruct (simple_field_parts kv H) as (_ & Hr & Hp & _ & Hx).
  destruct (simple_scalar_facts _ Hx) as (Hxp & Hxr & _).
  pose proof (plain_ok_line _ Hp) as Hk. pose proof (plain_ok_line _ Hxp) as Hv.
  pose proof (pl_first _ Hk (":"%char :: sp :: stext (snd kv))) as Hf.
  destruct (plain_first_line _ (pl_first _ Hv [])) as (Hvb & _ & Hvs & _). rewrite app_nil_r in Hvb, Hvs.
  destruct (plain_line_ok (fst kv) (":"%char :: sp :: stext (snd kv)) Hk) as [Hl Hd];
    [exact (pl_breaks _ Hv)|reflexivity|].
  constructor; unfold field_line.
  - exact Hl.
  - exact Hd.
  - exact (plain_first_entry "?"%char _ Hf eq_refl).
  - exact (proj2 (proj2 (proj2 (plain_first_line _ Hf)))).
  - rewrite (plain_scan_key _ (sp :: stext (snd kv)) Hk eq_refl), Hr. reflexivity.
  - exact Hvb.
  - intros pind rest. change (skip_wsp (sp :: stext (snd kv))) with (skip_wsp (stext (snd kv))).
    rewrite Hvs, (plain_scalar_node _ pind rest Hv), Hxr. reflexivity.
Qed.

Lemma key_in_fields k l :
  ~ In k (map fst l) -> key_in (DStr k) (map field_doc l) = false.
Proof.
  induction l as [|[k' x] r IH]; intros H; [reflexivity|].
  cbn [map fst In] in H. unfold key_in. cbn [map existsb field_doc fst doc_eqb].
  destruct (bytes_eqb k k') eqn:E.
  - apply bytes_eqb_spec in E. subst k'. exfalso. apply H. left. reflexivity.
  - cbn [orb]. apply IH. intros Hin. apply H. right. exact Hin.
Qed.

Lemma map_entries_flat inl blk l : forall n,
  (List.length l < n)%nat -> NoDup (map fst l) -> Forall field_ok l ->
  map_entries inl blk n 0 (map (fun kv => (O, field_line kv)) l) = Some (map field_doc l, []).
Proof.
  induction l as [|kv r IH]; intros n Hn Hnd Hok.
  - destruct n; [lia|]. reflexivity.
  - destruct n as [|n']; [cbn in Hn; lia|].
    inversion Hok as [|? ? Hkv Hr]; subst. inversion Hnd as [|? ? Hnin Hnd']; subst.
    cbn [map map_entries skip_blank]. rewrite (lo_blank _ (fo_line kv Hkv)).
    replace (0 <? 0)%nat with false by reflexivity. replace (0 =? 0)%nat with true by reflexivity. cbn [negb].
    rewrite (fo_q kv Hkv), (fo_key kv Hkv), (fo_vblank kv Hkv), (fo_val kv Hkv).
    rewrite (IH n' ltac:(cbn in Hn; lia) Hnd' Hr).
    rewrite (key_in_fields _ _ Hnin). reflexivity.
Qed.

Theorem yaml_flat_map_roundtrip : forall kvs,
  kvs <> [] -> NoDup (map fst kvs) -> forallb simple_field kvs = true ->
  yaml_emit (YMap kvs) = YOk (flat_map (fun kv => field_line kv ++ [nl]) kvs)
  /\ yaml_parse (flat_map (fun kv => field_line kv ++ [nl]) kvs) = Some (DMap (map field_doc kvs)).
Proof.
  intros kvs Hne Hnd Hall.
  assert (Hok : Forall field_ok kvs).
  { apply Forall_forall. intros kv Hin. apply simple_field_ok. rewrite forallb_forall in Hall. apply Hall. exact Hin. }
  destruct kvs as [|kv r]; [congruence|]. split.
  - (* the writer *)
    unfold yaml_emit. rewrite emit_node_map.
    exact (emit_block_doc (emit_entries 0) field_line simple_field kv r (fun _ => eq_refl) (emit_entry_simple 0) Hall).
  - (* the reader *)
    rewrite <- (flat_map_map field_line (fun l => l ++ [nl])). cbn [map].
    inversion Hok as [|? ? Hkv Hr]; subst.
    rewrite yaml_parse_lines;
      [|change (Forall line_ok (map field_line (kv :: r))); apply Forall_map; revert Hok; apply Forall_impl; intros a Ha; exact (fo_line a Ha)
       |exact (fo_doc kv Hkv)].
    cbn [inline_node]. rewrite (fo_seq kv Hkv), (fo_q kv Hkv), (fo_key kv Hkv), map_map.
    change ((O, field_line kv) :: map (fun x => (O, field_line x)) r) with (map (fun x => (O, field_line x)) (kv :: r)).
    rewrite (map_entries_flat _ _ (kv :: r)); [reflexivity|cbn [List.length]; rewrite map_length; lia|exact Hnd|exact Hok].
Qed.

Definition simple_val (v : val) : bool :=
  match v with
  | VEmpty | VBool _ | VInt _ => true
  | VStr s => ident s
  | _ => false
  end.

Definition yv (v : val) : yval :=
  match v with
  | VEmpty => YNull
  | VBool x => YBool x
  | VInt z => YInt z
  | VStr s => YStr s
  | _ => YNull
  end.

Lemma simple_val_yv x : simple_val x = true ->
  to_yaml x = YOk (yv x) /\ spec_data x = Some (sdoc (yv x)) /\ simple_scalar (yv x) = true.
Proof. destruct x; intros H; try discriminate H; repeat split; exact H. Qed.

Lemma ymap_insert_notin {V : Type} k (v : V) m :
  ~ In k (map fst m) -> ymap_insert k v m = m ++ [(k, v)].
Proof.
  induction m as [|[k' v'] r IH]; intros H; [reflexivity|].
  cbn [map fst In] in H. cbn [ymap_insert app].
  destruct (bytes_eqb k k') eqn:E.
  - apply bytes_eqb_spec in E. subst k'. exfalso. apply H. left. reflexivity.
  - rewrite IH; [reflexivity|]. intros Hin. apply H. right. exact Hin.
Qed.

Lemma ymap_of_nodup {V : Type} (l : list (bytes * V)) : NoDup (map fst l) -> ymap_of l = l.
Proof.
  unfold ymap_of.
  assert (G : forall acc, NoDup (map fst (acc ++ l)) ->
              fold_left (fun m kv => ymap_insert (fst kv) (snd kv) m) l acc = acc ++ l).
  { induction l as [|[k v] r IH]; intros acc H; [rewrite app_nil_r; reflexivity|].
    cbn [fold_left fst snd]. rewrite ymap_insert_notin.
    - rewrite IH; rewrite <- app_assoc; [reflexivity|exact H].
    - rewrite map_app in H. cbn [map fst] in H. apply NoDup_remove_2 in H.
      intros Hin. apply H. apply in_or_app. left. exact Hin. }
  intros H. apply (G []). exact H.
Qed.

Definition simple_vfield (kv : bytes * val) : bool :=
  ident (fst kv) && (List.length (fst kv) <=? 128)%nat && simple_val (snd kv).

(* DOCUMENTS (partial): a tuple of scalars.  Field names: identifiers of at most 128 bytes, pairwise different;
   values: NULL, booleans, integers, identifier strings. *)
Theorem yaml_doc_roundtrip_partial : forall fs,
  fs <> [] -> NoDup (map fst fs) -> forallb simple_vfield fs = true ->
  exists out d, yaml_output (VTuple fs) = YOk out /\ yaml_parse out = Some d /\ spec_data (VTuple fs) = Some d.
Proof.
  intros fs Hne Hnd Hall.
  set (kvs := map (fun kv => (fst kv, yv (snd kv))) fs).
  (* field by field: the mapping theorem applies, the converter, the specification *)
  assert (G : forallb simple_field kvs = true /\ to_yaml_fields fs = YOk kvs
              /\ spec_fields fs = Some (map (fun kv => (fst kv, sdoc (snd kv))) kvs)).
  { unfold kvs. clear - Hall. induction fs as [|[k x] r IH]; [repeat split|].
    cbn [forallb] in Hall. apply andb_true_iff in Hall as [Hf Hr]. destruct (IH Hr) as (I1 & I2 & I3).
    unfold simple_vfield in Hf. cbn [fst snd] in Hf. apply andb_true_iff in Hf as [Hk Hx].
    destruct (simple_val_yv x Hx) as (Ex & Sx & Yx).
    cbn [map forallb fst snd to_yaml_fields spec_fields]. rewrite Ex, Sx, I1, I2, I3.
    unfold simple_field. cbn [fst snd]. rewrite Hk, Yx. repeat split. }
  destruct G as (Hsf & Hto & Hsp).
  assert (Hkeys : NoDup (map fst kvs)) by (unfold kvs; rewrite map_map; exact Hnd).
  assert (Hkn : kvs <> []) by (unfold kvs; destruct fs; [congruence|discriminate]).
  destruct (yaml_flat_map_roundtrip kvs Hkn Hkeys Hsf) as [He Hp].
  exists (flat_map (fun kv => field_line kv ++ [nl]) kvs), (DMap (map field_doc kvs)).
  split; [|split; [exact Hp|]].
  - unfold yaml_output. rewrite to_yaml_VTuple, Hto, (ymap_of_nodup kvs Hkeys). exact He.
  - rewrite spec_data_VTuple, Hsp. cbn [option_map]. rewrite ymap_of_nodup by (rewrite map_map; exact Hkeys).
    rewrite map_map. reflexivity.
Qed.

Section Items.
  Variable i : nat.
  Fixpoint emit_items (l : list yval) (st : est) : bytes * est :=
    match l with
    | [] => ([], st)
    | x :: r =>
      let (o1, st1) := write_indent i st in
      let (o2, st2) := write_indicator (b "-") true false true st1 in
      let (o3, st3) := emit_node x false (Some i) st2 in
      let (o4, st4) := emit_items r st3 in
      (o1 ++ o2 ++ o3 ++ o4, st4)
    end.
End Items.

Lemma emit_node_seq x r m indent st :
  emit_node (YSeq (x :: r)) m indent st
  = emit_items (match indent with
                | None => 0
                | Some n => if m && negb (e_ind st) then n else n + 2
                end) (x :: r) st.
Proof. reflexivity. Qed.

Definition seq_item_line (x : yval) : bytes := "-"%char :: sp :: stext x.

Lemma emit_item_simple i x r st : simple_scalar x = true ->
  exists n, emit_items i (x :: r) st
            = let (o, st') := emit_items i r (mk_est n false false) in (fst (write_indent i st) ++ seq_item_line x ++ o, st').
Proof.
  intros Hx. destruct (simple_scalar_facts x Hx) as (_ & _ & Hemit).
  cbn [emit_items]. unfold write_indent. cbn [fst]. unfold write_indicator. cbn [e_ws e_col e_ind andb negb app List.length].
  rewrite Hemit. cbn [e_ws e_col].
  match goal with |- context [emit_items i r (mk_est ?n false false)] => exists n end.
  destruct (emit_items i r _) as [o st']. unfold seq_item_line. cbn [app b list_ascii_of_string].
  rewrite <- !app_assoc. reflexivity.
Qed.

Record seq_item_ok (x : yval) : Prop := mk_seq_item_ok {
  io_line : line_ok (seq_item_line x);
  io_entry : entry_of "-"%char (seq_item_line x) = Some (2, stext x);
  io_vblank : blank_text (stext x) = false;
  io_val : forall f pind col rest, inline_node (S f) pind col (stext x) rest = Some (sdoc x, rest)
}.

Lemma simple_item_ok x : simple_scalar x = true -> seq_item_ok x.
Proof.
  intros Hx. destruct (simple_scalar_facts x Hx) as (Hp & Hr & _). pose proof (plain_ok_line _ Hp) as Hl.
  destruct (plain_first_line _ (pl_first _ Hl [])) as (Hb & Hm & _). rewrite app_nil_r in Hb, Hm.
  constructor; unfold seq_item_line.
  - constructor; try reflexivity. exact (pl_breaks _ Hl).
  - cbn [entry_of]. replace (ceq "-"%char "-"%char) with true by reflexivity.
    replace (is_wsp sp) with true by reflexivity. cbn [count_sp]. replace (ceq sp sp) with true by reflexivity.
    change (count_sp (stext x)) with (measure (stext x)). rewrite Hm. reflexivity.
  - exact Hb.
  - intros f pind col rest. rewrite (plain_inline_node _ f pind col rest Hl), Hr. reflexivity.
Qed.

Lemma seq_items_flat f blk l : forall n,
  (List.length l < n)%nat -> Forall seq_item_ok l ->
  seq_items (inline_node (S f)) blk n 0 (map (fun x => (O, seq_item_line x)) l) = Some (map sdoc l, []).
Proof.
  induction l as [|x r IH]; intros n Hn Hok.
  - destruct n; [lia|]. reflexivity.
  - destruct n as [|n']; [cbn in Hn; lia|].
    inversion Hok as [|? ? Hx Hr]; subst.
    cbn [map seq_items skip_blank]. rewrite (lo_blank _ (io_line x Hx)).
    replace (0 <? 0)%nat with false by reflexivity. replace (0 =? 0)%nat with true by reflexivity. cbn [negb].
    rewrite (io_entry x Hx). unfold after_indicator. rewrite (io_vblank x Hx), (io_val x Hx).
    rewrite (IH n' ltac:(cbn in Hn; lia) Hr). reflexivity.
Qed.

Lemma inline_node_seq_entry f pind col t rest :
  is_seq_entry t = true ->
  inline_node (S f) pind col t rest
  = match seq_items (inline_node f) (block_of (inline_node f)) (S (S (List.length rest))) col ((col, t) :: rest) with
    | Some (xs, rest') => Some (DSeq xs, rest')
    | None => None
    end.
Proof. intros H. cbn [inline_node]. rewrite H. reflexivity. Qed.

Theorem yaml_flat_seq_roundtrip : forall l,
  l <> [] -> forallb simple_scalar l = true ->
  yaml_emit (YSeq l) = YOk (flat_map (fun x => seq_item_line x ++ [nl]) l)
  /\ yaml_parse (flat_map (fun x => seq_item_line x ++ [nl]) l) = Some (DSeq (map sdoc l)).
Proof.
  intros l Hne Hall.
  assert (Hok : Forall seq_item_ok l).
  { apply Forall_forall. intros x Hin. apply simple_item_ok. rewrite forallb_forall in Hall. apply Hall. exact Hin. }
  destruct l as [|x r]; [congruence|]. split.
  - unfold yaml_emit. rewrite emit_node_seq.
    exact (emit_block_doc (emit_items 0) seq_item_line simple_scalar x r (fun _ => eq_refl) (emit_item_simple 0) Hall).
  - rewrite <- (flat_map_map seq_item_line (fun l => l ++ [nl])). cbn [map].
    inversion Hok as [|? ? Hx Hr]; subst.
    rewrite yaml_parse_lines;
      [|change (Forall line_ok (map seq_item_line (x :: r))); apply Forall_map; revert Hok; apply Forall_impl; intros a Ha; exact (io_line a Ha)
       |reflexivity].
    assert (Hse : is_seq_entry (seq_item_line x) = true) by (unfold is_seq_entry; rewrite (io_entry x Hx); reflexivity).
    (* the items are read with one unit of fuel less, which is still positive *)
    assert (Hlen : exists f, List.length (flat_map (fun l => l ++ [nl]) (seq_item_line x :: map seq_item_line r)) = S f)
      by (cbn [flat_map seq_item_line app List.length]; eexists; reflexivity).
    destruct Hlen as [f ->]. rewrite (inline_node_seq_entry (S f) _ _ _ _ Hse), map_map.
    change ((O, seq_item_line x) :: map (fun y => (O, seq_item_line y)) r) with (map (fun y => (O, seq_item_line y)) (x :: r)).
    rewrite (seq_items_flat _ _ (x :: r)); [reflexivity|cbn [List.length]; rewrite map_length; lia|exact Hok].
Qed.

(* DOCUMENTS (partial, second shape): a list of scalars *)
Theorem yaml_doc_roundtrip_list_partial : forall l,
  l <> [] -> forallb simple_val l = true ->
  exists out d, yaml_output (VList l) = YOk out /\ yaml_parse out = Some d /\ spec_data (VList l) = Some d.
Proof.
  intros l Hne Hall.
  assert (G : forallb simple_scalar (map yv l) = true /\ to_yaml_items l = YOk (map yv l)
              /\ spec_items l = Some (map sdoc (map yv l))).
  { clear - Hall. induction l as [|x r IH]; [repeat split|].
    cbn [forallb] in Hall. apply andb_true_iff in Hall as [Hx Hr]. destruct (IH Hr) as (I1 & I2 & I3).
    destruct (simple_val_yv x Hx) as (Ex & Sx & Yx).
    cbn [map forallb to_yaml_items spec_items]. rewrite Ex, Sx, Yx, I1, I2, I3. repeat split. }
  destruct G as (Hss & Hto & Hsp).
  assert (Hyn : map yv l <> []) by (destruct l; [congruence|discriminate]).
  destruct (yaml_flat_seq_roundtrip (map yv l) Hyn Hss) as [He Hp].
  exists (flat_map (fun x => seq_item_line x ++ [nl]) (map yv l)), (DSeq (map sdoc (map yv l))).
  split; [|split; [exact Hp|]].
  - unfold yaml_output. rewrite to_yaml_VList, Hto. exact He.
  - rewrite spec_data_VList, Hsp. reflexivity.
Qed.
