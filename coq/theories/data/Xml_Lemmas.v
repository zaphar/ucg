(* C12.  The converter and the writer of Xml.v are compared with the specification side through
   the lookups [field_last], [field_last_nn] of the specification; the reader is run on the plain
   serialisation [plain_node] of the tree that is really written. *)
From Ucg Require Import base.Bytes base.Bytes_Lemmas data.Val data.Val_Lemmas data.Xml.

Arguments b : simpl never.

Lemma bytes_eqb_sym x y : bytes_eqb x y = bytes_eqb y x.
Proof. exact (Bytes_Lemmas.bytes_eqb_sym x y). Qed.

Lemma forallb_false_ex {A} (f : A -> bool) l : forallb f l = false -> exists x, In x l /\ f x = false.
Proof.
  induction l as [|a l IH]; cbn; [discriminate|].
  destruct (f a) eqn:E; cbn; [|eauto].
  intros H. destruct (IH H) as (x & Hx & Hf). eauto.
Qed.

Lemma ex_forallb_false {A} (f : A -> bool) l x : In x l -> f x = false -> forallb f l = false.
Proof.
  intros Hin Hf. destruct (forallb f l) eqn:E; auto.
  rewrite forallb_forall in E. rewrite (E _ Hin) in Hf. discriminate.
Qed.

Definition is_ok {A} (r : xres A) : bool := match r with XOk _ => true | XErr _ => false end.

Lemma is_ok_xbind {A B} (r : xres A) (f : A -> xres B) :
  is_ok (xbind r f) = match r with XOk a => is_ok (f a) | XErr _ => false end.
Proof. destruct r; reflexivity. Qed.

Lemma err_iff {A} (r : xres A) : (exists e, r = XErr e) <-> is_ok r = false.
Proof.
  destruct r as [a|e]; cbn; split; [intros [e H]; discriminate|discriminate|reflexivity|intros _; exists e; reflexivity].
Qed.

Lemma xbind_ok {A B} (r : xres A) (f : A -> xres B) y :
  xbind r f = XOk y -> exists a, r = XOk a /\ f a = XOk y.
Proof. destruct r; cbn; [eauto|discriminate]. Qed.

Definition is_str (v : val) : bool := match v with VStr _ => true | _ => false end.

Lemma get_str_ok v s : get_str v = XOk s -> v = VStr s.
Proof. destruct v; cbn; try discriminate. intros H; inversion H; reflexivity. Qed.
Lemma get_str_err v e : get_str v = XErr e -> is_str v = false.
Proof. destruct v; cbn; auto; discriminate. Qed.
Lemma is_str_false_err v : is_str v = false -> get_str v = XErr ENotString.
Proof. destruct v; cbn; auto; discriminate. Qed.

Lemma get_xml_chars_ok s s' : get_xml_chars s = XOk s' -> s' = s /\ xml_chars_ok s = true.
Proof. unfold get_xml_chars. destruct (xml_chars_ok s); [|discriminate]. intros H; inversion H; auto. Qed.
Lemma is_ok_get_xml_chars s : is_ok (get_xml_chars s) = xml_chars_ok s.
Proof. unfold get_xml_chars. destruct (xml_chars_ok s); reflexivity. Qed.

Lemma is_empty_false v : is_empty v = false <-> v <> VEmpty.
Proof. destruct v; cbn; split; congruence. Qed.

Lemma field_last_snoc k fs k' v :
  field_last k (fs ++ [(k', v)]) = if bytes_eqb k' k then Some v else field_last k fs.
Proof.
  induction fs as [|[k0 v0] fs IH]; cbn.
  - reflexivity.
  - rewrite IH. destruct (bytes_eqb k' k); reflexivity.
Qed.

Lemma field_last_nn_snoc k fs k' v :
  field_last_nn k (fs ++ [(k', v)]) =
  if bytes_eqb k' k && negb (is_empty v) then Some v else field_last_nn k fs.
Proof.
  induction fs as [|[k0 v0] fs IH]; cbn.
  - reflexivity.
  - rewrite IH. destruct (bytes_eqb k' k && negb (is_empty v)); reflexivity.
Qed.

Lemma ns_spec_snoc fs k v :
  ns_spec (fs ++ [(k, v)]) =
  match (if bytes_eqb k (b "ns") then ns_of_val v else None) with Some d => Some d | None => ns_spec fs end.
Proof.
  induction fs as [|[k0 v0] fs IH]; cbn.
  - destruct (if bytes_eqb k (b "ns") then ns_of_val v else None); reflexivity.
  - rewrite IH. destruct (if bytes_eqb k (b "ns") then ns_of_val v else None); reflexivity.
Qed.

Lemma field_last_in k fs v : field_last k fs = Some v -> In (k, v) fs.
Proof.
  induction fs as [|[k0 v0] fs IH]; cbn; [discriminate|].
  destruct (field_last k fs) eqn:E.
  - intros H; inversion H; subst. right; auto.
  - destruct (bytes_eqb k0 k) eqn:K; [|discriminate].
    apply bytes_eqb_spec in K; subst. intros H; inversion H; left; reflexivity.
Qed.

Lemma field_last_nn_in k fs v : field_last_nn k fs = Some v -> In (k, v) fs /\ v <> VEmpty.
Proof.
  induction fs as [|[k0 v0] fs IH]; cbn; [discriminate|].
  destruct (field_last_nn k fs) eqn:E.
  - intros H; inversion H; subst. destruct (IH eq_refl). split; auto.
  - destruct (bytes_eqb k0 k) eqn:K; cbn; [|discriminate].
    destruct (is_empty v0) eqn:Em; cbn; [discriminate|].
    apply bytes_eqb_spec in K; subst. intros H; inversion H; subst. split; [left; reflexivity|].
    apply is_empty_false, Em.
Qed.

Lemma in_field_last k fs v : In (k, v) fs -> exists w, field_last k fs = Some w.
Proof.
  induction fs as [|[k0 v0] fs IH]; cbn; [tauto|].
  intros [H|H].
  - inversion H; subst. destruct (field_last k fs); eauto. rewrite bytes_eqb_refl; eauto.
  - destruct (IH H) as [w ->]; eauto.
Qed.

Lemma in_field_last_nn k fs v : In (k, v) fs -> v <> VEmpty -> exists w, field_last_nn k fs = Some w.
Proof.
  induction fs as [|[k0 v0] fs IH]; cbn; [tauto|].
  intros [H|H] Hv.
  - inversion H; subst. destruct (field_last_nn k fs); eauto. rewrite bytes_eqb_refl.
    apply is_empty_false in Hv. rewrite Hv. cbn. eauto.
  - destruct (IH H Hv) as [w ->]; eauto.
Qed.

Lemma field_last_none k fs v : field_last k fs = None -> ~ In (k, v) fs.
Proof. intros E H. destruct (in_field_last _ _ _ H) as [w E']. congruence. Qed.

(* a loop over the fields of a tuple that stops at the first error: [scan] and [dscan] *)
Section XFold.
  Context {S : Type} (step : S -> bytes -> val -> xres S).

  Fixpoint xfold (fs : list (bytes * val)) (st : S) : xres S :=
    match fs with
    | [] => XOk st
    | (k, v) :: fs' => xbind (step st k v) (xfold fs')
    end.

  Lemma xfold_snoc fs k v st :
    xfold (fs ++ [(k, v)]) st = xbind (xfold fs st) (fun st1 => step st1 k v).
  Proof.
    revert st; induction fs as [|[k0 v0] fs IH]; intros st; cbn.
    - destruct (step st k v); reflexivity.
    - destruct (step st k0 v0); cbn; auto.
  Qed.

  Lemma xfold_ok (okb : bytes -> val -> bool) :
    (forall st k v, is_ok (step st k v) = okb k v) ->
    forall fs st, is_ok (xfold fs st) = forallb (fun kv => okb (fst kv) (snd kv)) fs.
  Proof.
    intros Hstep. induction fs as [|[k v] fs IH]; intros st; cbn; [reflexivity|].
    rewrite is_ok_xbind, <- (Hstep st). destruct (step st k v); cbn; auto.
  Qed.

  (* [I fs st]: [st] is the state after the fields [fs] *)
  Lemma xfold_inv (I : list (bytes * val) -> S -> Prop) st0 :
    I [] st0 ->
    (forall fs st k v st', I fs st -> step st k v = XOk st' -> I (fs ++ [(k, v)]) st') ->
    forall fs st, xfold fs st0 = XOk st -> I fs st.
  Proof.
    intros H0 Hstep. induction fs as [|[k v] fs IH] using rev_ind; intros st H.
    - inversion H; subst; exact H0.
    - rewrite xfold_snoc in H. apply xbind_ok in H. destruct H as (st1 & H1 & H2). eauto.
  Qed.
End XFold.

Lemma scan_xfold rec fs : forall st, scan rec fs st = xfold (step_field rec) fs st.
Proof. induction fs as [|[k v] fs IH]; intros st; cbn; [reflexivity|]. destruct (step_field rec st k v); cbn; auto. Qed.

Lemma dscan_xfold fs : forall st, dscan fs st = xfold dstep fs st.
Proof. induction fs as [|[k v] fs IH]; intros st; cbn; [reflexivity|]. destruct (dstep st k v); cbn; auto. Qed.

(* an `ns` tuple is bad when a non-NULL uri/prefix field is not a string *)
Definition ns_field_bad (kv : bytes * val) : bool :=
  negb (is_empty (snd kv)) && (bytes_eqb (fst kv) (b "uri") || bytes_eqb (fst kv) (b "prefix")) &&
  negb (is_str (snd kv)).

Lemma ns_scan_ok nfs : forall p0 u0, is_ok (ns_scan nfs p0 u0) = negb (existsb ns_field_bad nfs).
Proof.
  induction nfs as [|[k v] nfs IH]; intros p0 u0; cbn [ns_scan existsb]; [reflexivity|].
  unfold ns_field_bad at 1; cbn [fst snd].
  destruct (is_empty v); [apply IH|].
  destruct (bytes_eqb k (b "uri")); [destruct v; cbn; auto|].
  destruct (bytes_eqb k (b "prefix")); [destruct v; cbn; auto|apply IH].
Qed.

Lemma ns_scan_err_kind nfs : forall p0 u0 e, ns_scan nfs p0 u0 = XErr e -> e = ENotString.
Proof.
  induction nfs as [|[k v] nfs IH]; intros p0 u0 e; cbn; [discriminate|].
  destruct (is_empty v); [apply IH|].
  destruct (bytes_eqb k (b "uri")).
  { destruct v; cbn; try (intros H; inversion H; reflexivity). apply IH. }
  destruct (bytes_eqb k (b "prefix")).
  { destruct v; cbn; try (intros H; inversion H; reflexivity). apply IH. }
  apply IH.
Qed.

Lemma ns_scan_spec nfs : forall p0 u0 pu,
  ns_scan nfs p0 u0 = XOk pu ->
  pu = (match field_last_nn (b "prefix") nfs with Some w => str_or_empty (Some w) | None => p0 end,
        match field_last_nn (b "uri") nfs with Some w => str_or_empty (Some w) | None => u0 end).
Proof.
  induction nfs as [|[k v] nfs IH]; intros p0 u0 pu; cbn [ns_scan field_last_nn].
  - intros H; inversion H; reflexivity.
  - destruct (is_empty v); [rewrite !andb_false_r|rewrite !andb_true_r; destruct (bytes_eqb k (b "uri")) eqn:Ku].
    + intros H. rewrite (IH _ _ _ H). destruct (field_last_nn (b "prefix") nfs), (field_last_nn (b "uri") nfs); reflexivity.
    + (* a field cannot be called both uri and prefix *)
      apply bytes_eqb_spec in Ku; subst k. change (bytes_eqb (b "uri") (b "prefix")) with false.
      intros H. apply xbind_ok in H. destruct H as (s & Hs & H). apply get_str_ok in Hs; subst v.
      rewrite (IH _ _ _ H). destruct (field_last_nn (b "prefix") nfs), (field_last_nn (b "uri") nfs); reflexivity.
    + destruct (bytes_eqb k (b "prefix")).
      * intros H. apply xbind_ok in H. destruct H as (s & Hs & H). apply get_str_ok in Hs; subst v.
        rewrite (IH _ _ _ H). destruct (field_last_nn (b "prefix") nfs), (field_last_nn (b "uri") nfs); reflexivity.
      * intros H. rewrite (IH _ _ _ H). destruct (field_last_nn (b "prefix") nfs), (field_last_nn (b "uri") nfs); reflexivity.
Qed.

Lemma ns_of_val_tuple nfs pu :
  ns_scan nfs [] [] = XOk pu ->
  ns_of_val (VTuple nfs) = if nonempty (snd pu) && nonempty (fst pu) then Some pu else None.
Proof.
  intros H. rewrite (ns_scan_spec _ _ _ _ H). cbn [ns_of_val fst snd].
  destruct (field_last_nn (b "prefix") nfs), (field_last_nn (b "uri") nfs); reflexivity.
Qed.

(* at most one of the five tests of [step_field] succeeds *)
Inductive node_key (k : bytes) : bool -> bool -> bool -> bool -> bool -> Prop :=
| NK_name : k = b "name" -> node_key k true false false false false
| NK_ns : k = b "ns" -> node_key k false true false false false
| NK_attrs : k = b "attrs" -> node_key k false false true false false
| NK_children : k = b "children" -> node_key k false false false true false
| NK_text : k = b "text" -> node_key k false false false false true
| NK_other : node_key k false false false false false.

Lemma node_keys k :
  node_key k (bytes_eqb k (b "name")) (bytes_eqb k (b "ns")) (bytes_eqb k (b "attrs"))
           (bytes_eqb k (b "children")) (bytes_eqb k (b "text")).
Proof.
  destruct (bytes_eqb k (b "name")) eqn:E1; [apply bytes_eqb_spec in E1; subst; apply NK_name; reflexivity|].
  destruct (bytes_eqb k (b "ns")) eqn:E2; [apply bytes_eqb_spec in E2; subst; apply NK_ns; reflexivity|].
  destruct (bytes_eqb k (b "attrs")) eqn:E3; [apply bytes_eqb_spec in E3; subst; apply NK_attrs; reflexivity|].
  destruct (bytes_eqb k (b "children")) eqn:E4; [apply bytes_eqb_spec in E4; subst; apply NK_children; reflexivity|].
  destruct (bytes_eqb k (b "text")) eqn:E5; [apply bytes_eqb_spec in E5; subst; apply NK_text; reflexivity|].
  apply NK_other.
Qed.

(* whether a field of a node tuple lets the scan go on: independent of the state *)
Definition field_okb (k : bytes) (v : val) : bool :=
  if bytes_eqb k (b "name") then is_str v
  else if bytes_eqb k (b "ns") then
    match v with VTuple nfs => negb (existsb ns_field_bad nfs) | _ => true end
  else if bytes_eqb k (b "attrs") then is_empty v || is_tuple v
  else if bytes_eqb k (b "children") then is_empty v || is_list v
  else if bytes_eqb k (b "text") then is_empty v || is_str v
  else true.
Definition fields_okb (fs : list (bytes * val)) : bool := forallb (fun kv => field_okb (fst kv) (snd kv)) fs.

Lemma step_field_ok rec st k v : is_ok (step_field rec st k v) = field_okb k v.
Proof.
  unfold step_field, field_okb.
  destruct (bytes_eqb k (b "name")); [destruct v; reflexivity|].
  destruct (bytes_eqb k (b "ns")).
  { destruct v; try reflexivity. rewrite is_ok_xbind, <- (ns_scan_ok fs [] []).
    destruct (ns_scan fs [] []) as [pu|]; [destruct (nonempty (snd pu) && nonempty (fst pu))|]; reflexivity. }
  destruct (bytes_eqb k (b "attrs")); [destruct v; reflexivity|].
  destruct (bytes_eqb k (b "children")); [destruct v; reflexivity|].
  destruct (bytes_eqb k (b "text")); [destruct v; reflexivity|reflexivity].
Qed.

Lemma scan_ok rec fs st : is_ok (scan rec fs st) = fields_okb fs.
Proof. rewrite scan_xfold. apply xfold_ok, step_field_ok. Qed.

(* the state the scan must have reached after the fields [fs] *)
Definition node_inv (rec : val -> xres (list xevent)) (fs : list (bytes * val)) (st : nstate) : Prop :=
  field_last (b "name") fs = option_map VStr (s_name st) /\
  field_last_nn (b "attrs") fs = option_map VTuple (s_attrs st) /\
  (exists ol, field_last_nn (b "children") fs = option_map VList ol /\ s_kids st = option_map (map rec) ol) /\
  field_last_nn (b "text") fs = option_map VStr (s_text st) /\
  ns_spec fs = s_ns st.

Lemma node_inv_step rec fs st k v st' :
  node_inv rec fs st -> step_field rec st k v = XOk st' -> node_inv rec (fs ++ [(k, v)]) st'.
Proof.
  intros (In1 & In2 & (ol & In3 & In3') & In4 & In5). unfold node_inv, step_field.
  rewrite field_last_snoc, !field_last_nn_snoc, ns_spec_snoc.
  destruct (node_keys k) as [_|_|_|_|_|]; cbn [andb]; intros H.
  - apply xbind_ok in H. destruct H as (s & Hs & [= <-]). apply get_str_ok in Hs; subst v.
    cbn. repeat split; eauto.
  - destruct v; try (injection H as <-; cbn; repeat split; eauto; fail).
    apply xbind_ok in H. destruct H as (pu & Hs & H).
    rewrite (ns_of_val_tuple _ _ Hs).
    destruct (nonempty (snd pu) && nonempty (fst pu)); injection H as <-; cbn; repeat split; eauto.
  - destruct v; try discriminate; injection H as <-; cbn; repeat split; eauto.
  - destruct v; try discriminate; injection H as <-; cbn; repeat split; eauto.
    exists (Some l); split; reflexivity.
  - destruct v; try discriminate; injection H as <-; cbn; repeat split; eauto.
  - injection H as <-. repeat split; eauto.
Qed.

Lemma scan_inv rec fs st : scan rec fs nstate0 = XOk st -> node_inv rec fs st.
Proof.
  rewrite scan_xfold. apply xfold_inv; [|apply node_inv_step].
  unfold node_inv; cbn. repeat split; auto. exists None; auto.
Qed.

(* what a node tuple is converted to, in terms of the lookups of the specification *)
Definition attrs_in_effect (fs : list (bytes * val)) : list (bytes * val) :=
  match field_last_nn (b "attrs") fs with Some (VTuple afs) => afs | _ => [] end.
Definition kids_in_effect (fs : list (bytes * val)) : list val :=
  match field_last_nn (b "children") fs with Some (VList l) => l | _ => [] end.

Definition tuple_events (fs : list (bytes * val)) : xres (list xevent) :=
  match field_last (b "name") fs, field_last_nn (b "text") fs with
  | Some _, Some _ => XErr EBothNameText
  | Some n, None =>
    xbind (get_str n) (fun name =>
    xbind (attr_list (attrs_in_effect fs)) (fun al =>
    xbind (xconcat (map write_node (kids_in_effect fs))) (fun kevs =>
    XOk (EStart name al (ns_spec fs) :: kevs ++ [EEnd]))))
  | None, Some t => xbind (get_str t) (fun t0 => xbind (get_xml_chars t0) (fun t' => XOk [EChars t']))
  | None, None => XOk []
  end.

Lemma write_node_tuple fs : fields_okb fs = true -> write_node (VTuple fs) = tuple_events fs.
Proof.
  intros Hok. cbn [write_node]. unfold write_tuple.
  destruct (scan write_node fs nstate0) as [st|e] eqn:E.
  - destruct (scan_inv _ _ _ E) as (In1 & In2 & (ol & In3 & In3') & In4 & In5).
    unfold tuple_events, attrs_in_effect, kids_in_effect, finish. cbn [xbind].
    rewrite In1, In2, In3, In4, In5, In3'.
    destruct (s_name st), (s_text st), (s_attrs st), ol; reflexivity.
  - rewrite <- (scan_ok write_node fs nstate0), E in Hok. discriminate.
Qed.

Lemma is_ok_write_tuple fs : is_ok (write_node (VTuple fs)) = fields_okb fs && is_ok (tuple_events fs).
Proof.
  destruct (fields_okb fs) eqn:Hok; [rewrite write_node_tuple by exact Hok; reflexivity|].
  cbn [write_node]. unfold write_tuple. rewrite is_ok_xbind.
  destruct (scan write_node fs nstate0) eqn:E; [|reflexivity].
  rewrite <- (scan_ok write_node fs nstate0), E in Hok. discriminate.
Qed.

Lemma write_node_tuple_ok fs evs : write_node (VTuple fs) = XOk evs -> tuple_events fs = XOk evs.
Proof.
  intros Hw. rewrite <- Hw. symmetry. apply write_node_tuple.
  apply (f_equal is_ok) in Hw. rewrite is_ok_write_tuple in Hw. apply andb_prop in Hw. apply Hw.
Qed.

Lemma attr_list_ok afs al : attr_list afs = XOk al -> al = attrs_of afs.
Proof.
  revert al; induction afs as [|[k v] afs IH]; intros al; cbn.
  - intros H; inversion H; reflexivity.
  - destruct v; cbn; try discriminate; auto.
    intros H. apply xbind_ok in H. destruct H as (s' & Hs & H). apply get_xml_chars_ok in Hs. destruct Hs as [-> _].
    apply xbind_ok in H. destruct H as (rest & Hr & H). inversion H; subst.
    rewrite (IH _ Hr); reflexivity.
Qed.

(* an attribute value that stops the attribute loop: not NULL and not a string of XML characters *)
Definition attr_bad (kv : bytes * val) : bool :=
  negb (is_empty (snd kv)) && negb (match snd kv with VStr s => xml_chars_ok s | _ => false end).

Lemma is_ok_attr_list afs : is_ok (attr_list afs) = negb (existsb attr_bad afs).
Proof.
  induction afs as [|[k v] afs IH]; cbn [attr_list existsb]; [reflexivity|].
  unfold attr_bad at 1; cbn [snd].
  destruct v; cbn; auto.
  rewrite is_ok_xbind, <- is_ok_get_xml_chars. destruct (get_xml_chars s); cbn; [|reflexivity].
  rewrite is_ok_xbind, <- IH. destruct (attr_list afs); reflexivity.
Qed.

Lemma xconcat_ok_map {A} (f : val -> xres (list A)) (g : val -> list A) l :
  Forall (fun v => forall evs, f v = XOk evs -> evs = g v) l ->
  forall evs, xconcat (map f l) = XOk evs -> evs = flat_map g l.
Proof.
  induction 1 as [|v l Hv Hl IH]; cbn; intros evs H.
  - inversion H; reflexivity.
  - apply xbind_ok in H. destruct H as (a & Ha & H). apply xbind_ok in H. destruct H as (r & Hr & H).
    inversion H; subst. rewrite (Hv _ Ha), (IH _ Hr). reflexivity.
Qed.

Lemma is_ok_xconcat_map {A B} (f : B -> xres (list A)) l :
  is_ok (xconcat (map f l)) = forallb (fun x => is_ok (f x)) l.
Proof.
  induction l as [|x l IH]; cbn [map xconcat forallb]; [reflexivity|].
  rewrite is_ok_xbind. destruct (f x); cbn; [|reflexivity].
  rewrite is_ok_xbind, <- IH. destruct (xconcat _); reflexivity.
Qed.

Lemma kids_spec_eq rec fs :
  kids_spec rec fs =
  match field_last_nn (b "children") fs with
  | Some (VList l) => Some (flat_map rec l)
  | Some _ => Some []
  | None => None
  end.
Proof.
  induction fs as [|[k v] fs IH]; cbn; [reflexivity|].
  rewrite IH. destruct (field_last_nn (b "children") fs) as [w|]; [destruct w; reflexivity|].
  destruct (bytes_eqb k (b "children")); cbn; [|reflexivity].
  destruct v; reflexivity.
Qed.

Theorem nodes_of_tuple fs :
  nodes_of (VTuple fs) =
  match field_last (b "name") fs with
  | Some (VStr name) =>
    [XElem name (opt_list (ns_spec fs)) (attrs_spec fs)
           (match field_last_nn (b "children") fs with Some (VList l) => flat_map nodes_of l | _ => [] end)]
  | Some _ => []
  | None => match field_last_nn (b "text") fs with Some (VStr s) => [XText s] | _ => [] end
  end.
Proof.
  cbn [nodes_of]. rewrite kids_spec_eq.
  destruct (field_last (b "name") fs) as [[]|]; try reflexivity.
  destruct (field_last_nn (b "children") fs) as [[]|]; reflexivity.
Qed.

Lemma hd_error_opt_list {A} (o : option A) : hd_error (opt_list o) = o.
Proof. destruct o; reflexivity. Qed.

(* the children in effect are values found in a list directly in the tuple: the induction
   hypothesis of [val_deep_ind] holds for them *)
Lemma kids_in_effect_deep (Q : val -> Prop) fs :
  (forall k l, In (k, VList l) fs -> Forall Q l) -> Forall Q (kids_in_effect fs).
Proof.
  intros Ht. unfold kids_in_effect.
  destruct (field_last_nn (b "children") fs) as [[]|] eqn:E; try constructor.
  eapply Ht, field_last_nn_in, E.
Qed.

Lemma write_node_events : forall v evs,
  write_node v = XOk evs -> evs = flat_map events_of_node (nodes_of v).
Proof.
  induction v as [v _ Ht] using val_deep_ind.
  intros evs Hw. destruct v; try discriminate.
  - cbn [write_node] in Hw. apply xbind_ok in Hw. destruct Hw as (s' & Hs & Hw).
    apply get_xml_chars_ok in Hs. destruct Hs as [-> _]. inversion Hw; reflexivity.
  - apply write_node_tuple_ok in Hw. unfold tuple_events in Hw.
    pose proof (kids_in_effect_deep _ fs (Ht fs eq_refl)) as Hk.
    rewrite nodes_of_tuple. unfold attrs_spec. unfold attrs_in_effect, kids_in_effect in *.
    destruct (field_last (b "name") fs) as [n|], (field_last_nn (b "text") fs) as [t|]; try discriminate.
    + apply xbind_ok in Hw. destruct Hw as (name & Hn & Hw). apply get_str_ok in Hn; subst n.
      apply xbind_ok in Hw. destruct Hw as (al & Hal & Hw).
      apply xbind_ok in Hw. destruct Hw as (kevs & Hkevs & Hw). inversion Hw; subst evs.
      cbn [flat_map events_of_node app]. rewrite app_nil_r, hd_error_opt_list.
      f_equal; [f_equal|f_equal].
      * destruct (field_last_nn (b "attrs") fs) as [[]|]; try (inversion Hal; reflexivity).
        apply attr_list_ok, Hal.
      * rewrite (xconcat_ok_map write_node (fun v => flat_map events_of_node (nodes_of v)) _ Hk _ Hkevs).
        destruct (field_last_nn (b "children") fs) as [[]|]; try reflexivity.
        clear. induction l; cbn; auto. rewrite flat_map_app. f_equal; auto.
    + apply xbind_ok in Hw. destruct Hw as (t0 & Ht0 & Hw). apply get_str_ok in Ht0; subst t.
      apply xbind_ok in Hw. destruct Hw as (t' & Hc & Hw).
      apply get_xml_chars_ok in Hc. destruct Hc as [-> _]. inversion Hw; reflexivity.
    + inversion Hw; reflexivity.
Qed.

(* at most one of the four tests of [dstep] succeeds *)
Inductive doc_key (k : bytes) : bool -> bool -> bool -> bool -> Prop :=
| DK_version : k = b "version" -> doc_key k true false false false
| DK_encoding : k = b "encoding" -> doc_key k false true false false
| DK_standalone : k = b "standalone" -> doc_key k false false true false
| DK_root : k = b "root" -> doc_key k false false false true
| DK_other : doc_key k false false false false.

Lemma doc_keys k :
  doc_key k (bytes_eqb k (b "version")) (bytes_eqb k (b "encoding")) (bytes_eqb k (b "standalone"))
          (bytes_eqb k (b "root")).
Proof.
  destruct (bytes_eqb k (b "version")) eqn:E1; [apply bytes_eqb_spec in E1; subst; apply DK_version; reflexivity|].
  destruct (bytes_eqb k (b "encoding")) eqn:E2; [apply bytes_eqb_spec in E2; subst; apply DK_encoding; reflexivity|].
  destruct (bytes_eqb k (b "standalone")) eqn:E3; [apply bytes_eqb_spec in E3; subst; apply DK_standalone; reflexivity|].
  destruct (bytes_eqb k (b "root")) eqn:E4; [apply bytes_eqb_spec in E4; subst; apply DK_root; reflexivity|].
  apply DK_other.
Qed.

Definition dfield_okb (k : bytes) (v : val) : bool :=
  if bytes_eqb k (b "version") then is_str v
  else if bytes_eqb k (b "encoding") then is_str v else true.
Definition dfields_okb (fs : list (bytes * val)) : bool := forallb (fun kv => dfield_okb (fst kv) (snd kv)) fs.

Lemma dstep_ok st k v : is_ok (dstep st k v) = dfield_okb k v.
Proof.
  unfold dstep, dfield_okb.
  destruct (bytes_eqb k (b "version")); [destruct v; reflexivity|].
  destruct (bytes_eqb k (b "encoding")); [destruct v; reflexivity|].
  destruct (bytes_eqb k (b "standalone")), (bytes_eqb k (b "root")); reflexivity.
Qed.

Lemma dscan_ok fs st : is_ok (dscan fs st) = dfields_okb fs.
Proof. rewrite dscan_xfold. apply xfold_ok, dstep_ok. Qed.

Definition doc_inv (fs : list (bytes * val)) (st : dstate) : Prop :=
  field_last (b "version") fs = option_map VStr (d_version st) /\
  field_last (b "encoding") fs = option_map VStr (d_encoding st) /\
  d_standalone st = match field_last (b "standalone") fs with Some (VBool x) => Some x | _ => None end /\
  field_last (b "root") fs = d_root st.

Lemma dscan_inv fs st : dscan fs (mkd None None None None) = XOk st -> doc_inv fs st.
Proof.
  rewrite dscan_xfold. apply xfold_inv; [unfold doc_inv; cbn; auto|]. clear.
  intros fs st k v st' (I1 & I2 & I3 & I4). unfold doc_inv, dstep. rewrite !field_last_snoc.
  destruct (doc_keys k) as [_|_|_|_|]; intros H.
  - apply xbind_ok in H. destruct H as (s & Hs & H). apply get_str_ok in Hs; subst v. inversion H; subst; cbn. auto.
  - apply xbind_ok in H. destruct H as (s & Hs & H). apply get_str_ok in Hs; subst v. inversion H; subst; cbn. auto.
  - inversion H; subst; cbn. auto.
  - inversion H; subst; cbn. auto.
  - inversion H; subst. auto.
Qed.

Definition str_field (k : bytes) (fs : list (bytes * val)) : option bytes :=
  match field_last k fs with Some (VStr s) => Some s | _ => None end.

(* what a document tuple is converted to, in terms of the lookups of the specification *)
Definition doc_events (fs : list (bytes * val)) : xres (list xevent) :=
  match field_last (b "root") fs with
  | None => XErr ENoRoot
  | Some n =>
    xbind (version_of (str_field (b "version") fs)) (fun ver =>
    if negb (root_is_element n) then XErr ERootNotElement else
    xbind (write_node n) (fun evs =>
    XOk (EStartDoc ver (str_field (b "encoding") fs)
                   (match field_last (b "standalone") fs with Some (VBool x) => Some x | _ => None end) :: evs)))
  end.

Lemma to_xml_r_tuple fs : dfields_okb fs = true -> to_xml_r (VTuple fs) = doc_events fs.
Proof.
  intros Hok. cbn [to_xml_r].
  destruct (dscan fs (mkd None None None None)) as [st|e] eqn:E.
  - destruct (dscan_inv _ _ E) as (I1 & I2 & I3 & I4).
    unfold doc_events, str_field. cbn [xbind]. rewrite I1, I2, I4, <- I3.
    destruct (d_version st), (d_encoding st), (d_root st); reflexivity.
  - rewrite <- (dscan_ok fs (mkd None None None None)), E in Hok. discriminate.
Qed.

Lemma is_ok_to_xml_tuple fs : is_ok (to_xml_r (VTuple fs)) = dfields_okb fs && is_ok (doc_events fs).
Proof.
  destruct (dfields_okb fs) eqn:Hok; [rewrite to_xml_r_tuple by exact Hok; reflexivity|].
  cbn [to_xml_r]. rewrite is_ok_xbind.
  destruct (dscan fs (mkd None None None None)) eqn:E; [|reflexivity].
  rewrite <- (dscan_ok fs (mkd None None None None)), E in Hok. discriminate.
Qed.

Lemma to_xml_some d evs : to_xml d = Some evs -> exists fs, d = VTuple fs /\ doc_events fs = XOk evs.
Proof.
  unfold to_xml. destruct (to_xml_r d) as [evs'|] eqn:E; [|discriminate]. intros H; inversion H; subst evs'.
  destruct d; try discriminate. exists fs. split; [reflexivity|].
  rewrite <- E. symmetry. apply to_xml_r_tuple.
  apply (f_equal is_ok) in E. rewrite is_ok_to_xml_tuple in E. apply andb_prop in E. apply E.
Qed.

Lemma to_xml_none d : to_xml d = None <-> is_ok (to_xml_r d) = false.
Proof. unfold to_xml. destruct (to_xml_r d); cbn; split; congruence. Qed.

Section XnodeInd.
  Variable P : xnode -> Prop.
  Hypothesis Htext : forall s, P (XText s).
  Hypothesis Helem : forall name ns attrs kids, Forall P kids -> P (XElem name ns attrs kids).
  Fixpoint xnode_ind' (n : xnode) : P n :=
    match n with
    | XText s => Htext s
    | XElem name ns attrs kids =>
      Helem name ns attrs kids
            ((fix go (l : list xnode) : Forall P l :=
                match l with
                | [] => Forall_nil _
                | x :: xs => Forall_cons x (xnode_ind' x) (go xs)
                end) kids)
    end.
End XnodeInd.

(* at most one namespace declaration per element: all the DSL can say *)
Fixpoint ns1 (n : xnode) : bool :=
  match n with
  | XText _ => true
  | XElem _ ns _ kids => (List.length ns <=? 1) && forallb ns1 kids
  end.

Lemma opt_list_hd_error {A} (l : list A) : (List.length l <=? 1) = true -> opt_list (hd_error l) = l.
Proof. destruct l as [|a [|c l]]; cbn; auto; discriminate. Qed.

(* tree_of_events inverts events_of_node *)
Definition toe_spec (n : xnode) : Prop :=
  ns1 n = true -> forall r stack cur, toe (events_of_node n ++ r) stack cur = toe r stack (n :: cur).

Lemma toe_nodes l : Forall toe_spec l -> forallb ns1 l = true -> forall r stack cur,
  toe (flat_map events_of_node l ++ r) stack cur = toe r stack (rev l ++ cur).
Proof.
  induction 1 as [|x l Hx Hl IH]; intros Hk r stack cur; [reflexivity|].
  cbn in Hk. apply andb_true_iff in Hk. destruct Hk as [Hx' Hk].
  cbn [flat_map]. rewrite <- app_assoc, Hx, IH by auto. cbn [rev]. rewrite <- app_assoc. reflexivity.
Qed.

Lemma toe_node n : toe_spec n.
Proof.
  induction n as [s|name ns attrs kids IH] using xnode_ind'; intros Hn r stack cur.
  - reflexivity.
  - cbn in Hn. apply andb_true_iff in Hn. destruct Hn as [Hns Hk].
    cbn [events_of_node]. rewrite <- app_comm_cons. cbn [toe].
    rewrite <- app_assoc, toe_nodes by auto. cbn [app toe]. rewrite app_nil_r, rev_involutive.
    rewrite opt_list_hd_error by auto. reflexivity.
Qed.

Lemma toe_body l : forallb ns1 l = true -> toe (flat_map events_of_node l) [] [] = Some l.
Proof.
  intros Hl. rewrite <- (app_nil_r (flat_map _ l)), toe_nodes; auto.
  - cbn. rewrite app_nil_r, rev_involutive. reflexivity.
  - apply Forall_forall. intros; apply toe_node.
Qed.

Lemma nodes_of_ns1 : forall v, forallb ns1 (nodes_of v) = true.
Proof.
  induction v as [v _ Ht] using val_deep_ind.
  destruct v; try reflexivity.
  rewrite nodes_of_tuple.
  destruct (field_last (b "name") fs) as [[]|]; try reflexivity.
  - cbn. rewrite andb_true_r. apply andb_true_iff; split.
    + destruct (ns_spec fs); reflexivity.
    + pose proof (kids_in_effect_deep _ fs (Ht fs eq_refl)) as Hk. unfold kids_in_effect in Hk.
      destruct (field_last_nn (b "children") fs) as [[]|]; try reflexivity.
      induction Hk as [|c l Hc _ IH]; cbn; auto. rewrite forallb_app, Hc, IH. reflexivity.
  - destruct (field_last_nn (b "text") fs) as [[]|]; reflexivity.
Qed.

Theorem tree_of_events_of_tree t :
  forallb ns1 (x_body t) = true -> x_decl t <> None -> tree_of_events (events_of_tree t) = Some t.
Proof.
  destruct t as [[[ver enc sa]|] body]; cbn [x_decl x_body]; intros Hb Hd; [|congruence].
  unfold events_of_tree; cbn [x_decl x_body x_ver x_enc x_sa app tree_of_events].
  rewrite toe_body by exact Hb. reflexivity.
Qed.

(* an element value: a tuple with a field called name *)
Definition is_element_val (r : val) : Prop := exists rfs n, r = VTuple rfs /\ In (b "name", n) rfs.

Lemma root_is_element_iff r : root_is_element r = true <-> is_element_val r.
Proof.
  unfold is_element_val. destruct r; cbn [root_is_element]; try (split; [discriminate|intros (? & ? & E & _); discriminate]).
  split.
  - intros H. apply existsb_exists in H. destruct H as ([k v] & Hin & Hk). cbn [fst] in Hk.
    apply bytes_eqb_spec in Hk; subst. eauto.
  - intros (rfs & n & E & Hin). inversion E; subst. apply existsb_exists. exists (b "name", n). split; auto.
Qed.

Lemma element_val_nodes r evs :
  root_is_element r = true -> write_node r = XOk evs ->
  exists name ns attrs kids, nodes_of r = [XElem name ns attrs kids].
Proof.
  intros Hr Hw. apply root_is_element_iff in Hr. destruct Hr as (rfs & n & -> & Hin).
  apply write_node_tuple_ok in Hw. unfold tuple_events in Hw. rewrite nodes_of_tuple.
  destruct (in_field_last _ _ _ Hin) as [w Ew]. rewrite Ew in *.
  destruct (field_last_nn (b "text") rfs); [discriminate|]. destruct w; try discriminate. eauto.
Qed.

Definition enc_or_default (enc : option bytes) : bytes :=
  match enc with Some e => e | None => default_enc end.

Lemma to_xml_events d evs :
  to_xml d = Some evs ->
  exists ver enc sa body,
    evs = EStartDoc ver enc sa :: flat_map events_of_node body /\
    forallb ns1 body = true /\
    (exists name ns attrs kids, body = [XElem name ns attrs kids]) /\
    tree_of_doc d = Some (mkdoc (Some (mkdecl ver (enc_or_default enc) sa)) body).
Proof.
  intros E. apply to_xml_some in E. destruct E as (fs & -> & E). unfold doc_events in E.
  cbn [tree_of_doc]. fold (str_field (b "version") fs).
  destruct (field_last (b "root") fs) as [root|]; [|discriminate].
  apply xbind_ok in E. destruct E as (ver & Hver & E). rewrite Hver.
  destruct (root_is_element root) eqn:Hre; [|discriminate]. cbn [negb] in E |- *.
  apply xbind_ok in E. destruct E as (nevs & Hn & E). inversion E; subst evs.
  exists ver, (str_field (b "encoding") fs), (match field_last (b "standalone") fs with Some (VBool x) => Some x | _ => None end),
         (nodes_of root).
  split; [|split; [|split]].
  - f_equal. apply write_node_events; auto.
  - apply nodes_of_ns1.
  - eapply element_val_nodes; eauto.
  - unfold str_field. destruct (field_last (b "encoding") fs) as [[]|]; reflexivity.
Qed.

(* C12: the events written are those of the described tree *)
Theorem doc_to_tree_strong : forall d evs,
  to_xml d = Some evs -> tree_of_events evs = tree_of_doc d.
Proof.
  intros d evs H. destruct (to_xml_events _ _ H) as (ver & enc & sa & body & -> & Hb & _ & ->).
  cbn [tree_of_events]. rewrite toe_body by exact Hb. reflexivity.
Qed.

Theorem doc_to_tree : forall d evs,
  valid_names d = true -> to_xml d = Some evs -> tree_of_events evs = tree_of_doc d.
Proof. intros d evs _. apply doc_to_tree_strong. Qed.

(* C12: exactly which documents are rejected *)

(* a node value the DSL cannot express *)
Inductive bad_node : val -> Prop :=
| BN_kind v :                       (* neither a tuple nor a string *)
    is_tuple v = false -> is_str v = false -> bad_node v
| BN_name fs v :                    (* some `name` field is not a string (NULL included) *)
    In (b "name", v) fs -> is_str v = false -> bad_node (VTuple fs)
| BN_ns fs nfs k v :                (* some `ns` tuple has a non-NULL uri/prefix that is not a string *)
    In (b "ns", VTuple nfs) fs -> In (k, v) nfs -> k = b "uri" \/ k = b "prefix" ->
    v <> VEmpty -> is_str v = false -> bad_node (VTuple fs)
| BN_attrs fs v :                   (* some `attrs` field is neither NULL nor a tuple *)
    In (b "attrs", v) fs -> v <> VEmpty -> is_tuple v = false -> bad_node (VTuple fs)
| BN_children fs v :                (* some `children` field is neither NULL nor a list *)
    In (b "children", v) fs -> v <> VEmpty -> is_list v = false -> bad_node (VTuple fs)
| BN_text fs v :                    (* some `text` field is neither NULL nor a string *)
    In (b "text", v) fs -> v <> VEmpty -> is_str v = false -> bad_node (VTuple fs)
| BN_both fs n t :                  (* both a name and a (non-NULL) text *)
    In (b "name", n) fs -> In (b "text", t) fs -> t <> VEmpty -> bad_node (VTuple fs)
| BN_attr_val fs n afs k v :        (* an element whose attributes in effect hold a non-NULL non-string *)
    In (b "name", n) fs -> field_last_nn (b "attrs") fs = Some (VTuple afs) ->
    In (k, v) afs -> v <> VEmpty -> is_str v = false -> bad_node (VTuple fs)
| BN_attr_chars fs n afs k s :      (* ... or a string with a character XML cannot hold *)
    In (b "name", n) fs -> field_last_nn (b "attrs") fs = Some (VTuple afs) ->
    In (k, VStr s) afs -> xml_chars_ok s = false -> bad_node (VTuple fs)
| BN_child fs n l c :               (* an element whose children in effect contain a bad node *)
    In (b "name", n) fs -> field_last_nn (b "children") fs = Some (VList l) ->
    In c l -> bad_node c -> bad_node (VTuple fs)
| BN_str_chars s :                  (* character data with a character XML cannot hold: a bare string *)
    xml_chars_ok s = false -> bad_node (VStr s)
| BN_text_chars fs s :              (* ... or the text in effect of a nameless tuple *)
    (forall n, ~ In (b "name", n) fs) -> field_last_nn (b "text") fs = Some (VStr s) ->
    xml_chars_ok s = false -> bad_node (VTuple fs).

Definition inexpressible (d : val) : Prop :=
  match d with
  | VTuple fs =>
    (exists v, In (b "version", v) fs /\ is_str v = false) \/     (* a version that is not a string *)
    (exists v, In (b "encoding", v) fs /\ is_str v = false) \/    (* an encoding that is not a string *)
    (forall v, ~ In (b "root", v) fs) \/                          (* no root *)
    (exists s, field_last (b "version") fs = Some (VStr s) /\ s <> b "1.0" /\ s <> b "1.1") \/
    (exists r, field_last (b "root") fs = Some r /\ ~ is_element_val r) \/   (* the root (last one given) is not an element *)
    (exists r, field_last (b "root") fs = Some r /\ bad_node r)   (* the root is bad *)
  | _ => True                                                     (* not a tuple *)
  end.

(* a field that stops the scan is one of the first five kinds of bad node *)
Lemma field_bad_node fs k v : In (k, v) fs -> field_okb k v = false -> bad_node (VTuple fs).
Proof.
  intros Hin. unfold field_okb.
  destruct (node_keys k) as [->| ->| ->| ->| ->|]; intros Hb; try discriminate.
  - eapply BN_name; eauto.
  - destruct v; try discriminate. apply negb_false_iff in Hb. apply existsb_exists in Hb.
    destruct Hb as ([k' v'] & Hin' & Hb). unfold ns_field_bad in Hb; cbn [fst snd] in Hb.
    apply andb_true_iff in Hb. destruct Hb as [Hb B3]. apply andb_true_iff in Hb. destruct Hb as [B1 B2].
    apply negb_true_iff in B1, B3. apply is_empty_false in B1.
    eapply BN_ns; eauto.
    apply orb_true_iff in B2. destruct B2 as [B2|B2]; apply bytes_eqb_spec in B2; auto.
  - apply orb_false_iff in Hb. destruct Hb as [B1 B2]. apply is_empty_false in B1. eapply BN_attrs; eauto.
  - apply orb_false_iff in Hb. destruct Hb as [B1 B2]. apply is_empty_false in B1. eapply BN_children; eauto.
  - apply orb_false_iff in Hb. destruct Hb as [B1 B2]. apply is_empty_false in B1. eapply BN_text; eauto.
Qed.

(* when a node tuple is converted, as a boolean *)
Definition node_okb (v : val) : bool := is_ok (write_node v).

Lemma is_ok_tuple_events fs :
  is_ok (tuple_events fs) =
  match field_last (b "name") fs, field_last_nn (b "text") fs with
  | Some _, Some _ => false
  | Some n, None =>
    is_str n && negb (existsb attr_bad (attrs_in_effect fs)) && forallb node_okb (kids_in_effect fs)
  | None, Some t => match t with VStr s => xml_chars_ok s | _ => false end
  | None, None => true
  end.
Proof.
  unfold tuple_events, node_okb.
  destruct (field_last (b "name") fs) as [n|], (field_last_nn (b "text") fs) as [t|]; try reflexivity.
  - destruct n; try reflexivity. cbn [get_str xbind is_str andb].
    rewrite is_ok_xbind, <- is_ok_attr_list. destruct (attr_list _); [|reflexivity].
    rewrite is_ok_xbind, <- is_ok_xconcat_map. destruct (xconcat _); reflexivity.
  - destruct t; try reflexivity. cbn [get_str xbind].
    rewrite is_ok_xbind, <- is_ok_get_xml_chars. destruct (get_xml_chars s); reflexivity.
Qed.

Lemma write_node_err_bad : forall v, node_okb v = false -> bad_node v.
Proof.
  induction v as [v _ Ht] using val_deep_ind. unfold node_okb.
  destruct v; try (intros _; apply BN_kind; reflexivity).
  { cbn [write_node]. rewrite is_ok_xbind. destruct (get_xml_chars s) eqn:E; [discriminate|].
    intros _. apply BN_str_chars. rewrite <- is_ok_get_xml_chars, E. reflexivity. }
  rewrite is_ok_write_tuple. intros Hw. apply andb_false_iff in Hw. destruct Hw as [Hw|Hw].
  { apply forallb_false_ex in Hw. destruct Hw as ([k v] & Hin & Hb). eapply field_bad_node; eauto. }
  pose proof (kids_in_effect_deep _ fs (Ht fs eq_refl)) as Hk.
  rewrite is_ok_tuple_events in Hw. unfold attrs_in_effect, kids_in_effect in *.
  destruct (field_last (b "name") fs) as [n|] eqn:En, (field_last_nn (b "text") fs) as [t|] eqn:Et;
    try apply field_last_in in En; try (destruct (field_last_nn_in _ _ _ Et) as [Hin Hne]);
    try discriminate.
  - eapply BN_both; eauto.
  - apply andb_false_iff in Hw. destruct Hw as [Hw|Hw]; [apply andb_false_iff in Hw; destruct Hw as [Hw|Hw]|].
    + eapply BN_name; eauto.
    + destruct (field_last_nn (b "attrs") fs) as [[]|] eqn:Ea; try discriminate.
      apply negb_false_iff, existsb_exists in Hw. destruct Hw as ([k v] & Hin & Hb).
      unfold attr_bad in Hb; cbn [snd] in Hb.
      apply andb_true_iff in Hb. destruct Hb as [B1 B2]. apply negb_true_iff in B1, B2.
      apply is_empty_false in B1.
      destruct v; try exact (BN_attr_val fs n _ k _ En Ea Hin B1 eq_refl). exact (BN_attr_chars fs n _ k s En Ea Hin B2).
    + destruct (field_last_nn (b "children") fs) as [[]|] eqn:Ec; try discriminate.
      apply forallb_false_ex in Hw. destruct Hw as (c & Hin & Hc).
      rewrite Forall_forall in Hk. eapply BN_child; eauto.
  - destruct t; try exact (BN_text fs _ Hin Hne eq_refl).
    exact (BN_text_chars fs s (fun n => field_last_none _ _ n En) Et Hw).
Qed.

Lemma bad_field fs k v : In (k, v) fs -> field_okb k v = false -> node_okb (VTuple fs) = false.
Proof.
  intros Hin Hb. unfold node_okb. rewrite is_ok_write_tuple. apply andb_false_intro1.
  exact (ex_forallb_false _ _ (k, v) Hin Hb).
Qed.

Lemma bad_elem fs n :
  In (b "name", n) fs ->
  negb (existsb attr_bad (attrs_in_effect fs)) && forallb node_okb (kids_in_effect fs) = false ->
  node_okb (VTuple fs) = false.
Proof.
  intros Hn H. unfold node_okb. rewrite is_ok_write_tuple, is_ok_tuple_events.
  destruct (in_field_last _ _ _ Hn) as [w ->]. destruct (field_last_nn (b "text") fs); [apply andb_false_r|].
  rewrite <- andb_assoc, H, !andb_false_r. reflexivity.
Qed.

Lemma bad_write_node_err : forall v, bad_node v -> node_okb v = false.
Proof.
  induction 1 as [v Ht Hs|fs v Hin Hs|fs nfs k v Hin Hin' Hk Hne Hs|fs v Hin Hne Ht|fs v Hin Hne Hl|fs v Hin Hne Hs
                  |fs n t Hn Ht Hne|fs n afs k v Hn Ha Hin Hne Hs|fs n afs k s Hn Ha Hin Hc|fs n l c Hn Hl Hin _ IH
                  |s Hc|fs s Hn Ht Hc].
  - destruct v; try discriminate; reflexivity.
  - apply (bad_field _ _ _ Hin). exact Hs.
  - apply (bad_field _ _ _ Hin). apply negb_false_iff, existsb_exists. exists (k, v); split; auto.
    unfold ns_field_bad; cbn [fst snd]. apply is_empty_false in Hne. rewrite Hne, Hs.
    destruct Hk as [-> | ->]; reflexivity.
  - apply (bad_field _ _ _ Hin). unfold field_okb. apply is_empty_false in Hne. rewrite Hne, Ht. reflexivity.
  - apply (bad_field _ _ _ Hin). unfold field_okb. apply is_empty_false in Hne. rewrite Hne, Hl. reflexivity.
  - apply (bad_field _ _ _ Hin). unfold field_okb. apply is_empty_false in Hne. rewrite Hne, Hs. reflexivity.
  - unfold node_okb. rewrite is_ok_write_tuple, is_ok_tuple_events.
    destruct (in_field_last _ _ _ Hn) as [w ->], (in_field_last_nn _ _ _ Ht Hne) as [w' ->]. apply andb_false_r.
  - apply (bad_elem _ _ Hn), andb_false_intro1, negb_false_iff. unfold attrs_in_effect. rewrite Ha.
    apply existsb_exists. exists (k, v); split; auto.
    unfold attr_bad; cbn [snd]. apply is_empty_false in Hne. rewrite Hne. destruct v; try discriminate; reflexivity.
  - apply (bad_elem _ _ Hn), andb_false_intro1, negb_false_iff. unfold attrs_in_effect. rewrite Ha.
    apply existsb_exists. exists (k, VStr s); split; auto. unfold attr_bad; cbn. rewrite Hc. reflexivity.
  - apply (bad_elem _ _ Hn), andb_false_intro2. unfold kids_in_effect. rewrite Hl.
    exact (ex_forallb_false _ _ c Hin IH).
  - unfold node_okb. cbn [write_node]. rewrite is_ok_xbind. unfold get_xml_chars. rewrite Hc. reflexivity.
  - unfold node_okb. rewrite is_ok_write_tuple, is_ok_tuple_events, Ht.
    destruct (field_last (b "name") fs) eqn:En; [apply field_last_in in En; destruct (Hn _ En)|].
    rewrite Hc. apply andb_false_r.
Qed.

Theorem write_node_err_iff v : (exists e, write_node v = XErr e) <-> bad_node v.
Proof. rewrite err_iff. split; [apply write_node_err_bad|apply bad_write_node_err]. Qed.

Lemma version_of_err o e :
  version_of o = XErr e -> exists s, o = Some s /\ s <> b "1.0" /\ s <> b "1.1".
Proof.
  destruct o as [t|]; cbn; [|discriminate].
  destruct (bytes_eqb t (b "1.0")) eqn:E1; [discriminate|].
  destruct (bytes_eqb t (b "1.1")) eqn:E2; [discriminate|].
  intros _. exists t. apply bytes_eqb_false in E1, E2. auto.
Qed.

Lemma version_of_bad s : s <> b "1.0" -> s <> b "1.1" -> version_of (Some s) = XErr EBadVersion.
Proof.
  intros H1 H2. cbn. apply bytes_eqb_false in H1, H2. rewrite H1, H2. reflexivity.
Qed.

Theorem doc_error_iff : forall d, to_xml d = None <-> inexpressible d.
Proof.
  intros d. rewrite to_xml_none. destruct d; try (cbn; split; auto; fail).
  cbn [inexpressible]. rewrite is_ok_to_xml_tuple. unfold doc_events, str_field. split.
  - intros H. apply andb_false_iff in H. destruct H as [H|H].
    + apply forallb_false_ex in H. destruct H as ([k v] & Hin & Hb). cbn [fst snd] in Hb. revert Hb. unfold dfield_okb.
      destruct (doc_keys k) as [->| ->|_|_|]; try discriminate; eauto.
    + destruct (field_last (b "root") fs) as [root|] eqn:Er.
      2:{ right; right; left. intros v. apply field_last_none, Er. }
      rewrite is_ok_xbind in H. destruct (version_of _) as [ver|e] eqn:Ev.
      2:{ apply version_of_err in Ev. destruct Ev as (s & Es & N1 & N2).
          destruct (field_last (b "version") fs) as [[]|]; try discriminate. inversion Es; subst.
          right; right; right; left. eauto. }
      destruct (root_is_element root) eqn:Hre; cbn [negb] in H.
      2:{ right; right; right; right; left. exists root; split; auto.
          intros X. apply root_is_element_iff in X. congruence. }
      rewrite is_ok_xbind in H. right; right; right; right; right. exists root; split; auto.
      apply write_node_err_bad. unfold node_okb. destruct (write_node root); [discriminate|reflexivity].
  - intros [(v & Hin & Hs)|[(v & Hin & Hs)|[H|[(s & Hv & N1 & N2)|[(r & Hr & Hne)|(r & Hr & Hb)]]]]].
    + apply andb_false_intro1. exact (ex_forallb_false _ _ (b "version", v) Hin Hs).
    + apply andb_false_intro1. exact (ex_forallb_false _ _ (b "encoding", v) Hin Hs).
    + apply andb_false_intro2. destruct (field_last (b "root") fs) eqn:Er; [|reflexivity].
      apply field_last_in in Er. destruct (H _ Er).
    + apply andb_false_intro2. rewrite Hv, version_of_bad by auto. destruct (field_last (b "root") fs); reflexivity.
    + apply andb_false_intro2. rewrite Hr, is_ok_xbind. destruct (version_of _); [|reflexivity].
      destruct (root_is_element r) eqn:Hre; [|reflexivity]. apply root_is_element_iff in Hre. contradiction.
    + apply andb_false_intro2. rewrite Hr, is_ok_xbind. destruct (version_of _); [|reflexivity].
      destruct (root_is_element r); [|reflexivity]. cbn [negb]. rewrite is_ok_xbind.
      apply bad_write_node_err in Hb. unfold node_okb in Hb. destruct (write_node r); [discriminate|reflexivity].
Qed.

(* U+FFFE / U+FFFF, which escaping may neither produce nor hide: the three-state scan *)
Definition is_ascii (c : ascii) : bool := (code c <? 128)%N.

Lemma nc_run_app st x y :
  nc_run st (x ++ y) = match nc_run st x with Some st' => nc_run st' y | None => None end.
Proof.
  revert st; induction x as [|c x IH]; intros st; cbn [app nc_run]; [reflexivity|].
  destruct (nc_step st c); auto.
Qed.

(* EF, BF, BE are not ASCII; BF and BE are continuation bytes *)
Lemma nc_step_ascii st c : is_ascii c = true -> nc_step st c = Some N0.
Proof.
  intros H. unfold nc_step. rewrite !(eqb_class is_ascii c _ H) by reflexivity. destruct st; reflexivity.
Qed.

Lemma nc_run_ascii x : forallb is_ascii x = true -> x <> [] -> forall st, nc_run st x = Some N0.
Proof.
  induction x as [|c x IH]; intros H Hne st; [congruence|].
  cbn [forallb] in H. apply andb_true_iff in H. destruct H as [Hc Hx].
  cbn [nc_run]. rewrite nc_step_ascii by auto. destruct x as [|d x]; [reflexivity|].
  apply IH; auto. discriminate.
Qed.

Lemma nc_step_not_cont st c : is_cont c = false -> nc_step st c = nc_step N0 c.
Proof.
  intros H. unfold nc_step. destruct (Ascii.eqb c c_ef); [reflexivity|].
  rewrite !(eqb_class (fun x => negb (is_cont x)) c _ (f_equal negb H)) by reflexivity. destruct st; reflexivity.
Qed.

Lemma ascii_not_cont c : is_ascii c = true -> is_cont c = false.
Proof. unfold is_ascii, is_cont. intros H. apply N.ltb_lt in H. apply andb_false_intro1, N.leb_gt, H. Qed.

Definition nc_ok (st : ncst) (s : bytes) : bool := match nc_run st s with Some _ => true | None => false end.

Lemma hnc_ok s st : hnc s = true -> nc_ok st s = nc_ok N0 s.
Proof.
  destruct s as [|c s]; [reflexivity|]. cbn [hnc]. intros H. apply negb_true_iff in H.
  unfold nc_ok. cbn [nc_run]. rewrite (nc_step_not_cont st c H). reflexivity.
Qed.

Lemma good_app x y : good x = true -> good y = true -> good (x ++ y) = true.
Proof.
  unfold good. intros Hx Hy. apply andb_true_iff in Hx, Hy. destruct Hx as [Hx1 Hx2], Hy as [Hy1 Hy2].
  apply andb_true_iff; split.
  - destruct x; auto.
  - unfold no_nonchar in *. rewrite nc_run_app. destruct (nc_run N0 x) as [st'|]; [|discriminate].
    pose proof (hnc_ok y st' Hy1) as E. unfold nc_ok in E. rewrite E. exact Hy2.
Qed.

Lemma good_no_nonchar s : good s = true -> no_nonchar s = true.
Proof. unfold good. intros H. apply andb_true_iff in H. tauto. Qed.

Lemma good_ascii x : forallb is_ascii x = true -> good x = true.
Proof.
  intros H. destruct x as [|c x]; [reflexivity|]. unfold good. apply andb_true_iff; split.
  - cbn [hnc forallb] in *. apply andb_true_iff in H. destruct H as [Hc _]. rewrite ascii_not_cont by exact Hc. reflexivity.
  - unfold no_nonchar. rewrite nc_run_ascii; auto. discriminate.
Qed.

Definition no_cr (s : bytes) : bool := forallb (fun c => negb (Ascii.eqb c cr)) s.

Lemma norm_eol_no_cr s : no_cr s = true -> norm_eol s = s.
Proof.
  induction s as [|c s IH]; cbn; auto.
  intros H. apply andb_true_iff in H. destruct H as [Hc Hs]. apply negb_true_iff in Hc.
  rewrite Hc. f_equal; auto.
Qed.

Lemma no_cr_app x y : no_cr (x ++ y) = no_cr x && no_cr y.
Proof. apply forallb_app. Qed.

Lemma no_cr_cons c s : no_cr (c :: s) = negb (Ascii.eqb c cr) && no_cr s.
Proof. reflexivity. Qed.

(* the references they use, each with the character it stands for *)
Definition refs : list (ascii * bytes) :=
  [(lt_c, b "lt;"); (gt_c, b "gt;"); (amp_c, b "amp;"); (sq_c, b "apos;"); (dq_c, b "quot;");
   (nl, b "#xA;"); (cr, b "#xD;")].

Lemma parse_ref_refs c lit r : In (c, lit) refs -> parse_ref (lit ++ r) = Some ([c], r).
Proof. intros H. repeat (destruct H as [H|H]; [inversion H; reflexivity|]). destruct H. Qed.

Lemma refs_ascii c lit :
  In (c, lit) refs -> is_ascii c = true /\ forallb is_ascii lit = true /\ no_cr lit = true.
Proof. intros H. repeat (destruct H as [H|H]; [inversion H; repeat split; reflexivity|]). destruct H. Qed.

(* a table writes a byte as itself or as '&' and a reference to it *)
Definition esc_table (f : ascii -> bytes) : Prop :=
  forall c, f c = [c] \/ exists lit, In (c, lit) refs /\ f c = amp_c :: lit.

Lemma esc_pc_table : esc_table esc_pc_byte.
Proof.
  intros c. unfold esc_pc_byte.
  destruct (Ascii.eqb_spec c lt_c) as [->|_]; [right; eexists; split; [|reflexivity]; simpl; auto 10|].
  destruct (Ascii.eqb_spec c gt_c) as [->|_]; [right; eexists; split; [|reflexivity]; simpl; auto 10|].
  destruct (Ascii.eqb_spec c amp_c) as [->|_]; [right; eexists; split; [|reflexivity]; simpl; auto 10|].
  left; reflexivity.
Qed.

Lemma esc_at_table : esc_table esc_at_byte.
Proof.
  intros c. unfold esc_at_byte.
  destruct (Ascii.eqb_spec c lt_c) as [->|_]; [right; eexists; split; [|reflexivity]; simpl; auto 10|].
  destruct (Ascii.eqb_spec c gt_c) as [->|_]; [right; eexists; split; [|reflexivity]; simpl; auto 10|].
  destruct (Ascii.eqb_spec c dq_c) as [->|_]; [right; eexists; split; [|reflexivity]; simpl; auto 10|].
  destruct (Ascii.eqb_spec c sq_c) as [->|_]; [right; eexists; split; [|reflexivity]; simpl; auto 10|].
  destruct (Ascii.eqb_spec c amp_c) as [->|_]; [right; eexists; split; [|reflexivity]; simpl; auto 10|].
  destruct (Ascii.eqb_spec c nl) as [->|_]; [right; eexists; split; [|reflexivity]; simpl; auto 10|].
  destruct (Ascii.eqb_spec c cr) as [->|_]; [right; eexists; split; [|reflexivity]; simpl; auto 10|].
  left; reflexivity.
Qed.

(* the bytes each table leaves alone *)
Lemma esc_pc_self c : esc_pc_byte c = [c] ->
  Ascii.eqb c lt_c = false /\ Ascii.eqb c gt_c = false /\ Ascii.eqb c amp_c = false.
Proof.
  unfold esc_pc_byte.
  destruct (Ascii.eqb c lt_c); [discriminate|]. destruct (Ascii.eqb c gt_c); [discriminate|].
  destruct (Ascii.eqb c amp_c); [discriminate|]. auto.
Qed.

Lemma esc_at_self c : esc_at_byte c = [c] ->
  Ascii.eqb c lt_c = false /\ Ascii.eqb c dq_c = false /\ Ascii.eqb c amp_c = false /\
  Ascii.eqb c nl = false /\ Ascii.eqb c cr = false.
Proof.
  unfold esc_at_byte.
  destruct (Ascii.eqb c lt_c); [discriminate|]. destruct (Ascii.eqb c gt_c); [discriminate|].
  destruct (Ascii.eqb c dq_c); [discriminate|]. destruct (Ascii.eqb c sq_c); [discriminate|].
  destruct (Ascii.eqb c amp_c); [discriminate|]. destruct (Ascii.eqb c nl); [discriminate|].
  destruct (Ascii.eqb c cr); [discriminate|]. auto.
Qed.

Lemma esc_pcdata_cons c s : esc_pcdata (c :: s) = esc_pc_byte c ++ esc_pcdata s.
Proof. reflexivity. Qed.
Lemma esc_pcdata_app x y : esc_pcdata (x ++ y) = esc_pcdata x ++ esc_pcdata y.
Proof. unfold esc_pcdata. apply flat_map_app. Qed.
Lemma esc_attr_cons c s : esc_attr (c :: s) = esc_at_byte c ++ esc_attr s.
Proof. reflexivity. Qed.

(* escaping replaces ASCII bytes by non-empty ASCII strings: the three-state scan does not see it *)
Section EscTable.
  Variable f : ascii -> bytes.
  Hypothesis Hf : esc_table f.

  Lemma nc_run_esc s : forall st, nc_run st (flat_map f s) = nc_run st s.
  Proof.
    induction s as [|c s IH]; intros st; [reflexivity|].
    cbn [flat_map]. rewrite nc_run_app. cbn [nc_run].
    destruct (Hf c) as [->|(lit & Hin & ->)].
    - cbn [nc_run]. destruct (nc_step st c); auto.
    - destruct (refs_ascii _ _ Hin) as (Hc & Hl & _).
      rewrite nc_run_ascii, nc_step_ascii by (auto; discriminate). apply IH.
  Qed.

  Lemma no_nonchar_esc s : no_nonchar (flat_map f s) = no_nonchar s.
  Proof. unfold no_nonchar. rewrite nc_run_esc. reflexivity. Qed.

  Lemma good_esc s : good s = true -> good (flat_map f s) = true.
  Proof.
    unfold good. rewrite no_nonchar_esc. intros H. apply andb_true_iff in H. destruct H as [H1 ->].
    rewrite andb_true_r. destruct s as [|c s]; [reflexivity|]. cbn [flat_map].
    destruct (Hf c) as [->|(lit & _ & ->)]; [exact H1|reflexivity].
  Qed.

  Lemma length_esc s : List.length s <= List.length (flat_map f s).
  Proof.
    induction s as [|c s IH]; [auto|]. cbn [flat_map]. rewrite app_length.
    destruct (Hf c) as [->|(lit & _ & ->)]; cbn [List.length]; lia.
  Qed.

  (* CR comes out of escaping only where the table leaves a CR alone *)
  Lemma no_cr_esc s :
    (forall c, In c s -> f c = [c] -> Ascii.eqb c cr = false) -> no_cr (flat_map f s) = true.
  Proof.
    induction s as [|c s IH]; intros H; [reflexivity|]. cbn [flat_map].
    rewrite no_cr_app, IH, andb_true_r by (intros; apply H; [right|]; auto).
    destruct (Hf c) as [E|(lit & Hin & ->)].
    - rewrite E. unfold no_cr; cbn [forallb]. rewrite (H c (or_introl eq_refl) E). reflexivity.
    - apply refs_ascii in Hin. apply Hin.
  Qed.
End EscTable.

Lemma good_esc_pcdata s : good s = true -> good (esc_pcdata s) = true.
Proof. apply good_esc, esc_pc_table. Qed.
Lemma good_esc_attr s : good s = true -> good (esc_attr s) = true.
Proof. apply good_esc, esc_at_table. Qed.

Lemma length_esc_pcdata s : List.length s <= List.length (esc_pcdata s).
Proof. apply length_esc, esc_pc_table. Qed.
Lemma length_esc_attr s : List.length s <= List.length (esc_attr s).
Proof. apply length_esc, esc_at_table. Qed.

Lemma no_cr_esc_pcdata s : no_cr s = true -> no_cr (esc_pcdata s) = true.
Proof.
  intros H. apply no_cr_esc; [apply esc_pc_table|]. intros c Hc _.
  unfold no_cr in H. rewrite forallb_forall in H. apply negb_true_iff, H, Hc.
Qed.

Lemma no_cr_esc_attr s : no_cr (esc_attr s) = true.
Proof. apply no_cr_esc; [apply esc_at_table|]. intros c _ E. apply esc_at_self in E. tauto. Qed.

(* a stop for character data: end of input or markup *)
Definition text_stop (r : bytes) : Prop := r = [] \/ exists r', r = lt_c :: r'.

(* the text after escaped character data never starts with '>' *)
Lemma esc_pcdata_hd_gt s rest :
  text_stop rest -> strip_prefix [gt_c] (esc_pcdata s ++ rest) = None.
Proof.
  intros Hr. destruct s as [|c s].
  - cbn. destruct Hr as [->|[r' ->]]; reflexivity.
  - rewrite esc_pcdata_cons, <- app_assoc.
    destruct (esc_pc_table c) as [E|(lit & _ & ->)]; [|reflexivity].
    rewrite E. destruct (esc_pc_self c E) as (_ & G & _). cbn [app strip_prefix].
    rewrite Ascii.eqb_sym in G. rewrite G. reflexivity.
Qed.

Lemma cdata_end_esc c s rest :
  text_stop rest -> cdata_end (c :: esc_pcdata s ++ rest) = false.
Proof.
  intros Hr. unfold cdata_end.
  change (strip_prefix (b "]]>") (c :: esc_pcdata s ++ rest))
    with (if Ascii.eqb "]"%char c then strip_prefix (b "]>") (esc_pcdata s ++ rest) else None).
  destruct (Ascii.eqb "]"%char c); [|reflexivity].
  destruct s as [|d s].
  - cbn [esc_pcdata flat_map app]. destruct Hr as [->|[r' ->]]; reflexivity.
  - rewrite esc_pcdata_cons, <- app_assoc.
    destruct (esc_pc_table d) as [->|(lit & _ & ->)]; [|reflexivity].
    cbn [app].
    change (strip_prefix (b "]>") (d :: esc_pcdata s ++ rest))
      with (if Ascii.eqb "]"%char d then strip_prefix [gt_c] (esc_pcdata s ++ rest) else None).
    rewrite esc_pcdata_hd_gt by auto. destruct (Ascii.eqb "]"%char d); reflexivity.
Qed.

Lemma text_char_raw_ok c : text_char_ok c = true -> raw_ok c = true.
Proof.
  unfold text_char_ok, raw_ok, c0_ok.
  destruct (32 <=? code c)%N, (Ascii.eqb c tab), (Ascii.eqb c nl); cbn; intros H; auto; discriminate H.
Qed.

Lemma parse_text_amp f r :
  parse_text (S f) (amp_c :: r) =
  match parse_ref r with
  | Some (x, r') => match parse_text f r' with Some (t, z) => Some (x ++ t, z) | None => None end
  | None => None
  end.
Proof. reflexivity. Qed.

(* the reader inverts PcDataEscapes on character data free of CR and of C0 controls *)
Lemma parse_text_esc : forall s rest fuel,
  forallb text_char_ok s = true -> text_stop rest -> List.length s < fuel ->
  parse_text fuel (esc_pcdata s ++ rest) = Some (s, rest).
Proof.
  induction s as [|c s IH]; intros rest fuel Hs Hr Hf; (destruct fuel as [|f]; [inversion Hf|]).
  - cbn [esc_pcdata flat_map app]. destruct Hr as [->|[r' ->]]; reflexivity.
  - cbn [List.length] in Hf. cbn [forallb] in Hs. apply andb_true_iff in Hs. destruct Hs as [Hc Hs].
    assert (IH' : parse_text f (esc_pcdata s ++ rest) = Some (s, rest)) by (apply IH; auto; lia).
    rewrite esc_pcdata_cons, <- app_assoc.
    destruct (esc_pc_table c) as [E|(lit & Hin & ->)].
    + rewrite E. destruct (esc_pc_self c E) as (L & _ & A).
      cbn [app parse_text]. rewrite L, A, (cdata_end_esc c s rest Hr), (text_char_raw_ok _ Hc), IH'. reflexivity.
    + cbn [app]. rewrite parse_text_amp, (parse_ref_refs _ _ _ Hin), IH'. reflexivity.
Qed.

Lemma code_ge32_not c d : (32 <=? code c)%N = true -> (code d <? 32)%N = true -> Ascii.eqb c d = false.
Proof. intros H1 H2. apply (eqb_class (fun x => (32 <=? code x)%N) c d H1). rewrite N.leb_antisym, H2. reflexivity. Qed.

Lemma text_char_ok_no_cr s : forallb text_char_ok s = true -> no_cr s = true.
Proof.
  unfold no_cr. induction s as [|c s IH]; cbn [forallb]; auto. intros H. apply andb_true_iff in H. destruct H as [Hc Hs].
  rewrite IH, andb_true_r by auto. apply negb_true_iff. unfold text_char_ok in Hc.
  apply orb_true_iff in Hc. destruct Hc as [Hc|Hc]; [apply orb_true_iff in Hc; destruct Hc as [Hc|Hc]|].
  - apply code_ge32_not; auto.
  - apply Ascii.eqb_eq in Hc; subst; reflexivity.
  - apply Ascii.eqb_eq in Hc; subst; reflexivity.
Qed.

Theorem unescape_text_ok s :
  forallb text_char_ok s = true -> no_nonchar s = true -> unescape_text (esc_pcdata s) = Some s.
Proof.
  intros H Hn. unfold unescape_text.
  rewrite norm_eol_no_cr by (apply no_cr_esc_pcdata, text_char_ok_no_cr; auto).
  unfold esc_pcdata at 1. rewrite (no_nonchar_esc _ esc_pc_table), Hn.
  rewrite <- (app_nil_r (esc_pcdata s)) at 2.
  rewrite parse_text_esc; auto.
  - left; reflexivity.
  - pose proof (length_esc_pcdata s). lia.
Qed.

Lemma parse_attval_amp f q r :
  Ascii.eqb amp_c q = false ->
  parse_attval (S f) q (amp_c :: r) =
  match parse_ref r with
  | Some (x, r') => match parse_attval f q r' with Some (t, z) => Some (x ++ t, z) | None => None end
  | None => None
  end.
Proof. intros H. cbn [parse_attval]. rewrite H. reflexivity. Qed.

Lemma parse_attval_esc : forall s rest fuel,
  forallb attr_char_ok s = true -> List.length s < fuel ->
  parse_attval fuel dq_c (esc_attr s ++ dq_c :: rest) = Some (s, rest).
Proof.
  induction s as [|c s IH]; intros rest fuel Hs Hf; (destruct fuel as [|f]; [inversion Hf|]); [reflexivity|].
  cbn [List.length] in Hf. cbn [forallb] in Hs. apply andb_true_iff in Hs. destruct Hs as [Hc Hs].
  assert (IH' : parse_attval f dq_c (esc_attr s ++ dq_c :: rest) = Some (s, rest)) by (apply IH; auto; lia).
  rewrite esc_attr_cons, <- app_assoc.
  destruct (esc_at_table c) as [E|(lit & Hin & ->)].
  - (* neither LF nor CR, so at least a space; not TAB either *)
    rewrite E. destruct (esc_at_self c E) as (L & Q & A & N & C).
    unfold attr_char_ok in Hc. rewrite N, C, !orb_false_r in Hc.
    cbn [app parse_attval]. rewrite Q, L, A, (code_ge32_not c tab Hc eq_refl), N, C, Hc, IH'. reflexivity.
  - cbn [app]. rewrite parse_attval_amp, (parse_ref_refs _ _ _ Hin), IH' by reflexivity. reflexivity.
Qed.

Theorem unescape_attr_ok s :
  forallb attr_char_ok s = true -> no_nonchar s = true -> unescape_attr (esc_attr s) = Some s.
Proof.
  intros H Hn. unfold unescape_attr.
  rewrite norm_eol_no_cr by (rewrite no_cr_app, no_cr_esc_attr; reflexivity).
  assert (NN : no_nonchar (esc_attr s ++ [dq_c]) = true).
  { unfold no_nonchar in *. rewrite nc_run_app. unfold esc_attr. rewrite (nc_run_esc _ esc_at_table).
    destruct (nc_run N0 s) as [st|]; [|discriminate]. destruct st; reflexivity. }
  rewrite NN.
  rewrite app_length. rewrite parse_attval_esc; auto.
  pose proof (length_esc_attr s). cbn; lia.
Qed.

Lemma xml_char_ok_text s : xml_char_ok s = true -> forallb text_char_ok s = true.
Proof.
  unfold xml_char_ok. intros H0. apply andb_true_iff in H0. destruct H0 as [H0 _]. revert H0.
  rewrite !forallb_forall. intros H c Hc. specialize (H c Hc).
  unfold text_char_ok. apply orb_true_iff in H. destruct H as [H|H]; rewrite H; auto using orb_true_r.
Qed.
Lemma xml_char_ok_attr s : xml_char_ok s = true -> forallb attr_char_ok s = true.
Proof.
  unfold xml_char_ok. intros H0. apply andb_true_iff in H0. destruct H0 as [H0 _]. revert H0.
  rewrite !forallb_forall. intros H c Hc. specialize (H c Hc).
  unfold attr_char_ok. apply orb_true_iff in H. destruct H as [H|H]; rewrite H; auto using orb_true_r.
  rewrite orb_true_r; reflexivity.
Qed.

(* C12: both tables are inverted by a reader *)
Theorem escapes_invert : forall s, xml_char_ok s = true ->
  unescape_text (esc_pcdata s) = Some s /\ unescape_attr (esc_attr s) = Some s.
Proof.
  intros s H. assert (Hn : no_nonchar s = true) by (unfold xml_char_ok in H; apply andb_true_iff in H; tauto).
  split.
  - apply unescape_text_ok; auto. apply xml_char_ok_text; auto.
  - apply unescape_attr_ok; auto. apply xml_char_ok_attr; auto.
Qed.

(* the characters excluded by [xml_char_ok] are exactly where the crate's tables fall short *)
Lemma escapes_cr_text_refuted : unescape_text (esc_pcdata [cr]) = Some [nl].
Proof. vm_compute. reflexivity. Qed.
Lemma escapes_crlf_text_refuted : unescape_text (esc_pcdata [cr; nl]) = Some [nl].
Proof. vm_compute. reflexivity. Qed.
Lemma escapes_tab_attr_refuted : unescape_attr (esc_attr [tab]) = Some [sp].
Proof. vm_compute. reflexivity. Qed.
Lemma escapes_control_refuted :
  unescape_text (esc_pcdata [ascii_of_nat 1]) = None /\ unescape_attr (esc_attr [ascii_of_nat 1]) = None /\
  unescape_text (esc_pcdata [ascii_of_nat 0]) = None /\ unescape_text (esc_pcdata [ascii_of_nat 27]) = None.
Proof. vm_compute. auto. Qed.
(* what is NOT a problem: CR and LF in attribute values, TAB in character data *)
Lemma escapes_attr_crlf_fine : unescape_attr (esc_attr [cr; nl]) = Some [cr; nl].
Proof. vm_compute. reflexivity. Qed.
Lemma escapes_text_tab_fine : unescape_text (esc_pcdata [tab]) = Some [tab].
Proof. vm_compute. reflexivity. Qed.


Ltac norm_app := repeat (progress (rewrite <- ?app_assoc; cbn [app])).

Lemma esc_pcdata_indent n : esc_pcdata (indent n) = indent n.
Proof. induction n; cbn; auto. fold (esc_pcdata (indent n)). rewrite IHn. reflexivity. Qed.
Lemma esc_pcdata_newline n : esc_pcdata (newline n) = newline n.
Proof. unfold newline. rewrite esc_pcdata_cons, esc_pcdata_indent. reflexivity. Qed.

Lemma ns_attr_bytes kept : ns_attr kept = ns_bytes (ns_emitted kept).
Proof.
  unfold ns_attr, ns_emitted, ns_bytes. destruct kept as [[p u]|]; auto.
  destruct (bytes_eqb p (b "xmlns") || bytes_eqb p (b "xml")); auto.
  destruct p as [|c p]; [destruct u|]; cbn [flat_map fst snd]; rewrite ?app_nil_r; reflexivity.
Qed.

Lemma emit_start_in lvl flag fl names nst name attrs ns :
  emit_one (mkest true (S lvl) (flag :: fl) names nst) (EStart name attrs ns) =
  Some ((match flag with WText => [] | _ => newline (S lvl) end)
          ++ lt_c :: name ++ ns_attr (ns_kept nst ns) ++ attrs_bytes attrs ++ [gt_c],
        mkest true (S (S lvl)) (WMarkup :: (match flag with WText => WText | _ => WMarkup end) :: fl)
              (name :: names) (ns_kept nst ns :: nst)).
Proof. destruct flag; reflexivity. Qed.

Lemma emit_chars_in lvl flag fl names nst s :
  emit_one (mkest true lvl (flag :: fl) names nst) (EChars s) =
  Some (esc_pcdata s, mkest true lvl (WText :: fl) names nst).
Proof. reflexivity. Qed.

Lemma emit_end_in lvl flag pf fl name names top nst :
  emit_one (mkest true (S lvl) (flag :: pf :: fl) (name :: names) (top :: nst)) EEnd =
  Some ((match flag with WMarkup => newline lvl | _ => [] end) ++ lt_c :: "/"%char :: name ++ [gt_c],
        mkest true lvl (WMarkup :: fl) names nst).
Proof. destruct flag; cbn; rewrite ?Nat.sub_0_r; reflexivity. Qed.

Definition node_emit_spec (n : xnode) : Prop :=
  forall lvl flag fl names nst rest, flag <> WNothing ->
  emit_all (mkest true (S lvl) (flag :: fl) names nst) (events_of_node n ++ rest) =
  match emit_all (mkest true (S lvl) ((match n with XText _ => WText | _ => WMarkup end) :: fl) names nst) rest with
  | Some o =>
    Some (flat_map plain_node (match n with XText _ => [] | _ => open_ws flag lvl end)
            ++ plain_node (written_node (S lvl) nst n) ++ o)
  | None => None
  end.

Lemma plain_open_ws flag lvl :
  flat_map plain_node (open_ws flag lvl) = match flag with WText => [] | _ => newline (S lvl) end.
Proof. destruct flag; cbn [open_ws flat_map plain_node]; rewrite ?app_nil_r, ?esc_pcdata_newline; reflexivity. Qed.

Lemma emit_kids_end l : Forall node_emit_spec l ->
  forall lvl flag pf fl name names top nst rest, flag <> WNothing ->
  emit_all (mkest true (S lvl) (flag :: pf :: fl) (name :: names) (top :: nst))
           (flat_map events_of_node l ++ EEnd :: rest) =
  match emit_all (mkest true lvl (WMarkup :: fl) names nst) rest with
  | Some o =>
    Some (flat_map plain_node (wkids (written_node (S lvl) (top :: nst)) lvl flag l)
            ++ lt_c :: "/"%char :: name ++ [gt_c] ++ o)
  | None => None
  end.
Proof.
  induction 1 as [|n l Hn Hl IH]; intros lvl flag pf fl name names top nst rest Hflag.
  - cbn [flat_map app emit_all]. rewrite emit_end_in.
    destruct (emit_all _ rest) as [o|]; [|reflexivity]. f_equal.
    destruct flag; try congruence; cbn [wkids close_ws flat_map plain_node];
      rewrite ?app_nil_r, ?esc_pcdata_newline, <- ?app_assoc; cbn [app]; rewrite <- ?app_assoc; reflexivity.
  - cbn [flat_map]. rewrite <- app_assoc. rewrite Hn by auto.
    destruct n as [nm nsd at_ kids|s].
    + rewrite IH by discriminate.
      destruct (emit_all _ rest) as [o|]; [|reflexivity]. f_equal.
      cbn [wkids]. rewrite !flat_map_app. cbn [flat_map]. rewrite <- !app_assoc. reflexivity.
    + rewrite IH by discriminate.
      destruct (emit_all _ rest) as [o|]; [|reflexivity]. f_equal.
      cbn [wkids flat_map written_node plain_node app]. rewrite <- app_assoc. reflexivity.
Qed.

Lemma node_emit_all : forall n, node_emit_spec n.
Proof.
  induction n as [s|name ns attrs kids IH] using xnode_ind'; unfold node_emit_spec;
    intros lvl flag fl names nst rest Hflag.
  - cbn [events_of_node app emit_all]. rewrite emit_chars_in.
    destruct (emit_all _ rest); reflexivity.
  - cbn [events_of_node]. rewrite <- app_comm_cons. cbn [emit_all]. rewrite emit_start_in.
    rewrite <- app_assoc. cbn [app]. rewrite (emit_kids_end kids IH) by discriminate.
    destruct (emit_all _ rest) as [o|]; [|reflexivity]. f_equal.
    rewrite plain_open_ws. cbn [written_node plain_node]. rewrite ns_attr_bytes.
    norm_app. reflexivity.
Qed.

Theorem xml_emit_doc ver enc sa name ns attrs kids :
  xml_emit_r (EStartDoc ver enc sa :: events_of_node (XElem name ns attrs kids)) =
  Some (decl_bytes ver (enc_or_default enc) sa ++ nl :: plain_node (written_node 0 [] (XElem name ns attrs kids))).
Proof.
  unfold xml_emit_r.
  assert (S0 : emit_one est0 (EStartDoc ver enc sa) =
               Some (decl_bytes ver (enc_or_default enc) sa, mkest true 0 [WMarkup] [] [])) by reflexivity.
  cbn [emit_all]. rewrite S0. cbn [events_of_node emit_all].
  assert (S1 : emit_one (mkest true 0 [WMarkup] [] []) (EStart name attrs (hd_error ns)) =
               Some (nl :: lt_c :: name ++ ns_attr (ns_kept [] (hd_error ns)) ++ attrs_bytes attrs ++ [gt_c],
                     mkest true 1 [WMarkup; WMarkup] [name] [ns_kept [] (hd_error ns)])) by reflexivity.
  rewrite S1.
  rewrite <- (app_nil_r (flat_map events_of_node kids ++ [EEnd])), <- app_assoc. cbn [app].
  rewrite (emit_kids_end kids) by (try discriminate; apply Forall_forall; intros; apply node_emit_all).
  cbn [emit_all]. f_equal. unfold enc_or_default. f_equal.
  cbn [written_node plain_node]. rewrite ns_attr_bytes. norm_app. rewrite ?app_nil_r. reflexivity.
Qed.

(* merging adjacent character data and dropping empty character data changes nothing that is
   read off a tree by concatenation: its serialisation, its character data *)
Section Concatenated.
  Variable h : xnode -> bytes.
  Hypothesis h_nil : h (XText []) = [].
  Hypothesis h_app : forall s s', h (XText (s ++ s')) = h (XText s) ++ h (XText s').
  Hypothesis h_elem : forall name ns attrs k k',
    flat_map h k = flat_map h k' -> h (XElem name ns attrs k) = h (XElem name ns attrs k').

  Lemma flat_map_merge_text l : flat_map h (merge_text l) = flat_map h l.
  Proof.
    induction l as [|n l IH]; [reflexivity|].
    destruct n as [nm ns at_ kids|s]; cbn [merge_text flat_map].
    - rewrite IH; reflexivity.
    - rewrite <- IH. destruct (merge_text l) as [|[|s'] r'].
      + destruct s; [rewrite h_nil|]; reflexivity.
      + destruct s; [rewrite h_nil|]; reflexivity.
      + cbn [flat_map]. rewrite h_app, app_assoc. reflexivity.
  Qed.

  Lemma norm_node_same : forall n, h (norm_node n) = h n.
  Proof.
    induction n as [s|name ns attrs kids IH] using xnode_ind'; [reflexivity|].
    cbn [norm_node]. apply h_elem. rewrite flat_map_merge_text.
    induction IH as [|k l Hk Hl IHl]; cbn [map flat_map]; [reflexivity|]. rewrite Hk, IHl. reflexivity.
  Qed.
End Concatenated.

Lemma plain_norm_node n : plain_node (norm_node n) = plain_node n.
Proof.
  apply norm_node_same; [reflexivity|intros; apply esc_pcdata_app|].
  intros name ns attrs k k' E. cbn [plain_node]. rewrite E. reflexivity.
Qed.


Lemma name_start_char c : is_name_start c = true -> is_name_char c = true.
Proof.
  unfold is_name_start, is_name_char.
  destruct (is_alpha c), (Ascii.eqb c "_"%char), (Ascii.eqb c ":"%char); try reflexivity.
  cbn [orb]. intros H. apply N.leb_le in H.
  replace (128 <=? code c)%N with true by (symmetry; apply N.leb_le; lia). reflexivity.
Qed.

Definition name_stop (X : bytes) : Prop := match X with c :: _ => is_name_char c = false | [] => True end.

Lemma span_name_app n X : forallb is_name_char n = true -> name_stop X -> span_name (n ++ X) = (n, X).
Proof.
  intros Hn HX. induction n as [|c n IH]; cbn [app].
  - destruct X as [|c X]; [reflexivity|]. cbn in HX |- *. rewrite HX. reflexivity.
  - cbn [forallb] in Hn. apply andb_true_iff in Hn. destruct Hn as [Hc Hn].
    cbn [span_name]. rewrite Hc, IH by auto. reflexivity.
Qed.

Lemma name_ok_chars n : name_ok n = true -> forallb is_name_char n = true.
Proof.
  destruct n as [|c n]; [discriminate|]. cbn. intros H. apply andb_true_iff in H. destruct H as [Hc Hn].
  rewrite (name_start_char c Hc). auto.
Qed.

Lemma parse_name_app n X : name_ok n = true -> name_stop X -> parse_name (n ++ X) = Some (n, X).
Proof.
  intros Hn HX. pose proof (name_ok_chars n Hn) as Hc.
  destruct n as [|c n]; [discriminate|]. cbn [app parse_name].
  cbn in Hn. apply andb_true_iff in Hn. destruct Hn as [Hs _]. rewrite Hs.
  change (c :: n ++ X) with ((c :: n) ++ X). rewrite span_name_app; auto.
Qed.

Lemma parse_eq_quote_lit Z : parse_eq_quote (b "=""" ++ Z) = Some (dq_c, Z).
Proof. reflexivity. Qed.

Lemma uri_char_facts c : uri_char_ok c = true ->
  Ascii.eqb c dq_c = false /\ Ascii.eqb c lt_c = false /\ Ascii.eqb c amp_c = false /\
  Ascii.eqb c tab = false /\ Ascii.eqb c nl = false /\ Ascii.eqb c cr = false /\ (32 <=? code c)%N = true.
Proof.
  unfold uri_char_ok. intros H. repeat (apply andb_true_iff in H; destruct H as [H ?]).
  rewrite !negb_true_iff in *. repeat split; auto using code_ge32_not.
Qed.

Lemma parse_attval_raw : forall u rest fuel,
  forallb uri_char_ok u = true -> List.length u < fuel ->
  parse_attval fuel dq_c (u ++ dq_c :: rest) = Some (u, rest).
Proof.
  induction u as [|c u IH]; intros rest fuel Hu Hf.
  - destruct fuel as [|f]; [inversion Hf|]. reflexivity.
  - destruct fuel as [|f]; [inversion Hf|]. cbn [List.length] in Hf.
    cbn [forallb] in Hu. apply andb_true_iff in Hu. destruct Hu as [Hc Hu].
    destruct (uri_char_facts c Hc) as (Q & L & A & T & N & C & H32).
    cbn [app parse_attval]. rewrite Q, L, A, T, N, C, H32, IH by (auto; lia). reflexivity.
Qed.

(* printed attributes: name, printed value, decoded value *)
Definition patt := (bytes * bytes * bytes)%type.
Definition patt_ok (a : patt) : Prop :=
  let '(n, V, v) := a in
  name_ok n = true /\
  forall f W, List.length V < f -> parse_attval f dq_c (V ++ dq_c :: W) = Some (v, W).
Definition patt_bytes (a : patt) : bytes :=
  let '(n, V, _) := a in sp :: n ++ b "=""" ++ V ++ [dq_c].
Definition patt_att (a : patt) : bytes * bytes := let '(n, _, v) := a in (n, v).

Lemma skip_ws_name n X : name_ok n = true -> skip_ws (n ++ X) = n ++ X.
Proof.
  destruct n as [|c n]; [discriminate|]. cbn. intros H. apply andb_true_iff in H. destruct H as [Hc _].
  unfold is_ws. rewrite !(eqb_class _ c _ Hc) by reflexivity. reflexivity.
Qed.

Lemma parse_attrs_patts : forall l, Forall patt_ok l -> forall fuel Y,
  List.length (flat_map patt_bytes l) < fuel ->
  parse_attrs fuel (flat_map patt_bytes l ++ gt_c :: Y) = Some (map patt_att l, gt_c :: Y).
Proof.
  induction 1 as [|[[n V] v] l Ha Hl IH]; intros fuel Y Hf.
  - destruct fuel as [|f]; [inversion Hf|]. reflexivity.
  - destruct fuel as [|f]; [inversion Hf|].
    destruct Ha as [Hn Hv].
    cbn [flat_map patt_bytes] in *. rewrite app_length in Hf. cbn [List.length] in Hf.
    rewrite !app_length in Hf. cbn [List.length] in Hf.
    norm_app. cbn [parse_attrs].
    assert (SK : skip_ws (sp :: n ++ b "=""" ++ V ++ dq_c :: flat_map patt_bytes l ++ gt_c :: Y)
                 = n ++ b "=""" ++ V ++ dq_c :: flat_map patt_bytes l ++ gt_c :: Y).
    { cbn [skip_ws]. change (is_ws sp) with true. cbn iota. apply skip_ws_name; auto. }
    rewrite SK. cbn [starts_ws]. change (is_ws sp) with true. cbn iota.
    assert (PN : parse_name (n ++ b "=""" ++ V ++ dq_c :: flat_map patt_bytes l ++ gt_c :: Y)
                 = Some (n, b "=""" ++ V ++ dq_c :: flat_map patt_bytes l ++ gt_c :: Y))
      by (apply parse_name_app; auto; reflexivity).
    rewrite PN.
    destruct n as [|c n']; [discriminate|].
    assert (Hc : is_name_start c = true) by (cbn in Hn; apply andb_true_iff in Hn; tauto).
    cbn [app]. rewrite !(eqb_class _ c _ Hc) by reflexivity. cbn [orb].
    rewrite parse_eq_quote_lit.
    rewrite Hv by (unfold b in Hf; cbn in Hf; lia).
    rewrite IH by (unfold b in Hf; cbn in Hf; lia). reflexivity.
Qed.

Definition xmlns_name (p : bytes) : bytes := match p with [] => b "xmlns" | _ => b "xmlns:" ++ p end.
Definition ns_patt (pu : bytes * bytes) : patt := (xmlns_name (fst pu), snd pu, snd pu).
Definition attr_patt (a : bytes * bytes) : patt := (fst a, esc_attr (snd a), snd a).

Lemma ns_bytes_patts ns : ns_bytes ns = flat_map patt_bytes (map ns_patt ns).
Proof.
  induction ns as [|[p u] ns IH]; [reflexivity|].
  unfold ns_bytes in *. cbn [flat_map map fst snd]. rewrite IH. f_equal.
  unfold ns_patt, patt_bytes, xmlns_name; cbn [fst snd].
  destruct p; unfold b; cbn; norm_app; reflexivity.
Qed.

Lemma attrs_bytes_patts attrs : attrs_bytes attrs = flat_map patt_bytes (map attr_patt attrs).
Proof.
  induction attrs as [|[n v] l IH]; [reflexivity|].
  unfold attrs_bytes in *. cbn [flat_map map]. rewrite IH. f_equal.
Qed.

Lemma xmlns_name_ok p :
  forallb is_name_char p = true -> name_ok (xmlns_name p) = true.
Proof.
  intros H. destruct p as [|c p]; [reflexivity|].
  unfold xmlns_name. change (b "xmlns:" ++ c :: p) with ("x"%char :: (b "mlns:" ++ c :: p)).
  unfold name_ok. rewrite forallb_app, H. reflexivity.
Qed.

Lemma ns_prefix_of_xmlns p : ns_prefix_of (xmlns_name p) = Some p.
Proof.
  destruct p as [|c p]; [reflexivity|].
  unfold ns_prefix_of, xmlns_name.
  assert (E : bytes_eqb (b "xmlns:" ++ c :: p) (b "xmlns") = false) by reflexivity.
  rewrite E. apply strip_prefix_app.
Qed.

Definition raw_atts (ns attrs : list (bytes * bytes)) : list (bytes * bytes) :=
  map patt_att (map ns_patt ns ++ map attr_patt attrs).

Lemma raw_atts_eq ns attrs :
  raw_atts ns attrs = map (fun pu => (xmlns_name (fst pu), snd pu)) ns ++ attrs.
Proof.
  unfold raw_atts. rewrite map_app, !map_map. f_equal.
  rewrite <- (map_id attrs) at 2. apply map_ext. intros [n v]; reflexivity.
Qed.

Definition attr_okb (a : bytes * bytes) : bool :=
  attr_name_ok (fst a) && forallb attr_char_ok (snd a) && good (snd a).

Lemma split_atts_attrs attrs : forallb attr_okb attrs = true -> split_atts attrs = ([], attrs).
Proof.
  induction attrs as [|[n v] l IH]; [reflexivity|]. cbn [forallb split_atts]. intros H.
  apply andb_true_iff in H. destruct H as [Ha Hl]. rewrite IH by auto.
  unfold attr_okb, attr_name_ok in Ha; cbn [fst snd] in Ha.
  destruct (ns_prefix_of n); [|reflexivity].
  destruct (name_ok n); cbn in Ha; discriminate.
Qed.

Lemma split_atts_raw ns attrs :
  forallb attr_okb attrs = true -> split_atts (raw_atts ns attrs) = (ns, attrs).
Proof.
  intros H. rewrite raw_atts_eq. induction ns as [|[p u] ns IH]; cbn [map app].
  - apply split_atts_attrs; auto.
  - cbn [split_atts fst snd]. rewrite IH, ns_prefix_of_xmlns. reflexivity.
Qed.

Lemma names_nodup_raw ns attrs :
  (List.length ns <=? 1) = true -> forallb attr_okb attrs = true -> names_nodup attrs = true ->
  names_nodup (raw_atts ns attrs) = true.
Proof.
  intros Hn Ha Hd. rewrite raw_atts_eq.
  destruct ns as [|[p u] [|x ns]]; [exact Hd| |discriminate].
  cbn [map app names_nodup fst snd]. rewrite Hd, andb_true_r. apply negb_true_iff.
  destruct (existsb _ attrs) eqn:E; auto.
  apply existsb_exists in E. destruct E as ([n v] & Hin & Hq). cbn [fst] in Hq.
  apply bytes_eqb_spec in Hq. subst n.
  rewrite forallb_forall in Ha. specialize (Ha _ Hin).
  unfold attr_okb, attr_name_ok in Ha; cbn [fst snd] in Ha. rewrite ns_prefix_of_xmlns in Ha.
  destruct (name_ok (xmlns_name p)); cbn in Ha; discriminate.
Qed.

(* what the reader needs of a tree to read its plain serialisation back *)
Fixpoint pwf (n : xnode) : bool :=
  match n with
  | XText s => forallb text_char_ok s && good s
  | XElem name ns attrs kids =>
    name_ok name && good name && (List.length ns <=? 1) && forallb ns_decl_ok ns && forallb attr_okb attrs &&
    names_nodup attrs && forallb pwf kids
  end.
(* merged character data: no empty text node, no two adjacent text nodes *)
Fixpoint no_adj (l : list xnode) : bool :=
  match l with
  | [] => true
  | XText _ :: r => match r with XText _ :: _ => false | _ => no_adj r end
  | _ :: r => no_adj r
  end.
Fixpoint nf (n : xnode) : bool :=
  match n with XText s => nonempty s | XElem _ _ _ kids => no_adj kids && forallb nf kids end.

Definition head_not_text (l : list xnode) : Prop := match l with XText _ :: _ => False | _ => True end.

Definition elem_parse_spec (n : xnode) : Prop :=
  match n with
  | XText _ => True
  | XElem _ _ _ _ =>
    pwf n = true -> nf n = true -> forall fuel rest, List.length (plain_node n) <= fuel ->
    parse_elem fuel (tl (plain_node n) ++ rest) = Some (n, rest)
  end.

Lemma ns_decl_patt_ok pu : ns_decl_ok pu = true -> patt_ok (ns_patt pu).
Proof.
  destruct pu as [p u]. unfold ns_decl_ok, ns_patt, patt_ok; cbn [fst snd]. intros H.
  apply andb_true_iff in H. destruct H as [Hu Hp]. apply andb_true_iff in Hu. destruct Hu as [_ Hu]. split.
  - destruct p as [|c p]; [reflexivity|]. apply xmlns_name_ok.
    apply andb_true_iff in Hp. destruct Hp as [Hp _]. apply andb_true_iff in Hp. tauto.
  - intros f W Hf. apply parse_attval_raw; auto.
Qed.

Lemma attr_patt_ok a : attr_okb a = true -> patt_ok (attr_patt a).
Proof.
  destruct a as [n v]. unfold attr_okb, attr_patt, patt_ok, attr_name_ok; cbn [fst snd]. intros H.
  apply andb_true_iff in H. destruct H as [H _]. apply andb_true_iff in H. destruct H as [Hn Hv].
  apply andb_true_iff in Hn. destruct Hn as [Hn _]. apply andb_true_iff in Hn. destruct Hn as [Hn _]. split; auto.
  intros f W Hf. apply parse_attval_esc; auto. pose proof (length_esc_attr v). lia.
Qed.

Lemma patts_name_stop L Y : name_stop (flat_map patt_bytes L ++ gt_c :: Y).
Proof. destruct L as [|[[n V] v] L]; reflexivity. Qed.

Lemma text_stop_kids l Z : head_not_text l -> forallb pwf l = true ->
  text_stop (flat_map plain_node l ++ lt_c :: "/"%char :: Z).
Proof.
  destruct l as [|[nm ns at_ kids|s] l]; cbn; intros H _; [right; eauto|right; eauto|destruct H].
Qed.

(* the content of an element, read after some character data [t] that the reader has still to
   attach: [t] can only be pending in front of a node that is not character data itself *)
Lemma parse_content_plain l :
  Forall elem_parse_spec l -> forallb pwf l = true -> no_adj l = true -> forallb nf l = true ->
  forall t fuel Z, forallb text_char_ok t = true -> t = [] \/ head_not_text l ->
    List.length (esc_pcdata t) + List.length (flat_map plain_node l) + 2 <= fuel ->
    parse_content fuel (esc_pcdata t ++ flat_map plain_node l ++ lt_c :: "/"%char :: Z) = Some (txt_cons t l, Z).
Proof.
  induction 1 as [|n l Hn Hl IH]; intros Hp Ha Hf t fuel Z Ht Hh Hfu.
  - destruct fuel as [|f]; [lia|]. cbn [parse_content flat_map app].
    pose proof (length_esc_pcdata t).
    rewrite parse_text_esc; [reflexivity|auto|right; eauto|lia].
  - cbn [forallb] in Hp, Hf. apply andb_true_iff in Hp, Hf. destruct Hp as [Hpn Hpl], Hf as [Hfn Hfl].
    assert (Hal : no_adj l = true /\ (forall s, n = XText s -> head_not_text l)).
    { destruct n; cbn in Ha; [split; [auto|discriminate]|]. destruct l as [|[] l']; try discriminate; cbn; auto. }
    destruct Hal as [Hal Hhl]. specialize (IH Hpl Hal Hfl).
    destruct n as [name ns attrs kids|s].
    + (* an element: "<" and a name start, so neither "</" nor character data *)
      destruct fuel as [|f]; [lia|]. cbn [parse_content].
      cbn [flat_map] in Hfu |- *. rewrite app_length in Hfu.
      pose proof (length_esc_pcdata t) as Lt.
      assert (Hname : name_ok name = true).
      { cbn in Hpn. repeat (apply andb_true_iff in Hpn; destruct Hpn as [Hpn ?]). auto. }
      destruct name as [|c0 name']; [discriminate|].
      assert (Hc0 : is_name_start c0 = true) by (cbn in Hname; apply andb_true_iff in Hname; tauto).
      specialize (Hn Hpn Hfn). cbn [plain_node tl app List.length] in Hn, Hfu |- *.
      rewrite parse_text_esc; [|exact Ht|right; eauto|lia].
      rewrite (eqb_class _ c0 "/"%char Hc0 eq_refl).
      rewrite <- app_assoc, Hn by lia.
      specialize (IH [] f Z eq_refl (or_introl eq_refl)). cbn [esc_pcdata flat_map app] in IH.
      rewrite IH by (cbn [List.length]; lia). reflexivity.
    + (* character data: nothing is pending, and it becomes what is pending for the rest *)
      destruct Hh as [->|[]]. cbn [esc_pcdata flat_map plain_node app] in *. rewrite app_length in Hfu.
      cbn [pwf] in Hpn. apply andb_true_iff in Hpn. destruct Hpn as [Hpn _].
      rewrite <- app_assoc, IH by (eauto; lia).
      destruct s; [discriminate|reflexivity].
Qed.

Lemma parse_elem_plain : forall n, elem_parse_spec n.
Proof.
  induction n as [s|name ns attrs kids IH] using xnode_ind'; [exact I|].
  unfold elem_parse_spec. intros Hp Hf fuel rest Hfu.
  cbn [pwf] in Hp. repeat (apply andb_true_iff in Hp; destruct Hp as [Hp ?]).
  rename Hp into Hname, H into Hkids, H0 into Hdup, H1 into Hattrs, H2 into Hnsok, H3 into Hns1.
  cbn [nf] in Hf. apply andb_true_iff in Hf. destruct Hf as [Hadj Hnf].
  destruct fuel as [|f]; [cbn in Hfu; lia|].
  cbn [plain_node tl] in *.
  set (L := map ns_patt ns ++ map attr_patt attrs).
  assert (EL : forall X, ns_bytes ns ++ attrs_bytes attrs ++ X = flat_map patt_bytes L ++ X).
  { intros X. unfold L. rewrite flat_map_app, <- app_assoc, ns_bytes_patts, attrs_bytes_patts. reflexivity. }
  assert (LL : List.length (flat_map patt_bytes L) = List.length (ns_bytes ns) + List.length (attrs_bytes attrs)).
  { unfold L. rewrite flat_map_app, app_length, ns_bytes_patts, attrs_bytes_patts. reflexivity. }
  assert (HL : Forall patt_ok L).
  { apply Forall_app; split; apply Forall_forall; intros a Ha; apply in_map_iff in Ha; destruct Ha as (x & <- & Hx).
    - apply ns_decl_patt_ok. rewrite forallb_forall in Hnsok; auto.
    - apply attr_patt_ok. rewrite forallb_forall in Hattrs; auto. }
  cbn [List.length] in Hfu. rewrite !app_length in Hfu. cbn [List.length] in Hfu. rewrite !app_length in Hfu.
  cbn [List.length] in Hfu.
  norm_app. rewrite EL. cbn [parse_elem].
  rewrite parse_name_app by (auto; apply patts_name_stop).
  rewrite parse_attrs_patts by (auto; lia).
  change (map patt_att L) with (raw_atts ns attrs). rewrite names_nodup_raw by auto. cbn [negb].
  change (Ascii.eqb gt_c gt_c) with true. cbn iota.
  pose proof (parse_content_plain kids IH Hkids Hadj Hnf [] f) as PC. cbn [esc_pcdata flat_map app] in PC.
  rewrite PC by (auto; cbn [List.length]; lia).
  rewrite parse_name_app by (auto; reflexivity).
  rewrite bytes_eqb_refl. cbn [skip_ws]. change (is_ws gt_c) with false. cbn iota.
  change (Ascii.eqb gt_c gt_c) with true. cbn iota.
  unfold mk_elem. rewrite split_atts_raw by auto. reflexivity.
Qed.

(* the written tree of a well-formed tree satisfies what the reader needs *)
Lemma nf_merge l :
  Forall (fun n => match n with XElem _ _ _ _ => nf n = true | XText _ => True end) l ->
  no_adj (merge_text l) = true /\ forallb nf (merge_text l) = true.
Proof.
  induction 1 as [|n l Hn Hl IH]; [split; reflexivity|].
  destruct IH as [IA IF]. destruct n as [nm ns at_ kids|s]; cbn [merge_text].
  - split; [exact IA|]. cbn [forallb]. rewrite Hn, IF. reflexivity.
  - destruct (merge_text l) as [|[nm ns at_ kids|s'] r'] eqn:E.
    + destruct s; split; reflexivity.
    + destruct s; split; auto.
    + cbn [forallb] in IF. apply andb_true_iff in IF. destruct IF as [Hs' IF]. split.
      * cbn [no_adj] in IA |- *. exact IA.
      * cbn [forallb]. rewrite IF, andb_true_r. cbn [nf] in *. destruct s; auto.
Qed.

Lemma nf_norm_node : forall n, match n with XElem _ _ _ _ => nf (norm_node n) = true | XText _ => True end.
Proof.
  induction n as [s|name ns attrs kids IH] using xnode_ind'; [exact I|].
  cbn [norm_node nf]. apply andb_true_iff. apply nf_merge.
  apply Forall_forall. intros x Hx. apply in_map_iff in Hx. destruct Hx as (k & <- & Hk).
  rewrite Forall_forall in IH. specialize (IH _ Hk). destruct k; [exact IH|exact I].
Qed.

Lemma pwf_merge l : forallb pwf l = true -> forallb pwf (merge_text l) = true.
Proof.
  induction l as [|n l IH]; [auto|]. cbn [forallb]. intros H. apply andb_true_iff in H. destruct H as [Hn Hl].
  specialize (IH Hl). destruct n as [nm ns at_ kids|s]; cbn [merge_text].
  - cbn [forallb]. rewrite Hn, IH. reflexivity.
  - destruct (merge_text l) as [|[nm ns at_ kids|s'] r'].
    + destruct s; cbn [forallb]; auto. rewrite Hn. reflexivity.
    + destruct s; auto. cbn [forallb] in *. rewrite Hn, IH. reflexivity.
    + cbn [forallb pwf] in *. apply andb_true_iff in IH. destruct IH as [Hs' IH].
      apply andb_true_iff in Hn, Hs'. destruct Hn as [Hn1 Hn2], Hs' as [Hs1 Hs2].
      rewrite forallb_app, Hn1, Hs1, IH, good_app by auto. reflexivity.
Qed.

Lemma pwf_norm_node : forall n, pwf n = true -> pwf (norm_node n) = true.
Proof.
  induction n as [s|name ns attrs kids IH] using xnode_ind'; [auto|].
  cbn [pwf norm_node]. intros H. apply andb_true_iff in H. destruct H as [-> H].
  apply pwf_merge. rewrite forallb_forall in *. intros x Hx. apply in_map_iff in Hx. destruct Hx as (k & <- & Hk).
  rewrite Forall_forall in IH. auto.
Qed.

Lemma text_ok_newline k : forallb text_char_ok (newline k) = true.
Proof. unfold newline. cbn [forallb]. induction k; cbn [indent forallb]; auto. Qed.

Lemma good_newline k : good (newline k) = true.
Proof.
  apply good_ascii. unfold newline. cbn [forallb]. induction k; cbn [indent forallb]; auto.
Qed.

Lemma pwf_ws k : pwf (XText (newline k)) = true.
Proof. cbn [pwf]. rewrite text_ok_newline, good_newline. reflexivity. Qed.

Lemma ns_decl_emitted pu : ns_decl_ok pu = true -> ns_emitted (Some pu) = [pu].
Proof.
  destruct pu as [p u]. unfold ns_decl_ok, ns_emitted; cbn [fst snd]. intros H.
  apply andb_true_iff in H. destruct H as [_ H]. destruct p as [|c p].
  - destruct u; [discriminate|reflexivity].
  - apply andb_true_iff in H. destruct H as [H X]. apply andb_true_iff in H. destruct H as [_ Y].
    apply negb_true_iff in X, Y. rewrite X, Y. reflexivity.
Qed.

Lemma node_wf_ns nst ns :
  match ns with
  | [] => true
  | [pu] => ns_decl_ok pu && negb (existsb (opt_pair_eqb (Some pu)) nst)
  | _ => false
  end = true ->
  ns_kept nst (hd_error ns) = hd_error ns /\ ns_emitted (hd_error ns) = ns /\
  (List.length ns <=? 1) = true /\ forallb ns_decl_ok ns = true.
Proof.
  destruct ns as [|pu [|x ns]]; [auto| |discriminate].
  intros H. apply andb_true_iff in H. destruct H as [Hd Hn]. apply negb_true_iff in Hn.
  cbn [hd_error ns_kept]. rewrite Hn. cbn [forallb]. rewrite Hd, (ns_decl_emitted _ Hd). auto.
Qed.

Lemma pwf_written : forall n lvl nst, node_wf nst n = true -> pwf (written_node lvl nst n) = true.
Proof.
  induction n as [s|name ns attrs kids IH] using xnode_ind'; intros lvl nst H; [exact H|].
  cbn [node_wf] in H. repeat (apply andb_true_iff in H; destruct H as [H ?]).
  rename H into Hname, H0 into Hkids, H1 into Hdup, H2 into Hattrs, H3 into Hns.
  destruct (node_wf_ns _ _ Hns) as (K & E & L1 & Dk).
  cbn [written_node pwf]. rewrite K, E, Hname, H4, L1, Dk, Hdup. cbn [andb].
  apply andb_true_iff; split; [rewrite andb_true_r; exact Hattrs|].
  generalize WMarkup as flag. revert Hkids.
  induction IH as [|k l Hk Hl IHl]; intros Hkids flag; cbn [wkids].
  - destruct flag; cbn [close_ws forallb]; rewrite ?pwf_ws; reflexivity.
  - cbn [forallb] in Hkids. apply andb_true_iff in Hkids. destruct Hkids as [Hk' Hl'].
    destruct k as [nm nsd at_ kk|s].
    + rewrite forallb_app. cbn [forallb]. rewrite (Hk _ _ Hk'), IHl by auto.
      destruct flag; cbn [open_ws forallb]; rewrite ?pwf_ws; reflexivity.
    + cbn [forallb]. rewrite IHl by auto. cbn [pwf node_wf] in *. rewrite Hk'. reflexivity.
Qed.

(* The serialisation of a tree that satisfies [pwf] is put together from markup characters,
   names, namespace uris, escaped attribute values and escaped character data.  What holds of
   these pieces and of the concatenation of two strings of which it holds, holds of the whole. *)
Definition is_markup (c : ascii) : bool := existsb (Ascii.eqb c) (b "<>/ =""xmlns:").

Section Pieces.
  Variable Q : bytes -> Prop.
  Hypothesis Q_nil : Q [].
  Hypothesis Q_app : forall x y, Q x -> Q y -> Q (x ++ y).
  Hypothesis Q_markup : forall c, is_markup c = true -> Q [c].
  Hypothesis Q_name : forall n, forallb is_name_char n = true -> good n = true -> Q n.
  Hypothesis Q_uri : forall u, forallb uri_char_ok u = true -> good u = true -> Q u.
  Hypothesis Q_attr : forall v, good v = true -> Q (esc_attr v).
  Hypothesis Q_text : forall s, forallb text_char_ok s = true -> good s = true -> Q (esc_pcdata s).

  Lemma Q_markups s : forallb is_markup s = true -> Q s.
  Proof.
    induction s as [|c s IH]; cbn [forallb]; intros H; [exact Q_nil|].
    apply andb_true_iff in H. apply (Q_app [c] s); [apply Q_markup|apply IH]; apply H.
  Qed.

  Lemma Q_flat_map {A} (f : A -> bytes) l : (forall a, In a l -> Q (f a)) -> Q (flat_map f l).
  Proof.
    induction l as [|a l IH]; intros H; [exact Q_nil|]. cbn [flat_map].
    apply Q_app; [apply H; left; reflexivity|apply IH; intros; apply H; right; assumption].
  Qed.

  Ltac markup := apply Q_markups; reflexivity.

  Lemma plain_node_pieces : forall n, pwf n = true -> Q (plain_node n).
  Proof.
    induction n as [s|name ns attrs kids IH] using xnode_ind'; intros H.
    - cbn [plain_node pwf] in *. apply andb_true_iff in H. apply Q_text; tauto.
    - cbn [pwf] in H. rewrite !andb_true_iff in H.
      destruct H as ((((((Hname & Hgood) & _) & Hns) & Hattrs) & _) & Hkids).
      assert (N : Q name) by (apply Q_name; [apply name_ok_chars|]; assumption).
      cbn [plain_node]. apply (Q_app [lt_c]); [markup|]. apply Q_app; [exact N|].
      apply Q_app; [|apply Q_app; [|apply Q_app; [markup|apply Q_app;
        [|apply (Q_app [lt_c; "/"%char]); [markup|apply Q_app; [exact N|markup]]]]]].
      + apply Q_flat_map. intros [p u] Hin. cbn [fst snd].
        rewrite forallb_forall in Hns. specialize (Hns _ Hin). unfold ns_decl_ok in Hns; cbn [fst snd] in Hns.
        rewrite !andb_true_iff in Hns. destruct Hns as (((Hp & Hu) & Huri) & Hpc).
        assert (U : Q u) by (apply Q_uri; assumption).
        destruct p as [|c p]; (apply Q_app; [markup|]).
        * apply Q_app; [exact U|markup].
        * rewrite !andb_true_iff in Hpc.
          apply Q_app; [apply Q_name; [apply Hpc|exact Hp]|]. apply Q_app; [markup|]. apply Q_app; [exact U|markup].
      + apply Q_flat_map. intros [n v] Hin. unfold attr_bytes; cbn [fst snd].
        rewrite forallb_forall in Hattrs. specialize (Hattrs _ Hin).
        unfold attr_okb, attr_name_ok in Hattrs; cbn [fst snd] in Hattrs.
        rewrite !andb_true_iff in Hattrs. destruct Hattrs as ((((Hn & _) & Hgn) & _) & Hv).
        apply (Q_app [sp]); [markup|]. apply Q_app; [apply Q_name; [apply name_ok_chars|]; assumption|].
        apply Q_app; [markup|]. apply Q_app; [apply Q_attr, Hv|markup].
      + apply Q_flat_map. intros k Hk. rewrite Forall_forall in IH. apply IH; [exact Hk|].
        rewrite forallb_forall in Hkids. auto.
  Qed.
End Pieces.

Lemma is_markup_cases (P : ascii -> Prop) :
  Forall P (b "<>/ =""xmlns:") -> forall c, is_markup c = true -> P c.
Proof.
  intros H c Hc. apply existsb_exists in Hc. destruct Hc as (d & Hd & E). apply Ascii.eqb_eq in E; subst d.
  rewrite Forall_forall in H. auto.
Qed.

(* no CR anywhere in the output, so end-of-line normalisation is the identity *)
Lemma no_cr_plain n : pwf n = true -> no_cr (plain_node n) = true.
Proof.
  apply (plain_node_pieces (fun s => no_cr s = true)).
  - reflexivity.
  - intros x y Hx Hy. rewrite no_cr_app, Hx, Hy. reflexivity.
  - apply is_markup_cases. repeat constructor.
  - intros nm Hn _. revert Hn. apply forallb_neq. reflexivity.
  - intros u Hu _. revert Hu. apply forallb_neq. reflexivity.
  - intros v _. apply no_cr_esc_attr.
  - intros s Hs _. apply no_cr_esc_pcdata, text_char_ok_no_cr, Hs.
Qed.

(* no U+FFFE / U+FFFF anywhere in the output *)
Lemma good_cons c x : good [c] = true -> good x = true -> good (c :: x) = true.
Proof. intros. change (c :: x) with ([c] ++ x). apply good_app; auto. Qed.

Lemma good_plain n : pwf n = true -> good (plain_node n) = true.
Proof.
  apply (plain_node_pieces (fun s => good s = true)); auto using good_app, good_esc_attr, good_esc_pcdata.
  apply is_markup_cases. repeat constructor.
Qed.

Lemma span_until_app q v W :
  forallb (fun c => negb (Ascii.eqb c q)) v = true -> span_until q (v ++ q :: W) = Some (v, W).
Proof.
  induction v as [|c v IH]; cbn [app span_until forallb].
  - rewrite Ascii.eqb_refl. reflexivity.
  - intros H. apply andb_true_iff in H. destruct H as [Hc Hv]. apply negb_true_iff in Hc.
    rewrite Hc, IH by auto. reflexivity.
Qed.

Lemma pseudo_step f n v W :
  name_ok n = true -> forallb (fun c => negb (Ascii.eqb c dq_c)) v = true ->
  parse_pseudos (S f) (sp :: n ++ b "=""" ++ v ++ dq_c :: W) =
  match parse_pseudos f W with Some (rest, s5) => Some ((n, v) :: rest, s5) | None => None end.
Proof.
  intros Hn Hv. cbn [parse_pseudos skip_ws starts_ws]. change (is_ws sp) with true. cbn iota.
  rewrite skip_ws_name by auto.
  rewrite parse_name_app by (auto; reflexivity).
  destruct n as [|c n']; [discriminate|].
  assert (Hc : is_name_start c = true) by (cbn in Hn; apply andb_true_iff in Hn; tauto).
  cbn [app strip_prefix]. unfold b at 1. cbn [list_ascii_of_string strip_prefix].
  rewrite Ascii.eqb_sym, (eqb_class _ c "?"%char Hc eq_refl).
  rewrite parse_eq_quote_lit, span_until_app by auto. reflexivity.
Qed.

Lemma pseudo_end f Y : parse_pseudos (S f) (b "?>" ++ Y) = Some ([], Y).
Proof. reflexivity. Qed.

Definition sa_text (sa : option bool) : list (bytes * bytes) :=
  match sa with Some true => [(b "standalone", b "yes")] | Some false => [(b "standalone", b "no")] | None => [] end.

Lemma enc_name_chars e : enc_name_ok e = true -> forallb enc_char e = true.
Proof.
  destruct e as [|c e]; [discriminate|]. cbn. intros H. apply andb_true_iff in H. destruct H as [Hc He].
  unfold enc_char at 1. rewrite Hc, He. reflexivity.
Qed.

Definition sa_pseudo (sa : option bool) (Y : bytes) : bytes :=
  match sa with
  | Some true => sp :: b "standalone" ++ b "=""" ++ b "yes" ++ dq_c :: Y
  | Some false => sp :: b "standalone" ++ b "=""" ++ b "no" ++ dq_c :: Y
  | None => Y
  end.

Lemma decl_bytes_shape ver enc sa Y :
  decl_bytes ver enc sa ++ Y =
  b "<?xml" ++ sp :: b "version" ++ b "=""" ++ ver_text ver ++ dq_c ::
    sp :: b "encoding" ++ b "=""" ++ enc ++ dq_c :: sa_pseudo sa (b "?>" ++ Y).
Proof.
  unfold decl_bytes. norm_app. destruct ver, sa as [[]|]; reflexivity.
Qed.

Lemma parse_decl_bytes ver enc sa Y f :
  enc_name_ok enc = true ->
  parse_pseudos (S (S (S (S f))))
    (sp :: b "version" ++ b "=""" ++ ver_text ver ++ dq_c ::
     sp :: b "encoding" ++ b "=""" ++ enc ++ dq_c :: sa_pseudo sa (b "?>" ++ Y)) =
  Some ((b "version", ver_text ver) :: (b "encoding", enc) :: sa_text sa, Y).
Proof.
  intros He.
  assert (Hq : forallb (fun c => negb (Ascii.eqb c dq_c)) enc = true).
  { apply (forallb_neq enc_char); [reflexivity|apply enc_name_chars, He]. }
  rewrite pseudo_step by (destruct ver; reflexivity).
  rewrite pseudo_step by (auto; reflexivity).
  destruct sa as [[]|]; unfold sa_pseudo, sa_text.
  - rewrite pseudo_step by reflexivity. rewrite pseudo_end. reflexivity.
  - rewrite pseudo_step by reflexivity. rewrite pseudo_end. reflexivity.
  - rewrite pseudo_end. reflexivity.
Qed.

Lemma decl_of_ok ver enc sa :
  enc_name_ok enc && is_utf8_name enc = true ->
  decl_of ((b "version", ver_text ver) :: (b "encoding", enc) :: sa_text sa) = Some (mkdecl ver enc sa).
Proof.
  intros H. unfold decl_of. rewrite !bytes_eqb_refl. cbn [negb].
  assert (V : ver_of (ver_text ver) = Some ver) by (destruct ver; reflexivity).
  rewrite V, H. cbn [negb]. destruct sa as [[]|]; reflexivity.
Qed.

Lemma enc_char_ascii c : enc_char c = true -> is_ascii c = true.
Proof.
  unfold enc_char, is_alpha, is_digit, is_ascii. intros H. apply N.ltb_lt.
  repeat (apply orb_true_iff in H; destruct H as [H|H]); try (apply Ascii.eqb_eq in H; subst; reflexivity);
    apply andb_true_iff in H; destruct H as [_ H]; apply N.leb_le in H; lia.
Qed.

Lemma good_decl_bytes ver enc sa : enc_name_ok enc = true -> good (decl_bytes ver enc sa) = true.
Proof.
  intros He. apply good_ascii. unfold decl_bytes. rewrite !forallb_app.
  assert (E : forallb is_ascii enc = true).
  { apply enc_name_chars in He. rewrite forallb_forall in *. intros c Hc. apply enc_char_ascii; auto. }
  rewrite E. destruct ver, sa as [[]|]; reflexivity.
Qed.

Lemma parse_doc_plain ver enc sa root fuel :
  enc_name_ok enc && is_utf8_name enc = true ->
  match root with XElem _ _ _ _ => True | XText _ => False end ->
  pwf root = true -> nf root = true ->
  List.length (plain_node root) + 4 <= fuel ->
  parse_doc fuel (decl_bytes ver enc sa ++ nl :: plain_node root) =
  Some (mkdoc (Some (mkdecl ver enc sa)) [root]).
Proof.
  intros He Hr Hp Hn Hf. unfold parse_doc. rewrite decl_bytes_shape, strip_prefix_app.
  destruct fuel as [|[|[|[|f]]]]; try lia.
  rewrite parse_decl_bytes by (apply andb_true_iff in He; tauto).
  rewrite decl_of_ok by auto.
  destruct root as [name ns attrs kids|s]; [|destruct Hr].
  pose proof (parse_elem_plain (XElem name ns attrs kids)) as PE. unfold elem_parse_spec in PE.
  specialize (PE Hp Hn (S (S (S (S f)))) [] ltac:(lia)). rewrite app_nil_r in PE.
  cbn [skip_ws]. change (is_ws nl) with true. cbn iota.
  cbn [plain_node] in *. cbn [skip_ws]. change (is_ws lt_c) with false. cbn iota.
  change (Ascii.eqb lt_c lt_c) with true. cbn iota. cbn [tl] in PE. rewrite PE. reflexivity.
Qed.

(* C12: a well-formed tree is read back as it was written *)
Theorem xml_text_roundtrip : forall t,
  xml_tree_wf t = true -> xml_parse (xml_emit (events_of_tree t)) = Some (as_written t).
Proof.
  intros [decl body] H. unfold xml_tree_wf in H. cbn [x_decl x_body] in H.
  apply andb_true_iff in H. destruct H as [Hd Hb].
  destruct decl as [[ver enc sa]|]; [|discriminate]. cbn [decl_wf x_enc] in Hd.
  destruct body as [|[name ns attrs kids|s] [|x body]]; try discriminate.
  set (root := XElem name ns attrs kids) in *.
  unfold events_of_tree; cbn [x_decl x_body x_ver x_enc x_sa flat_map app]. rewrite app_nil_r.
  unfold xml_emit. unfold root at 1. rewrite xml_emit_doc. cbn [enc_or_default]. fold root.
  set (W := written_node 0 [] root).
  assert (PW : pwf (norm_node W) = true) by (apply pwf_norm_node, pwf_written; exact Hb).
  assert (NW : nf (norm_node W) = true) by (apply (nf_norm_node W)).
  rewrite <- (plain_norm_node W).
  unfold xml_parse.
  assert (NC : no_cr (decl_bytes ver enc sa ++ nl :: plain_node (norm_node W)) = true).
  { rewrite no_cr_app, no_cr_cons, (no_cr_plain _ PW). unfold decl_bytes.
    apply andb_true_iff in Hd. destruct Hd as [He _].
    rewrite !no_cr_app, (forallb_neq enc_char cr enc eq_refl (enc_name_chars _ He) : no_cr enc = true).
    destruct ver, sa as [[]|]; reflexivity. }
  rewrite norm_eol_no_cr by exact NC.
  assert (NN : no_nonchar (decl_bytes ver enc sa ++ nl :: plain_node (norm_node W)) = true).
  { apply good_no_nonchar. apply andb_true_iff in Hd. destruct Hd as [He _].
    apply good_app; [apply good_decl_bytes; auto|]. apply good_cons; [reflexivity|]. apply good_plain; auto. }
  rewrite NN.
  rewrite parse_doc_plain; auto.
  - exact I.
  - rewrite app_length. cbn [List.length]. unfold decl_bytes. rewrite !app_length.
    unfold b; cbn [list_ascii_of_string List.length]. lia.
Qed.

Theorem doc_roundtrip : forall d evs t,
  to_xml d = Some evs -> tree_of_doc d = Some t -> xml_tree_wf t = true ->
  xml_parse (xml_emit evs) = Some (as_written t).
Proof.
  intros d evs t He Ht Hwf.
  destruct (to_xml_events _ _ He) as (ver & enc & sa & body & -> & _ & _ & Ht').
  rewrite Ht in Ht'. inversion Ht'; subst t; clear Ht'.
  rewrite <- (xml_text_roundtrip _ Hwf).
  (* the two event lists differ only in how the default encoding is spelled; the emitter
     reads it through the same default, so the outputs are convertible *)
  reflexivity.
Qed.

(* the same with everything unfolded: a well-formed described tree is written as a document
   that reads back as that tree with its indentation *)
Corollary xml_output_roundtrip : forall d t,
  tree_of_doc d = Some t -> xml_tree_wf t = true -> to_xml d <> None ->
  exists out, xml_output d = Some out /\ xml_parse out = Some (as_written t).
Proof.
  intros d t Ht Hwf Hne. unfold xml_output. destruct (to_xml d) as [evs|] eqn:E; [|congruence].
  exists (xml_emit evs). split; [reflexivity|]. eapply doc_roundtrip; eauto.
Qed.

(* the converter accepts a document only if its root is an element value (the check of xml.rs
   before write_node), so the body is one element and the round trip needs no hypothesis about
   its shape *)

Theorem to_xml_body_element : forall d t,
  to_xml d <> None -> tree_of_doc d = Some t ->
  exists name ns attrs kids, x_body t = [XElem name ns attrs kids].
Proof.
  intros d t Hne Ht. destruct (to_xml d) as [evs|] eqn:E; [|congruence].
  destruct (to_xml_events _ _ E) as (ver & enc & sa & body & _ & _ & Hb & Ht').
  rewrite Ht in Ht'. inversion Ht'; subst t. exact Hb.
Qed.

Lemma doc_tree_wf_xml_tree_wf t :
  (exists name ns attrs kids, x_body t = [XElem name ns attrs kids]) ->
  doc_tree_wf t = true -> xml_tree_wf t = true.
Proof.
  intros (name & ns & attrs & kids & Hb). unfold doc_tree_wf, xml_tree_wf. rewrite Hb.
  cbn [forallb]. rewrite andb_true_r. auto.
Qed.

Theorem doc_roundtrip_wf : forall d evs t,
  to_xml d = Some evs -> tree_of_doc d = Some t -> doc_tree_wf t = true ->
  xml_parse (xml_emit evs) = Some (as_written t).
Proof.
  intros d evs t He Ht Hwf. apply (doc_roundtrip d evs t He Ht).
  apply doc_tree_wf_xml_tree_wf; [|exact Hwf]. apply (to_xml_body_element d t); [congruence|exact Ht].
Qed.

(* [tree_of_doc] asks for an acceptable declaration part and an element value as root: a
   converted document has both *)
Theorem to_xml_tree_of_doc : forall d, to_xml d <> None -> tree_of_doc d <> None.
Proof.
  intros d H. destruct (to_xml d) as [evs|] eqn:E; [|congruence].
  destruct (to_xml_events _ _ E) as (ver & enc & sa & body & _ & _ & _ & ->). discriminate.
Qed.

Corollary xml_output_roundtrip_wf : forall d t,
  tree_of_doc d = Some t -> doc_tree_wf t = true -> to_xml d <> None ->
  exists out, xml_output d = Some out /\ xml_parse out = Some (as_written t).
Proof.
  intros d t Ht Hwf Hne. unfold xml_output. destruct (to_xml d) as [evs|] eqn:E; [|congruence].
  exists (xml_emit evs). split; [reflexivity|]. eapply doc_roundtrip_wf; eauto.
Qed.

Lemma ws_only_newline k : ws_only (newline k) = true.
Proof. unfold ws_only, newline. cbn [forallb]. induction k; cbn [indent forallb]; auto. Qed.

Definition strip_list (l : list xnode) : list xnode :=
  (fix go (l : list xnode) : list xnode :=
     match l with
     | [] => []
     | XText s :: r => if ws_only s then go r else XText s :: go r
     | e :: r => strip_ws e :: go r
     end) l.

Lemma strip_ws_elem name ns attrs kids :
  strip_ws (XElem name ns attrs kids) = XElem name ns attrs (strip_list kids).
Proof. reflexivity. Qed.

(* removing whitespace-only character data from the written tree gives the tree described,
   stripped the same way: indentation adds nothing else *)
Theorem strip_written : forall n lvl nst,
  node_wf nst n = true -> strip_ws (written_node lvl nst n) = strip_ws n.
Proof.
  induction n as [s|name ns attrs kids IH] using xnode_ind'; intros lvl nst H; [reflexivity|].
  cbn [node_wf] in H. repeat (apply andb_true_iff in H; destruct H as [H ?]).
  rename H0 into Hkids, H3 into Hns.
  destruct (node_wf_ns _ _ Hns) as (K & E & _ & _).
  cbn [written_node]. rewrite !strip_ws_elem, K, E. f_equal.
  generalize WMarkup as flag. revert Hkids.
  induction IH as [|k l Hk Hl IHl]; intros Hkids flag; cbn [wkids].
  - destruct flag; cbn [close_ws strip_list]; rewrite ?ws_only_newline; reflexivity.
  - cbn [forallb] in Hkids. apply andb_true_iff in Hkids. destruct Hkids as [Hk' Hl'].
    destruct k as [nm nsd at_ kk|s].
    + assert (X : strip_list (open_ws flag lvl ++ written_node (S lvl) (hd_error ns :: nst) (XElem nm nsd at_ kk)
                              :: wkids (written_node (S lvl) (hd_error ns :: nst)) lvl WMarkup l)
                  = strip_ws (written_node (S lvl) (hd_error ns :: nst) (XElem nm nsd at_ kk))
                    :: strip_list (wkids (written_node (S lvl) (hd_error ns :: nst)) lvl WMarkup l)).
      { destruct flag; cbn [open_ws app strip_list]; rewrite ?ws_only_newline; reflexivity. }
      rewrite X, (Hk _ _ Hk'), IHl by auto. reflexivity.
    + cbn [strip_list]. fold (strip_list (wkids (written_node (S lvl) (hd_error ns :: nst)) lvl WText l)).
      fold (strip_list l). rewrite IHl by auto. reflexivity.
Qed.

Theorem text_content_norm : forall n, text_content (norm_node n) = text_content n.
Proof. apply norm_node_same; [reflexivity|reflexivity|]. intros name ns attrs k k' E. exact E. Qed.

(* when the described tree has no empty and no adjacent character data, nothing is merged:
   the reader returns exactly the tree plus indentation, and stripping whitespace-only
   character data gives the described tree (stripped the same way) *)
Lemma merge_text_nf_id l : no_adj l = true -> forallb nf l = true -> merge_text l = l.
Proof.
  induction l as [|n l IH]; [reflexivity|]. intros Ha Hf.
  cbn [forallb] in Hf. apply andb_true_iff in Hf. destruct Hf as [Hn Hl].
  destruct n as [nm ns at_ kids|s]; cbn [merge_text].
  - cbn [no_adj] in Ha. rewrite IH by auto. reflexivity.
  - assert (Ha' : no_adj l = true /\ head_not_text l).
    { cbn [no_adj] in Ha. destruct l as [|[] l']; cbn; auto. discriminate. }
    destruct Ha' as [Ha' Hh]. rewrite IH by auto.
    destruct l as [|[] l']; cbn in Hh; try contradiction; destruct s; try discriminate; reflexivity.
Qed.

Lemma norm_node_nf_id : forall n, nf n = true -> norm_node n = n.
Proof.
  induction n as [s|name ns attrs kids IH] using xnode_ind'; [reflexivity|].
  cbn [nf norm_node]. intros H. apply andb_true_iff in H. destruct H as [Ha Hf].
  assert (E : map norm_node kids = kids).
  { clear Ha. induction IH as [|k l Hk Hl IHl]; [reflexivity|].
    cbn [forallb] in Hf. apply andb_true_iff in Hf. destruct Hf as [H1 H2].
    cbn [map]. rewrite Hk, IHl by auto. reflexivity. }
  rewrite E, merge_text_nf_id by auto. reflexivity.
Qed.

Lemma nonempty_newline k : nonempty (newline k) = true.
Proof. reflexivity. Qed.

Lemma nf_wkids wn lvl : forall l flag,
  (forall e, In e l -> nf e = true -> nf (wn e) = true) ->
  (forall e, match wn e with XText _ => match e with XText _ => True | _ => False end | _ => True end) ->
  no_adj l = true -> forallb nf l = true -> (flag = WText -> head_not_text l) ->
  no_adj (wkids wn lvl flag l) = true /\ forallb nf (wkids wn lvl flag l) = true /\
  (flag = WText -> head_not_text (wkids wn lvl flag l)).
Proof.
  induction l as [|n l IH]; intros flag Hwn Hshape Ha Hf Hflag.
  - cbn [wkids]. destruct flag; cbn; repeat split; auto; discriminate.
  - cbn [forallb] in Hf. apply andb_true_iff in Hf. destruct Hf as [Hn Hl].
    assert (Hwn' : forall e, In e l -> nf e = true -> nf (wn e) = true) by (intros; apply Hwn; [right|]; auto).
    destruct n as [nm ns at_ kids|s].
    + cbn [no_adj] in Ha.
      destruct (IH WMarkup Hwn' Hshape Ha Hl ltac:(discriminate)) as (A & F & _).
      cbn [wkids].
      assert (W : nf (wn (XElem nm ns at_ kids)) = true) by (apply Hwn; [left|]; auto).
      pose proof (Hshape (XElem nm ns at_ kids)) as Sh.
      destruct (wn (XElem nm ns at_ kids)) as [nm' ns' at' kids'|s'] eqn:E; [|contradiction].
      destruct flag; cbn [open_ws app no_adj forallb head_not_text]; rewrite ?W, ?F, ?A; cbn;
        repeat split; auto; discriminate.
    + assert (Ha' : no_adj l = true /\ head_not_text l).
      { cbn [no_adj] in Ha. destruct l as [|[] l']; cbn; auto. discriminate. }
      destruct Ha' as [Ha' Hh].
      destruct (IH WText Hwn' Hshape Ha' Hl (fun _ => Hh)) as (A & F & H).
      specialize (H eq_refl). cbn [wkids]. split; [|split].
      * cbn [no_adj]. destruct (wkids wn lvl WText l) as [|[] r]; cbn in H; try contradiction; auto.
      * cbn [forallb]. rewrite F. cbn [nf] in *. rewrite Hn. reflexivity.
      * intros ->. specialize (Hflag eq_refl). destruct Hflag.
Qed.

Lemma nf_written : forall n lvl nst, nf n = true -> nf (written_node lvl nst n) = true.
Proof.
  induction n as [s|name ns attrs kids IH] using xnode_ind'; intros lvl nst H; [exact H|].
  cbn [nf written_node] in *. apply andb_true_iff in H. destruct H as [Ha Hf].
  rewrite Forall_forall in IH.
  destruct (nf_wkids (written_node (S lvl) (ns_kept nst (hd_error ns) :: nst)) lvl kids WMarkup) as (A & F & _); auto.
  - intros e. destruct e; cbn; auto.
  - discriminate.
  - rewrite A, F. reflexivity.
Qed.

Theorem as_written_nf t :
  forallb nf (x_body t) = true ->
  as_written t = mkdoc (x_decl t) (map (written_node 0 []) (x_body t)).
Proof.
  intros H. unfold as_written. f_equal. apply map_ext_in. intros n Hn.
  apply norm_node_nf_id, nf_written. rewrite forallb_forall in H. auto.
Qed.

(* the reader returns [as_written t]; dropping whitespace-only character data from it gives back
   the described tree, itself so stripped *)
Theorem roundtrip_modulo_indent t :
  xml_tree_wf t = true -> forallb nf (x_body t) = true ->
  exists p, xml_parse (xml_emit (events_of_tree t)) = Some p /\ strip_ws_doc p = strip_ws_doc t.
Proof.
  intros Hwf Hnf. exists (as_written t). split; [apply xml_text_roundtrip; auto|].
  rewrite as_written_nf by auto. unfold strip_ws_doc. cbn [x_decl x_body]. f_equal.
  rewrite map_map. unfold xml_tree_wf in Hwf. apply andb_true_iff in Hwf. destruct Hwf as [_ Hb].
  destruct (x_body t) as [|[name ns attrs kids|s] [|x body]]; try discriminate.
  cbn [map]. rewrite strip_written by auto. reflexivity.
Qed.

(* a tree without whitespace-only character data is its own stripped form *)
Fixpoint no_ws_text (n : xnode) : bool :=
  match n with
  | XText s => negb (ws_only s)
  | XElem _ _ _ kids => forallb no_ws_text kids
  end.

Lemma strip_ws_id : forall n, no_ws_text n = true -> strip_ws n = n.
Proof.
  induction n as [s|name ns attrs kids IH] using xnode_ind'; [reflexivity|].
  cbn [no_ws_text]. intros H. rewrite strip_ws_elem. f_equal.
  induction IH as [|k l Hk Hl IHl]; [reflexivity|].
  cbn [forallb] in H. apply andb_true_iff in H. destruct H as [H1 H2].
  destruct k as [nm nsd at_ kk|s]; cbn [strip_list].
  - fold (strip_list l). rewrite Hk, IHl by auto. reflexivity.
  - fold (strip_list l). cbn [no_ws_text] in H1. apply negb_true_iff in H1. rewrite H1, IHl by auto. reflexivity.
Qed.

Corollary roundtrip_exact_modulo_indent t :
  xml_tree_wf t = true -> forallb nf (x_body t) = true -> forallb no_ws_text (x_body t) = true ->
  exists p, xml_parse (xml_emit (events_of_tree t)) = Some p /\ strip_ws_doc p = t.
Proof.
  intros Hwf Hnf Hws. destruct (roundtrip_modulo_indent t Hwf Hnf) as (p & Hp & Hs).
  exists p; split; auto. rewrite Hs. destruct t as [decl body]. unfold strip_ws_doc; cbn [x_decl x_body] in *.
  f_equal. rewrite <- (map_id body) at 2. apply map_ext_in. intros n Hn. apply strip_ws_id.
  rewrite forallb_forall in Hws. auto.
Qed.

(* Fuel.  Every fuelled function of the reader gives the same answer for any two fuels above
   the input length, so the choice fuel = S (length input) in [xml_parse] loses nothing. *)

Lemma strip_prefix_len p s r : strip_prefix p s = Some r -> List.length s = List.length p + List.length r.
Proof. intros H. apply strip_prefix_some in H. subst. apply app_length. Qed.

Lemma skip_ws_len s : List.length (skip_ws s) <= List.length s.
Proof. induction s as [|c s IH]; cbn [skip_ws]; auto. destruct (is_ws c); cbn [List.length]; lia. Qed.

Lemma skip_ws_cons_len s c r : skip_ws s = c :: r -> List.length r < List.length s.
Proof. intros H. pose proof (skip_ws_len s) as X. rewrite H in X. cbn [List.length] in X. lia. Qed.

Lemma span_name_len s : forall a z, span_name s = (a, z) -> List.length s = List.length a + List.length z.
Proof.
  induction s as [|c s IH]; intros a z; cbn [span_name].
  - intros H; inversion H; reflexivity.
  - destruct (is_name_char c).
    + destruct (span_name s) as [a' z'] eqn:E. intros H; inversion H; subst. cbn [List.length].
      rewrite (IH _ _ eq_refl). lia.
    + intros H; inversion H; subst. reflexivity.
Qed.

Lemma parse_name_len s n z : parse_name s = Some (n, z) -> List.length z < List.length s.
Proof.
  destruct s as [|c s]; cbn [parse_name]; [discriminate|].
  destruct (is_name_start c) eqn:E; [|discriminate]. intros H; inversion H as [H1]; clear H.
  cbn [span_name] in H1. rewrite (name_start_char c E) in H1.
  destruct (span_name s) as [a' z'] eqn:E2. inversion H1; subst. apply span_name_len in E2.
  cbn [List.length]. lia.
Qed.

Lemma read_num_len d base s : forall acc seen n r,
  read_num d base s acc seen = Some (n, r) -> List.length r < List.length s.
Proof.
  induction s as [|c s IH]; intros acc seen n r; cbn [read_num]; [discriminate|].
  destruct (Ascii.eqb c ";"%char).
  - destruct seen; [|discriminate]. intros H; inversion H; subst. cbn [List.length]. lia.
  - destruct (d c); [|discriminate]. intros H. apply IH in H. cbn [List.length]. lia.
Qed.

(* [E : strip_prefix (b "...") s = Some r] becomes the equation between the lengths *)
Ltac splen E := apply strip_prefix_len in E; unfold b in E; cbn [list_ascii_of_string List.length] in E.

Lemma parse_ref_len s x r : parse_ref s = Some (x, r) -> List.length r < List.length s.
Proof.
  assert (Num : forall d base l, match read_num d base l 0 false with
                                 | Some (n, r') => if legal_char n then Some (utf8 n, r') else None
                                 | None => None
                                 end = Some (x, r) -> List.length r < List.length l).
  { intros d base l. destruct (read_num d base l 0 false) as [[n r']|] eqn:R; [|discriminate].
    destruct (legal_char n); [|discriminate]. intros H; inversion H; subst. eapply read_num_len, R. }
  unfold parse_ref.
  destruct (strip_prefix (b "#x") s) as [l|] eqn:E1; [intros H; apply Num in H; splen E1; lia|].
  destruct (strip_prefix (b "#") s) as [l|] eqn:E2; [intros H; apply Num in H; splen E2; lia|].
  (* the five named references *)
  repeat match goal with
         | |- match strip_prefix ?p s with _ => _ end = _ -> _ =>
           destruct (strip_prefix p s) as [l|] eqn:E; [intros H; inversion H; subst; splen E; lia|clear E]
         end.
  discriminate.
Qed.

Lemma parse_text_len f : forall s t z, parse_text f s = Some (t, z) -> List.length z <= List.length s.
Proof.
  induction f as [|f IH]; intros s t z; cbn [parse_text]; [discriminate|].
  destruct s as [|c r]; [intros H; inversion H; auto|].
  destruct (Ascii.eqb c lt_c); [intros H; inversion H; auto|].
  destruct (Ascii.eqb c amp_c).
  { destruct (parse_ref r) as [[x r']|] eqn:E; [|discriminate].
    destruct (parse_text f r') as [[t' z']|] eqn:E2; [|discriminate].
    intros H; inversion H; subst. apply parse_ref_len in E. apply IH in E2. cbn [List.length]. lia. }
  destruct (cdata_end (c :: r)); [discriminate|].
  destruct (raw_ok c); [|discriminate].
  destruct (parse_text f r) as [[t' z']|] eqn:E2; [|discriminate].
  intros H; inversion H; subst. apply IH in E2. cbn [List.length]. lia.
Qed.

Lemma parse_attval_len f q : forall s t z, parse_attval f q s = Some (t, z) -> List.length z < List.length s.
Proof.
  induction f as [|f IH]; intros s t z; cbn [parse_attval]; [discriminate|].
  destruct s as [|c r]; [discriminate|].
  destruct (Ascii.eqb c q); [intros H; inversion H; subst; cbn [List.length]; lia|].
  destruct (Ascii.eqb c lt_c); [discriminate|].
  destruct (Ascii.eqb c amp_c).
  { destruct (parse_ref r) as [[x r']|] eqn:E; [|discriminate].
    destruct (parse_attval f q r') as [[t' z']|] eqn:E2; [|discriminate].
    intros H; inversion H; subst. apply parse_ref_len in E. apply IH in E2. cbn [List.length]. lia. }
  destruct (Ascii.eqb c tab || Ascii.eqb c nl || Ascii.eqb c cr).
  { destruct (parse_attval f q r) as [[t' z']|] eqn:E2; [|discriminate].
    intros H; inversion H; subst. apply IH in E2. cbn [List.length]. lia. }
  destruct (32 <=? code c)%N; [|discriminate].
  destruct (parse_attval f q r) as [[t' z']|] eqn:E2; [|discriminate].
  intros H; inversion H; subst. apply IH in E2. cbn [List.length]. lia.
Qed.

Lemma parse_eq_quote_len s q r : parse_eq_quote s = Some (q, r) -> List.length r < List.length s.
Proof.
  unfold parse_eq_quote. destruct (skip_ws s) as [|e r1] eqn:E1; [discriminate|].
  destruct (Ascii.eqb e "="%char); [|discriminate].
  destruct (skip_ws r1) as [|q' r2] eqn:E2; [discriminate|].
  destruct (is_quote q'); [|discriminate]. intros H; inversion H; subst.
  apply skip_ws_cons_len in E1, E2. lia.
Qed.

Lemma parse_attrs_len f : forall s l z, parse_attrs f s = Some (l, z) -> List.length z <= List.length s.
Proof.
  induction f as [|f IH]; intros s l z; cbn [parse_attrs]; [discriminate|].
  pose proof (skip_ws_len s) as SK.
  destruct (skip_ws s) as [|c r] eqn:E; [discriminate|].
  destruct (Ascii.eqb c gt_c || Ascii.eqb c "/"%char); [intros H; inversion H; subst; auto|].
  destruct (starts_ws s); [|discriminate].
  destruct (parse_name (c :: r)) as [[n s2]|] eqn:E1; [|discriminate].
  destruct (parse_eq_quote s2) as [[q s3]|] eqn:E2; [|discriminate].
  destruct (parse_attval f q s3) as [[v s4]|] eqn:E3; [|discriminate].
  destruct (parse_attrs f s4) as [[rest s5]|] eqn:E4; [|discriminate].
  intros H; inversion H; subst.
  apply parse_name_len in E1. apply parse_eq_quote_len in E2. apply parse_attval_len in E3. apply IH in E4. lia.
Qed.

Lemma parse_elem_content_len f :
  (forall s e z, parse_elem f s = Some (e, z) -> List.length z < List.length s) /\
  (forall s l z, parse_content f s = Some (l, z) -> List.length z < List.length s).
Proof.
  induction f as [|f [IHe IHc]]; [split; intros; discriminate|]. split.
  - intros s e z. cbn [parse_elem].
    destruct (parse_name s) as [[name s1]|] eqn:E1; [|discriminate].
    destruct (parse_attrs f s1) as [[atts s2]|] eqn:E2; [|discriminate].
    destruct (negb (names_nodup atts)); [discriminate|].
    destruct s2 as [|c r]; [discriminate|].
    apply parse_name_len in E1. apply parse_attrs_len in E2. cbn [List.length] in E2.
    destruct (Ascii.eqb c gt_c).
    + destruct (parse_content f r) as [[kids r1]|] eqn:E3; [|discriminate].
      destruct (parse_name r1) as [[n2 r2]|] eqn:E4; [|discriminate].
      destruct (bytes_eqb name n2); [|discriminate].
      destruct (skip_ws r2) as [|g r3] eqn:E5; [discriminate|].
      destruct (Ascii.eqb g gt_c); [|discriminate]. intros H; inversion H; subst.
      apply IHc in E3. apply parse_name_len in E4. apply skip_ws_cons_len in E5. lia.
    + destruct r as [|g r3]; [discriminate|].
      destruct (Ascii.eqb g gt_c); [|discriminate]. intros H; inversion H; subst.
      cbn [List.length] in E2. lia.
  - intros s l z. cbn [parse_content].
    destruct (parse_text f s) as [[t s1]|] eqn:E1; [|discriminate].
    destruct s1 as [|c r]; [discriminate|]. destruct r as [|d r']; [discriminate|].
    apply parse_text_len in E1. cbn [List.length] in E1.
    destruct (Ascii.eqb d "/"%char); [intros H; inversion H; subst; lia|].
    destruct (parse_elem f (d :: r')) as [[e r2]|] eqn:E2; [|discriminate].
    destruct (parse_content f r2) as [[ks r3]|] eqn:E3; [|discriminate].
    intros H; inversion H; subst. apply IHe in E2. apply IHc in E3. cbn [List.length] in E2. lia.
Qed.

Lemma span_until_len q s : forall a z, span_until q s = Some (a, z) -> List.length z < List.length s.
Proof.
  induction s as [|c s IH]; intros a z; cbn [span_until]; [discriminate|].
  destruct (Ascii.eqb c q); [intros H; inversion H; subst; cbn [List.length]; lia|].
  destruct (span_until q s) as [[a' z']|] eqn:E; [|discriminate].
  intros H; inversion H; subst. specialize (IH _ _ eq_refl). cbn [List.length]. lia.
Qed.

Lemma parse_text_fuel : forall f f' s, List.length s < f -> List.length s < f' -> parse_text f s = parse_text f' s.
Proof.
  induction f as [|f IH]; intros f' s H1 H2; [lia|]. destruct f' as [|f']; [lia|].
  cbn [parse_text]. destruct s as [|c r]; auto. cbn [List.length] in *.
  destruct (Ascii.eqb c lt_c); auto. destruct (Ascii.eqb c amp_c).
  { destruct (parse_ref r) as [[x r']|] eqn:E; auto. apply parse_ref_len in E.
    rewrite (IH f' r') by lia. reflexivity. }
  destruct (cdata_end (c :: r)); auto. destruct (raw_ok c); auto.
  rewrite (IH f' r) by lia. reflexivity.
Qed.

Lemma parse_attval_fuel q : forall f f' s, List.length s < f -> List.length s < f' ->
  parse_attval f q s = parse_attval f' q s.
Proof.
  induction f as [|f IH]; intros f' s H1 H2; [lia|]. destruct f' as [|f']; [lia|].
  cbn [parse_attval]. destruct s as [|c r]; auto. cbn [List.length] in *.
  destruct (Ascii.eqb c q); auto. destruct (Ascii.eqb c lt_c); auto. destruct (Ascii.eqb c amp_c).
  { destruct (parse_ref r) as [[x r']|] eqn:E; auto. apply parse_ref_len in E.
    rewrite (IH f' r') by lia. reflexivity. }
  rewrite (IH f' r) by lia. reflexivity.
Qed.

Lemma parse_attrs_fuel : forall f f' s, List.length s < f -> List.length s < f' ->
  parse_attrs f s = parse_attrs f' s.
Proof.
  induction f as [|f IH]; intros f' s H1 H2; [lia|]. destruct f' as [|f']; [lia|].
  cbn [parse_attrs]. pose proof (skip_ws_len s) as SK.
  destruct (skip_ws s) as [|c r] eqn:E; auto.
  destruct (Ascii.eqb c gt_c || Ascii.eqb c "/"%char); auto.
  destruct (starts_ws s); auto.
  destruct (parse_name (c :: r)) as [[n s2]|] eqn:E1; auto.
  destruct (parse_eq_quote s2) as [[q s3]|] eqn:E2; auto.
  apply parse_name_len in E1. apply parse_eq_quote_len in E2.
  rewrite (parse_attval_fuel q f f' s3) by lia.
  destruct (parse_attval f' q s3) as [[v s4]|] eqn:E3; auto. apply parse_attval_len in E3.
  rewrite (IH f' s4) by lia. reflexivity.
Qed.

Lemma parse_elem_content_fuel : forall f,
  (forall f' s, List.length s < f -> List.length s < f' -> parse_elem f s = parse_elem f' s) /\
  (forall f' s, S (List.length s) < f -> S (List.length s) < f' -> parse_content f s = parse_content f' s).
Proof.
  induction f as [|f [IHe IHc]]; [split; intros; lia|]. split.
  - intros f' s H1 H2. destruct f' as [|f']; [lia|]. cbn [parse_elem].
    destruct (parse_name s) as [[name s1]|] eqn:E1; auto. apply parse_name_len in E1.
    rewrite (parse_attrs_fuel f f' s1) by lia.
    destruct (parse_attrs f' s1) as [[atts s2]|] eqn:E2; auto. apply parse_attrs_len in E2.
    destruct (negb (names_nodup atts)); auto. destruct s2 as [|c r]; auto. cbn [List.length] in E2.
    destruct (Ascii.eqb c gt_c); auto.
    rewrite (IHc f' r) by lia. reflexivity.
  - intros f' s H1 H2. destruct f' as [|f']; [lia|]. cbn [parse_content].
    rewrite (parse_text_fuel f f' s) by lia.
    destruct (parse_text f' s) as [[t s1]|] eqn:E1; auto. apply parse_text_len in E1.
    destruct s1 as [|c r]; auto. destruct r as [|d r']; auto. cbn [List.length] in E1.
    destruct (Ascii.eqb d "/"%char); auto.
    rewrite (IHe f' (d :: r')) by (cbn [List.length]; lia).
    destruct (parse_elem f' (d :: r')) as [[e r2]|] eqn:E2; auto.
    apply (proj1 (parse_elem_content_len f')) in E2. cbn [List.length] in E2.
    rewrite (IHc f' r2) by lia. reflexivity.
Qed.

Lemma parse_pseudos_len f : forall s l z, parse_pseudos f s = Some (l, z) -> List.length z < List.length s.
Proof.
  induction f as [|f IH]; intros s l z; cbn [parse_pseudos]; [discriminate|].
  pose proof (skip_ws_len s) as SK.
  destruct (strip_prefix (b "?>") (skip_ws s)) as [l0|] eqn:E.
  { intros H; inversion H; subst. splen E. lia. }
  destruct (starts_ws s); [|discriminate].
  destruct (parse_name (skip_ws s)) as [[n s2]|] eqn:E1; [|discriminate].
  destruct (parse_eq_quote s2) as [[q s3]|] eqn:E2; [|discriminate].
  destruct (span_until q s3) as [[v s4]|] eqn:E3; [|discriminate].
  destruct (parse_pseudos f s4) as [[rest s5]|] eqn:E4; [|discriminate].
  intros H; inversion H; subst.
  apply parse_name_len in E1. apply parse_eq_quote_len in E2. apply span_until_len in E3. apply IH in E4. lia.
Qed.

Lemma parse_pseudos_fuel : forall f f' s, List.length s < f -> List.length s < f' ->
  parse_pseudos f s = parse_pseudos f' s.
Proof.
  induction f as [|f IH]; intros f' s H1 H2; [lia|]. destruct f' as [|f']; [lia|].
  cbn [parse_pseudos]. pose proof (skip_ws_len s) as SK.
  destruct (strip_prefix (b "?>") (skip_ws s)); auto.
  destruct (starts_ws s); auto.
  destruct (parse_name (skip_ws s)) as [[n s2]|] eqn:E1; auto.
  destruct (parse_eq_quote s2) as [[q s3]|] eqn:E2; auto.
  destruct (span_until q s3) as [[v s4]|] eqn:E3; auto.
  apply parse_name_len in E1. apply parse_eq_quote_len in E2. apply span_until_len in E3.
  rewrite (IH f' s4) by lia. reflexivity.
Qed.

Theorem parse_doc_fuel : forall f s, List.length s < f -> parse_doc f s = parse_doc (S (List.length s)) s.
Proof.
  intros f s Hf. unfold parse_doc.
  destruct (strip_prefix (b "<?xml") s) as [l|] eqn:E.
  - splen E. rewrite (parse_pseudos_fuel f (S (List.length s)) l) by lia.
    destruct (parse_pseudos (S (List.length s)) l) as [[l0 r']|] eqn:E2; auto.
    destruct (decl_of l0); auto. apply parse_pseudos_len in E2.
    pose proof (skip_ws_len r') as SK. destruct (skip_ws r') as [|c r]; auto. cbn [List.length] in SK.
    destruct (Ascii.eqb c lt_c); auto.
    rewrite (proj1 (parse_elem_content_fuel f) (S (List.length s)) r) by lia. reflexivity.
  - pose proof (skip_ws_len s) as SK. destruct (skip_ws s) as [|c r]; auto. cbn [List.length] in SK.
    destruct (Ascii.eqb c lt_c); auto.
    rewrite (proj1 (parse_elem_content_fuel f) (S (List.length s)) r) by lia. reflexivity.
Qed.

Corollary xml_parse_fuel : forall s f, List.length (norm_eol s) < f ->
  xml_parse s = if no_nonchar (norm_eol s) then parse_doc f (norm_eol s) else None.
Proof. intros s f H. unfold xml_parse. rewrite (parse_doc_fuel f) by auto. reflexivity. Qed.

(* get_xml_chars: whatever is written as character data or as an attribute value consists of
   XML characters *)

Definition ev_chars_ok (e : xevent) : bool :=
  match e with
  | EChars s => xml_chars_ok s
  | EStart _ attrs _ => forallb (fun a => xml_chars_ok (snd a)) attrs
  | _ => true
  end.

Lemma attr_list_chars_ok afs : forall al,
  attr_list afs = XOk al -> forallb (fun a => xml_chars_ok (snd a)) al = true.
Proof.
  induction afs as [|[k v] afs IH]; intros al; cbn [attr_list].
  - intros H; inversion H; reflexivity.
  - destruct (is_empty v); [apply IH|].
    intros H. apply xbind_ok in H. destruct H as (s0 & _ & H).
    apply xbind_ok in H. destruct H as (s' & Hs & H). apply get_xml_chars_ok in Hs. destruct Hs as [-> Hs].
    apply xbind_ok in H. destruct H as (rest & Hr & H). inversion H; subst.
    cbn [forallb snd]. rewrite Hs, (IH _ Hr). reflexivity.
Qed.

Theorem write_node_chars_ok : forall v evs, write_node v = XOk evs -> forallb ev_chars_ok evs = true.
Proof.
  induction v as [v _ Ht] using val_deep_ind.
  intros evs Hw. destruct v; try discriminate.
  - cbn [write_node] in Hw. apply xbind_ok in Hw. destruct Hw as (s' & Hs & Hw).
    apply get_xml_chars_ok in Hs. destruct Hs as [-> Hs]. inversion Hw; subst. cbn. rewrite Hs; reflexivity.
  - apply write_node_tuple_ok in Hw. unfold tuple_events in Hw.
    pose proof (kids_in_effect_deep _ fs (Ht fs eq_refl)) as Hk.
    destruct (field_last (b "name") fs) as [n|], (field_last_nn (b "text") fs) as [t|]; try discriminate.
    + apply xbind_ok in Hw. destruct Hw as (name & _ & Hw).
      apply xbind_ok in Hw. destruct Hw as (al & Hal & Hw).
      apply xbind_ok in Hw. destruct Hw as (kevs & Hkevs & Hw). inversion Hw; subst evs.
      cbn [forallb ev_chars_ok]. rewrite forallb_app, (attr_list_chars_ok _ _ Hal). cbn [forallb ev_chars_ok andb].
      rewrite andb_true_r. clear Hw. revert kevs Hkevs.
      induction Hk as [|c l Hc _ IH]; intros kevs Hkevs; cbn in Hkevs.
      * inversion Hkevs; reflexivity.
      * apply xbind_ok in Hkevs. destruct Hkevs as (a & Ha & Hkevs).
        apply xbind_ok in Hkevs. destruct Hkevs as (r & Hr & Hkevs).
        inversion Hkevs; subst. rewrite forallb_app, (Hc _ Ha), (IH _ Hr). reflexivity.
    + apply xbind_ok in Hw. destruct Hw as (t0 & _ & Hw). apply xbind_ok in Hw. destruct Hw as (t' & Hc & Hw).
      apply get_xml_chars_ok in Hc. destruct Hc as [-> Hc]. inversion Hw; subst. cbn. rewrite Hc; reflexivity.
    + inversion Hw; reflexivity.
Qed.

Corollary to_xml_chars_ok : forall d evs, to_xml d = Some evs -> forallb ev_chars_ok evs = true.
Proof.
  intros d evs E. apply to_xml_some in E. destruct E as (fs & -> & E). unfold doc_events in E.
  destruct (field_last (b "root") fs) as [root|]; [|discriminate].
  apply xbind_ok in E. destruct E as (ver & _ & E). destruct (negb (root_is_element root)); [discriminate|].
  apply xbind_ok in E. destruct E as (nevs & Hn & E).
  inversion E; subst. cbn [forallb ev_chars_ok]. eapply write_node_chars_ok; eauto.
Qed.
