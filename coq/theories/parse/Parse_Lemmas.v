(* PROOFS about the parser model (Parse.v) and the print/parse round trip (Parse_Toks.v): the parser at fuel n
   on the tokens of an AST of size below n, level by level ([pe_spec] / [ps_spec] for the level below), then
   [parse_tokens_of] for expressions, statements, programs; the parser only builds well-formed binary trees;
   the composition with the lexer side ([lex_of_print], proved in Parse_Lex.v). *)
From Ucg Require Import base.Bytes base.Bytes_Lemmas prec.Climb prec.Climb_Lemmas sem.Ast lex.Lex_Types lex.Lex
  print.Print lex.Lex_Lemmas print.Print_Lemmas parse.Parse parse.Parse_Toks.
From UcgGen Require Import PrecTable.
Local Open Scope string_scope.
Local Open Scope list_scope.

Fixpoint esize (e : expr) {struct e} : nat :=
  let fs_size (fs : list (bytes * expr)) := list_sum (map (fun kv => esize (snd kv)) fs) in
  match e with
  | ENull | EBool _ | EInt _ | EFloat _ | EStr _ | ESym _ | EImport _ | EInclude _ _ => 1
  | ETuple fs => S (fs_size fs)
  | EList es => S (list_sum (map esize es))
  | EBin _ l r => S (esize l + esize r)
  | ENot e1 | EGroup e1 | EFail e1 | ETrace e1 | EConvert _ e1 | ECast _ e1 | EFunc _ e1 => S (esize e1)
  | ECopy t fs => S (esize t + fs_size fs)
  | ERange s st en => S (esize s + match st with Some x => esize x | None => 0 end + esize en)
  | EFormatL _ args => S (list_sum (map esize args))
  | EFormatS _ a => S (esize a)
  | ECall f args => S (esize f + list_sum (map esize args))
  | ESelect v d arms => S (esize v + match d with Some x => esize x | None => 0 end + fs_size arms)
  | EMap f t | EFilter f t => S (esize f + esize t)
  | EReduce f a t => S (esize f + esize a + esize t)
  | EModule ps out body =>
      S (fs_size ps + match out with Some x => esize x | None => 0 end + list_sum (map ssize body))
  end
with ssize (s : stmt) {struct s} : nat :=
  match s with SLet _ e | SExpr e | SAssert e | SOut _ e => S (esize e) end.

Lemma stoks_eq ind s :
  stoks ind s = match s with
                | SLet x e => W "let" :: (BAREWORD, x) :: P "=" :: etoks ind e ++ [P ";"]
                | SExpr e => etoks ind e ++ [P ";"]
                | SAssert e => W "assert" :: etoks ind e ++ [P ";"]
                | SOut t e => W "out" :: (BAREWORD, t) :: etoks ind e ++ [P ";"]
                end.
Proof. destruct s; reflexivity. Qed.
Lemma stmt_ok_eq ind s :
  stmt_ok ind s = match s with
                  | SLet x e => (negb (bytes_eqb x (b "env")) && pp_ok ind e)%bool
                  | SExpr e => (negb (starts_stmt_kw (etoks ind e)) && pp_ok ind e)%bool
                  | SAssert e | SOut _ e => pp_ok ind e
                  end.
Proof. destruct s; reflexivity. Qed.
Lemma snorm_eq ind s :
  snorm ind s = match s with
                | SLet x e => SLet x (norm ind e)
                | SExpr e => SExpr (norm ind e)
                | SAssert e => SAssert (norm ind e)
                | SOut t e => SOut t (norm ind e)
                end.
Proof. destruct s; reflexivity. Qed.
Lemma ssize_eq s : ssize s = match s with SLet _ e | SExpr e | SAssert e | SOut _ e => Datatypes.S (esize e) end.
Proof. destruct s; reflexivity. Qed.

Lemma esize_pos e : 1 <= esize e.
Proof. destruct e; cbn; lia. Qed.

Lemma list_sum_in {A} (f : A -> nat) x l : In x l -> f x <= list_sum (map f l).
Proof.
  induction l as [|y l IH]; [intros []|].
  change (list_sum (map f (y :: l))) with (f y + list_sum (map f l)).
  intros [->|H]; [lia|]. specialize (IH H). lia.
Qed.

(* tokens that may follow a complete expression in printed text *)
Definition stop (t : ptok) : bool :=
  (is_tok PUNCT "," t || is_tok PUNCT ";" t || is_tok PUNCT ")" t || is_tok PUNCT "]" t || is_tok PUNCT "}" t)%bool.
Definition stops (w : list ptok) : Prop := match w with t :: _ => stop t = true | [] => False end.
(* tokens on which `expression` / `statement` / field_value fail at once *)
Definition closer (t : ptok) : bool :=
  (is_tok PUNCT ")" t || is_tok PUNCT "]" t || is_tok PUNCT "}" t)%bool.

Lemma ty_eqb_eq x y : ty_eqb x y = true -> x = y.
Proof. destruct x, y; cbn; congruence. Qed.

Lemma is_tok_eq ty s t : is_tok ty s t = true -> t = (ty, b s).
Proof.
  destruct t as [ty' f]. unfold is_tok. cbn [fst snd]. intros H. apply andb_true_iff in H as [H1 H2].
  apply ty_eqb_eq in H1. apply bytes_eqb_spec in H2. now subst.
Qed.

Lemma stop_cases t : stop t = true -> t = P "," \/ t = P ";" \/ t = P ")" \/ t = P "]" \/ t = P "}".
Proof.
  unfold stop. intros H. repeat (apply orb_true_iff in H as [H|H]); apply is_tok_eq in H; auto 6.
Qed.

Lemma binop_cases t o : binop_of t = Some o -> t = op_tok o.
Proof.
  unfold binop_of, binop_table, lookup_op.
  repeat match goal with
         | |- (if is_tok ?ty ?s t then _ else _) = _ -> _ =>
           let E := fresh "E" in destruct (is_tok ty s t) eqn:E;
           [apply is_tok_eq in E; subst t; intros H; inversion H; reflexivity|]
         end.
  discriminate.
Qed.

Lemma binop_op_tok o : binop_of (op_tok o) = Some o.
Proof. destruct o; reflexivity. Qed.

Lemma binop_stop t : stop t = true -> binop_of t = None.
Proof. intros H. destruct (stop_cases t H) as [-> | [-> | [-> | [-> | -> ]]]]; reflexivity. Qed.

(* what may follow a closed operand: a binary operator or a stop token *)
Definition follow (t : ptok) : bool := (match binop_of t with Some _ => true | None => false end || stop t)%bool.

Lemma follow_cases t : follow t = true -> (exists o, t = op_tok o) \/ stop t = true.
Proof.
  unfold follow. destruct (binop_of t) eqn:E; cbn.
  - intros _. left. exists o. now apply binop_cases.
  - intros H. now right.
Qed.

(* the facts about a follow token that the operand parsers look at *)
Lemma follow_facts t : follow t = true ->
  is_tok PUNCT "{" t = false /\ is_tok PUNCT "[" t = false /\ is_tok PUNCT "(" t = false /\
  is_tok PUNCT ":" t = false /\ is_tok PUNCT "%" t = false /\ is_tok PUNCT "::" t = false.
Proof.
  intros H. destruct (follow_cases t H) as [[o ->]|Hs].
  - destruct o; repeat split; reflexivity.
  - destruct (stop_cases t Hs) as [-> | [-> | [-> | [-> | -> ]]]]; repeat split; reflexivity.
Qed.

Lemma stop_follow t : stop t = true -> follow t = true.
Proof. intros H. unfold follow. rewrite H. apply orb_true_r. Qed.

Lemma stop_not_dot t : stop t = true -> is_tok PUNCT "." t = false.
Proof. intros H. destruct (stop_cases t H) as [-> | [-> | [-> | [-> | -> ]]]]; reflexivity. Qed.

Definition kwtok (t : ptok) : bool :=
  match t with (BAREWORD, x) => mem x expr_keywords | _ => false end.

Lemma word_not_kw s t ts : kwtok t = false -> mem (b s) expr_keywords = true -> word s (t :: ts) = Fail.
Proof.
  intros Hk Hin. unfold word, tok. destruct (is_tok BAREWORD s t) eqn:E; [|reflexivity].
  apply is_tok_eq in E. subst t. cbn [kwtok] in Hk. congruence.
Qed.

Lemma non_op_not_kw pe ps t ts : kwtok t = false ->
  non_op_expression pe ps (t :: ts) =
  (range_expression pe (t :: ts) <|> grouped_expression pe (t :: ts) <|> unprefixed_expression pe (t :: ts)).
Proof.
  intros Hk.
  unfold non_op_expression, func_op_expression, reduce_expression, map_filter, func_expression,
    import_expression, prefix_expression, convert_expression, module_expression, select_expression,
    include_expression.
  rewrite !(word_not_kw _ t ts Hk) by reflexivity.
  destruct (range_expression pe (t :: ts)); try reflexivity.
  destruct (grouped_expression pe (t :: ts)); reflexivity.
Qed.

Lemma kwtok_sym x : sym_free x = true -> kwtok (BAREWORD, x) = false.
Proof. unfold sym_free, kwtok. now intros H%negb_true_iff. Qed.

Section Lists.
  Context {A X : Type}.
  Variable item : list ptok -> res A.
  Variable tk : X -> list ptok.
  Variable nm : X -> A.

  (* the two shapes in which the printer writes a list: every item followed by a comma (lists, tuples,
     calls with several arguments), and items joined by commas (format arguments, parameters, a single
     call argument) *)
  Definition commas1 (xs : list X) : list ptok := flat_map (fun x => tk x ++ [P ","]) xs.
  Definition commas2 (xs : list X) : list ptok := flat_map (fun x => P "," :: tk x) xs.

  Lemma join_toks_cons x xs : join_toks (map tk (x :: xs)) = tk x ++ commas2 xs.
  Proof.
    revert x. induction xs as [|y xs IH]; intros x.
    - cbn. now rewrite app_nil_r.
    - change (join_toks (map tk (x :: y :: xs))) with (tk x ++ P "," :: join_toks (map tk (y :: xs))).
      rewrite IH. reflexivity.
  Qed.

  Lemma commas1_join x xs z : commas1 (x :: xs) ++ z = join_toks (map tk (x :: xs)) ++ P "," :: z.
  Proof.
    rewrite join_toks_cons. unfold commas1. cbn [flat_map]. fold (commas1 xs). rewrite <- !app_assoc. cbn [app]. f_equal.
    induction xs as [|y xs IH]; [reflexivity|].
    unfold commas1, commas2 in *. cbn [flat_map]. rewrite <- !app_assoc. cbn [app]. do 2 f_equal. exact IH.
  Qed.

  Lemma commas2_length xs : List.length xs <= List.length (commas2 xs).
  Proof.
    induction xs as [|x xs IH]; [cbn; lia|]. unfold commas2 in *. cbn [flat_map].
    rewrite app_length. cbn [List.length]. lia.
  Qed.

  Lemma sep_tail_comma n ts :
    sep_tail item (S n) (P "," :: ts) =
    match item ts with
    | Ok a rest => match sep_tail item n rest with
                   | Ok l rest' => Ok (a :: l) rest'
                   | Fail => Fail | Abort => Abort | Unsup => Unsup | NoFuel => NoFuel
                   end
    | Fail => Ok [] (P "," :: ts)
    | Abort => Abort | Unsup => Unsup | NoFuel => NoFuel
    end.
  Proof. reflexivity. Qed.

  Lemma sep_tail_nocomma n c ts : is_tok PUNCT "," c = false -> sep_tail item (S n) (c :: ts) = Ok [] (c :: ts).
  Proof. intros H. cbn [sep_tail]. unfold punct, tok. now rewrite H. Qed.

  (* separated! on a printed list followed by [z], where the loop stops at [z]: either [z] does not start with
     a comma, or the comma is followed by something that is no item.  [F] is what an item may be followed by. *)
  Variable F : list ptok -> Prop.
  Variable z : list ptok.
  Hypothesis F_comma : forall r, F (P "," :: r).
  Hypothesis F_z : F z.
  Hypothesis stop_z : forall k, sep_tail item (S k) z = Ok [] z.

  Lemma sep_tail_spec : forall xs n, List.length xs < n ->
    (forall x w, In x xs -> F w -> item (tk x ++ w) = Ok (nm x) w) ->
    sep_tail item n (commas2 xs ++ z) = Ok (map nm xs) z.
  Proof.
    induction xs as [|x xs IH]; intros n Hn Hit; (destruct n as [|n]; [cbn in Hn; lia|]).
    - apply stop_z.
    - unfold commas2. cbn [flat_map]. fold (commas2 xs). rewrite <- app_assoc. cbn [app].
      rewrite sep_tail_comma, Hit; [|now left|destruct xs; [exact F_z|apply F_comma]].
      rewrite (IH n); [reflexivity|cbn in Hn; lia|]. intros y w Hy. apply Hit. now right.
  Qed.

  Lemma separated_spec x xs :
    (forall y w, In y (x :: xs) -> F w -> item (tk y ++ w) = Ok (nm y) w) ->
    separated item (join_toks (map tk (x :: xs)) ++ z) = Ok (map nm (x :: xs)) z.
  Proof.
    intros Hit. unfold separated. rewrite join_toks_cons, <- app_assoc.
    rewrite Hit; [|now left|destruct xs; [exact F_z|apply F_comma]].
    rewrite sep_tail_spec; [reflexivity| |intros y w Hy; apply Hit; now right].
    rewrite app_length. pose proof (commas2_length xs). lia.
  Qed.
End Lists.

(* the two endings *)
Lemma separated_closed {A X} (item : list ptok -> res A) (tk : X -> list ptok) (nm : X -> A)
  (F : list ptok -> Prop) c rest x xs :
  (forall r, F (P "," :: r)) -> F (c :: rest) -> is_tok PUNCT "," c = false ->
  (forall y w, In y (x :: xs) -> F w -> item (tk y ++ w) = Ok (nm y) w) ->
  separated item (join_toks (map tk (x :: xs)) ++ c :: rest) = Ok (map nm (x :: xs)) (c :: rest).
Proof. intros Fc Fz Hc Hit. apply (separated_spec item tk nm F); auto. intros k. now apply sep_tail_nocomma. Qed.

Lemma separated_trailing {A X} (item : list ptok -> res A) (tk : X -> list ptok) (nm : X -> A)
  (F : list ptok -> Prop) c rest x xs :
  (forall r, F (P "," :: r)) -> item (c :: rest) = Fail ->
  (forall y w, In y (x :: xs) -> F w -> item (tk y ++ w) = Ok (nm y) w) ->
  separated item (commas1 tk (x :: xs) ++ c :: rest) = Ok (map nm (x :: xs)) (P "," :: c :: rest).
Proof.
  intros Fc Hc Hit. rewrite commas1_join. apply (separated_spec item tk nm F); auto.
  intros k. now rewrite sep_tail_comma, Hc.
Qed.

Lemma digits_val_app s : forall a t,
  digits_val a (s ++ t) = match digits_val a s with Some v => digits_val v t | None => None end.
Proof.
  induction s as [|c s IH]; intros a t; [reflexivity|]. cbn [app digits_val].
  destruct (digit_val c); [apply IH|reflexivity].
Qed.

Lemma digit_val_char d : (d < 10)%N -> digit_val (digit_char d) = Some (Z.of_N d).
Proof.
  intros H. unfold digit_val, digit_char. rewrite N_ascii_embedding by lia.
  replace (N.leb 48 (48 + d)) with true by (symmetry; apply N.leb_le; lia).
  replace (N.leb (48 + d) 57) with true by (symmetry; apply N.leb_le; lia).
  cbn [andb]. f_equal. lia.
Qed.

Lemma dec_fuel_acc f : forall n acc, dec_fuel f n acc = dec_fuel f n [] ++ acc.
Proof.
  induction f as [|f IH]; intros n acc; [reflexivity|]. cbn [dec_fuel].
  destruct (N.eqb (N.div n 10) 0); [reflexivity|].
  rewrite (IH _ (_ :: acc)), (IH _ [_]). now rewrite <- app_assoc.
Qed.

Lemma dec_fuel_val f : forall n, (n < 10 ^ N.of_nat f)%N ->
  digits_val 0 (dec_fuel f n []) = Some (Z.of_N n).
Proof.
  induction f as [|f IH]; intros n Hn.
  - cbn in Hn. assert (n = 0%N) by lia. subst. reflexivity.
  - cbn [dec_fuel]. pose proof (N.div_mod n 10 ltac:(lia)) as Hdm.
    pose proof (N.mod_lt n 10 ltac:(lia)) as Hm.
    destruct (N.eqb (N.div n 10) 0) eqn:E.
    + apply N.eqb_eq in E. cbn [digits_val]. rewrite digit_val_char by exact Hm.
      cbn [digits_val]. f_equal. lia.
    + rewrite dec_fuel_acc, digits_val_app. rewrite IH.
      * cbn [digits_val]. rewrite digit_val_char by exact Hm. cbn [digits_val]. f_equal. lia.
      * rewrite Nat2N.inj_succ, N.pow_succ_r' in Hn. apply N.div_lt_upper_bound; lia.
Qed.

Lemma dec_of_N_val n : digits_val 0 (dec_of_N n) = Some (Z.of_N n).
Proof.
  unfold dec_of_N. apply dec_fuel_val.
  rewrite Nat2N.inj_succ, N2Nat.id.
  destruct n as [|p]; [reflexivity|].
  pose proof (N.log2_spec (N.pos p) ltac:(lia)) as [_ H].
  eapply N.lt_le_trans; [exact H|]. apply N.pow_le_mono_l. lia.
Qed.

Lemma int_of_digits_dec z : int_rt z = true -> int_of_digits (dec_of_Z z) = Some z.
Proof.
  unfold int_rt. intros H. apply andb_true_iff in H as [H0 H1]. apply Z.leb_le in H0.
  destruct (dec_of_Z_digits z H0) as [Hne _]. unfold int_of_digits.
  destruct (dec_of_Z z) as [|c r] eqn:E; [congruence|]. rewrite <- E.
  assert (Hv : digits_val 0 (dec_of_Z z) = Some z).
  { destruct z as [|p|p]; [reflexivity| |lia]. cbn [dec_of_Z]. now rewrite dec_of_N_val. }
  rewrite Hv, H1. reflexivity.
Qed.

Lemma punct_P s r : punct s (P s :: r) = Ok tt r.
Proof. unfold punct, tok, is_tok, P. cbn [fst snd ty_eqb andb]. now rewrite bytes_eqb_refl. Qed.

Lemma punct_comma_rparen r : punct "," (P ")" :: r) = Fail.
Proof. reflexivity. Qed.

(* consumes the punctuation tokens at the head of the input, through must! and optional! *)
Ltac adv := repeat (progress (rewrite ?punct_P, ?punct_comma_rparen; cbn [must optional])).
(* the token tests of the grammar on explicit tokens *)
Ltac tok_eval :=
  cbn [word tok is_tok fst snd ty_eqb andb W P b list_ascii_of_string bytes_eqb Ascii.eqb Bool.eqb match_type must].

Section Operands.
  Variable ind : nat.
  Variable pe : list ptok -> res expr.
  Variable ps : list ptok -> res stmt.

  Definition pe_spec (n : nat) : Prop :=
    forall e, esize e < n -> pp_ok ind e = true ->
    forall t r, stop t = true -> pe (etoks ind e ++ t :: r) = Ok (norm ind e) (t :: r).
  Definition ps_spec (n : nat) : Prop :=
    forall s, ssize s < n -> stmt_ok ind s = true ->
    forall r, ps (stoks ind s ++ r) = Ok (snorm ind s) r.
  Hypothesis pe_closer : forall t r, closer t = true -> pe (t :: r) = Fail.
  Hypothesis ps_closer : forall r, ps (P "}" :: r) = Fail.

  Lemma pe_spec_mono n m : m <= n -> pe_spec n -> pe_spec m.
  Proof. intros H S e He. apply S. lia. Qed.
  Lemma ps_spec_mono n m : m <= n -> ps_spec n -> ps_spec m.
  Proof. intros H S e He. apply S. lia. Qed.

  Definition ftoks (kv : bytes * expr) : list ptok := name_tok (fst kv) :: P "=" :: etoks ind (snd kv).
  Definition fnorm (kv : bytes * expr) : bytes * expr := (fst kv, norm ind (snd kv)).

  Lemma field_name_tok k r : field_name (name_tok k :: r) = Ok k r.
  Proof.
    unfold name_tok, Print.name_tok. destruct (is_bareword k); [|reflexivity].
    destruct (bytes_eqb k (b "true") || bytes_eqb k (b "false"))%bool; reflexivity.
  Qed.

  Lemma field_value_spec n kv t r : pe_spec n -> esize (snd kv) < n -> pp_ok ind (snd kv) = true ->
    stop t = true -> field_value pe (ftoks kv ++ t :: r) = Ok (fnorm kv) (t :: r).
  Proof.
    intros S Hs Hok Ht. unfold field_value, ftoks. cbn [app]. rewrite field_name_tok.
    unfold no_shape_suffix. change (punct "::" (P "=" :: etoks ind (snd kv) ++ t :: r)) with (@Fail unit).
    cbv iota. rewrite punct_P. cbn [must]. rewrite (S _ Hs Hok t r Ht). reflexivity.
  Qed.

  Lemma fields_size_in (fs : list (bytes * expr)) kv :
    In kv fs -> esize (snd kv) <= list_sum (map (fun kv => esize (snd kv)) fs).
  Proof. apply (list_sum_in (fun kv => esize (snd kv))). Qed.

  Lemma forallb_in {A} (f : A -> bool) l x : forallb f l = true -> In x l -> f x = true.
  Proof. intros H. now apply forallb_forall. Qed.

  Lemma field_list_spec n kv (fs : list (bytes * expr)) rest : pe_spec n ->
    list_sum (map (fun kv => esize (snd kv)) (kv :: fs)) < n ->
    forallb (fun kv => pp_ok ind (snd kv)) (kv :: fs) = true ->
    field_list pe (commas1 ftoks (kv :: fs) ++ P "}" :: rest) = Ok (map fnorm (kv :: fs)) (P "," :: P "}" :: rest).
  Proof.
    intros S Hn Hok. apply (separated_trailing _ _ _ stops); [reflexivity|reflexivity|].
    intros y [|t r] Hy Hw; [destruct Hw|].
    apply (field_value_spec n); [exact S| |now apply (forallb_in _ _ y Hok)|exact Hw].
    pose proof (fields_size_in _ _ Hy). lia.
  Qed.

  Lemma braced_fields_spec n (fs : list (bytes * expr)) rest : pe_spec n ->
    list_sum (map (fun kv => esize (snd kv)) fs) < n ->
    forallb (fun kv => pp_ok ind (snd kv)) fs = true ->
    braced_fields pe (commas1 ftoks fs ++ P "}" :: rest) = Ok (map fnorm fs) rest.
  Proof.
    intros S Hn Hok. unfold braced_fields. destruct fs as [|kv fs]; [reflexivity|].
    rewrite (field_list_spec n) by assumption. cbn [optional]. now rewrite !punct_P.
  Qed.

  Lemma fields_toks (fs : list (bytes * expr)) z :
    (P "{" :: flat_map (fun kv => name_tok (fst kv) :: P "=" :: etoks ind (snd kv) ++ [P ","]) fs ++ [P "}"]) ++ z
    = P "{" :: commas1 ftoks fs ++ P "}" :: z.
  Proof. cbn [app]. rewrite <- app_assoc. reflexivity. Qed.

  Lemma fields_commas1 (fs : list (bytes * expr)) :
    flat_map (fun kv => name_tok (fst kv) :: P "=" :: etoks ind (snd kv) ++ [P ","]) fs = commas1 ftoks fs.
  Proof. reflexivity. Qed.

  Lemma pe_items n es : pe_spec n -> list_sum (map esize es) < n -> forallb (pp_ok ind) es = true ->
    forall y w, In y es -> stops w -> pe (etoks ind y ++ w) = Ok (norm ind y) w.
  Proof.
    intros S Hn Hok y [|t r] Hy Hw; [destruct Hw|]. apply S; [|now apply (forallb_in _ _ y Hok)|exact Hw].
    pose proof (list_sum_in esize y _ Hy). lia.
  Qed.

  Lemma list_items_spec n es rest : pe_spec n -> list_sum (map esize es) < n -> forallb (pp_ok ind) es = true ->
    list_value pe (P "[" :: commas1 (etoks ind) es ++ P "]" :: rest) = Ok (EList (map (norm ind) es)) rest.
  Proof.
    intros S Hn Hok. unfold list_value. rewrite punct_P. destruct es as [|e es].
    - cbn [commas1 flat_map app map]. unfold separated. rewrite pe_closer by reflexivity. reflexivity.
    - rewrite (separated_trailing pe (etoks ind) (norm ind) stops (P "]") rest e es);
        [|reflexivity|now apply pe_closer|now apply (pe_items n (e :: es))].
      cbn [optional]. now rewrite !punct_P.
  Qed.

  Definition after_ok (a : expr) (after : list ptok) : Prop :=
    match after with
    | t :: r => follow t = true /\
                (ends_digit a = true -> is_tok PUNCT "." t = true -> starts_digit r = false)
    | [] => False
    end.

  (* the weaker condition the value parsers need *)
  Definition after_ok0 (a : expr) (after : list ptok) : Prop :=
    match after with
    | t :: r => opens (t :: r) = false /\
                (ends_digit a = true -> is_tok PUNCT "." t = true -> starts_digit r = false)
    | [] => False
    end.

  Lemma after_ok_stop a t r : stop t = true -> after_ok a (t :: r).
  Proof.
    intros H. split; [now apply stop_follow|]. intros _ Hd. rewrite (stop_not_dot t H) in Hd. discriminate.
  Qed.

  Lemma opens_follow t r : follow t = true -> opens (t :: r) = false.
  Proof. intros H. destruct (follow_facts t H) as (H1 & H2 & H3 & _). unfold opens. now rewrite H1, H2, H3. Qed.

  Lemma punct_follow s t r : follow t = true -> In s [":"; "%"; "("; "{"; "["; "::"] -> punct s (t :: r) = Fail.
  Proof.
    intros H Hin. destruct (follow_facts t H) as (H1 & H2 & H3 & H4 & H5 & H6).
    unfold punct, tok. cbn in Hin.
    destruct Hin as [<-|[<-|[<-|[<-|[<-|[<-|[]]]]]]]; now rewrite ?H1, ?H2, ?H3, ?H4, ?H5, ?H6.
  Qed.

  Lemma after_ok_0 a after : after_ok a after -> after_ok0 a after.
  Proof. destruct after as [|t r]; [intros []|]. intros [Hf Hd]. split; [now apply opens_follow|exact Hd]. Qed.

  Lemma after_ok0_colon a r : after_ok0 a (P ":" :: r).
  Proof. split; [reflexivity|]. intros _ H. discriminate H. Qed.

  Lemma starts_digit_false r : starts_digit r = false -> match_type DIGIT r = Fail.
  Proof. destruct r as [|[ty f] r]; [reflexivity|]. destruct ty; cbn; congruence. Qed.

  Definition is_value (e : expr) : bool :=
    match e with
    | ENull | EBool _ | EInt _ | EFloat _ | EStr _ | ESym _ | ETuple _ | EList _ => true
    | _ => false
    end.

  Lemma number_int a d after : ends_digit a = true -> after_ok0 a after ->
    number_triple ((DIGIT, d) :: after) = Ok (NInt d) after.
  Proof.
    intros Ha. destruct after as [|t r]; [intros []|]. intros [_ Hd]. unfold number_triple.
    cbn [match_type fst snd ty_eqb]. unfold punct at 1, tok.
    destruct (is_tok PUNCT "." t) eqn:E.
    - rewrite (starts_digit_false r (Hd Ha eq_refl)). reflexivity.
    - reflexivity.
  Qed.

  Lemma value_spec n a after : pe_spec n -> esize a <= n -> is_value a = true -> pp_ok ind a = true ->
    after_ok0 a after -> value pe (etoks ind a ++ after) = Ok (norm ind a) after.
  Proof.
    intros S Hn Hv Hok Haf. destruct a; try discriminate Hv.
    - reflexivity.
    - destruct v; reflexivity.
    - cbn [etoks app]. unfold value, symbol, compound_value, list_value, tuple, boolean_value, empty_value.
      cbn [match_type punct tok is_tok fst snd ty_eqb andb]. unfold number.
      rewrite (number_int (EInt z)) by (try reflexivity; exact Haf). cbn [pp_ok] in Hok. rewrite (int_of_digits_dec z Hok). reflexivity.
    - cbn [etoks pp_ok] in *. unfold float_toks, float_rt in *. destruct (split_dot (float_text bits)) as [p s].
      cbn [app]. unfold value, symbol, compound_value, list_value, tuple, boolean_value, empty_value, number, number_triple.
      cbn [match_type punct tok is_tok fst snd ty_eqb andb P bytes_eqb b list_ascii_of_string Ascii.eqb Bool.eqb].
      destruct (f64_of_decimal p s) as [b'|]; [|discriminate]. apply Z.eqb_eq in Hok. now subst.
    - reflexivity.
    - reflexivity.
    - cbn [etoks pp_ok norm esize] in *. rewrite fields_toks.
      unfold value, symbol, compound_value, list_value.
      cbn [match_type punct tok is_tok fst snd ty_eqb andb P bytes_eqb b list_ascii_of_string Ascii.eqb Bool.eqb].
      unfold tuple. rewrite punct_P. rewrite (braced_fields_spec n); [reflexivity|exact S|lia|exact Hok].
    - cbn [etoks pp_ok norm esize] in *. cbn [app]. rewrite <- app_assoc. cbn [app].
      unfold value, symbol, compound_value.
      cbn [match_type fst snd ty_eqb P].
      change (flat_map (fun e1 => etoks ind e1 ++ [P ","]) es) with (commas1 (etoks ind) es).
      rewrite (list_items_spec n); [reflexivity|exact S|lia|exact Hok].
  Qed.

  Lemma simple_spec n a after : pe_spec n -> esize a <= n -> is_value a = true -> pp_ok ind a = true ->
    after_ok0 a after -> simple_expression pe (etoks ind a ++ after) = Ok (norm ind a) after.
  Proof.
    intros S Hn Hv Hok Haf. unfold simple_expression. rewrite (value_spec n) by assumption.
    destruct after as [|t r]; [destruct Haf|]. destruct Haf as [Hf _]. now rewrite Hf.
  Qed.

  Lemma value_group_fail r : value pe (P "(" :: r) = Fail.
  Proof. reflexivity. Qed.

  Lemma grouped_spec n e after : pe_spec n -> esize (EGroup e) <= n -> pp_ok ind (EGroup e) = true ->
    grouped_expression pe (etoks ind (EGroup e) ++ after) = Ok (norm ind (EGroup e)) after.
  Proof.
    intros S Hn Hok. cbn [etoks app norm pp_ok esize] in *. rewrite <- app_assoc. cbn [app].
    unfold grouped_expression. rewrite punct_P. rewrite (S e) by (try reflexivity; try assumption; lia).
    rewrite punct_P. reflexivity.
  Qed.

  Lemma bound_spec n a after : pe_spec n -> esize a <= n -> is_bound a = true -> pp_ok ind a = true ->
    after_ok0 a after -> range_bound pe (etoks ind a ++ after) = Ok (norm ind a) after.
  Proof.
    intros S Hn Hb Hok Haf. unfold range_bound. destruct (is_value a) eqn:Hv.
    - now rewrite (simple_spec n).
    - destruct a; try discriminate Hb; try discriminate Hv.
      rewrite (grouped_spec n) by assumption.
      cbn [etoks app]. unfold simple_expression. rewrite value_group_fail. reflexivity.
  Qed.

  Lemma bound_head a : is_bound a = true -> pp_ok ind a = true ->
    exists t ts, etoks ind a = t :: ts /\ kwtok t = false.
  Proof.
    intros Hb Hok. destruct a; try discriminate Hb; cbn [etoks]; try (eexists _, _; split; reflexivity).
    - unfold float_toks. destruct (split_dot (float_text bits)). eexists _, _; split; reflexivity.
    - eexists _, _; split; [reflexivity|]. now apply kwtok_sym.
  Qed.

  Lemma value_not_grouped a after : is_value a = true -> grouped_expression pe (etoks ind a ++ after) = Fail.
  Proof.
    intros Hv. destruct a; try discriminate Hv; cbn [etoks app]; try reflexivity.
    unfold float_toks. destruct (split_dot (float_text bits)). reflexivity.
  Qed.

  Lemma value_not_format a t r : is_value a = true -> follow t = true ->
    format_expression pe (etoks ind a ++ t :: r) = Fail.
  Proof.
    intros Hv Hf. destruct a; try discriminate Hv; cbn [etoks app]; try reflexivity.
    - unfold float_toks. destruct (split_dot (float_text bits)). reflexivity.
    - unfold format_expression. cbn [match_type fst snd ty_eqb]. rewrite (punct_follow "%" t r Hf) by (cbn; auto).
      reflexivity.
  Qed.

  Lemma leaf_bound n a after : pe_spec n -> esize a <= n -> is_bound a = true -> pp_ok ind a = true ->
    after_ok a after -> non_op_expression pe ps (etoks ind a ++ after) = Ok (norm ind a) after.
  Proof.
    intros S Hn Hb Hok Haf. destruct (bound_head a Hb Hok) as (t & ts & E & K).
    pose proof (bound_spec n a after S Hn Hb Hok (after_ok_0 _ _ Haf)) as HB.
    destruct after as [|t' r]; [destruct Haf|]. pose proof Haf as [Hf _].
    rewrite E in *. cbn [app] in *. rewrite (non_op_not_kw pe ps t _ K).
    unfold range_expression. rewrite HB. rewrite (punct_follow ":" t' r Hf) by (cbn; auto).
    change (t :: ts ++ t' :: r) with ((t :: ts) ++ t' :: r). rewrite <- E.
    destruct (is_value a) eqn:Hv.
    - rewrite value_not_grouped by exact Hv. unfold unprefixed_expression.
      rewrite value_not_format by assumption. rewrite (simple_spec n); auto using after_ok_0.
    - destruct a; try discriminate Hb; try discriminate Hv. now rewrite (grouped_spec n).
  Qed.

  Lemma sym_open_range x t r : opens (t :: r) = true -> range_expression pe ((BAREWORD, x) :: t :: r) = Fail.
  Proof.
    intros Ho. unfold range_expression, range_bound, simple_expression, value, symbol.
    cbn [match_type fst snd ty_eqb]. rewrite Ho. reflexivity.
  Qed.
  Lemma sym_open_simple x t r : opens (t :: r) = true -> simple_expression pe ((BAREWORD, x) :: t :: r) = Fail.
  Proof.
    intros Ho. unfold simple_expression, value, symbol. cbn [match_type fst snd ty_eqb]. rewrite Ho. reflexivity.
  Qed.

  Lemma cast_word_cases x r :
    cast_word ((BAREWORD, x) :: r) = Fail \/ exists c, cast_word ((BAREWORD, x) :: r) = Ok c r.
  Proof.
    unfold cast_word, word, tok.
    destruct (is_tok BAREWORD "int" (BAREWORD, x)); [right; eexists; reflexivity|].
    destruct (is_tok BAREWORD "float" (BAREWORD, x)); [right; eexists; reflexivity|].
    destruct (is_tok BAREWORD "str" (BAREWORD, x)); [right; eexists; reflexivity|].
    destruct (is_tok BAREWORD "bool" (BAREWORD, x)); [right; eexists; reflexivity|].
    now left.
  Qed.

  Lemma cast_not_paren x t r : is_tok PUNCT "(" t = false -> cast_expression pe ((BAREWORD, x) :: t :: r) = Fail.
  Proof.
    intros H. unfold cast_expression. destruct (cast_word_cases x (t :: r)) as [->|[c ->]]; [reflexivity|].
    unfold punct, tok. now rewrite H.
  Qed.

  Lemma cast_word_fail x r : mem x cast_words = false -> cast_word ((BAREWORD, x) :: r) = Fail.
  Proof.
    intros H. unfold mem, cast_words in H. cbn [map existsb] in H.
    repeat (apply orb_false_iff in H as [? H]).
    unfold cast_word, word, tok, is_tok. cbn [fst snd ty_eqb andb].
    repeat match goal with E : bytes_eqb x _ = false |- _ => rewrite E; clear E end. reflexivity.
  Qed.

  Lemma leaf_copy n x fs after : pe_spec n -> esize (ECopy (ESym x) fs) <= n ->
    pp_ok ind (ECopy (ESym x) fs) = true ->
    non_op_expression pe ps (etoks ind (ECopy (ESym x) fs) ++ after) = Ok (norm ind (ECopy (ESym x) fs)) after.
  Proof.
    intros S Hn Hok. cbn [pp_ok esize norm] in *. apply andb_true_iff in Hok as [Hx Hfs].
    cbn [etoks]. rewrite <- app_assoc, fields_toks. cbn [app].
    rewrite (non_op_not_kw pe ps _ _ (kwtok_sym x Hx)).
    rewrite sym_open_range by reflexivity.
    unfold unprefixed_expression. rewrite sym_open_simple by reflexivity.
    rewrite cast_not_paren by reflexivity.
    unfold copy_expression. cbn [match_type fst snd ty_eqb]. rewrite punct_P.
    rewrite (braced_fields_spec n); [reflexivity|exact S|lia|exact Hfs].
  Qed.

  Lemma call_args_spec n f args rest : pe_spec n -> list_sum (map esize args) < n ->
    forallb (pp_ok ind) args = true ->
    call_expression pe ((BAREWORD, f) :: P "(" ::
      match args with _ :: _ :: _ => flat_map (fun a => etoks ind a ++ [P ","]) args | _ => flat_map (etoks ind) args end
      ++ P ")" :: rest) = Ok (ECall (ESym f) (map (norm ind) args)) rest.
  Proof.
    intros S Hn Hok. unfold call_expression. cbn [match_type fst snd ty_eqb]. rewrite punct_P.
    destruct args as [|a [|a2 args]].
    - cbn [flat_map app map]. unfold separated. rewrite pe_closer by reflexivity. reflexivity.
    - cbn [flat_map]. rewrite app_nil_r.
      pose proof (separated_closed pe (etoks ind) (norm ind) stops (P ")") rest a []) as H1.
      cbn [join_toks map] in H1. rewrite H1; [reflexivity|reflexivity|reflexivity|reflexivity|now apply (pe_items n [a])].
    - change (flat_map (fun a => etoks ind a ++ [P ","]) (a :: a2 :: args)) with (commas1 (etoks ind) (a :: a2 :: args)).
      rewrite (separated_trailing pe (etoks ind) (norm ind) stops (P ")") rest a (a2 :: args));
        [|reflexivity|now apply pe_closer|now apply (pe_items n (a :: a2 :: args))].
      cbn [optional]. now rewrite !punct_P.
  Qed.

  Lemma leaf_call n f args after : pe_spec n -> esize (ECall (ESym f) args) <= n ->
    pp_ok ind (ECall (ESym f) args) = true ->
    non_op_expression pe ps (etoks ind (ECall (ESym f) args) ++ after) = Ok (norm ind (ECall (ESym f) args)) after.
  Proof.
    intros S Hn Hok. cbn [pp_ok esize norm] in *. apply andb_true_iff in Hok as [Hx Hargs].
    apply andb_true_iff in Hx as [Hx Hc]. apply negb_true_iff in Hc.
    cbn [etoks]. rewrite <- app_assoc. cbn [app]. rewrite <- app_assoc. cbn [app].
    rewrite (non_op_not_kw pe ps _ _ (kwtok_sym f Hx)).
    rewrite sym_open_range by reflexivity.
    unfold unprefixed_expression. rewrite sym_open_simple by reflexivity.
    unfold cast_expression. rewrite cast_word_fail by exact Hc.
    rewrite (call_args_spec n); [reflexivity|exact S|lia|exact Hargs].
  Qed.

  Lemma leaf_cast n c e after : pe_spec n -> esize (ECast c e) <= n -> pp_ok ind (ECast c e) = true ->
    non_op_expression pe ps (etoks ind (ECast c e) ++ after) = Ok (norm ind (ECast c e)) after.
  Proof.
    intros S Hn Hok. cbn [pp_ok esize norm] in *.
    cbn [etoks app]. rewrite <- app_assoc. cbn [app].
    rewrite non_op_not_kw by (destruct c; reflexivity).
    rewrite sym_open_range by reflexivity.
    unfold unprefixed_expression. rewrite sym_open_simple by reflexivity.
    unfold cast_expression.
    assert (Hw : forall r, cast_word ((BAREWORD, cast_text c) :: r) = Ok c r) by (intros r; destruct c; reflexivity).
    rewrite Hw, punct_P. rewrite (S e) by (try reflexivity; try assumption; lia). rewrite punct_P. reflexivity.
  Qed.

  Lemma range_spec n s st en after : pe_spec n -> esize (ERange s st en) <= n ->
    pp_ok ind (ERange s st en) = true -> after_ok (ERange s st en) after ->
    range_expression pe (etoks ind (ERange s st en) ++ after) = Ok (norm ind (ERange s st en)) after.
  Proof.
    intros S Hn Hok Haf. cbn [pp_ok esize norm etoks] in *.
    destruct after as [|t r]; [destruct Haf|]. destruct Haf as [Hf Hd].
    destruct st as [x|]; split_andb.
    all: assert (Haf_en : after_ok0 en (t :: r))
      by (split; [now apply opens_follow|]; intros He; apply Hd; destruct en; try discriminate; reflexivity).
    all: rewrite <- !app_assoc; cbn [app]; unfold range_expression.
    all: rewrite (bound_spec n s) by (try assumption; try lia; apply after_ok0_colon).
    all: rewrite punct_P; unfold range_step at 1.
    - rewrite <- !app_assoc. cbn [app]. rewrite (bound_spec n x) by (try assumption; try lia; apply after_ok0_colon).
      rewrite punct_P. cbn [optional]. rewrite (bound_spec n en) by (try assumption; lia). reflexivity.
    - rewrite (bound_spec n en) by (try assumption; lia).
      rewrite (punct_follow ":" t r Hf) by (cbn; auto). cbn [optional].
      rewrite (bound_spec n en) by (try assumption; lia). reflexivity.
  Qed.

  Lemma leaf_range n s st en after : pe_spec n -> esize (ERange s st en) <= n ->
    pp_ok ind (ERange s st en) = true -> after_ok (ERange s st en) after ->
    non_op_expression pe ps (etoks ind (ERange s st en) ++ after) = Ok (norm ind (ERange s st en)) after.
  Proof.
    intros S Hn Hok Haf. pose proof (range_spec n s st en after S Hn Hok Haf) as HR.
    cbn [pp_ok] in Hok. split_andb. destruct (bound_head s) as (t0 & ts0 & E0 & K0); [assumption|assumption|].
    cbn [etoks] in *. rewrite E0 in *. rewrite <- !app_assoc in *. cbn [app] in *.
    now rewrite (non_op_not_kw pe ps t0 _ K0), HR.
  Qed.

  Lemma quoted_pct_range tpl r : range_expression pe ((QUOTED, tpl) :: P "%" :: r) = Fail.
  Proof. reflexivity. Qed.

  Lemma leaf_formatl n parts args after : pe_spec n -> esize (EFormatL parts args) <= n ->
    pp_ok ind (EFormatL parts args) = true ->
    non_op_expression pe ps (etoks ind (EFormatL parts args) ++ after) = Ok (norm ind (EFormatL parts args)) after.
  Proof.
    intros S Hn Hok. cbn [pp_ok esize norm] in *. apply andb_true_iff in Hok as [Hne Hargs].
    destruct args as [|a args]; [discriminate Hne|].
    cbn [etoks app]. rewrite <- app_assoc. cbn [app].
    rewrite non_op_not_kw by reflexivity. rewrite quoted_pct_range.
    unfold unprefixed_expression, format_expression. cbn [match_type fst snd ty_eqb grouped_expression].
    change (grouped_expression pe ((QUOTED, unparse_template ind parts) :: P "%" :: P "(" :: join_toks (map (etoks ind) (a :: args)) ++ P ")" :: after)) with (@Fail expr).
    cbv iota. rewrite punct_P. unfold simple_format_args. rewrite punct_P.
    rewrite (separated_closed pe (etoks ind) (norm ind) stops (P ")") after a args);
      [|reflexivity|reflexivity|reflexivity|now apply (pe_items n (a :: args))].
    rewrite punct_P. reflexivity.
  Qed.

  (* non_op_expression on an input that starts with a keyword: the alternatives in front of the one the keyword
     selects fail on their first token test *)
  Ltac kw_eval :=
    unfold non_op_expression, func_op_expression, reduce_expression, map_filter, func_expression,
      import_expression, prefix_expression, convert_expression, module_expression, select_expression,
      include_expression;
    tok_eval.

  Lemma leaf_select n v d arms after : pe_spec n -> esize (ESelect v d arms) <= n ->
    pp_ok ind (ESelect v d arms) = true ->
    non_op_expression pe ps (etoks ind (ESelect v d arms) ++ after) = Ok (norm ind (ESelect v d arms)) after.
  Proof.
    intros S Hn Hok. cbn [pp_ok esize norm] in *.
    apply andb_true_iff in Hok as [Hok Harms]. apply andb_true_iff in Hok as [Hok Hne].
    apply andb_true_iff in Hok as [Hv Hd].
    destruct arms as [|kv arms]; [discriminate Hne|].
    cbn [etoks]. norm_app.
    rewrite fields_commas1.
    pose proof (field_list_spec n kv arms after S ltac:(lia) Harms) as HF.
    kw_eval. rewrite punct_P. cbn [must].
    destruct d as [x|]; cbn [app]; rewrite (S v) by (try reflexivity; try assumption; lia); cbn [must app];
      unfold select_default.
    - rewrite punct_P, (S x) by (try reflexivity; try assumption; lia).
      cbn [must optional]. rewrite !punct_comma_rparen. cbn [optional]. adv. rewrite HF. adv. reflexivity.
    - rewrite !punct_comma_rparen. cbn [optional]. adv. rewrite HF. adv. reflexivity.
  Qed.

  Lemma stoks_length s : 1 <= List.length (stoks ind s).
  Proof. rewrite stoks_eq. destruct s; cbn [List.length]; rewrite ?app_length; cbn [List.length]; lia. Qed.

  Lemma flat_stoks_length body : List.length body <= List.length (flat_map (stoks ind) body).
  Proof.
    induction body as [|s body IH]; [cbn; lia|]. cbn [flat_map List.length]. rewrite app_length.
    pose proof (stoks_length s). lia.
  Qed.

  Lemma repeat_stmt_spec n rest : ps_spec n -> forall body k,
    list_sum (map ssize body) < n -> forallb (stmt_ok ind) body = true -> List.length body < k ->
    repeat_stmt ps k (flat_map (stoks ind) body ++ P "}" :: rest) = Ok (map (snorm ind) body) (P "}" :: rest).
  Proof.
    intros S. induction body as [|s body IH]; intros k Hn Hok Hk; (destruct k as [|k]; [cbn in Hk; lia|]).
    - cbn [flat_map app repeat_stmt]. rewrite ps_closer. reflexivity.
    - cbn [flat_map repeat_stmt]. rewrite <- app_assoc. cbn [forallb] in Hok. apply andb_true_iff in Hok as [Hs Hb].
      change (list_sum (map ssize (s :: body))) with (ssize s + list_sum (map ssize body)) in Hn.
      rewrite (S s) by (try assumption; lia). rewrite (IH k); [reflexivity|lia|exact Hb|cbn in Hk; lia].
  Qed.

  Lemma etoks_module pms out body :
    etoks ind (EModule pms out body) =
    W "module" :: (P "{" :: commas1 ftoks pms ++ [P "}"]) ++ P "=>" ::
    match out with Some x => P "(" :: etoks ind x ++ [P ")"] | None => [] end ++
    P "{" :: flat_map (stoks ind) body ++ [P "}"].
  Proof. reflexivity. Qed.
  Lemma pp_ok_module pms out body :
    pp_ok ind (EModule pms out body) =
    (forallb (fun kv => pp_ok ind (snd kv)) pms && match out with Some x => pp_ok ind x | None => true end &&
     forallb (stmt_ok ind) body)%bool.
  Proof. reflexivity. Qed.
  Lemma norm_module pms out body :
    norm ind (EModule pms out body) = EModule (map fnorm pms) (option_map (norm ind) out) (map (snorm ind) body).
  Proof. reflexivity. Qed.
  Lemma esize_module pms out body :
    esize (EModule pms out body) =
    Datatypes.S (list_sum (map (fun kv => esize (snd kv)) pms) + match out with Some x => esize x | None => 0 end +
                 list_sum (map ssize body)).
  Proof. reflexivity. Qed.

  Lemma leaf_module n pms out body after : pe_spec n -> ps_spec n -> esize (EModule pms out body) <= n ->
    pp_ok ind (EModule pms out body) = true ->
    non_op_expression pe ps (etoks ind (EModule pms out body) ++ after) = Ok (norm ind (EModule pms out body)) after.
  Proof.
    intros S SS Hn Hok. rewrite pp_ok_module in Hok. rewrite esize_module in Hn. rewrite norm_module, etoks_module.
    split_andb. norm_app. kw_eval. adv. rewrite (braced_fields_spec n) by (try assumption; lia). adv.
    assert (Hbody : forall r, repeat_stmt ps (Datatypes.S (List.length (flat_map (stoks ind) body ++ P "}" :: r)))
                        (flat_map (stoks ind) body ++ P "}" :: r) = Ok (map (snorm ind) body) (P "}" :: r)).
    { intros r. apply (repeat_stmt_spec n); [exact SS|lia|assumption|].
      rewrite app_length. pose proof (flat_stoks_length body). lia. }
    unfold module_out. destruct out as [x|]; norm_app; adv.
    - rewrite (S x) by (try reflexivity; try assumption; lia). adv.
      unfold no_shape_suffix. change (punct "::" (P ")" :: P "{" :: flat_map (stoks ind) body ++ P "}" :: after)) with (@Fail unit).
      cbv iota. adv. rewrite Hbody. adv. reflexivity.
    - change (punct "(" (P "{" :: flat_map (stoks ind) body ++ P "}" :: after)) with (@Fail unit).
      cbn [optional]. adv. rewrite Hbody. adv. reflexivity.
  Qed.

  Lemma arg_spec x t r : is_tok PUNCT "::" t = false -> arg ((BAREWORD, x) :: t :: r) = Ok x (t :: r).
  Proof.
    intros H. unfold arg, no_shape_suffix, punct, tok. cbn [match_type fst snd ty_eqb]. now rewrite H.
  Qed.

  Lemma leaf_func n prm body t r : pe_spec n -> esize (EFunc prm body) <= n -> pp_ok ind (EFunc prm body) = true ->
    stop t = true ->
    non_op_expression pe ps (etoks ind (EFunc prm body) ++ t :: r) = Ok (norm ind (EFunc prm body)) (t :: r).
  Proof.
    intros S Hn Hok Ht. cbn [pp_ok esize norm etoks app] in *. rewrite <- !app_assoc. cbn [app].
    kw_eval. adv.
    assert (Hargs : forall z, optional (arglist (join_toks (map sym_toks prm) ++ P ")" :: z))
                                 (join_toks (map sym_toks prm) ++ P ")" :: z)
                              = Ok (match prm with [] => None | _ => Some prm end) (P ")" :: z)).
    { intros z. destruct prm as [|x prm]; [reflexivity|]. unfold arglist.
      rewrite (separated_closed arg sym_toks (fun x => x)
                 (fun w => match w with t :: _ => is_tok PUNCT "::" t = false | [] => False end) (P ")") z x prm);
        [now rewrite map_id|reflexivity|reflexivity|reflexivity|].
      intros y [|t0 w] _ Hw; [destruct Hw|]. now apply arg_spec. }
    rewrite Hargs. adv. rewrite (S body) by (try assumption; lia).
    destruct prm; reflexivity.
  Qed.

  Lemma not_paren_punct l t r : starts_paren l = false -> stop t = true -> punct "(" (l ++ t :: r) = Fail.
  Proof.
    intros Hl Ht. destruct l as [|t0 l]; cbn [app]; unfold punct, tok.
    - destruct (stop_cases t Ht) as [-> | [-> | [-> | [-> | -> ]]]]; reflexivity.
    - cbn [starts_paren] in Hl. now rewrite Hl.
  Qed.

  Lemma leaf_formats n parts a t r : pe_spec n -> esize (EFormatS parts a) <= n ->
    pp_ok ind (EFormatS parts a) = true -> stop t = true ->
    non_op_expression pe ps (etoks ind (EFormatS parts a) ++ t :: r) = Ok (norm ind (EFormatS parts a)) (t :: r).
  Proof.
    intros S Hn Hok Ht. cbn [pp_ok esize norm] in *. apply andb_true_iff in Hok as [Hp Ha].
    apply negb_true_iff in Hp. cbn [etoks app].
    rewrite non_op_not_kw by reflexivity. rewrite quoted_pct_range.
    unfold unprefixed_expression, format_expression. cbn [match_type fst snd ty_eqb].
    change (grouped_expression pe ((QUOTED, unparse_template ind parts) :: P "%" :: etoks ind a ++ t :: r)) with (@Fail expr).
    cbv iota. rewrite punct_P. unfold simple_format_args. rewrite (not_paren_punct _ t r Hp Ht).
    unfold expression_format_args. rewrite (S a) by (try assumption; lia). reflexivity.
  Qed.

  Definition leaf_after (a : expr) (after : list ptok) : Prop :=
    if is_open a then exists t r, after = t :: r /\ stop t = true else after_ok a after.

  Lemma leaf_after_stop a t r : stop t = true -> leaf_after a (t :: r).
  Proof. intros H. unfold leaf_after. destruct (is_open a); [now exists t, r|now apply after_ok_stop]. Qed.

  (* the operands that are a keyword, expressions and fixed punctuation (not, fail, TRACE, convert, map,
     filter, reduce): the keyword selects the alternative, each expression is parsed by the specification
     of [pe], and the punctuation is matched token by token *)
  Ltac kw_operand S Haf :=
    cbn [pp_ok esize norm] in *; split_andb; try destruct Haf as (? & ? & -> & ?);
    cbn [etoks app]; repeat (rewrite <- !app_assoc; cbn [app]);
    kw_eval; cbn [match_type must fst snd ty_eqb]; adv;
    repeat (rewrite (S _) by (try reflexivity; try assumption; lia); adv); reflexivity.

  Lemma leaf_spec n a after : pe_spec n -> ps_spec n -> esize a <= n -> is_bin a = false ->
    pp_ok ind a = true -> leaf_after a after ->
    non_op_expression pe ps (etoks ind a ++ after) = Ok (norm ind a) after.
  Proof.
    intros S SS Hn Hb Hok Haf. unfold leaf_after in Haf.
    destruct a; try discriminate Hb; cbn [is_open] in Haf;
      try (apply (leaf_bound n); [assumption|assumption|reflexivity|assumption|assumption]).
    - kw_operand S Haf.
    - destruct a; try (cbn [pp_ok] in Hok; discriminate Hok). now apply (leaf_copy n).
    - now apply (leaf_range n).
    - now apply (leaf_formatl n).
    - destruct Haf as (t & r & -> & Ht). now apply (leaf_formats n).
    - destruct a; try (cbn [pp_ok] in Hok; discriminate Hok). now apply (leaf_call n).
    - now apply (leaf_cast n).
    - destruct Haf as (t & r & -> & Ht). now apply (leaf_func n).
    - now apply (leaf_select n).
    - kw_operand S Haf.
    - kw_operand S Haf.
    - kw_operand S Haf.
    - now apply (leaf_module n).
    - kw_operand S Haf.
    - kw_operand S Haf.
    - reflexivity.
    - reflexivity.
    - kw_operand S Haf.
  Qed.

  Definition ctoks (c : list (op * expr)) : list ptok :=
    flat_map (fun oa => op_tok (fst oa) :: etoks ind (snd oa)) c.
  Definition cnorm (c : list (op * expr)) : list (op * expr) := map (fun oa => (fst oa, norm ind (snd oa))) c.

  Lemma etoks_nonempty e : etoks ind e <> [].
  Proof.
    destruct e; cbn [etoks]; try discriminate; try (apply not_eq_sym, app_cons_not_nil).
    unfold float_toks. destruct (split_dot (float_text bits)). discriminate.
  Qed.

  Lemma starts_digit_app l z : l <> [] -> starts_digit (l ++ z) = starts_digit l.
  Proof. destruct l; [congruence|reflexivity]. Qed.

  Lemma is_dot_tok o : is_tok PUNCT "." (op_tok o) = true -> o = DOT.
  Proof. destruct o; cbn; congruence. Qed.

  Lemma follow_op_tok o : follow (op_tok o) = true.
  Proof. unfold follow. now rewrite binop_op_tok. Qed.

  Lemma operands_chain n : pe_spec n -> ps_spec n -> forall c a k first t r,
    List.length c < k -> esize a <= n -> is_bin a = false -> pp_ok ind a = true ->
    (forall oa, In oa c -> esize (snd oa) <= n /\ is_bin (snd oa) = false /\ pp_ok ind (snd oa) = true) ->
    chain_ok ind a c = true -> stop t = true -> (first = true -> c <> []) ->
    operands pe ps k first (etoks ind a ++ ctoks c ++ t :: r) = Ok (norm ind a, cnorm c) (t :: r).
  Proof.
    intros S SS. induction c as [|[o a'] c IH]; intros a k first t r Hk Hn Hb Hok Hc Hch Ht Hf;
      (destruct k as [|k]; [cbn in Hk; lia|]).
    - cbn [ctoks flat_map app operands cnorm map].
      rewrite (leaf_spec n) by (try assumption; now apply leaf_after_stop).
      rewrite (binop_stop t Ht). destruct first; [now specialize (Hf eq_refl)|reflexivity].
    - cbn [ctoks flat_map operands cnorm map fst snd]. fold (ctoks c). fold (cnorm c).
      cbn [chain_ok] in Hch. apply andb_true_iff in Hch as [Hch Hch3]. apply andb_true_iff in Hch as [Hch1 Hch2].
      apply negb_true_iff in Hch1. apply negb_true_iff in Hch2.
      destruct (Hc (o, a') (or_introl eq_refl)) as (Hn' & Hb' & Hok'). cbn [snd] in *.
      rewrite <- app_assoc. cbn [app].
      rewrite (leaf_spec n); try assumption.
      + rewrite binop_op_tok.
        rewrite (IH a' k false t r); [reflexivity|cbn in Hk; lia|assumption|assumption|assumption| |assumption|assumption|discriminate].
        intros oa Hoa. apply Hc. now right.
      + unfold leaf_after. rewrite Hch1. split; [apply follow_op_tok|].
        intros Hd Hdot. apply is_dot_tok in Hdot. subst o. rewrite Hd in Hch2. cbn [andb] in Hch2.
        rewrite starts_digit_app by apply etoks_nonempty. exact Hch2.
  Qed.

  Fixpoint tmap (f : expr -> expr) (t : tree expr) : tree expr :=
    match t with Leaf a => Leaf (f a) | Node o l r => Node o (tmap f l) (tmap f r) end.
  Fixpoint tleaves (t : tree expr) : list expr :=
    match t with Leaf a => [a] | Node _ l r => tleaves l ++ tleaves r end.

  Lemma yield_tmap f t :
    yield (tmap f t) = (f (fst (yield t)), map (fun oa => (fst oa, f (snd oa))) (snd (yield t))).
  Proof.
    induction t as [a|o l IHl r IHr]; [reflexivity|]. cbn [tmap]. rewrite !yield_node, IHl, IHr. cbn [fst snd].
    rewrite map_app. reflexivity.
  Qed.

  Lemma all_ops_tmap f t : all_ops_of (tmap f t) = all_ops_of t.
  Proof. induction t as [a|o l IHl r IHr]; [reflexivity|]. cbn. now rewrite IHl, IHr. Qed.

  Lemma WF_tmap f t : WF code_prec t -> WF code_prec (tmap f t).
  Proof.
    induction t as [a|o l IHl r IHr]; [trivial|]. cbn [WF tmap]. intros (Wl & Wr & Hl & Hr).
    rewrite !all_ops_tmap. auto.
  Qed.

  Lemma wfb_WF t : wfb t = true -> WF code_prec t.
  Proof.
    induction t as [a|o l IHl r IHr]; [intros; exact I|]. cbn [wfb WF]. intros H.
    apply andb_true_iff in H as [H Hr]. apply andb_true_iff in H as [H Hl]. apply andb_true_iff in H as [Wl Wr].
    split; [auto|]. split; [auto|]. split.
    - intros o' Ho. apply Nat.leb_le. apply (forallb_in _ _ o' Hl Ho).
    - intros o' Ho. apply Nat.ltb_lt. apply (forallb_in _ _ o' Hr Ho).
  Qed.

  Lemma climb_of_wf (t : tree expr) : WF code_prec t ->
    climb code_prec (fst (yield t)) (snd (yield t)) = Some t.
  Proof.
    intros W. destruct (climb_total_lemma expr code_prec (fst (yield t)) (snd (yield t))) as [t' Ht'].
    rewrite Ht'. f_equal. destruct (climb_sound_lemma expr code_prec _ _ _ Ht') as [Hy W'].
    apply (wf_unique_lemma expr code_prec); [exact W'|exact W|]. rewrite Hy. now destruct (yield t).
  Qed.

  Lemma yield_leaves t : tleaves t = fst (yield t) :: map snd (snd (yield t)).
  Proof.
    induction t as [a|o l IHl r IHr]; [reflexivity|]. cbn [tleaves]. rewrite yield_node, IHl, IHr. cbn [fst snd].
    rewrite map_app. reflexivity.
  Qed.

  Lemma norm_not_bin e : is_bin e = false -> is_bin (norm ind e) = false.
  Proof. destruct e; cbn; congruence. Qed.

  Lemma tree_of_leaf e : is_bin e = false -> tree_of e = Leaf e.
  Proof. destruct e; cbn; congruence. Qed.

  Lemma tree_of_norm e : tree_of (norm ind e) = tmap (norm ind) (tree_of e).
  Proof.
    induction e; try reflexivity. cbn [norm tree_of tmap]. now rewrite IHe1, IHe2.
  Qed.

  Lemma expr_of_tree_of e : expr_of_tree (tree_of e) = e.
  Proof. induction e; try reflexivity. cbn [tree_of expr_of_tree]. now rewrite IHe1, IHe2. Qed.

  Lemma etoks_yield e :
    etoks ind e = etoks ind (fst (yield (tree_of e))) ++ ctoks (snd (yield (tree_of e))).
  Proof.
    induction e; try (cbn [tree_of yield fst snd ctoks flat_map]; now rewrite app_nil_r).
    cbn [tree_of]. rewrite yield_node. cbn [fst snd etoks]. rewrite IHe1, IHe2 at 1.
    unfold ctoks. rewrite flat_map_app. cbn [flat_map fst snd]. now rewrite <- !app_assoc.
  Qed.

  Lemma leaves_ok e : pp_ok ind e = true ->
    forall x, In x (tleaves (tree_of e)) -> esize x <= esize e /\ is_bin x = false /\ pp_ok ind x = true.
  Proof.
    induction e; intros Hok y Hx;
      try (cbn [tree_of tleaves In] in Hx; destruct Hx as [<-|[]]; repeat split; auto; fail).
    cbn [tree_of tleaves] in Hx. cbn [pp_ok] in Hok.
    apply andb_true_iff in Hok as [Hok _]. apply andb_true_iff in Hok as [Hok _].
    apply andb_true_iff in Hok as [Hl Hr]. cbn [esize].
    apply in_app_or in Hx as [Hx|Hx].
    - destruct (IHe1 Hl y Hx) as (? & ? & ?). repeat split; auto; lia.
    - destruct (IHe2 Hr y Hx) as (? & ? & ?). repeat split; auto; lia.
  Qed.

  Lemma ctoks_length c : List.length c <= List.length (ctoks c).
  Proof.
    induction c as [|oa c IH]; [cbn; lia|]. unfold ctoks in *. cbn [flat_map].
    rewrite app_length. cbn [List.length]. lia.
  Qed.

  (* the climber rebuilds a well-formed tree from its own in-order chain, also after [norm] on the leaves *)
  Lemma climb_norm e : wfb (tree_of e) = true ->
    climb code_prec (norm ind (fst (yield (tree_of e)))) (cnorm (snd (yield (tree_of e)))) = Some (tree_of (norm ind e)).
  Proof.
    intros Hwf. rewrite tree_of_norm.
    pose proof (climb_of_wf (tmap (norm ind) (tree_of e)) (WF_tmap _ _ (wfb_WF _ Hwf))) as Hc.
    now rewrite yield_tmap in Hc.
  Qed.

  Lemma expression_spec n e t r : pe_spec n -> ps_spec n -> esize e <= n -> pp_ok ind e = true ->
    stop t = true -> expression pe ps (etoks ind e ++ t :: r) = Ok (norm ind e) (t :: r).
  Proof.
    intros S SS Hn Hok Ht. unfold expression, op_expression.
    destruct (is_bin e) eqn:Hb.
    - (* a chain *)
      pose proof (leaves_ok e Hok) as HL. rewrite yield_leaves in HL.
      assert (Hwf : wfb (tree_of e) = true /\ chain_ok ind (fst (yield (tree_of e))) (snd (yield (tree_of e))) = true).
      { destruct e; try discriminate Hb. cbn [pp_ok] in Hok.
        apply andb_true_iff in Hok as [Hok H2]. apply andb_true_iff in Hok as [_ H1]. auto. }
      destruct Hwf as [Hwf Hch].
      assert (Hne : snd (yield (tree_of e)) <> []).
      { destruct e; try discriminate Hb. cbn [tree_of]. rewrite yield_node. cbn [snd]. apply not_eq_sym, app_cons_not_nil. }
      rewrite etoks_yield, <- app_assoc.
      set (a := fst (yield (tree_of e))) in *. set (c := snd (yield (tree_of e))) in *.
      destruct (HL a (or_introl eq_refl)) as (Ha1 & Ha2 & Ha3).
      rewrite (operands_chain n S SS c a _ true t r); try assumption; try lia.
      + cbn [fst snd]. subst a c. now rewrite (climb_norm e Hwf), expr_of_tree_of.
      + rewrite !app_length. cbn [List.length].
        pose proof (ctoks_length c). lia.
      + intros oa Hoa. destruct (HL (snd oa)) as (? & ? & ?); [right; now apply in_map|]. repeat split; auto; lia.
      + intros _. exact Hne.
    - (* a single operand: op_expression fails, non_op_expression is run again *)
      assert (HN : non_op_expression pe ps (etoks ind e ++ t :: r) = Ok (norm ind e) (t :: r)).
      { apply (leaf_spec n); try assumption. now apply leaf_after_stop. }
      destruct (Datatypes.S (List.length (etoks ind e ++ t :: r))) as [|k] eqn:Ek; [discriminate Ek|].
      cbn [operands]. rewrite HN, (binop_stop t Ht). reflexivity.
  Qed.
End Operands.

Section Statements.
  Variable ind : nat.
  Variable pe : list ptok -> res expr.

  Lemma stmt_kw_head l z s : starts_stmt_kw l = false -> l <> [] -> mem (b s) stmt_keywords = true ->
    word s (l ++ z) = Fail.
  Proof.
    intros H Hne Hin. destruct l as [|t l]; [congruence|]. cbn [app]. unfold word, tok.
    destruct (is_tok BAREWORD s t) eqn:E; [|reflexivity]. apply is_tok_eq in E. subst t.
    cbn [starts_stmt_kw] in H. congruence.
  Qed.

  Lemma statement_spec n s r : pe_spec ind pe n -> ssize s <= n -> stmt_ok ind s = true ->
    statement pe (stoks ind s ++ r) = Ok (snorm ind s) r.
  Proof.
    intros S Hn Hok. rewrite stoks_eq, snorm_eq. rewrite stmt_ok_eq in Hok. rewrite ssize_eq in Hn.
    destruct s; split_andb; norm_app;
      unfold statement, assert_statement, constraint_statement, let_statement, out_statement, expression_statement,
        binding_name.
    - tok_eval. change (bytes_eqb x ["e"%char; "n"%char; "v"%char]) with (bytes_eqb x (b "env")).
      rewrite (proj1 (negb_true_iff _) H).
      unfold no_shape_suffix. change (punct "::" (P "=" :: etoks ind e ++ P ";" :: r)) with (@Fail unit).
      cbv iota. rewrite punct_P. rewrite (S e) by (try reflexivity; try assumption; lia). now rewrite punct_P.
    - apply negb_true_iff in H. rewrite !(stmt_kw_head _ _ _ H (etoks_nonempty ind e)) by reflexivity.
      rewrite (S e) by (try reflexivity; try assumption; lia). now rewrite punct_P.
    - tok_eval. rewrite (S e) by (try reflexivity; try assumption; lia). cbn [must]. now rewrite punct_P.
    - tok_eval. rewrite (S e) by (try reflexivity; try assumption; lia). cbn [must]. now rewrite punct_P.
  Qed.
End Statements.

Lemma p_expr_closer f t r : closer t = true -> p_expr (S f) (t :: r) = Fail.
Proof.
  intros H. unfold closer in H.
  repeat (apply orb_true_iff in H as [H|H]); apply is_tok_eq in H; subst t; reflexivity.
Qed.

Lemma p_stmt_closer f r : p_stmt (S (S f)) (P "}" :: r) = Fail.
Proof. reflexivity. Qed.

Theorem parse_tokens_fuel ind : forall f,
  (forall e, esize e <= f -> pp_ok ind e = true -> forall t r, stop t = true ->
     p_expr (S (S f)) (etoks ind e ++ t :: r) = Ok (norm ind e) (t :: r)) /\
  (forall s, ssize s <= f -> stmt_ok ind s = true -> forall r,
     p_stmt (S (S f)) (stoks ind s ++ r) = Ok (snorm ind s) r).
Proof.
  induction f as [|f [IHe IHs]].
  - split.
    + intros e He. pose proof (esize_pos e). lia.
    + intros s Hs. destruct s; cbn in Hs; lia.
  - assert (PE : pe_spec ind (p_expr (S (S f))) (S f)).
    { intros e He Hok t r Ht. apply IHe; [lia|exact Hok|exact Ht]. }
    assert (PS : ps_spec ind (p_stmt (S (S f))) (S f)).
    { intros s Hs Hok r. apply IHs; [lia|exact Hok]. }
    split.
    + intros e He Hok t r Ht.
      change (p_expr (S (S (S f))) (etoks ind e ++ t :: r))
        with (expression (p_expr (S (S f))) (p_stmt (S (S f))) (etoks ind e ++ t :: r)).
      apply (expression_spec ind _ _ (p_expr_closer (S f)) (p_stmt_closer f) (S f)); assumption.
    + intros s Hs Hok r.
      change (p_stmt (S (S (S f))) (stoks ind s ++ r)) with (statement (p_expr (S (S f))) (stoks ind s ++ r)).
      apply (statement_spec ind _ (S f)); assumption.
Qed.

Lemma sum_le_flat {X} (f : X -> nat) (R : X -> Prop) (g : X -> list ptok) l :
  Forall R l -> (forall x, R x -> f x <= List.length (g x)) -> list_sum (map f l) <= List.length (flat_map g l).
Proof.
  intros H Hg. induction H as [|x l Hx _ IH]; [cbn; lia|].
  cbn [map list_sum fold_right flat_map]. rewrite app_length. specialize (Hg x Hx). fold (list_sum (map f l)). lia.
Qed.

Lemma size_le_toks ind :
  (forall e, esize e <= List.length (etoks ind e)) /\ (forall s, ssize s <= List.length (stoks ind s)).
Proof.
  assert (Hfields : forall fs : list (bytes * expr),
            Forall (fun kv => esize (snd kv) <= List.length (etoks ind (snd kv))) fs ->
            list_sum (map (fun kv => esize (snd kv)) fs) <= List.length (commas1 (ftoks ind) fs)).
  { intros fs H. apply (sum_le_flat _ _ _ _ H). intros kv Hkv. unfold ftoks. rewrite app_length. cbn [List.length]. lia. }
  assert (Hlist : forall es, Forall (fun e => esize e <= List.length (etoks ind e)) es ->
            list_sum (map esize es) <= List.length (commas1 (etoks ind) es)).
  { intros es H. apply (sum_le_flat _ _ _ _ H). intros e He. rewrite app_length. lia. }
  apply expr_stmt_ind; intros; rewrite ?esize_module, ?etoks_module, ?ssize_eq, ?stoks_eq; cbn [esize etoks];
    rewrite ?fields_commas1;
    repeat match goal with
           | o : option expr |- _ => destruct o
           | H : Forall (fun kv => esize (snd kv) <= _) _ |- _ => apply Hfields in H
           | H : Forall (fun s => ssize s <= _) _ |- _ => apply (sum_le_flat ssize _ (stoks ind)) in H; [|auto]
           end;
    repeat (rewrite ?app_length; cbn [List.length]); try lia.
  - unfold float_toks. destruct (split_dot (float_text bits)). cbn. lia.
  - apply Hlist in H. unfold commas1 in H. lia.
  - (* arguments joined by commas: a comma in front of each but the first *)
    destruct H as [|a args Ha H]; [cbn; lia|]. rewrite join_toks_cons, app_length.
    apply (sum_le_flat esize _ (fun x => P "," :: etoks ind x)) in H; [|intros; cbn [List.length]; lia].
    cbn [map list_sum fold_right]. fold (list_sum (map esize args)). fold (commas2 (etoks ind) args) in H. lia.
  - destruct args as [|a [|a2 args]].
    + cbn. lia.
    + apply Forall_inv in H0. cbn [map list_sum fold_right flat_map]. rewrite app_nil_r. lia.
    + apply Hlist in H0. unfold commas1 in H0. lia.
Qed.

Lemma etoks_head ind e : exists t l, etoks ind e = t :: l /\ is_end t = false.
Proof.
  induction e; cbn [etoks]; try (eexists _, _; split; reflexivity).
  - unfold float_toks. destruct (split_dot (float_text bits)). eexists _, _; split; reflexivity.
  - destruct IHe1 as (t & l & -> & H). eexists _, _; split; [reflexivity|exact H].
  - destruct IHe as (t & l & -> & H). eexists _, _; split; [reflexivity|exact H].
  - destruct IHe1 as (t & l & -> & H). eexists _, _; split; [reflexivity|exact H].
  - destruct IHe as (t & l & -> & H). eexists _, _; split; [reflexivity|exact H].
Qed.

Lemma stoks_head ind s : exists t l, stoks ind s = t :: l /\ is_end t = false.
Proof.
  rewrite stoks_eq. destruct s; try (eexists _, _; split; reflexivity).
  destruct (etoks_head ind e) as (t & l & -> & H). eexists _, _; split; [reflexivity|exact H].
Qed.

(* parse_tokens_of: the tokens the printer writes for an expression of the class [pp_ok], followed by
   anything that starts with a closing token, parse back to the expression (templates in raw form) *)
Theorem parse_tokens_of : forall ind e t r, pp_ok ind e = true -> stop t = true ->
  parse_expr (etoks ind e ++ t :: r) = Ok (norm ind e) (t :: r).
Proof.
  intros ind e t r Hok Ht. unfold parse_expr.
  pose proof (proj1 (size_le_toks ind) e) as Hs.
  rewrite app_length. cbn [List.length].
  replace (S (List.length (etoks ind e) + S (List.length r)))
    with (S (S (List.length (etoks ind e) + List.length r))) by lia.
  apply (proj1 (parse_tokens_fuel ind _)); [lia|exact Hok|exact Ht].
Qed.

Lemma parse_loop_spec ind f : forall p k,
  (forall s, In s p -> ssize s <= f) -> List.length p < k -> prog_ok ind p = true ->
  parse_loop (S (S f)) k (ptoks ind p ++ [(END, [])]) = Parsed (pnorm ind p).
Proof.
  induction p as [|s p IH]; intros k Hs Hk Hok; (destruct k as [|k]; [cbn in Hk; lia|]).
  - reflexivity.
  - unfold ptoks, pnorm, prog_ok in *. cbn [flat_map map forallb] in *. apply andb_true_iff in Hok as [Hok1 Hok2].
    rewrite <- app_assoc.
    destruct (stoks_head ind s) as (t & l & E & He).
    pose proof (proj2 (parse_tokens_fuel ind f) s (Hs s (or_introl eq_refl)) Hok1
                  (flat_map (stoks ind) p ++ [(END, [])])) as HP.
    rewrite E in *. cbn [app parse_loop] in *. rewrite He, HP.
    rewrite (IH k); [reflexivity| |cbn in Hk; lia|exact Hok2].
    intros s' Hs'. apply Hs. now right.
Qed.

Lemma ptoks_length_ge ind p s : In s p -> ssize s <= List.length (ptoks ind p).
Proof.
  intros H. unfold ptoks. induction p as [|s' p IH]; [destruct H|]. cbn [flat_map]. rewrite app_length.
  destruct H as [->|H].
  - pose proof (proj2 (size_le_toks ind) s). lia.
  - specialize (IH H). lia.
Qed.

(* the same for whole programs, at the fuel [parse] uses *)
Theorem parse_tokens_of_prog : forall ind p, prog_ok ind p = true ->
  parse (ptoks ind p ++ [(END, [])]) = Parsed (pnorm ind p).
Proof.
  intros ind p Hok. unfold parse, parse_fuel_of.
  apply parse_loop_spec; [|  |exact Hok].
  - intros s Hs. rewrite app_length. pose proof (ptoks_length_ge ind p s Hs). lia.
  - rewrite app_length. cbn [List.length]. unfold ptoks.
    pose proof (flat_stoks_length ind p). lia.
Qed.

Definition not_bin (r : res expr) : Prop := match r with Ok e _ => is_bin e = false | _ => True end.

Lemma not_bin_alt x y : not_bin x -> not_bin y -> not_bin (x <|> y).
Proof. destruct x; auto. Qed.

(* for one alternative of the grammar, with its definition unfolded: whatever its tests answer, it ends in
   Fail, Abort, ... or in Ok of a constructor that is not EBin *)
Ltac nb :=
  unfold must, optional;
  repeat match goal with
         | |- context [match ?x with _ => _ end] =>
           lazymatch x with
           | context [match _ with _ => _ end] => fail
           | _ => destruct x
           end
         end;
  first [exact I|reflexivity].

Section NotBin.
  Variable pe : list ptok -> res expr.
  Variable ps : list ptok -> res stmt.

  Lemma non_op_not_bin ts e r : non_op_expression pe ps ts = Ok e r -> is_bin e = false.
  Proof.
    enough (H : not_bin (non_op_expression pe ps ts)) by (intros E; now rewrite E in H).
    unfold non_op_expression, func_op_expression, unprefixed_expression. repeat apply not_bin_alt.
    - unfold reduce_expression. nb.
    - unfold map_filter. nb.
    - unfold map_filter. nb.
    - unfold func_expression. nb.
    - unfold import_expression. nb.
    - unfold prefix_expression. nb.
    - unfold prefix_expression. nb.
    - unfold prefix_expression. nb.
    - unfold convert_expression. nb.
    - unfold module_expression. nb.
    - unfold select_expression. nb.
    - unfold range_expression. nb.
    - unfold grouped_expression. nb.
    - unfold include_expression. nb.
    - unfold format_expression. nb.
    - unfold simple_expression, value, symbol, compound_value, list_value, tuple, boolean_value, empty_value, number,
        quoted_value. nb.
    - unfold cast_expression. nb.
    - unfold call_expression. nb.
    - unfold copy_expression. nb.
  Qed.

  Lemma operands_not_bin : forall n first ts a c r, operands pe ps n first ts = Ok (a, c) r ->
    is_bin a = false /\ forall oa, In oa c -> is_bin (snd oa) = false.
  Proof.
    induction n as [|n IH]; intros first ts a c r H; [discriminate H|]. cbn [operands] in H.
    destruct (non_op_expression pe ps ts) as [e rest| | | |] eqn:E; try discriminate H; try (destruct first; discriminate H).
    apply non_op_not_bin in E.
    destruct rest as [|t rest1].
    - destruct first; [discriminate H|]. inversion H; subst. split; [exact E|intros oa []].
    - destruct (binop_of t) as [o|].
      + destruct (operands pe ps n false rest1) as [[a' c'] r'| | | |] eqn:E2; try discriminate H.
        inversion H; subst. destruct (IH _ _ _ _ _ E2) as [Ha' Hc']. split; [exact E|].
        intros oa [<-|Hoa]; [exact Ha'|now apply Hc'].
      + destruct first; [discriminate H|]. inversion H; subst. split; [exact E|intros oa []].
  Qed.

  Lemma tree_of_expr_of_tree t : (forall x, In x (tleaves t) -> is_bin x = false) -> tree_of (expr_of_tree t) = t.
  Proof.
    induction t as [a|o l IHl r IHr]; intros H.
    - cbn [expr_of_tree]. apply tree_of_leaf. apply H. now left.
    - cbn [expr_of_tree tree_of]. rewrite IHl, IHr; [reflexivity| |]; intros x Hx; apply H; cbn [tleaves];
        apply in_or_app; auto.
  Qed.

  Lemma expression_wf ts e r : expression pe ps ts = Ok e r -> WF code_prec (tree_of e).
  Proof.
    unfold expression, op_expression. intros H.
    destruct (operands pe ps (S (List.length ts)) true ts) as [[a c] rest| | | |] eqn:E; try discriminate H.
    - cbn [fst snd] in H. destruct (climb code_prec a c) as [t|] eqn:Ec; [|discriminate H].
      inversion H; subst. destruct (climb_sound_lemma expr code_prec _ _ _ Ec) as [Hy W].
      destruct (operands_not_bin _ _ _ _ _ _ E) as [Ha Hc].
      rewrite tree_of_expr_of_tree; [exact W|].
      rewrite yield_leaves, Hy. cbn [fst snd]. intros x [<-|Hx]; [exact Ha|].
      apply in_map_iff in Hx as (oa & <- & Hoa). now apply Hc.
    - apply non_op_not_bin in H. rewrite (tree_of_leaf e H). exact I.
  Qed.
End NotBin.

(* parse_produces_wf: whatever `expression` returns is, at its root, the tree the climber builds for its own
   in-order chain (WF w.r.t. the generated table) *)
Theorem parse_produces_wf : forall fuel ts e r, p_expr fuel ts = Ok e r -> WF code_prec (tree_of e).
Proof.
  intros [|f] ts e r H; [discriminate H|]. exact (expression_wf _ _ _ _ _ H).
Qed.

(* binary_roundtrip_needs_wf_refuted: a binary tree that is NOT the climber's tree and has no EGroup node does
   not survive printing and re-parsing: (a + b) * c as a bare tree prints `a + b * c`, which is a + (b * c) *)
Theorem binary_roundtrip_needs_wf_refuted :
  let e := EBin Mul (EBin Add (ESym (b "a")) (ESym (b "b"))) (ESym (b "c")) in
  let e' := EBin Add (ESym (b "a")) (EBin Mul (ESym (b "b")) (ESym (b "c"))) in
  wfb (tree_of e) = false /\
  pp 2 e = b "a + b * c" /\
  parse_expr (etoks 2 e ++ [P ";"]) = Ok e' [P ";"] /\
  parse_src (pp_stmts 2 [SExpr e]) = Parsed [SExpr e'] /\
  e <> e'.
Proof. repeat split; try (vm_compute; reflexivity). discriminate. Qed.

(* composition: IF the printed text lexes to the token list [ptoks] (the lexer-side obligation
   [lex_of_print]), a program of the class [prog_ok] is re-parsed from its own formatted text *)
Definition lex_of_print (ind : nat) (p : prog) : Prop :=
  strip_lex (pp_stmts ind p) = Some (ptoks ind p ++ [tk_end]).

Theorem fmt_preserves_ast_of_tokens : forall ind p,
  lex_of_print ind p -> prog_ok ind p = true -> parse_src (pp_stmts ind p) = Parsed (pnorm ind p).
Proof.
  intros ind p HL Hok. unfold lex_of_print, strip_lex in HL. unfold parse_src.
  destruct (lex (pp_stmts ind p)) as [l|]; [|discriminate HL]. cbn [option_map] in HL.
  inversion HL as [HL']. change (map strip l) with (map strip_tok l) in HL'. rewrite HL'.
  apply parse_tokens_of_prog. exact Hok.
Qed.

(* [norm] is the identity on programs whose templates need no re-escaping *)
Lemma tmpl_escape_plain s :
  forallb (fun c => negb (Ascii.eqb c at_sign || Ascii.eqb c bsl)) s = true -> tmpl_escape s = s.
Proof.
  induction s as [|c s IH]; [reflexivity|]. cbn [forallb]. intros H. apply andb_true_iff in H as [Hc Hs].
  unfold tmpl_escape in *. cbn [flat_map]. rewrite (IH Hs). unfold tmpl_esc_byte.
  apply negb_true_iff in Hc. now rewrite Hc.
Qed.

Lemma map_id_Forall {A} (f : A -> A) (c : A -> bool) l :
  Forall (fun a => c a = true -> f a = a) l -> forallb c l = true -> map f l = l.
Proof.
  intros H Hc. rewrite forallb_forall in Hc. rewrite Forall_forall in H. rewrite <- (map_id l) at 2.
  apply map_ext_in. auto.
Qed.

Lemma norm_raw ind :
  (forall e, raw_tpl e = true -> norm ind e = e) /\ (forall s, raw_tpl_stmt s = true -> snorm ind s = s).
Proof.
  assert (fld : forall fs : list (bytes * expr),
            Forall (fun kv => raw_tpl (snd kv) = true -> norm ind (snd kv) = snd kv) fs ->
            forallb (fun kv => raw_tpl (snd kv)) fs = true -> map (fun kv => (fst kv, norm ind (snd kv))) fs = fs).
  { intros fs H. apply map_id_Forall. eapply Forall_impl; [|exact H]. intros [k v] E Hr. cbn in *. now rewrite E. }
  assert (opt : forall o, match o with Some x => raw_tpl x = true -> norm ind x = x | None => True end ->
            match o with Some x => raw_tpl x | None => true end = true -> option_map (norm ind) o = o).
  { intros [x|] H Hr; cbn; [now rewrite H|reflexivity]. }
  assert (plain : forall parts, match parts with
                                | [PStr s] => forallb (fun c => negb (Ascii.eqb c at_sign || Ascii.eqb c bsl)) s
                                | _ => false end = true -> [PStr (unparse_template ind parts)] = parts).
  { intros parts H. destruct parts as [|[s| |x] [|? ?]]; try discriminate H.
    unfold unparse_template. cbn [flat_map pp_tpart]. now rewrite app_nil_r, tmpl_escape_plain. }
  apply expr_stmt_ind; intros; rewrite ?norm_module, ?snorm_eq; cbn [norm raw_tpl raw_tpl_stmt] in *; split_andb;
    repeat match goal with
           | H : raw_tpl ?e = true -> _, H' : raw_tpl ?e = true |- _ => rewrite (H H'); clear H
           end; unfold fnorm; f_equal; eauto using map_id_Forall.
Qed.

Lemma pnorm_raw ind p : raw_tpl_prog p = true -> pnorm ind p = p.
Proof. apply map_id_Forall, Forall_forall. intros s _. apply norm_raw. Qed.

(* for programs without re-escaped templates: the formatted text parses to the SAME program *)
Theorem fmt_preserves_ast_raw : forall ind p,
  lex_of_print ind p -> prog_ok ind p = true -> raw_tpl_prog p = true ->
  parse_src (pp_stmts ind p) = Parsed p.
Proof.
  intros ind p HL Hok Hr. rewrite (fmt_preserves_ast_of_tokens ind p HL Hok). now rewrite pnorm_raw.
Qed.

(* formatting is a fixed point on such programs: format, parse, format again gives the same text *)
Corollary fmt_fixed_point_of_tokens : forall ind p p',
  lex_of_print ind p -> prog_ok ind p = true -> raw_tpl_prog p = true ->
  parse_src (pp_stmts ind p) = Parsed p' -> pp_stmts ind p' = pp_stmts ind p.
Proof.
  intros ind p p' HL Hok Hr H. rewrite (fmt_preserves_ast_raw ind p HL Hok Hr) in H. now inversion H.
Qed.

(* on the fragment of Print_Lemmas.frag_ok the token list of Parse_Toks is the one of Print.v.  (The two lexing
   theorems, Print_Lemmas.pp_toks for [toks] under frag_ok and Parse_Lex.pp_lex for [etoks] under lex_ok and
   pp_ok, do not follow from one another through it: frag_ok admits symbols named like keywords, which pp_ok
   excludes, and pp_ok admits every construct.) *)
Lemma etoks_frag ind : forall e, frag_ok e = true -> etoks ind e = toks e.
Proof.
  enough ((forall e, frag_ok e = true -> etoks ind e = toks e) /\ (forall s : stmt, True)) as [H _] by exact H.
  apply expr_stmt_ind; try (intros; exact I); try (intros; discriminate); cbn [frag_ok etoks toks]; intros;
    split_andb; try reflexivity.
  - rewrite forallb_forall in H0. do 2 f_equal. induction H as [|kv fs Hkv _ IH]; [reflexivity|].
    cbn [flat_map]. rewrite Hkv, IH by auto using in_eq, in_cons. reflexivity.
  - rewrite forallb_forall in H0. do 2 f_equal. induction H as [|x es Hx _ IH]; [reflexivity|].
    cbn [flat_map]. rewrite Hx, IH by auto using in_eq, in_cons. reflexivity.
  - now rewrite H, H0.
  - now rewrite H.
Qed.

(* the statements over the fragment of Print_Lemmas.frag_ok *)
Definition frag_stmt (s : stmt) : bool :=
  match s with
  | SLet x e | SOut x e => (sym_ok x && frag_ok e)%bool
  | SExpr e | SAssert e => frag_ok e
  end.
Definition frag_prog (p : prog) : bool := forallb frag_stmt p.

(* What is NOT proved.
   fmt_preserves_ast_templates_partial.
   The parser keeps a template as raw text; sem/Ast.v stores it pre-parsed.  So for a program with format
   expressions the re-parsed program is [pnorm ind p] (raw templates), not p, and [raw_tpl_prog] excludes
   every template that contains `@` or a backslash.
   FULL STATEMENT (not proved): with a model tpl_parse of src/build/format.rs (SimpleTemplate /
   ExpressionTemplate) and elab : expr -> option expr that applies it to every [PStr raw] node,
     elab_prog (pnorm ind p) = Some p   for programs whose parts lists are in the canonical form of format.rs.
   MISSING: the model of format.rs (its `@{...}` parts need lex + parse_expr on the text between the braces).

   parse_fuel_partial.
   FULL STATEMENT (not proved):  forall ts, parse ts <> ParseNoFuel.
   PROVED: on every printed program of the class prog_ok the budget suffices (parse_tokens_of_prog computes
   with exactly the fuel of [parse]); parse_tokens_fuel gives the result at every fuel >= size + 2.
   MISSING: for each of the ~40 parser functions "Ok _ rest -> length rest <= length ts" and
   "pe never answers NoFuel on shorter inputs -> neither does the function".

   parse_produces_wf_deep_partial.
   PROVED: parse_produces_wf (the ROOT of every expression `expression` returns is WF) and non_op_not_bin.
   NOT PROVED: the same for every nested sub-expression (needs one traversal lemma per parser function), and
   parse ts = Parsed p -> prog_ok ind p = true (false as stated: pp_ok is conservative, e.g. it rejects
   `1.5.x` chains and calls named like casts with two arguments). *)
