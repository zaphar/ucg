(* Print Assumptions for the headline theorems of theories/parse: every answer must be
   "Closed under the global context" *)
From Ucg Require Import parse.Parse parse.Parse_Toks parse.Parse_Lemmas.
Print Assumptions parse_tokens_fuel.
Print Assumptions parse_tokens_of.
Print Assumptions parse_tokens_of_prog.
Print Assumptions parse_produces_wf.
Print Assumptions non_op_not_bin.
Print Assumptions binary_roundtrip_needs_wf_refuted.
Print Assumptions fmt_preserves_ast_of_tokens.
Print Assumptions fmt_preserves_ast_raw.
Print Assumptions fmt_fixed_point_of_tokens.
From Ucg Require Import parse.Parse_Lex.
Print Assumptions pp_lex.
Print Assumptions lex_of_print_ok.
Print Assumptions fmt_preserves_ast_all.
Print Assumptions fmt_preserves_ast.
Print Assumptions fmt_fixed_point.
Print Assumptions pp_stmts_raw_norm.
Print Assumptions fmt_fixed_point_all.
Print Assumptions fmt_fixed_point_all_raw.
Print Assumptions fmt_fixed_point_pp_refuted.
