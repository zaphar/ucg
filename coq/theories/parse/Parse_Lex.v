(* lex_of_print for the WHOLE language: the text the printer model writes (print/Print.v) lexes to the token
   list of Parse_Toks.ptoks, extending Print_Lemmas.pp_toks from the fragment frag_ok to every construct.
   With Parse_Lemmas.parse_tokens_of_prog this gives the text-level round trip under the two executable side
   conditions lex_ok_prog and prog_ok (fmt_preserves_ast_all, fmt_fixed_point_all at the end). *)
From Ucg Require Import base.Bytes base.Bytes_Lemmas prec.Climb sem.Ast lex.Lex_Types lex.Lex lex.Lex_Lemmas
  print.Print print.Print_Lemmas parse.Parse parse.Parse_Toks parse.Parse_Lemmas.
From UcgGen Require Import PrecTable.
Local Open Scope string_scope.
Local Open Scope list_scope.

(* every symbol, parameter, converter / include type and bound name is a well-formed BAREWORD
   (Print_Lemmas.sym_ok), every float is one the parser can produce (Print.parser_float) *)
Fixpoint lex_ok (e : expr) {struct e} : bool :=
  let ff (fs : list (bytes * expr)) := forallb (fun kv => lex_ok (snd kv)) fs in
  match e with
  | ENull | EBool _ | EInt _ | EStr _ | EImport _ => true
  | EFloat bits => parser_float bits
  | ESym x => sym_ok x
  | EInclude t _ => sym_ok t
  | ETuple fs => ff fs
  | EList es => forallb lex_ok es
  | EBin _ l r => (lex_ok l && lex_ok r)%bool
  | ENot e1 | EGroup e1 | EFail e1 | ETrace e1 | ECast _ e1 => lex_ok e1
  | EConvert t e1 => (sym_ok t && lex_ok e1)%bool
  | EFunc ps e1 => (forallb sym_ok ps && lex_ok e1)%bool
  | ECopy t fs => (lex_ok t && ff fs)%bool
  | ERange s st en => (lex_ok s && match st with Some x => lex_ok x | None => true end && lex_ok en)%bool
  | EFormatL _ args => forallb lex_ok args
  | EFormatS _ a => lex_ok a
  | ECall f args => (lex_ok f && forallb lex_ok args)%bool
  | ESelect v d arms => (lex_ok v && match d with Some x => lex_ok x | None => true end && ff arms)%bool
  | EMap f t | EFilter f t => (lex_ok f && lex_ok t)%bool
  | EReduce f a t => (lex_ok f && lex_ok a && lex_ok t)%bool
  | EModule ps out body =>
      (ff ps && match out with Some x => lex_ok x | None => true end && forallb lex_ok_stmt body)%bool
  end
with lex_ok_stmt (s : stmt) {struct s} : bool :=
  match s with
  | SLet x e | SOut x e => (sym_ok x && lex_ok e)%bool
  | SExpr e | SAssert e => lex_ok e
  end.
Definition lex_ok_prog (p : prog) : bool := forallb lex_ok_stmt p.

Lemma option_map_app_cons {A} (a : A) l o : option_map (app l) (option_map (cons a) o) = option_map (app (l ++ [a])) o.
Proof. destruct o; cbn; [now rewrite <- app_assoc|reflexivity]. Qed.

Section LexPrint.
  Variable ind : nat.

  Definition pp_field (cur : nat) (kv : bytes * expr) : bytes :=
    Print.field_name (fst kv) ++ b " = " ++ pp_expr ind (cur + ind) (snd kv).
  Definition pp_fields (cur : nat) (fs : list (bytes * expr)) : bytes :=
    b "{" ++ block ind cur (map (pp_field cur) fs) ++ b "}".
  Definition pp_tpl (parts : list tpart) : bytes := quoted (unparse_template ind parts).
  Definition pp_body (cur : nat) (body : list stmt) : bytes :=
    match body with
    | [] => []
    | s :: rest =>
        spaces (cur + ind) ++ pp_stmt ind (cur + ind) s ++
        flat_map (fun s' => spaces (cur + ind) ++ [nl] ++ pp_stmt ind (cur + ind) s') rest
    end.

  Lemma pp_tpart_cur cur p : pp_tpart ind cur p = pp_tpart ind 0 p.
  Proof. destruct p; reflexivity. Qed.
  Lemma pp_parts_cur cur parts : flat_map (pp_tpart ind cur) parts = unparse_template ind parts.
  Proof. unfold unparse_template. induction parts as [|p parts IH]; [reflexivity|]. cbn [flat_map]. now rewrite IH, pp_tpart_cur. Qed.

  (* the text of the constructs whose proofs below go through it piece by piece, with the blanks the
     step lemmas expect set apart (each equation holds by computation) *)
  Lemma pp_range cur s st en : pp_expr ind cur (ERange s st en) =
    pp_expr ind cur s ++ b ":" ++ match st with Some x => pp_expr ind cur x ++ b ":" | None => [] end ++ pp_expr ind cur en.
  Proof. reflexivity. Qed.
  Lemma pp_formatl cur parts args : pp_expr ind cur (EFormatL parts args) =
    quoted (flat_map (pp_tpart ind cur) parts) ++ b " % " ++ b "(" ++ [nl] ++
    join_with (b "," ++ [nl]) (map (fun a => spaces (cur + ind) ++ pp_expr ind (cur + ind) a) args) ++ b ")".
  Proof. reflexivity. Qed.
  Lemma pp_formats cur parts a : pp_expr ind cur (EFormatS parts a) =
    quoted (flat_map (pp_tpart ind cur) parts) ++ b " % " ++ pp_expr ind cur a.
  Proof. reflexivity. Qed.
  Lemma pp_call cur f args : pp_expr ind cur (ECall f args) =
    pp_expr ind cur f ++ b "(" ++
    match args with
    | _ :: _ :: _ => block ind cur (map (pp_expr ind (cur + ind)) args)
    | _ => flat_map (pp_expr ind (cur + ind)) args
    end ++ b ")".
  Proof. reflexivity. Qed.
  Lemma pp_func cur ps body : pp_expr ind cur (EFunc ps body) =
    b "func" ++ sp :: b "(" ++ join_with (b ", ") ps ++ b ")" ++ sp :: b "=>" ++ sp :: pp_expr ind cur body.
  Proof. reflexivity. Qed.
  Lemma pp_select cur v d arms : pp_expr ind cur (ESelect v d arms) =
    b "select" ++ sp :: b "(" ++ pp_expr ind cur v ++
    match d with Some x => b ", " ++ pp_expr ind cur x | None => [] end ++ b ")" ++ sp :: b "=>" ++ sp :: pp_fields cur arms.
  Proof. reflexivity. Qed.
  Lemma pp_reduce cur f a t : pp_expr ind cur (EReduce f a t) =
    b "reduce" ++ b "(" ++ pp_expr ind cur f ++ b ", " ++ pp_expr ind cur a ++ b ", " ++ pp_expr ind cur t ++ b ")".
  Proof. reflexivity. Qed.
  Lemma pp_module cur ps out body : pp_expr ind cur (EModule ps out body) =
    b "module" ++ sp :: pp_fields cur ps ++ sp :: b "=>" ++ sp ::
    match out with Some x => b "(" ++ pp_expr ind cur x ++ b ")" ++ [sp] | None => [] end ++
    b "{" ++ [nl] ++ pp_body cur body ++ b "}".
  Proof. reflexivity. Qed.
  Lemma pp_stmt_eq cur s : pp_stmt ind cur s =
    match s with
    | SLet x e => b "let" ++ sp :: x ++ sp :: b "=" ++ sp :: pp_expr ind cur e
    | SExpr e => pp_expr ind cur e
    | SAssert e => b "assert" ++ sp :: pp_expr ind cur e
    | SOut t e => b "out" ++ sp :: t ++ sp :: pp_expr ind cur e
    end ++ b ";" ++ [nl].
  Proof. destruct s; reflexivity. Qed.

  (* what is proved of every expression and statement: the text lexes to the tokens, at any indentation,
     before any delimiter *)
  Notation SP e := (forall cur, item_spec (pp_expr ind cur e) (etoks ind e)).
  Notation SS s := (forall cur y, strip_lex (pp_stmt ind cur s ++ y) = option_map (app (stoks ind s)) (strip_lex y)).

  Lemma sym_starts x : sym_ok x = true -> starts x.
  Proof.
    unfold sym_ok, wf_tk, starts. cbn [fst snd]. intros H. apply andb_true_iff in H as [Hw _].
    destruct x as [|c r]; [discriminate|]. cbn in Hw. apply andb_true_iff in Hw as [Hc _].
    cbn [head_is]. unfold is_starter. now rewrite Hc.
  Qed.

  Lemma digits_start d : digit_string d -> starts d.
  Proof.
    intros [Hn Hd]. destruct d as [|c r]; [congruence|]. cbn [forallb] in Hd. apply andb_true_iff in Hd as [Hc _].
    unfold starts, is_starter. cbn [head_is]. rewrite Hc. now rewrite orb_true_r.
  Qed.

  Lemma starts_app t z : starts t -> starts (t ++ z).
  Proof. destruct t; [discriminate|trivial]. Qed.

  Lemma float_shape bits : parser_float bits = true ->
    exists d1 d2, digit_string d1 /\ digit_string d2 /\ float_text bits = d1 ++ dot :: d2 /\
                  split_dot (float_text bits) = (d1, d2).
  Proof.
    intros H. destruct (finite_float_literal_ok bits H) as (d1 & d2 & H1 & H2 & E & _).
    exists d1, d2. split; [exact H1|]. split; [exact H2|]. split; [exact E|]. rewrite E. destruct H1 as [_ D1]. clear - D1.
    induction d1 as [|c d1 IH]; cbn [app split_dot].
    - now rewrite Ascii.eqb_refl.
    - cbn [forallb] in D1. apply andb_true_iff in D1 as [Hc D1].
      destruct (Ascii.eqb c dot) eqn:E; [apply Ascii.eqb_eq in E; subst c; discriminate Hc|].
      now rewrite (IH D1).
  Qed.

  Lemma pp_starts2 e : lex_ok e = true -> pp_ok ind e = true -> forall cur, starts (pp_expr ind cur e).
  Proof.
    induction e; intros Hl Hok cur; try reflexivity; cbn [lex_ok pp_ok pp_expr] in *.
    - destruct v; reflexivity.
    - unfold int_rt in Hok. apply andb_true_iff in Hok as [Hz _]. apply Z.leb_le in Hz.
      apply digits_start, dec_of_Z_digits, Hz.
    - destruct (float_shape bits Hl) as (d1 & d2 & D1 & _ & -> & _). now apply starts_app, digits_start.
    - now apply sym_starts.
    - split_andb. apply starts_app. auto.
    - split_andb. destruct e; try discriminate. apply starts_app. now apply sym_starts.
    - split_andb. apply starts_app. auto.
    - split_andb. destruct e; try discriminate. apply starts_app. now apply sym_starts.
    - destruct c; reflexivity.
  Qed.

  Lemma lex_word_sp x y : sym_ok x = true -> strip_lex (x ++ sp :: y) = option_map (cons (BAREWORD, x)) (strip_lex y).
  Proof. apply (lex_tok_sp (BAREWORD, x)). Qed.
  Lemma lex_punct_sp (s : string) y : wf_tk (PUNCT, b s) = true ->
    strip_lex (b s ++ sp :: y) = option_map (cons (P s)) (strip_lex y).
  Proof. apply (lex_tok_sp (PUNCT, b s)). Qed.

  Lemma kw_prefix_spec k (t : bytes) (ts : list ptok) :
    In k printer_keywords -> item_spec t ts -> item_spec (b k ++ sp :: t) ((BAREWORD, b k) :: ts).
  Proof. intros Hk H y Hy. rewrite <- app_assoc. cbn [app]. rewrite lex_kw by exact Hk. rewrite (H y Hy). fin y. Qed.

  (* a word directly in front of a text that starts with `{` or `(` *)
  Lemma word_prefix_spec x (t : bytes) (ts : list ptok) c t' :
    wf_tk (BAREWORD, x) = true -> t = c :: t' -> is_symbol_char c = false -> item_spec t ts ->
    item_spec (x ++ t) ((BAREWORD, x) :: ts).
  Proof.
    intros Hx -> Hc IH y Hy. rewrite <- app_assoc. cbn [app]. rewrite lex_word by assumption.
    change (c :: t' ++ y) with ((c :: t') ++ y). rewrite (IH y Hy). fin y.
  Qed.

  Lemma brace_not_symbol : is_symbol_char "{"%char = false /\ is_symbol_char "("%char = false.
  Proof. split; reflexivity. Qed.

  (* a word and a blank in front of a text *)
  Lemma word_sp_spec x (t : bytes) (ts : list ptok) :
    sym_ok x = true -> item_spec t ts -> item_spec (x ++ sp :: t) ((BAREWORD, x) :: ts).
  Proof.
    intros Hx H y Hy. rewrite <- app_assoc. cbn [app]. rewrite lex_word_sp by exact Hx.
    rewrite (H y Hy). fin y.
  Qed.

  Lemma fields_spec cur (fs : list (bytes * expr)) :
    Forall (fun kv => SP (snd kv)) fs -> item_spec (pp_fields cur fs) (P "{" :: commas1 (ftoks ind) fs ++ [P "}"]).
  Proof.
    intros IH. apply (bracket_spec ind (b "{") (b "}") cur (pp_field cur) (ftoks ind)); [cbn; auto|cbn; auto|].
    eapply Forall_impl; [|exact IH]. intros kv H. apply field_spec, H.
  Qed.

  (* `word(t1, t2)` *)
  Lemma call2_spec (k : string) (t1 t2 : bytes) (ts1 ts2 : list ptok) :
    wf_tk (BAREWORD, b k) = true -> item_spec t1 ts1 -> item_spec t2 ts2 ->
    item_spec (b k ++ b "(" ++ t1 ++ b ", " ++ t2 ++ b ")") ((BAREWORD, b k) :: P "(" :: ts1 ++ P "," :: ts2 ++ [P ")"]).
  Proof.
    intros Hk H1 H2.
    eapply (word_prefix_spec (b k) _ _ "("%char); [exact Hk|reflexivity|reflexivity|].
    intros y Hy. rewrite <- ?app_assoc.
    rewrite lex_open by (cbn; auto). rewrite H1 by reflexivity. rewrite lex_comma_sp.
    rewrite H2 by reflexivity. rewrite lex_close by (cbn; auto). fin y.
  Qed.

  (* `) => ` *)
  Lemma lex_rparen_arrow y :
    strip_lex (b ")" ++ sp :: b "=>" ++ sp :: y) = option_map (fun r => P ")" :: P "=>" :: r) (strip_lex y).
  Proof.
    rewrite (lex_punct_sp ")"), (lex_punct_sp "=>") by reflexivity. fin y.
  Qed.

  (* the template literal and the ` % ` after it *)
  Lemma lex_tpl_pct cur parts y :
    strip_lex (quoted (flat_map (pp_tpart ind cur) parts) ++ b " % " ++ y) =
    option_map (fun r => (QUOTED, unparse_template ind parts) :: P "%" :: r) (strip_lex y).
  Proof.
    rewrite pp_parts_cur, strip_lex_quoted.
    change (b " % " ++ y) with (sp :: src_of (PUNCT, b "%") ++ sp :: y).
    rewrite lex_spaced_op by reflexivity. fin y.
  Qed.

  Lemma lex_int z : int_rt z = true -> SP (EInt z).
  Proof.
    intros Hz cur. unfold int_rt in Hz. apply andb_true_iff in Hz as [Hz _]. apply Z.leb_le in Hz.
    destruct (dec_of_Z_digits z Hz). now apply (atom_spec (DIGIT, dec_of_Z z)); [apply digits_wf|].
  Qed.

  Lemma lex_float bits : parser_float bits = true -> SP (EFloat bits).
  Proof.
    intros Hb cur y Hy. destruct (float_shape bits Hb) as (d1 & d2 & [N1 D1] & [N2 D2] & E & Es).
    change (pp_expr ind cur (EFloat bits)) with (float_text bits). cbn [etoks]. unfold float_toks. rewrite Es, E.
    rewrite <- app_assoc. cbn [app]. rewrite digits_dot_digits_ok; try assumption; [fin y|].
    apply end_tok_follow; [reflexivity|exact Hy].
  Qed.

  Lemma lex_list es : Forall (fun e => SP e) es -> SP (EList es).
  Proof.
    intros IH cur. apply (bracket_spec ind (b "[") (b "]") cur (pp_expr ind (cur + ind)) (etoks ind)); [cbn; auto|cbn; auto|].
    eapply Forall_impl; [|exact IH]. auto.
  Qed.

  Lemma lex_copy x fs : sym_ok x = true -> Forall (fun kv => SP (snd kv)) fs -> SP (ECopy (ESym x) fs).
  Proof.
    intros Hx IH cur.
    apply (word_prefix_spec x (pp_fields cur fs) _ "{"%char (block ind cur (map (pp_field cur) fs) ++ b "}"));
      [exact Hx|reflexivity|reflexivity|now apply fields_spec].
  Qed.

  Lemma lex_range s st en : SP s -> SP en -> (forall cur, starts (pp_expr ind cur en)) ->
    match st with Some x => SP x /\ forall cur, starts (pp_expr ind cur x) | None => True end -> SP (ERange s st en).
  Proof.
    intros IHs IHe Se Hst cur y Hy. rewrite pp_range. cbn [etoks]. rewrite <- !app_assoc.
    rewrite (IHs cur) by reflexivity. destruct st as [x|].
    - destruct Hst as [IHx Sx]. rewrite <- !app_assoc. rewrite (lex_colon _ _ (Sx cur)).
      rewrite (IHx cur) by reflexivity. rewrite (lex_colon _ _ (Se cur)). rewrite (IHe cur y Hy). fin y.
    - cbn [app]. rewrite (lex_colon _ _ (Se cur)). rewrite (IHe cur y Hy). fin y.
  Qed.

  Lemma lex_formats parts a : SP a -> SP (EFormatS parts a).
  Proof. intros IH cur y Hy. rewrite pp_formats, <- !app_assoc, lex_tpl_pct, (IH cur y Hy). fin y. Qed.

  Lemma lex_args_tail n xs y : Forall (fun e => SP e) xs -> delim_follow y = true ->
    strip_lex (flat_map (fun t => (b "," ++ [nl]) ++ t) (map (fun a => spaces n ++ pp_expr ind n a) xs) ++ b ")" ++ y)
    = option_map (app (commas2 (etoks ind) xs ++ [P ")"])) (strip_lex y).
  Proof.
    intros IH Hy. induction IH as [|x xs Hx _ IHxs].
    - cbn [map flat_map app commas2]. rewrite lex_close by (cbn; auto). fin y.
    - cbn [map flat_map]. rewrite <- !app_assoc. rewrite lex_comma_nl, lex_spaces.
      rewrite (Hx n) by (destruct xs; reflexivity). rewrite IHxs.
      unfold commas2. cbn [flat_map]. fin y.
  Qed.

  Lemma lex_formatl parts a args : Forall (fun e => SP e) (a :: args) -> SP (EFormatL parts (a :: args)).
  Proof.
    intros IH cur y Hy. inversion IH as [|? ? Ha Hargs]; subst.
    rewrite pp_formatl, <- !app_assoc, lex_tpl_pct.
    rewrite lex_open by (cbn; auto). cbn [app]. rewrite lex_nl.
    cbn [map join_with]. rewrite <- !app_assoc. rewrite lex_spaces.
    rewrite (Ha (cur + ind)) by (destruct args; reflexivity).
    rewrite lex_args_tail by assumption.
    cbn [etoks]. rewrite (join_toks_cons (etoks ind) a args). fin y.
  Qed.

  Lemma lex_call f args : sym_ok f = true -> Forall (fun e => SP e) args -> SP (ECall (ESym f) args).
  Proof.
    intros Hf IH cur. rewrite pp_call. change (pp_expr ind cur (ESym f)) with f. cbn [etoks].
    eapply (word_prefix_spec f _ _ "("%char); [exact Hf|reflexivity|reflexivity|].
    destruct IH as [|a ? Ha [|a2 args Ha2 IH]].
    - intros y Hy. cbn [flat_map app]. rewrite <- ?app_assoc. rewrite lex_open, lex_close by (cbn; auto). fin y.
    - intros y Hy. cbn [flat_map]. rewrite !app_nil_r, <- ?app_assoc.
      rewrite lex_open by (cbn; auto). rewrite (Ha (cur + ind)) by reflexivity.
      rewrite lex_close by (cbn; auto). fin y.
    - apply (bracket_spec ind (b "(") (b ")") cur (pp_expr ind (cur + ind)) (etoks ind) (a :: a2 :: args));
        [cbn; auto|cbn; auto|]. repeat constructor; auto. eapply Forall_impl; [|exact IH]. auto.
  Qed.

  Lemma lex_cast c e : SP e -> SP (ECast c e).
  Proof.
    intros IH cur.
    apply (word_prefix_spec (cast_text c) (b "(" ++ pp_expr ind cur e ++ b ")") _ "("%char (pp_expr ind cur e ++ b ")"));
      [destruct c; reflexivity|reflexivity|reflexivity|apply group_spec, IH].
  Qed.

  Lemma lex_params_tail xs y : forallb sym_ok xs = true ->
    strip_lex (flat_map (fun t => b ", " ++ t) xs ++ b ")" ++ y)
    = option_map (app (commas2 sym_toks xs)) (strip_lex (b ")" ++ y)).
  Proof.
    intros Hs. induction xs as [|x xs IH].
    - cbn [flat_map app commas2]. fin (b ")" ++ y).
    - cbn [forallb] in Hs. apply andb_true_iff in Hs as [Hx Hs]. cbn [flat_map]. rewrite <- !app_assoc.
      rewrite lex_comma_sp. rewrite (strip_lex_token (BAREWORD, x)); [|exact Hx|].
      2:{ apply end_tok_follow; [reflexivity|]. destruct xs; reflexivity. }
      rewrite (IH Hs). fin (b ")" ++ y).
  Qed.

  Lemma lex_func prm body : forallb sym_ok prm = true -> SP body -> SP (EFunc prm body).
  Proof.
    intros Hs IH cur y Hy. rewrite pp_func. norm_app.
    rewrite lex_kw by (cbn; auto 20). rewrite lex_open by (cbn; auto). cbn [etoks].
    assert (Hp : forall z, strip_lex (join_with (b ", ") prm ++ b ")" ++ z)
                 = option_map (app (join_toks (map sym_toks prm))) (strip_lex (b ")" ++ z))).
    { intros z. destruct prm as [|x prm].
      - cbn [join_with map join_toks app]. fin (b ")" ++ z).
      - cbn [forallb] in Hs. apply andb_true_iff in Hs as [Hx Hs]. cbn [join_with]. rewrite <- app_assoc.
        rewrite (strip_lex_token (BAREWORD, x)); [|exact Hx|].
        2:{ apply end_tok_follow; [reflexivity|]. destruct prm; reflexivity. }
        rewrite (lex_params_tail prm _ Hs). rewrite (join_toks_cons sym_toks x prm). fin (b ")" ++ z). }
    rewrite Hp, lex_rparen_arrow, (IH cur y Hy). fin y.
  Qed.

  Lemma lex_select v d arms : SP v -> match d with Some x => SP x | None => True end ->
    Forall (fun kv => SP (snd kv)) arms -> SP (ESelect v d arms).
  Proof.
    intros IHv IHd IHa cur y Hy. rewrite pp_select. norm_app.
    rewrite lex_kw by (cbn; auto 20). rewrite lex_open by (cbn; auto). cbn [etoks]. rewrite fields_commas1.
    rewrite (IHv cur) by (destruct d; reflexivity). destruct d as [x|].
    - rewrite <- !app_assoc. rewrite lex_comma_sp. rewrite (IHd cur) by reflexivity.
      rewrite lex_rparen_arrow. rewrite (fields_spec cur arms IHa y Hy). fin y.
    - cbn [app]. rewrite lex_rparen_arrow. rewrite (fields_spec cur arms IHa y Hy). fin y.
  Qed.

  Lemma lex_reduce f a t : SP f -> SP a -> SP t -> SP (EReduce f a t).
  Proof.
    intros Hf Ha Ht cur. rewrite pp_reduce. cbn [etoks].
    eapply (word_prefix_spec (b "reduce") _ _ "("%char); [reflexivity|reflexivity|reflexivity|].
    intros y Hy. rewrite <- ?app_assoc.
    rewrite lex_open by (cbn; auto). rewrite (Hf cur) by reflexivity. rewrite lex_comma_sp.
    rewrite (Ha cur) by reflexivity. rewrite lex_comma_sp. rewrite (Ht cur) by reflexivity.
    rewrite lex_close by (cbn; auto). fin y.
  Qed.

  Lemma lex_stmt s : SP (match s with SLet _ e | SExpr e | SAssert e | SOut _ e => e end) ->
    match s with SLet x _ | SOut x _ => sym_ok x = true | _ => True end -> SS s.
  Proof.
    intros IH Hx cur y. rewrite pp_stmt_eq, stoks_eq. destruct s; norm_app.
    - rewrite lex_kw by (cbn; auto 20). rewrite lex_word_sp by exact Hx.
      rewrite (lex_punct_sp "=") by reflexivity. rewrite (IH cur) by reflexivity. rewrite lex_semicolon. fin y.
    - rewrite (IH cur) by reflexivity. rewrite lex_semicolon. fin y.
    - rewrite lex_kw by (cbn; auto 20). rewrite (IH cur) by reflexivity. rewrite lex_semicolon. fin y.
    - rewrite lex_kw by (cbn; auto 20). rewrite lex_word_sp by exact Hx.
      rewrite (IH cur) by reflexivity. rewrite lex_semicolon. fin y.
  Qed.

  Lemma lex_body cur body y : Forall (fun s => SS s) body -> delim_follow y = true ->
    strip_lex (pp_body cur body ++ b "}" ++ y) = option_map (app (flat_map (stoks ind) body ++ [P "}"])) (strip_lex y).
  Proof.
    intros IH Hy. destruct IH as [|s rest Hs IH].
    - cbn [pp_body flat_map app]. rewrite lex_close by (cbn; auto). fin y.
    - cbn [pp_body]. rewrite <- !app_assoc. rewrite lex_spaces, Hs.
      assert (Hr : strip_lex (flat_map (fun s' => spaces (cur + ind) ++ [nl] ++ pp_stmt ind (cur + ind) s') rest ++ b "}" ++ y)
                   = option_map (app (flat_map (stoks ind) rest ++ [P "}"])) (strip_lex y)).
      { induction IH as [|s' rest Hs' _ IHrest].
        - cbn [flat_map app]. rewrite lex_close by (cbn; auto). fin y.
        - cbn [flat_map]. rewrite <- !app_assoc. rewrite lex_spaces, (strip_lex_ws_any [nl]), Hs', IHrest by reflexivity. fin y. }
      rewrite Hr. cbn [flat_map]. fin y.
  Qed.

  Lemma lex_module pms out body :
    Forall (fun kv => SP (snd kv)) pms -> match out with Some x => SP x | None => True end -> Forall (fun s => SS s) body ->
    SP (EModule pms out body).
  Proof.
    intros IHp IHo IHb cur y Hy. rewrite pp_module, etoks_module. norm_app.
    rewrite lex_kw by (cbn; auto 20).
    rewrite (fields_spec cur pms IHp) by reflexivity. rewrite lex_sp. rewrite (lex_punct_sp "=>") by reflexivity.
    destruct out as [x|].
    - norm_app. rewrite lex_open by (cbn; auto). rewrite (IHo cur) by reflexivity.
      rewrite (lex_punct_sp ")") by reflexivity.
      rewrite lex_open by (cbn; auto). rewrite lex_nl, (lex_body cur body y IHb Hy). fin y.
    - norm_app. rewrite lex_open by (cbn; auto). rewrite lex_nl, (lex_body cur body y IHb Hy). fin y.
  Qed.

  (* the induction hypotheses for a list of components, discharged of their side conditions *)
  Lemma Forall_mp2 {A} (Q : A -> Prop) (c1 c2 : A -> bool) l :
    Forall (fun a => c1 a = true -> c2 a = true -> Q a) l -> forallb c1 l = true -> forallb c2 l = true -> Forall Q l.
  Proof. rewrite !forallb_forall, !Forall_forall. auto. Qed.

  Definition lexes (e : expr) : Prop := lex_ok e = true -> pp_ok ind e = true -> SP e.
  Definition lexes_stmt (s : stmt) : Prop := lex_ok_stmt s = true -> stmt_ok ind s = true -> SS s.

  Lemma pp_lex : (forall e, lexes e) /\ (forall s, lexes_stmt s).
  Proof.
    apply expr_stmt_ind; intros; unfold lexes, lexes_stmt in *; cbn [lex_ok pp_ok lex_ok_stmt stmt_ok];
      intros Hl Hok; split_andb;
      repeat match goal with
             | H : lex_ok ?e = true -> pp_ok ind ?e = true -> _ |- _ => specialize (H ltac:(assumption) ltac:(assumption))
             | H : Forall (fun a => _ = true -> _ = true -> _) _ |- _ => apply Forall_mp2 in H; [|assumption..]
             end.
    - intros cur. now apply (atom_spec (EMPTY, b "NULL")).
    - intros cur. destruct v; [now apply (atom_spec (BOOLEAN, b "true"))|now apply (atom_spec (BOOLEAN, b "false"))].
    - now apply lex_int.
    - now apply lex_float.
    - intros cur. apply quoted_spec.
    - intros cur. now apply (atom_spec (BAREWORD, x)).
    - intros cur. cbn [etoks]. rewrite fields_commas1. now apply fields_spec.
    - now apply lex_list.
    - intros cur. apply (bin_spec o (pp_expr ind cur l) (etoks ind l) (pp_expr ind cur r) (etoks ind r)); auto using pp_starts2.
    - intros cur. apply (kw_prefix_spec "not"); [cbn; auto 20|auto].
    - intros cur. apply group_spec; auto.
    - destruct t; try discriminate. now apply lex_copy.
    - destruct st; cbn beta iota in *; split_andb; apply lex_range; auto using pp_starts2.
    - destruct args; [discriminate|]. now apply lex_formatl.
    - apply lex_formats; auto.
    - destruct f; try discriminate. now apply lex_call.
    - apply lex_cast; auto.
    - apply lex_func; auto.
    - destruct d; apply lex_select; auto.
    - intros cur. apply (call2_spec "map"); [reflexivity|auto..].
    - intros cur. apply (call2_spec "filter"); [reflexivity|auto..].
    - apply lex_reduce; auto.
    - destruct out; apply lex_module; auto.
    - intros cur. apply (kw_prefix_spec "fail"); [cbn; auto 20|auto].
    - intros cur. apply (kw_prefix_spec "TRACE"); [cbn; auto 20|auto].
    - intros cur. apply (kw_prefix_spec "import"); [cbn; auto 20|apply quoted_spec].
    - intros cur. apply (kw_prefix_spec "include"); [cbn; auto 20|]. apply word_sp_spec; [assumption|apply quoted_spec].
    - intros cur. apply (kw_prefix_spec "convert"); [cbn; auto 20|]. apply word_sp_spec; auto.
    - apply (lex_stmt (SLet x e)); auto.
    - apply (lex_stmt (SExpr e)); auto.
    - apply (lex_stmt (SAssert e)); auto.
    - apply (lex_stmt (SOut t e)); auto.
  Qed.
End LexPrint.

(* lex_of_print_ok: the formatted text of a program lexes to [ptoks] *)
Theorem lex_of_print_ok : forall ind p, lex_ok_prog p = true -> prog_ok ind p = true -> lex_of_print ind p.
Proof.
  intros ind p Hl Hok. unfold lex_of_print, pp_stmts, pp_prog, ptoks, lex_ok_prog, prog_ok in *.
  rewrite forallb_forall in Hl, Hok.
  assert (HS : Forall (fun s => forall cur y,
            strip_lex (pp_stmt ind cur s ++ y) = option_map (app (stoks ind s)) (strip_lex y)) p).
  { apply Forall_forall. intros s Hs. apply (proj2 (pp_lex ind)); auto. }
  clear Hl Hok.
  assert (Htail : forall r, Forall (fun s => forall cur y,
              strip_lex (pp_stmt ind cur s ++ y) = option_map (app (stoks ind s)) (strip_lex y)) r ->
            strip_lex (flat_map (fun y => [nl] ++ y) (map (pp_stmt ind 0) r)) = Some (flat_map (stoks ind) r ++ [tk_end])).
  { induction 1 as [|s r Hs _ IH]; [exact strip_lex_nil|].
    cbn [map flat_map]. rewrite <- !app_assoc, (strip_lex_ws_any [nl]), Hs, IH by reflexivity.
    reflexivity. }
  destruct HS as [|s p Hs HS]; [exact strip_lex_nil|].
  cbn [map join_with flat_map]. rewrite Hs, (Htail _ HS). cbn [option_map]. now rewrite <- app_assoc.
Qed.

(* fmt_preserves_ast_all: the text `ucg fmt` writes for a program of the class prog_ok (names lexable) parses back
   to the program, templates in the raw form the parser keeps *)
Theorem fmt_preserves_ast_all : forall ind p, lex_ok_prog p = true -> prog_ok ind p = true ->
  parse_src (pp_stmts ind p) = Parsed (pnorm ind p).
Proof. intros ind p Hl Hok. apply fmt_preserves_ast_of_tokens; [now apply lex_of_print_ok|exact Hok]. Qed.

(* on the fragment of Print_Lemmas.frag_ok names are lexable by definition and there is no template, so the
   re-parsed program is the program itself *)
Lemma frag_lex_raw : forall e, frag_ok e = true -> lex_ok e = true /\ raw_tpl e = true.
Proof.
  enough ((forall e, frag_ok e = true -> lex_ok e = true /\ raw_tpl e = true) /\ (forall s : stmt, True)) as [H _]
    by exact H.
  apply expr_stmt_ind; try (intros; exact I); try (intros; discriminate);
    cbn [frag_ok lex_ok raw_tpl]; intros; split_andb; auto.
  - rewrite !forallb_forall in *. rewrite Forall_forall in H. split; intros x Hx; apply H; auto.
  - rewrite !forallb_forall in *. rewrite Forall_forall in H. split; intros x Hx; apply H; auto.
  - destruct (H H1), (H0 H2). split; apply andb_true_iff; auto.
Qed.

Theorem fmt_preserves_ast : forall ind p,
  frag_prog p = true -> prog_ok ind p = true -> parse_src (pp_stmts ind p) = Parsed p.
Proof.
  intros ind p Hf Hok.
  assert (lex_ok_prog p = true /\ raw_tpl_prog p = true) as [Hl Hr].
  { unfold lex_ok_prog, raw_tpl_prog, frag_prog in *. rewrite !forallb_forall in *.
    split; intros s Hs; specialize (Hf s Hs); destruct s; cbn [frag_stmt lex_ok_stmt raw_tpl_stmt] in *; split_andb;
      try apply andb_true_iff; try split; try apply frag_lex_raw; auto. }
  rewrite (fmt_preserves_ast_all ind p Hl Hok). now rewrite pnorm_raw.
Qed.

Corollary fmt_fixed_point : forall ind p p',
  frag_prog p = true -> prog_ok ind p = true ->
  parse_src (pp_stmts ind p) = Parsed p' -> pp_stmts ind p' = pp_stmts ind p.
Proof.
  intros ind p p' Hf Hok H. rewrite (fmt_preserves_ast ind p Hf Hok) in H. now inversion H.
Qed.

(* The re-parsed program is [pnorm ind p]: its templates are RAW text ([PStr raw], see Parse.v ENCODINGS).
   Print.pp_expr is the printer over PRE-PARSED templates: on a [PStr s] part it escapes `@` and the backslash
   (tmpl_escape), which is right for a literal part but wrong for a raw template.  The real AstPrinter
   (src/ast/printer/mod.rs, Format arm) writes FormatDef.template verbatim (only escape_quotes).  [pp_expr_raw]
   is that printer on the parser's own ASTs: identical to Print.pp_expr except that a template of the shape
   [PStr raw] is written verbatim. *)
Definition raw_of (ind : nat) (parts : list tpart) : bytes :=
  match parts with [PStr s] => s | _ => unparse_template ind parts end.

Section RawPrinter.
  Variable ind : nat.

  Fixpoint pp_expr_raw (cur : nat) (e : expr) {struct e} : bytes :=
    let fields (cur : nat) (fs : list (bytes * expr)) : bytes :=
      b "{" ++ block ind cur (map (fun kv => Print.field_name (fst kv) ++ b " = " ++ pp_expr_raw (cur + ind) (snd kv)) fs)
            ++ b "}" in
    match e with
    | ENull => b "NULL"
    | EBool v => if v then b "true" else b "false"
    | EInt z => dec_of_Z z
    | EFloat bits => float_text bits
    | EStr s => quoted s
    | ESym x => x
    | ETuple fs => fields cur fs
    | EList es => b "[" ++ block ind cur (map (pp_expr_raw (cur + ind)) es) ++ b "]"
    | EBin o l r => pp_expr_raw cur l ++ op_text o ++ pp_expr_raw cur r
    | ENot e1 => b "not " ++ pp_expr_raw cur e1
    | EGroup e1 => b "(" ++ pp_expr_raw cur e1 ++ b ")"
    | ECopy t fs => pp_expr_raw cur t ++ fields cur fs
    | ERange s st en =>
        pp_expr_raw cur s ++ b ":" ++
        match st with Some x => pp_expr_raw cur x ++ b ":" | None => [] end ++ pp_expr_raw cur en
    | EFormatL parts args =>
        quoted (raw_of ind parts) ++ b " % " ++ b "(" ++ [nl] ++
        join_with (b "," ++ [nl]) (map (fun a => spaces (cur + ind) ++ pp_expr_raw (cur + ind) a) args) ++ b ")"
    | EFormatS parts a => quoted (raw_of ind parts) ++ b " % " ++ pp_expr_raw cur a
    | ECall f args =>
        pp_expr_raw cur f ++ b "(" ++
        match args with
        | _ :: _ :: _ => block ind cur (map (pp_expr_raw (cur + ind)) args)
        | _ => flat_map (pp_expr_raw (cur + ind)) args
        end ++ b ")"
    | ECast c e1 => cast_text c ++ b "(" ++ pp_expr_raw cur e1 ++ b ")"
    | EFunc ps body => b "func (" ++ join_with (b ", ") ps ++ b ") => " ++ pp_expr_raw cur body
    | ESelect v d arms =>
        b "select (" ++ pp_expr_raw cur v ++
        match d with Some x => b ", " ++ pp_expr_raw cur x | None => [] end ++ b ") => " ++ fields cur arms
    | EMap f t => b "map(" ++ pp_expr_raw cur f ++ b ", " ++ pp_expr_raw cur t ++ b ")"
    | EFilter f t => b "filter(" ++ pp_expr_raw cur f ++ b ", " ++ pp_expr_raw cur t ++ b ")"
    | EReduce f a t =>
        b "reduce(" ++ pp_expr_raw cur f ++ b ", " ++ pp_expr_raw cur a ++ b ", " ++ pp_expr_raw cur t ++ b ")"
    | EModule ps out body =>
        b "module " ++ fields cur ps ++ b " => " ++
        match out with Some x => b "(" ++ pp_expr_raw cur x ++ b ") " | None => [] end ++
        b "{" ++ [nl] ++
        match body with
        | [] => []
        | s :: rest =>
            spaces (cur + ind) ++ pp_stmt_raw (cur + ind) s ++
            flat_map (fun s' => spaces (cur + ind) ++ [nl] ++ pp_stmt_raw (cur + ind) s') rest
        end ++ b "}"
    | EFail e1 => b "fail " ++ pp_expr_raw cur e1
    | ETrace e1 => b "TRACE " ++ pp_expr_raw cur e1
    | EImport p => b "import " ++ quoted p
    | EInclude t p => b "include " ++ t ++ b " " ++ quoted p
    | EConvert t e1 => b "convert " ++ t ++ b " " ++ pp_expr_raw cur e1
    end
  with pp_stmt_raw (cur : nat) (s : stmt) {struct s} : bytes :=
    match s with
    | SLet x e => b "let " ++ x ++ b " = " ++ pp_expr_raw cur e
    | SExpr e => pp_expr_raw cur e
    | SAssert e => b "assert " ++ pp_expr_raw cur e
    | SOut t e => b "out " ++ t ++ b " " ++ pp_expr_raw cur e
    end ++ b ";" ++ [nl].

  Definition pp_stmts_raw (p : list stmt) : bytes := join_with [nl] (map (pp_stmt_raw 0) p).

  Lemma pp_module_eq cur ps out body : pp_expr ind cur (EModule ps out body) =
    b "module " ++ pp_fields ind cur ps ++ b " => " ++
    match out with Some x => b "(" ++ pp_expr ind cur x ++ b ") " | None => [] end ++
    b "{" ++ [nl] ++ pp_body ind cur body ++ b "}".
  Proof. reflexivity. Qed.

  (* printing the parser's form of a program (raw templates) = printing the program *)
  Lemma pp_raw_norm :
    (forall e cur, pp_expr_raw cur (norm ind e) = pp_expr ind cur e) /\
    (forall s cur, pp_stmt_raw cur (snorm ind s) = pp_stmt ind cur s).
  Proof.
    (* a component list is printed through [map]: there the two printers agree element by element *)
    assert (ext : forall A (pr : A -> expr) l (f g : A -> bytes),
              Forall (fun a => forall cur, pp_expr_raw cur (norm ind (pr a)) = pp_expr ind cur (pr a)) l ->
              (forall a, (forall cur, pp_expr_raw cur (norm ind (pr a)) = pp_expr ind cur (pr a)) -> f a = g a) ->
              map f l = map g l).
    { intros A pr l f g H Hfg. apply map_ext_Forall. eapply Forall_impl; [|exact H]. exact Hfg. }
    apply expr_stmt_ind; intros; rewrite ?pp_formatl, ?pp_formats, ?pp_parts_cur, ?pp_module_eq, ?norm_module, ?snorm_eq;
      cbn [norm pp_expr_raw pp_stmt_raw pp_expr raw_of]; rewrite ?map_map; cbn [fst snd];
      try (lazymatch goal with |- context [map _ _] => fail | _ => idtac end;
           repeat match goal with o : option expr |- _ => destruct o; cbn [option_map] end;
           repeat f_equal; auto; fail).
    - do 3 f_equal. apply (ext _ snd _ _ _ H). intros a E. now rewrite E.
    - do 3 f_equal. apply (ext _ (fun a => a) _ _ _ H). auto.
    - rewrite H. do 4 f_equal. apply (ext _ snd _ _ _ H0). intros a E. now rewrite E.
    - do 6 f_equal. apply (ext _ (fun a => a) _ _ _ H). intros a E. now rewrite E.
    - rewrite H. do 3 f_equal. destruct args as [|a [|a2 args]].
      + reflexivity.
      + cbn [map flat_map]. now rewrite (Forall_inv H0).
      + change (map (norm ind) (a :: a2 :: args)) with (norm ind a :: norm ind a2 :: map (norm ind) args). cbv iota.
        f_equal. apply (ext _ (fun a => a) _ _ _ H0). auto.
    - rewrite H. destruct d; cbn [option_map]; rewrite ?H0; do 7 f_equal; apply (ext _ snd _ _ _ H1); intros a E; now rewrite E.
    - assert (B : match map (snorm ind) body with
                  | [] => []
                  | s :: rest => spaces (cur + ind) ++ pp_stmt_raw (cur + ind) s ++
                      flat_map (fun s' => spaces (cur + ind) ++ [nl] ++ pp_stmt_raw (cur + ind) s') rest
                  end = pp_body ind cur body).
      { destruct H1 as [|s rest Hs Hrest]; [reflexivity|]. cbn [map pp_body]. rewrite Hs. do 2 f_equal.
        induction Hrest as [|s' rest Hs' _ IH]; [reflexivity|]. cbn [map flat_map]. now rewrite Hs', IH. }
      rewrite B. unfold pp_fields, pp_field. do 2 f_equal.
      + do 3 f_equal. apply (ext _ snd _ _ _ H). intros a E. cbn. now rewrite E.
      + destruct out; cbn [option_map]; rewrite ?H0; reflexivity.
    - now rewrite H.
    - now rewrite H.
    - now rewrite H.
    - now rewrite H.
  Qed.

  Lemma pp_stmts_raw_norm p : pp_stmts_raw (pnorm ind p) = pp_stmts ind p.
  Proof.
    unfold pp_stmts_raw, pp_stmts, pp_prog, pnorm. f_equal. rewrite map_map. apply map_ext.
    intros s. apply (proj2 pp_raw_norm).
  Qed.
End RawPrinter.

(* fmt_fixed_point_all: format, parse, format again (the printer acting on what the parser returned,
   templates verbatim) gives the same text *)
Theorem fmt_fixed_point_all : forall ind p p', lex_ok_prog p = true -> prog_ok ind p = true ->
  parse_src (pp_stmts ind p) = Parsed p' -> pp_stmts_raw ind p' = pp_stmts ind p.
Proof.
  intros ind p p' Hl Hok H. rewrite (fmt_preserves_ast_all ind p Hl Hok) in H. inversion H. apply pp_stmts_raw_norm.
Qed.

(* on programs without re-escaped templates the two printers agree on the re-parsed program, so the statement
   with Print.pp_stmts on both sides holds there *)
Corollary fmt_fixed_point_all_raw : forall ind p p', lex_ok_prog p = true -> prog_ok ind p = true ->
  raw_tpl_prog p = true -> parse_src (pp_stmts ind p) = Parsed p' -> pp_stmts ind p' = pp_stmts ind p.
Proof.
  intros ind p p' Hl Hok Hr H. rewrite (fmt_preserves_ast_all ind p Hl Hok) in H. inversion H.
  now rewrite pnorm_raw.
Qed.

(* fmt_fixed_point_pp_refuted: with Print.pp_stmts (the printer over PRE-PARSED templates) on the re-parsed
   program the statement is FALSE as soon as a template has a placeholder: the raw text `@` stored as the
   literal part [PStr "@"] is printed as `\@`.  This is an artefact of representing the parser's raw template
   in sem/Ast.v, not a behaviour of ucg fmt (whose printer writes the template verbatim = pp_stmts_raw). *)
Theorem fmt_fixed_point_pp_refuted :
  let p := [SExpr (EFormatL [PHole] [EInt 1])] in
  lex_ok_prog p = true /\ prog_ok 2 p = true /\
  parse_src (pp_stmts 2 p) = Parsed (pnorm 2 p) /\
  pp_stmts 2 (pnorm 2 p) <> pp_stmts 2 p /\
  pp_stmts_raw 2 (pnorm 2 p) = pp_stmts 2 p.
Proof. repeat split; try (vm_compute; reflexivity). vm_compute. discriminate. Qed.
