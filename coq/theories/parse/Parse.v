(* M-PARSE: MODEL of the parser, src/parse/mod.rs + src/parse/precedence.rs, over the token lists of the
   tokenizer model (lex/Lex.v), producing the position-free AST of sem/Ast.v.
   Executable definitions only; proofs are in Parse_Lemmas.v.

   The real parser is written with the combinators of abortable_parser 0.2.3.  A combinator answers
     Complete(rest, value) | Fail | Abort | Incomplete
   and the combinators used are
     do_each!  sequence; the first non-Complete answer is the answer
     either!   ordered choice: the next alternative is tried on Fail ONLY (Abort is final)
     must!     Fail becomes Abort
     optional! Fail becomes Complete(None) at the ORIGINAL input; Abort stays
     repeat!   zero or more; stops (keeping the input before the failed item) on Fail, Abort stays
     separated!(sep, item)  item (repeat!(sep item)): a separator that is not followed by an item is NOT consumed
     not!(p)   succeeds, consuming nothing, iff p does not match
     wrap_err! / trace_parse! / complete!  only change messages.
   Incomplete never arises at token level: the token vector always ends with an END token which no matcher
   consumes (match_type! / match_token! answer Fail at the end of the slice).

   Here: [res A] = Ok a rest | Fail | Abort, plus two answers of the MODEL only:
     Unsup   the input uses syntax that sem/Ast.v has no node for (`constraint` statements, `::` shape
             suffixes); the model stops there instead of misparsing.  It propagates like Abort.
     NoFuel  the recursion budget was too small (proved not to happen with the budget of [parse] on the
             tokens of a printed program, Parse_Lemmas.parse_tokens_of_prog; not proved for every input).
   The recursion on the nesting depth is by [fuel]; the loops (separated!, repeat!, the operand list) run on a
   counter initialised to the number of remaining tokens.

   ENCODINGS (where sem/Ast.v differs from src/ast/mod.rs):
   * FormatDef.template is the raw template string; Ast.v stores templates pre-parsed.  The parser does not
     parse templates (src/build/format.rs does, at translation time), so the model returns the raw text as the
     single literal part:  EFormatL [PStr raw] args  /  EFormatS [PStr raw] arg.
   * CopyDef.selector and CallDef.funcref are Values that the grammar only ever fills with a Symbol:
     ECopy (ESym x) fs, ECall (ESym f) args.
   * Int is the i64 value, Float the IEEE-754 bit pattern of f64::from_str (correctly rounded, [f64_of_decimal]).
   * field names, converter / include types, import paths are the token fragments. *)
From Ucg Require Import base.Bytes prec.Climb sem.Ast lex.Lex_Types lex.Lex.
From UcgGen Require Import PrecTable.
Local Open Scope string_scope.
Local Open Scope list_scope.

(* a token without its position, as in Lex_Lemmas.strip_lex *)
Definition ptok := (ttype * bytes)%type.

Inductive res (A : Type) :=
| Ok (a : A) (rest : list ptok)
| Fail
| Abort
| Unsup
| NoFuel.
Arguments Ok {A}. Arguments Fail {A}. Arguments Abort {A}. Arguments Unsup {A}. Arguments NoFuel {A}.

(* do_each! *)
Notation "'do' a , r <- e ; f" :=
  (match e with Ok a r => f | Fail => Fail | Abort => Abort | Unsup => Unsup | NoFuel => NoFuel end)
  (at level 200, a pattern, r pattern, e at level 100, f at level 200, right associativity).
(* either! (binary; lazily evaluated because it is a notation) *)
Notation "x <|> y" := (match x with Fail => y | Ok a r => Ok a r | Abort => Abort | Unsup => Unsup | NoFuel => NoFuel end)
  (at level 61, left associativity).

Definition must {A} (r : res A) : res A := match r with Fail => Abort | _ => r end.
(* optional!(p) at input ts *)
Definition optional {A} (r : res A) (ts : list ptok) : res (option A) :=
  match r with
  | Ok a rest => Ok (Some a) rest
  | Fail => Ok None ts
  | Abort => Abort | Unsup => Unsup | NoFuel => NoFuel
  end.

Definition ty_eqb (x y : ttype) : bool :=
  match x, y with
  | EMPTY, EMPTY | BOOLEAN, BOOLEAN | END, END | WS, WS | COMMENT, COMMENT | QUOTED, QUOTED
  | PIPEQUOTE, PIPEQUOTE | DIGIT, DIGIT | BAREWORD, BAREWORD | PUNCT, PUNCT => true
  | _, _ => false
  end.

Definition is_tok (ty : ttype) (s : string) (t : ptok) : bool := (ty_eqb (fst t) ty && bytes_eqb (snd t) (b s))%bool.

(* match_token!: punct!(s) / word!(s) *)
Definition tok (ty : ttype) (s : string) (ts : list ptok) : res unit :=
  match ts with
  | t :: r => if is_tok ty s t then Ok tt r else Fail
  | [] => Fail
  end.
Definition punct := tok PUNCT.
Definition word := tok BAREWORD.
(* match_type!(TYPE): the fragment of the token *)
Definition match_type (ty : ttype) (ts : list ptok) : res bytes :=
  match ts with
  | t :: r => if ty_eqb (fst t) ty then Ok (snd t) r else Fail
  | [] => Fail
  end.

(* ------------------------------------------------------------------ *)
(** * numbers: i64::from_str and f64::from_str on digit strings         *)
(* ------------------------------------------------------------------ *)
Definition digit_val (c : ascii) : option Z :=
  let n := N_of_ascii c in
  if (N.leb 48 n && N.leb n 57)%bool then Some (Z.of_N n - 48)%Z else None.
Fixpoint digits_val (acc : Z) (s : bytes) : option Z :=
  match s with
  | [] => Some acc
  | c :: r => match digit_val c with Some d => digits_val (10 * acc + d)%Z r | None => None end
  end.
Definition i64_max : Z := 9223372036854775807%Z.
(* i64::from_str on a DIGIT fragment: Err on overflow *)
Definition int_of_digits (s : bytes) : option Z :=
  match s with
  | [] => None
  | _ => match digits_val 0 s with
         | Some z => if (z <=? i64_max)%Z then Some z else None
         | None => None
         end
  end.

Section Float.
  Local Open Scope Z_scope.
  Definition round_half_even (n d : Z) : Z :=
    let q := n / d in let r := n mod d in
    if 2 * r <? d then q else if d <? 2 * r then q + 1 else if Z.even q then q else q + 1.
  (* the binary64 nearest to num/den (ties to even) as a bit pattern; None = not finite.  num >= 0, den > 0 *)
  Definition f64_of_ratio (num den : Z) : option Z :=
    if num =? 0 then Some 0 else
    let l := Z.log2 num - Z.log2 den in                    (* floor(log2 x) is l or l - 1 *)
    let ge := if 0 <=? l then den * 2 ^ l <=? num else den <=? num * 2 ^ (- l) in
    let e0 := Z.max (if ge then l else l - 1) (-1022) in
    let q := e0 - 52 in
    let m0 := if 0 <=? q then round_half_even num (den * 2 ^ q) else round_half_even (num * 2 ^ (- q)) den in
    let m := if m0 =? 2 ^ 53 then 2 ^ 52 else m0 in
    let e := if m0 =? 2 ^ 53 then e0 + 1 else e0 in
    if m <? 2 ^ 52 then Some m                               (* subnormal *)
    else if 1023 <? e then None
    else Some ((e + 1023) * 2 ^ 52 + (m - 2 ^ 52)).
  (* f64::from_str (prefix ++ "." ++ suffix), rejected when the result is not finite (triple_to_number) *)
  Definition f64_of_decimal (p s : bytes) : option Z :=
    match digits_val 0 (p ++ s) with
    | Some n => f64_of_ratio n (10 ^ Z.of_nat (List.length s))
    | None => None
    end.
End Float.

(* ------------------------------------------------------------------ *)
(** * operators (dot_op_type, math_op_type, compare_op_type, bool_op_type) *)
(* ------------------------------------------------------------------ *)
(* the alternatives test pairwise different tokens, so their order is immaterial *)
Definition binop_table : list (ttype * string * op) :=
  [ (PUNCT, ".", DOT);
    (PUNCT, "+", Add); (PUNCT, "-", Sub); (PUNCT, "*", Mul); (PUNCT, "/", Div); (PUNCT, "%%", Mod);
    (PUNCT, "==", Equal); (PUNCT, "!=", NotEqual); (PUNCT, "~", REMatch); (PUNCT, "!~", NotREMatch);
    (PUNCT, "<=", LTEqual); (PUNCT, ">=", GTEqual); (PUNCT, "<", LT); (PUNCT, ">", GT);
    (BAREWORD, "in", IN); (BAREWORD, "is", IS);
    (PUNCT, "&&", AND); (PUNCT, "||", OR) ].
Fixpoint lookup_op (tbl : list (ttype * string * op)) (t : ptok) : option op :=
  match tbl with
  | [] => None
  | (ty, s, o) :: r => if is_tok ty s t then Some o else lookup_op r t
  end.
Definition binop_of (t : ptok) : option op := lookup_op binop_table t.

Fixpoint expr_of_tree (t : tree expr) : expr :=
  match t with
  | Leaf a => a
  | Node o l r => EBin o (expr_of_tree l) (expr_of_tree r)
  end.

Inductive numlit := NInt (p : bytes) | NFloat (p s : bytes).
Inductive fargs := FL (l : list expr) | FS (e : expr).

Definition opt_list {A} (o : option (list A)) : list A := match o with Some l => l | None => [] end.

(* ------------------------------------------------------------------ *)
(** * one level of the grammar, over the parsers of the level below     *)
(* ------------------------------------------------------------------ *)
Section Step.
  Variable pe : list ptok -> res expr.          (* `expression`, one nesting level down *)
  Variable pstmt : list ptok -> res stmt.       (* `statement`, one nesting level down (module bodies) *)

  (* the tail of separated!: repeat!(do_each!(_ => punct!(","), item => item, (item))) *)
  Fixpoint sep_tail {A} (item : list ptok -> res A) (n : nat) (ts : list ptok) : res (list A) :=
    match n with
    | O => NoFuel
    | S n' =>
      match punct "," ts with
      | Ok _ ts1 =>
        match item ts1 with
        | Ok a rest => do l, rest' <- sep_tail item n' rest; Ok (a :: l) rest'
        | Fail => Ok [] ts                               (* the comma is given back *)
        | Abort => Abort | Unsup => Unsup | NoFuel => NoFuel
        end
      | _ => Ok [] ts
      end
    end.
  Definition separated {A} (item : list ptok -> res A) (ts : list ptok) : res (list A) :=
    do a, rest <- item ts;
    do l, rest' <- sep_tail item (S (List.length rest)) rest;
    Ok (a :: l) rest'.

  (* optional!(shape_suffix): `::` constraint -- NOT MODELLED *)
  Definition no_shape_suffix (ts : list ptok) : res unit :=
    match punct "::" ts with Ok _ _ => Unsup | _ => Ok tt ts end.

  (* field_value *)
  Definition field_name (ts : list ptok) : res bytes :=
    match_type BOOLEAN ts <|> match_type BAREWORD ts <|> match_type QUOTED ts.
  Definition field_value (ts : list ptok) : res (bytes * expr) :=
    do k, r1 <- field_name ts;
    do _, r2 <- no_shape_suffix r1;
    do _, r3 <- must (punct "=" r2);
    do v, r4 <- must (pe r3);
    Ok (k, v) r4.
  Definition field_list : list ptok -> res (list (bytes * expr)) := separated field_value.

  (* optional!(field_list) optional!(punct!(",")) must!(punct!("}")) : the inside of tuple, copy and module
     parameter braces.  QUIRK: `{,}` is the empty tuple. *)
  Definition braced_fields (ts : list ptok) : res (list (bytes * expr)) :=
    do ofs, r1 <- optional (field_list ts) ts;
    do _, r2 <- optional (punct "," r1) r1;
    do _, r3 <- must (punct "}" r2);
    Ok (opt_list ofs) r3.

  Definition tuple (ts : list ptok) : res expr :=
    do _, r1 <- punct "{" ts;
    do fs, r2 <- braced_fields r1;
    Ok (ETuple fs) r2.

  (* QUIRK: `[,]` is the empty list. *)
  Definition list_value (ts : list ptok) : res expr :=
    do _, r1 <- punct "[" ts;
    do oes, r2 <- optional (separated pe r1) r1;
    do _, r3 <- optional (punct "," r2) r2;
    do _, r4 <- must (punct "]" r3);
    Ok (EList (opt_list oes)) r4.

  (* number: DIGIT . DIGIT  |  . DIGIT  |  DIGIT, then triple_to_number (Fail when out of range) *)
  Definition number_triple (ts : list ptok) : res numlit :=
    (do p, r1 <- match_type DIGIT ts; do _, r2 <- punct "." r1; do s, r3 <- match_type DIGIT r2; Ok (NFloat p s) r3)
    <|> (do _, r1 <- punct "." ts; do s, r2 <- match_type DIGIT r1; Ok (NFloat [] s) r2)
    <|> (do p, r1 <- match_type DIGIT ts; Ok (NInt p) r1).
  Definition number (ts : list ptok) : res expr :=
    do t, rest <- number_triple ts;
    match t with
    | NInt p => match int_of_digits p with Some z => Ok (EInt z) rest | None => Fail end
    | NFloat p s => match f64_of_decimal p s with Some bits => Ok (EFloat bits) rest | None => Fail end
    end.

  Definition symbol (ts : list ptok) : res expr := do x, r <- match_type BAREWORD ts; Ok (ESym x) r.
  Definition boolean_value (ts : list ptok) : res expr :=
    do f, r <- match_type BOOLEAN ts; Ok (EBool (bytes_eqb f (b "true"))) r.
  Definition empty_value (ts : list ptok) : res expr := do _, r <- match_type EMPTY ts; Ok ENull r.
  Definition quoted_value (ts : list ptok) : res expr := do s, r <- match_type QUOTED ts; Ok (EStr s) r.
  Definition compound_value (ts : list ptok) : res expr := list_value ts <|> tuple ts.

  (* value: QUIRK a BAREWORD that is a keyword (`let`, `in`, ...) is a symbol here *)
  Definition value (ts : list ptok) : res expr :=
    symbol ts <|> compound_value ts <|> boolean_value ts <|> empty_value ts <|> number ts <|> quoted_value ts.

  (* simple_expression: value, not!(either!(punct!("{"), punct!("["), punct!("("))) *)
  Definition opens (ts : list ptok) : bool :=
    match ts with
    | t :: _ => (is_tok PUNCT "{" t || is_tok PUNCT "[" t || is_tok PUNCT "(" t)%bool
    | [] => false
    end.
  Definition simple_expression (ts : list ptok) : res expr :=
    do v, rest <- value ts; if opens rest then Fail else Ok v rest.

  Definition grouped_expression (ts : list ptok) : res expr :=
    do _, r1 <- punct "(" ts;
    do e, r2 <- pe r1;
    do _, r3 <- must (punct ")" r2);
    Ok (EGroup e) r3.

  Definition copy_expression (ts : list ptok) : res expr :=
    do x, r1 <- match_type BAREWORD ts;
    do _, r2 <- punct "{" r1;
    do fs, r3 <- braced_fields r2;
    Ok (ECopy (ESym x) fs) r3.

  Definition arg (ts : list ptok) : res bytes :=
    do x, r1 <- match_type BAREWORD ts; do _, r2 <- no_shape_suffix r1; Ok x r2.
  Definition arglist : list ptok -> res (list bytes) := separated arg.

  (* func_expression: the body is NOT under must! -- a failing body lets the later alternatives see `func` *)
  Definition func_expression (ts : list ptok) : res expr :=
    do _, r1 <- word "func" ts;
    do _, r2 <- must (punct "(" r1);
    do oargs, r3 <- optional (arglist r2) r2;
    do _, r4 <- must (punct ")" r3);
    do _, r5 <- must (punct "=>" r4);
    do body, r6 <- pe r5;
    Ok (EFunc (opt_list oargs) body) r6.

  Fixpoint repeat_stmt (n : nat) (ts : list ptok) : res (list stmt) :=
    match n with
    | O => NoFuel
    | S n' =>
      match pstmt ts with
      | Ok s rest => do l, rest' <- repeat_stmt n' rest; Ok (s :: l) rest'
      | Fail => Ok [] ts
      | Abort => Abort | Unsup => Unsup | NoFuel => NoFuel
      end
    end.

  Definition module_out (ts : list ptok) : res expr :=
    do _, r1 <- punct "(" ts;
    do e, r2 <- must (pe r1);
    do _, r3 <- no_shape_suffix r2;
    do _, r4 <- must (punct ")" r3);
    Ok e r4.
  Definition module_expression (ts : list ptok) : res expr :=
    do _, r1 <- word "module" ts;
    do _, r2 <- must (punct "{" r1);
    do ps, r3 <- braced_fields r2;
    do _, r4 <- must (punct "=>" r3);
    do out, r5 <- optional (module_out r4) r4;
    do _, r6 <- must (punct "{" r5);
    do body, r7 <- repeat_stmt (S (List.length r6)) r6;
    do _, r8 <- must (punct "}" r7);
    Ok (EModule ps out body) r8.

  (* alt_select_expression.  QUIRK: `select (v,) => ...` aborts: a comma after the value commits to a default *)
  Definition select_default (ts : list ptok) : res expr :=
    do _, r1 <- punct "," ts; do d, r2 <- must (pe r1); Ok d r2.
  Definition select_expression (ts : list ptok) : res expr :=
    do _, r1 <- word "select" ts;
    do _, r2 <- must (punct "(" r1);
    do v, r3 <- must (pe r2);
    do d, r4 <- optional (select_default r3) r3;
    do _, r5 <- optional (punct "," r4) r4;
    do _, r6 <- must (punct ")" r5);
    do _, r7 <- must (punct "=>" r6);
    do _, r8 <- must (punct "{" r7);
    do arms, r9 <- must (field_list r8);
    do _, r10 <- optional (punct "," r9) r9;
    do _, r11 <- must (punct "}" r10);
    Ok (ESelect v d arms) r11.

  (* format_expression.  QUIRK: `"t" % ()` aborts (an empty argument list is neither alternative) *)
  Definition simple_format_args (ts : list ptok) : res fargs :=
    do _, r1 <- punct "(" ts;
    do args, r2 <- separated pe r1;
    do _, r3 <- must (punct ")" r2);
    Ok (FL args) r3.
  Definition expression_format_args (ts : list ptok) : res fargs :=
    do e, r <- must (pe ts); Ok (FS e) r.
  Definition format_expression (ts : list ptok) : res expr :=
    do tpl, r1 <- match_type QUOTED ts;
    do _, r2 <- punct "%" r1;
    do args, r3 <- must (simple_format_args r2 <|> expression_format_args r2);
    match args with
    | FL l => Ok (EFormatL [PStr tpl] l) r3
    | FS e => Ok (EFormatS [PStr tpl] e) r3
    end.

  Definition include_expression (ts : list ptok) : res expr :=
    do _, r1 <- word "include" ts;
    do t, r2 <- must (match_type BAREWORD r1);
    do p, r3 <- must (match_type QUOTED r2);
    Ok (EInclude t p) r3.

  (* cast_expression: nothing is under must!, so `int(1` falls through to call_expression *)
  Definition cast_word (ts : list ptok) : res cast_type :=
    (do _, r <- word "int" ts; Ok CInt r) <|> (do _, r <- word "float" ts; Ok CFloat r)
    <|> (do _, r <- word "str" ts; Ok CStr r) <|> (do _, r <- word "bool" ts; Ok CBool r).
  Definition cast_expression (ts : list ptok) : res expr :=
    do c, r1 <- cast_word ts;
    do _, r2 <- punct "(" r1;
    do e, r3 <- pe r2;
    do _, r4 <- punct ")" r3;
    Ok (ECast c e) r4.

  Definition call_expression (ts : list ptok) : res expr :=
    do f, r1 <- match_type BAREWORD ts;
    do _, r2 <- punct "(" r1;
    do oargs, r3 <- optional (separated pe r2) r2;
    do _, r4 <- optional (punct "," r3) r3;
    do _, r5 <- must (punct ")" r4);
    Ok (ECall (ESym f) (opt_list oargs)) r5.

  Definition reduce_expression (ts : list ptok) : res expr :=
    do _, r1 <- word "reduce" ts;
    do _, r2 <- must (punct "(" r1);
    do f, r3 <- must (pe r2);
    do _, r4 <- must (punct "," r3);
    do acc, r5 <- must (pe r4);
    do _, r6 <- must (punct "," r5);
    do t, r7 <- must (pe r6);
    do _, r8 <- optional (punct "," r7) r7;
    do _, r9 <- must (punct ")" r8);
    Ok (EReduce f acc t) r9.
  Definition map_filter (kw : string) (mk : expr -> expr -> expr) (ts : list ptok) : res expr :=
    do _, r1 <- word kw ts;
    do _, r2 <- must (punct "(" r1);
    do f, r3 <- must (pe r2);
    do _, r4 <- must (punct "," r3);
    do t, r5 <- must (pe r4);
    do _, r6 <- optional (punct "," r5) r5;
    do _, r7 <- must (punct ")" r6);
    Ok (mk f t) r7.
  Definition func_op_expression (ts : list ptok) : res expr :=
    reduce_expression ts <|> map_filter "map" EMap ts <|> map_filter "filter" EFilter ts.

  (* range_expression: bounds are simple or grouped expressions only *)
  Definition range_bound (ts : list ptok) : res expr := simple_expression ts <|> grouped_expression ts.
  Definition range_step (ts : list ptok) : res expr :=
    do s, r1 <- range_bound ts; do _, r2 <- punct ":" r1; Ok s r2.
  Definition range_expression (ts : list ptok) : res expr :=
    do start, r1 <- range_bound ts;
    do _, r2 <- punct ":" r1;
    do step, r3 <- optional (range_step r2) r2;
    do stop, r4 <- must (range_bound r3);
    Ok (ERange start step stop) r4.

  Definition import_expression (ts : list ptok) : res expr :=
    do _, r1 <- word "import" ts; do p, r2 <- must (match_type QUOTED r1); Ok (EImport p) r2.
  Definition prefix_expression (kw : string) (mk : expr -> expr) (ts : list ptok) : res expr :=
    do _, r1 <- word kw ts; do e, r2 <- must (pe r1); Ok (mk e) r2.
  Definition convert_expression (ts : list ptok) : res expr :=
    do _, r1 <- word "convert" ts;
    do t, r2 <- must (match_type BAREWORD r1);
    do e, r3 <- must (pe r2);
    Ok (EConvert t e) r3.

  Definition unprefixed_expression (ts : list ptok) : res expr :=
    format_expression ts <|> simple_expression ts <|> cast_expression ts <|> call_expression ts
    <|> copy_expression ts.

  Definition non_op_expression (ts : list ptok) : res expr :=
    func_op_expression ts <|> func_expression ts <|> import_expression ts
    <|> prefix_expression "TRACE" ETrace ts <|> prefix_expression "not" ENot ts
    <|> prefix_expression "fail" EFail ts <|> convert_expression ts <|> module_expression ts
    <|> select_expression ts <|> range_expression ts <|> grouped_expression ts
    <|> include_expression ts <|> unprefixed_expression ts.

  (* parse_operand_list: operand (operator operand)*; a chain needs at least one operator (else Fail);
     after an operator a missing operand is an Abort *)
  Fixpoint operands (n : nat) (first : bool) (ts : list ptok) : res (expr * list (op * expr)) :=
    match n with
    | O => NoFuel
    | S n' =>
      match non_op_expression ts with
      | Ok e rest =>
        match rest with
        | t :: rest1 =>
          match binop_of t with
          | Some o => do ec, r <- operands n' false rest1; Ok (e, (o, fst ec) :: snd ec) r
          | None => if first then Fail else Ok (e, []) rest
          end
        | [] => if first then Fail else Ok (e, []) rest
        end
      | Fail => if first then Fail else Abort
      | Abort => Abort | Unsup => Unsup | NoFuel => NoFuel
      end
    end.

  (* op_expression: the chain is climbed with the generated table (prec/Climb.v is the model of parse_op).
     [climb] is total (Climb_Lemmas.climb_total_lemma); its None stands for the panic
     "premature abort parsing Operator expression!" and is unreachable. *)
  Definition op_expression (ts : list ptok) : res expr :=
    do ec, rest <- operands (S (List.length ts)) true ts;
    match climb code_prec (fst ec) (snd ec) with
    | Some t => Ok (expr_of_tree t) rest
    | None => Abort
    end.

  (* expression: op_expression, and on Fail (no operator after the first operand) non_op_expression AGAIN *)
  Definition expression (ts : list ptok) : res expr :=
    match op_expression ts with
    | Fail => non_op_expression ts
    | r => r
    end.
End Step.

(* statements, over `expression` *)
Section Stmt.
  Variable pe : list ptok -> res expr.

  Definition expression_statement (ts : list ptok) : res stmt :=
    do e, r1 <- pe ts; do _, r2 <- must (punct ";" r1); Ok (SExpr e) r2.

  (* match_binding_name!: `env` is a hard error *)
  Definition binding_name (ts : list ptok) : res bytes :=
    do x, r <- match_type BAREWORD ts; if bytes_eqb x (b "env") then Abort else Ok x r.

  (* let_statement = word!("let") must!(let_stmt_body): everything after `let` is committed.
     QUIRK: any BAREWORD but `env` is a name: `let let = 1;` parses. *)
  Definition let_statement (ts : list ptok) : res stmt :=
    do _, r1 <- word "let" ts;
    must (do x, r2 <- binding_name r1;
          do _, r3 <- no_shape_suffix r2;
          do _, r4 <- punct "=" r3;
          do e, r5 <- pe r4;
          do _, r6 <- punct ";" r5;
          Ok (SLet x e) r6).

  Definition assert_statement (ts : list ptok) : res stmt :=
    do _, r1 <- word "assert" ts;
    do e, r2 <- must (pe r1);
    do _, r3 <- must (punct ";" r2);
    Ok (SAssert e) r3.

  (* constraint_statement -- NOT MODELLED *)
  Definition constraint_statement (ts : list ptok) : res stmt :=
    do _, r1 <- word "constraint" ts; Unsup.

  Definition out_statement (ts : list ptok) : res stmt :=
    do _, r1 <- word "out" ts;
    do t, r2 <- must (match_type BAREWORD r1);
    do e, r3 <- must (pe r2);
    do _, r4 <- must (punct ";" r3);
    Ok (SOut t e) r4.

  Definition statement (ts : list ptok) : res stmt :=
    assert_statement ts <|> constraint_statement ts <|> let_statement ts <|> out_statement ts
    <|> expression_statement ts.
End Stmt.

(* the recursion over the nesting depth *)
Fixpoint p_expr (fuel : nat) (ts : list ptok) : res expr :=
  match fuel with
  | O => NoFuel
  | S f => expression (p_expr f) (p_stmt f) ts
  end
with p_stmt (fuel : nat) (ts : list ptok) : res stmt :=
  match fuel with
  | O => NoFuel
  | S f => statement (p_expr f) ts
  end.

(* ------------------------------------------------------------------ *)
(** * parse: the statement loop                                        *)
(* ------------------------------------------------------------------ *)
Inductive outcome :=
| Parsed (p : prog)
| Rejected          (* Err(BuildError): tokenizer error, Fail or Abort of a statement *)
| Unsupported       (* constraint syntax: outside the model *)
| ParseNoFuel.

Definition is_end (t : ptok) : bool := ty_eqb (fst t) END.

(* loop { if peek is END { break }  match statement(i) { Complete => push, continue; _ => Err } }
   (the `eoi` test of the loop never fires: the END token is never consumed).
   An EMPTY token slice cannot come from the tokenizer (the real code would panic in `pos`); it is Rejected. *)
Fixpoint parse_loop (fuel n : nat) (ts : list ptok) : outcome :=
  match n with
  | O => ParseNoFuel
  | S n' =>
    match ts with
    | [] => Rejected
    | t :: _ =>
      if is_end t then Parsed []
      else match p_stmt fuel ts with
           | Ok s rest =>
             match parse_loop fuel n' rest with
             | Parsed p => Parsed (s :: p)
             | o => o
             end
           | Fail | Abort => Rejected
           | Unsup => Unsupported
           | NoFuel => ParseNoFuel
           end
    end
  end.

Definition parse_fuel_of (ts : list ptok) : nat := S (S (List.length ts)).
(* ENTRY POINT on token lists *)
Definition parse (ts : list ptok) : outcome := parse_loop (parse_fuel_of ts) (S (List.length ts)) ts.

Definition strip_tok (t : token) : ptok := (typ t, frag t).
(* ENTRY POINT on source text: ucglib::parse::parse(OffsetStrIter::new(src), None) *)
Definition parse_src (src : bytes) : outcome :=
  match lex src with
  | Some l => parse (map strip_tok l)
  | None => Rejected
  end.

(* expression-level entry points *)
Definition parse_expr (ts : list ptok) : res expr := p_expr (S (List.length ts)) ts.
