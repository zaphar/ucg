From Ucg Require Import walk.Walk.

Lemma mem_In s l : mem s l = true <-> In s l.
Proof.
  unfold mem. rewrite existsb_exists. split.
  - intros (x & Hin & E). apply String.eqb_eq in E. now subst.
  - intros H. exists s. split; [exact H|apply String.eqb_refl].
Qed.

Lemma covers_row tbl v ks ws :
  covers tbl = true -> lookup_row tbl v = Some (ks, ws) -> forall k, mem k ks = true -> mem k ws = true.
Proof.
  induction tbl as [|[[n ks'] ws'] tbl IH]; cbn; [discriminate|].
  intros Hc Hl k Hk. apply andb_true_iff in Hc as [H1 H2].
  destruct (String.eqb n v).
  - inversion Hl; subst. rewrite forallb_forall in H1. apply H1. now apply mem_In.
  - eauto.
Qed.

Lemma rose_ind' (P : rose -> Prop) :
  (forall v kids, (forall f cs c, In (f, cs) kids -> In c cs -> P c) -> P (RNode v kids)) ->
  forall t, P t.
Proof.
  intros H. fix IH 1. intros [v kids]. apply H.
  induction kids as [|[f cs] kids IHk]; intros f' cs' c Hin Hc; [destruct Hin|].
  destruct Hin as [E|Hin]; [|exact (IHk _ _ _ Hin Hc)].
  assert (Hcs : forall c, In c cs -> P c).
  { clear - IH. induction cs as [|c0 cs IHc]; intros c Hc; [destruct Hc|].
    destruct Hc as [E|Hc]; [rewrite <- E; apply IH|apply IHc, Hc]. }
  inversion E; subst. apply Hcs, Hc.
Qed.

Theorem walk_visits_all_lemma tbl :
  covers tbl = true -> forall t, wf_rose tbl t = true -> visit tbl t = nodes t.
Proof.
  intros Hc. induction t as [v kids IH] using rose_ind'. cbn [wf_rose visit nodes].
  destruct (lookup_row tbl v) as [[ks ws]|] eqn:El; [|discriminate].
  intros Hwf. f_equal. rewrite forallb_forall in Hwf.
  induction kids as [|[f cs] kids IHk]; [reflexivity|]. cbn [flat_map].
  assert (Hk := Hwf (f, cs) (or_introl eq_refl)). cbn in Hk. apply andb_true_iff in Hk as [Hm Hcs].
  rewrite (covers_row _ _ _ _ Hc El f Hm).
  f_equal.
  - rewrite forallb_forall in Hcs. clear IHk.
    assert (IHc : forall c, In c cs -> visit tbl c = nodes c).
    { intros c Hin. eapply IH; [left; reflexivity|exact Hin|apply Hcs, Hin]. }
    clear Hcs IH Hwf. induction cs as [|c cs IHl]; [reflexivity|]. cbn [flat_map].
    rewrite (IHc c (or_introl eq_refl)). f_equal. apply IHl. intros; apply IHc; now right.
  - apply IHk.
    + intros f' cs' c Hin Hc'. eapply IH; [right; exact Hin|exact Hc'].
    + intros x Hx. apply Hwf. now right.
Qed.
