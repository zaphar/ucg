(* Proofs about the path-normalisation model of Path.v. *)
From Ucg Require Import base.Bytes base.Bytes_Lemmas path.Path.

Inductive seg_class (seg : bytes) : Prop :=
| SC_empty : seg = [] -> seg_class seg
| SC_dot : seg = dot -> seg_class seg
| SC_dotdot : seg = dotdot -> seg_class seg
| SC_name : seg <> [] -> seg <> dot -> seg <> dotdot -> seg_class seg.

Lemma seg_classify seg : seg_class seg.
Proof.
  destruct (bytes_eqb seg []) eqn:E1;
    [apply bytes_eqb_spec in E1; apply SC_empty; assumption|].
  destruct (bytes_eqb seg dot) eqn:E2;
    [apply bytes_eqb_spec in E2; apply SC_dot; assumption|].
  destruct (bytes_eqb seg dotdot) eqn:E3;
    [apply bytes_eqb_spec in E3; apply SC_dotdot; assumption|].
  apply bytes_eqb_false in E1, E2, E3. apply SC_name; assumption.
Qed.

Lemma seg_comps_name seg :
  seg <> [] -> seg <> dot -> seg <> dotdot -> seg_comps seg = [Normal seg].
Proof.
  intros H1 H2 H3. destruct seg as [|c s]; [contradiction|].
  unfold seg_comps. apply bytes_eqb_false in H2, H3. rewrite H2, H3. reflexivity.
Qed.

Lemma first_seg_comps_name seg :
  seg <> [] -> seg <> dot -> seg <> dotdot -> first_seg_comps seg = [Normal seg].
Proof.
  intros H1 H2 H3. unfold first_seg_comps.
  pose proof H2 as H2'. apply bytes_eqb_false in H2'. rewrite H2'.
  apply seg_comps_name; assumption.
Qed.

Lemma resolve_step_name st seg :
  seg <> [] -> seg <> dot -> seg <> dotdot -> resolve_step st seg = seg :: st.
Proof.
  intros H1 H2 H3. unfold resolve_step.
  apply bytes_eqb_false in H1, H2, H3. rewrite H1, H2, H3. reflexivity.
Qed.

Lemma no_escape_name d seg segs :
  seg <> [] -> seg <> dot -> seg <> dotdot ->
  no_escape_from d (seg :: segs) = no_escape_from (S d) segs.
Proof.
  intros H1 H2 H3. cbn [no_escape_from].
  apply bytes_eqb_false in H1, H2, H3. rewrite H1, H2, H3. reflexivity.
Qed.

Lemma good_name_cases n :
  good_name n -> n <> [] /\ n <> dot /\ n <> dotdot.
Proof. intros [H1 [H2 [H3 H4]]]. auto. Qed.

(* [split_on] is THE split: it inverts joining, and no segment contains
   the separator *)

Lemma split_on_nonempty sep s : split_on sep s <> [].
Proof.
  destruct s as [|c s]; cbn; [discriminate|].
  destruct (Ascii.eqb c sep); [discriminate|].
  destruct (split_on sep s); discriminate.
Qed.

Lemma split_on_cons_sep sep s : split_on sep (sep :: s) = [] :: split_on sep s.
Proof. cbn. rewrite Ascii.eqb_refl. reflexivity. Qed.

Lemma split_on_nosep sep s : ~ In sep s -> split_on sep s = [s].
Proof.
  induction s as [|c s IH]; intros H; [reflexivity|].
  cbn. destruct (Ascii.eqb c sep) eqn:E.
  - apply Ascii.eqb_eq in E. subst. exfalso. apply H. left; reflexivity.
  - rewrite IH; [reflexivity|]. intros Hin. apply H. right; assumption.
Qed.

Lemma split_on_app_sep sep x r :
  split_on sep (x ++ sep :: r) = split_on sep x ++ split_on sep r.
Proof.
  induction x as [|c x IH].
  - cbn [app]. rewrite split_on_cons_sep. reflexivity.
  - cbn [app split_on]. destruct (Ascii.eqb c sep).
    + rewrite IH. reflexivity.
    + rewrite IH. pose proof (split_on_nonempty sep x) as NE.
      destruct (split_on sep x) as [|seg segs]; [contradiction|]. reflexivity.
Qed.

Lemma split_on_app sep x r :
  ~ In sep x -> split_on sep (x ++ sep :: r) = x :: split_on sep r.
Proof.
  intros H. rewrite split_on_app_sep, split_on_nosep by assumption. reflexivity.
Qed.

Lemma split_on_segments sep s : Forall (fun seg => ~ In sep seg) (split_on sep s).
Proof.
  induction s as [|c s IH]; cbn.
  - constructor; [intros []|constructor].
  - destruct (Ascii.eqb c sep) eqn:E.
    + constructor; [intros []|assumption].
    + destruct (split_on sep s) as [|seg segs].
      * constructor; [|constructor]. intros [->|[]].
        rewrite Ascii.eqb_refl in E; discriminate.
      * inversion IH; subst. constructor; [|assumption].
        intros [->|Hin]; [rewrite Ascii.eqb_refl in E; discriminate|contradiction].
Qed.

Lemma join_split p : join_slash (split_on slash p) = p.
Proof.
  induction p as [|c p IH]; [reflexivity|].
  cbn [split_on]. destruct (Ascii.eqb c slash) eqn:E.
  - apply Ascii.eqb_eq in E; subst c.
    pose proof (split_on_nonempty slash p) as NE.
    destruct (split_on slash p) as [|seg segs]; [contradiction|].
    cbn [join_slash app]. cbn [join_slash] in IH. rewrite IH. reflexivity.
  - pose proof (split_on_nonempty slash p) as NE.
    destruct (split_on slash p) as [|seg segs]; [contradiction|].
    destruct segs as [|seg' segs'].
    + cbn [join_slash] in *. rewrite IH. reflexivity.
    + cbn [join_slash] in *. rewrite <- IH. reflexivity.
Qed.

Lemma split_join names :
  names <> [] -> Forall (fun n => ~ In slash n) names ->
  split_on slash (join_slash names) = names.
Proof.
  induction names as [|x l IH]; intros NE F; [contradiction|].
  inversion F as [|? ? Hx Fl]; subst.
  destruct l as [|y l].
  - cbn [join_slash]. apply split_on_nosep; assumption.
  - change (join_slash (x :: y :: l)) with (x ++ slash :: join_slash (y :: l)).
    rewrite split_on_app by assumption. rewrite IH; [reflexivity|discriminate|assumption].
Qed.

(* the loop simulates the stack machine *)

(* a PathBuf under construction: entry names, possibly on the root *)
Definition bottom (base : list comp) : Prop := base = [] \/ base = [Root].

Lemma pop_rev_names st base :
  bottom base -> pop_rev (map Normal st ++ base) = map Normal (tl st) ++ base.
Proof. intros [-> | ->]; destruct st; reflexivity. Qed.

Lemma sim base segs : bottom base -> forall st,
  fold_left step (flat_map seg_comps segs) (map Normal st ++ base)
  = map Normal (fold_left resolve_step segs st) ++ base.
Proof.
  intros Hb. induction segs as [|seg segs IH]; intros st; [reflexivity|].
  cbn [flat_map fold_left]. rewrite fold_left_app.
  destruct (seg_classify seg) as [->| ->| ->|H1 H2 H3].
  - apply IH.
  - apply IH.
  - change (fold_left step (seg_comps dotdot) (map Normal st ++ base))
      with (pop_rev (map Normal st ++ base)).
    rewrite pop_rev_names by exact Hb. apply IH.
  - rewrite seg_comps_name, resolve_step_name by assumption.
    apply (IH (seg :: st)).
Qed.

(* a leading "." (kept as CurDir) has the same effect as a dropped one *)
Lemma first_seg_step seg st :
  fold_left step (first_seg_comps seg) st = fold_left step (seg_comps seg) st.
Proof.
  unfold first_seg_comps. destruct (bytes_eqb seg dot) eqn:E; [|reflexivity].
  apply bytes_eqb_spec in E; subst. reflexivity.
Qed.

Definition root_prefix (p : bytes) : list comp :=
  if is_abs p then [Root] else [].

(* What [normalize_c] computes, for every path text. *)
Theorem normalize_c_components p :
  normalize_c (components p) = root_prefix p ++ map Normal (resolve p).
Proof.
  unfold normalize_c, components, root_prefix, resolve, resolve_from.
  destruct (is_abs p).
  - cbn [fold_left step rev].
    rewrite (sim [Root] _ (or_intror eq_refl) []), rev_app_distr, <- map_rev. reflexivity.
  - pose proof (split_on_nonempty slash p) as NE.
    destruct (split_on slash p) as [|seg0 segs]; [contradiction|].
    rewrite fold_left_app, first_seg_step, <- fold_left_app.
    change (seg_comps seg0 ++ flat_map seg_comps segs)
      with (flat_map seg_comps (seg0 :: segs)).
    pose proof (sim [] (seg0 :: segs) (or_introl eq_refl) []) as S.
    cbn [map app] in S. rewrite app_nil_r in S.
    rewrite S, <- map_rev. reflexivity.
Qed.

Corollary normalize_c_abs p :
  absolute p -> normalize_c (components p) = Root :: map Normal (resolve p).
Proof.
  intros H. rewrite normalize_c_components. unfold root_prefix.
  rewrite H. reflexivity.
Qed.

Corollary normalize_abs p : absolute p -> normalize p = render_abs (resolve p).
Proof. intros H. unfold normalize. rewrite normalize_c_abs by assumption. reflexivity. Qed.

Lemma Forall_tl {A} (P : A -> Prop) l : Forall P l -> Forall P (tl l).
Proof. intros H; destruct H; [constructor|assumption]. Qed.

Lemma resolve_fold_good segs : forall st,
  Forall (fun seg => ~ In slash seg) segs -> Forall good_name st ->
  Forall good_name (fold_left resolve_step segs st).
Proof.
  induction segs as [|seg segs IH]; intros st Hs Hst; [assumption|].
  inversion Hs as [|? ? Hseg Hsegs]; subst.
  cbn [fold_left]. apply IH; [assumption|].
  destruct (seg_classify seg) as [->| ->| ->|H1 H2 H3].
  - assumption.
  - assumption.
  - apply (Forall_tl _ _ Hst).
  - rewrite resolve_step_name by assumption.
    constructor; [|assumption]. repeat split; assumption.
Qed.

Lemma resolve_from_good d p :
  Forall good_name d -> Forall good_name (resolve_from d p).
Proof.
  intros H. unfold resolve_from. apply Forall_rev. apply resolve_fold_good.
  - apply split_on_segments.
  - apply Forall_rev. assumption.
Qed.

Lemma resolve_good p : Forall good_name (resolve p).
Proof. apply resolve_from_good. constructor. Qed.

Lemma good_noslash names :
  Forall good_name names -> Forall (fun n => ~ In slash n) names.
Proof. apply Forall_impl. intros n [_ [H _]]. exact H. Qed.

Lemma flat_map_good names :
  Forall good_name names -> flat_map seg_comps names = map Normal names.
Proof.
  induction 1 as [|n l Hn Hl IH]; [reflexivity|].
  cbn [flat_map map]. apply good_name_cases in Hn. destruct Hn as [H1 [H2 H3]].
  rewrite seg_comps_name, IH by assumption. reflexivity.
Qed.

Lemma comp_text_normal names : map comp_text (map Normal names) = names.
Proof. rewrite map_map. apply map_id. Qed.

Lemma render_abs_text names : render_abs names = slash :: join_slash names.
Proof. unfold render_abs, render. rewrite comp_text_normal. reflexivity. Qed.

Lemma render_rel_text names : render (map Normal names) = join_slash names.
Proof.
  unfold render. destruct names as [|n l]; [reflexivity|].
  cbn [map]. rewrite comp_text_normal. reflexivity.
Qed.

Lemma components_render_abs names :
  Forall good_name names -> components (render_abs names) = Root :: map Normal names.
Proof.
  intros G. rewrite render_abs_text. unfold components.
  change (is_abs (slash :: join_slash names)) with true. cbv iota.
  rewrite split_on_cons_sep. cbn [flat_map seg_comps app]. f_equal.
  destruct names as [|n l]; [reflexivity|].
  rewrite split_join; [|discriminate|apply good_noslash; assumption].
  apply flat_map_good; assumption.
Qed.

Lemma is_abs_join_good names :
  Forall good_name names -> is_abs (join_slash names) = false.
Proof.
  intros G. destruct names as [|n l]; [reflexivity|].
  inversion G as [|? ? [Hne [Hns _]] _]; subst.
  destruct n as [|c n]; [contradiction|].
  assert (E : Ascii.eqb c slash = false).
  { destruct (Ascii.eqb c slash) eqn:E; [|reflexivity].
    apply Ascii.eqb_eq in E; subst. exfalso. apply Hns. left; reflexivity. }
  destruct l; cbn; exact E.
Qed.

Lemma components_render_rel names :
  Forall good_name names -> components (render (map Normal names)) = map Normal names.
Proof.
  intros G. rewrite render_rel_text. unfold components.
  rewrite is_abs_join_good by assumption.
  destruct names as [|n l]; [reflexivity|].
  rewrite split_join; [|discriminate|apply good_noslash; assumption].
  inversion G as [|? ? Hn Hl]; subst.
  apply good_name_cases in Hn. destruct Hn as [H1 [H2 H3]].
  rewrite first_seg_comps_name, flat_map_good by assumption. reflexivity.
Qed.

(* re-parsing the output of [normalize] gives back the component list that
   was rendered *)
Theorem components_normalize p :
  components (normalize p) = normalize_c (components p).
Proof.
  unfold normalize. rewrite normalize_c_components. unfold root_prefix.
  destruct (is_abs p); cbn [app].
  - apply (components_render_abs (resolve p)), resolve_good.
  - apply components_render_rel, resolve_good.
Qed.

Definition st_nf (st : list comp) : Prop :=
  exists names base, bottom base /\ st = map Normal names ++ base.

Lemma step_nf st c : st_nf st -> st_nf (step st c).
Proof.
  intros [names [base [Hb ->]]]. destruct c; cbn [step].
  - exists [], [Root]. split; [right|]; reflexivity.
  - exists names, base. auto.
  - rewrite pop_rev_names by exact Hb. exists (tl names), base. auto.
  - exists (name :: names), base. auto.
Qed.

Lemma fold_step_nf cs : forall st, st_nf st -> st_nf (fold_left step cs st).
Proof.
  induction cs as [|c cs IH]; intros st H; [assumption|].
  cbn [fold_left]. apply IH, step_nf, H.
Qed.

Lemma fold_step_normals names : forall st,
  fold_left step (map Normal names) st = rev (map Normal names) ++ st.
Proof.
  induction names as [|n l IH]; intros st; [reflexivity|].
  cbn [map fold_left step rev]. rewrite IH, <- app_assoc. reflexivity.
Qed.

(* The output of the loop is [Normal]s, possibly after one [Root]. *)
Definition normal_form (cs : list comp) : Prop :=
  exists names, cs = map Normal names \/ cs = Root :: map Normal names.

Lemma normalize_c_normal_form cs : normal_form (normalize_c cs).
Proof.
  unfold normalize_c.
  destruct (fold_step_nf cs [] (ex_intro _ [] (ex_intro _ [] (conj (or_introl eq_refl) eq_refl))))
    as [names [base [[-> | ->] ->]]]; exists (rev names);
    rewrite rev_app_distr, map_rev; [left|right]; reflexivity.
Qed.

Lemma normalize_c_fixed cs : normal_form cs -> normalize_c cs = cs.
Proof.
  intros [names [-> | ->]]; unfold normalize_c.
  - rewrite fold_step_normals, app_nil_r. apply rev_involutive.
  - cbn [fold_left step]. rewrite fold_step_normals, rev_app_distr, rev_involutive.
    reflexivity.
Qed.

Theorem normalize_c_idem : forall cs,
  normalize_c (normalize_c cs) = normalize_c cs.
Proof. intros cs. apply normalize_c_fixed, normalize_c_normal_form. Qed.

(* ... and at the level of path text, for every path. *)
Theorem normalize_idem_any : forall p, normalize (normalize p) = normalize p.
Proof.
  intros p. unfold normalize at 1. rewrite components_normalize, normalize_c_idem.
  reflexivity.
Qed.

Theorem normalize_idem : forall p,
  absolute p -> normalize (normalize p) = normalize p.
Proof. intros p _. apply normalize_idem_any. Qed.

Lemma normal_form_no_dots cs :
  normal_form cs -> Forall (fun c => is_dot c = false) cs.
Proof.
  intros [names [-> | ->]]; [|constructor; [reflexivity|]];
    apply Forall_forall; intros c Hin; apply in_map_iff in Hin;
    destruct Hin as [n [<- _]]; reflexivity.
Qed.

Theorem normalize_no_dots_any : forall p,
  Forall (fun c => is_dot c = false) (components (normalize p)).
Proof.
  intros p. rewrite components_normalize.
  apply normal_form_no_dots, normalize_c_normal_form.
Qed.

Theorem normalize_no_dots : forall p,
  absolute p -> Forall (fun c => is_dot c = false) (components (normalize p)).
Proof. intros p _. apply normalize_no_dots_any. Qed.

(* sharper, for absolute paths: the output is "/" followed by entry names *)
Theorem normalize_abs_shape : forall p,
  absolute p ->
  components (normalize p) = Root :: map Normal (resolve p) /\
  Forall good_name (resolve p) /\
  absolute (normalize p).
Proof.
  intros p H. split; [|split].
  - rewrite components_normalize. apply normalize_c_abs, H.
  - apply resolve_good.
  - rewrite normalize_abs, render_abs_text by assumption. reflexivity.
Qed.

(* normalize identifies exactly the spellings of the same file *)

Theorem normalize_equiv : forall p q,
  absolute p -> absolute q -> resolve p = resolve q -> normalize p = normalize q.
Proof.
  intros p q Hp Hq E. rewrite !normalize_abs by assumption. rewrite E. reflexivity.
Qed.

Lemma map_Normal_inj a c : map Normal a = map Normal c -> a = c.
Proof.
  revert c; induction a as [|x a IH]; intros [|y c] H; try discriminate; auto.
  cbn in H. inversion H. f_equal. apply IH; assumption.
Qed.

Theorem normalize_equiv_conv : forall p q,
  absolute p -> absolute q -> normalize p = normalize q -> resolve p = resolve q.
Proof.
  intros p q Hp Hq E.
  pose proof (f_equal components E) as C.
  rewrite !components_normalize, !normalize_c_abs in C by assumption.
  inversion C as [C']. apply map_Normal_inj, C'.
Qed.

Corollary normalize_equiv_iff : forall p q,
  absolute p -> absolute q -> (normalize p = normalize q <-> resolve p = resolve q).
Proof.
  intros p q Hp Hq. split;
    [apply normalize_equiv_conv|apply normalize_equiv]; assumption.
Qed.

(* [normalize p] is itself a spelling of the file [p] denotes *)
Lemma fold_resolve_good names : forall st,
  Forall good_name names -> fold_left resolve_step names st = rev names ++ st.
Proof.
  induction names as [|n l IH]; intros st G; [reflexivity|].
  inversion G as [|? ? Hn Hl]; subst.
  apply good_name_cases in Hn. destruct Hn as [H1 [H2 H3]].
  cbn [fold_left rev]. rewrite resolve_step_name, IH, <- app_assoc by assumption.
  reflexivity.
Qed.

Lemma resolve_from_join d names :
  Forall good_name names -> resolve_from d (join_slash names) = d ++ names.
Proof.
  intros G. unfold resolve_from. destruct names as [|n l].
  - cbn. rewrite rev_involutive, app_nil_r. reflexivity.
  - rewrite split_join; [|discriminate|apply good_noslash; assumption].
    rewrite fold_resolve_good, rev_app_distr, !rev_involutive by assumption.
    reflexivity.
Qed.

Lemma resolve_render_abs names :
  Forall good_name names -> resolve (render_abs names) = names.
Proof.
  intros G. rewrite render_abs_text. unfold resolve, resolve_from.
  rewrite split_on_cons_sep. cbn [fold_left rev].
  change (resolve_step [] []) with (@nil bytes).
  exact (resolve_from_join [] names G).
Qed.

Theorem normalize_sound : forall p,
  absolute p -> resolve (normalize p) = resolve p.
Proof.
  intros p H. rewrite normalize_abs by assumption.
  apply resolve_render_abs, resolve_good.
Qed.

(* a relative import resolves against the importing file's directory *)

Lemma is_abs_app d r : absolute d -> absolute (d ++ r).
Proof. destruct d; [discriminate|]. intros H; exact H. Qed.

Lemma resolve_app d r :
  resolve (d ++ slash :: r) = resolve_from (resolve d) r.
Proof.
  unfold resolve, resolve_from.
  rewrite split_on_app_sep, fold_left_app, rev_involutive. reflexivity.
Qed.

(* [d] any absolute spelling of the directory *)
Theorem join_normalize : forall d r,
  absolute d ->
  normalize (d ++ slash :: r) = render_abs (resolve_from (resolve d) r).
Proof.
  intros d r H. rewrite normalize_abs by (apply is_abs_app; assumption).
  rewrite resolve_app. reflexivity.
Qed.

(* [d] already normal: it is the canonical spelling of its own entry names *)
Lemma normal_dir_spelling d :
  absolute d -> normalize d = d ->
  d = render_abs (resolve d) /\ Forall good_name (resolve d).
Proof.
  intros H E. split; [|apply resolve_good].
  rewrite <- E at 1. apply normalize_abs, H.
Qed.

(* the directory given by its entry names *)
Theorem join_normalize_names : forall names r,
  Forall good_name names ->
  normalize (render_abs names ++ slash :: r) = render_abs (resolve_from names r).
Proof.
  intros names r G. rewrite join_normalize.
  - rewrite resolve_render_abs by assumption. reflexivity.
  - rewrite render_abs_text. reflexivity.
Qed.

(* A relative path is normalised as if its starting directory were the
   root: ".." that climb above the start are silently discarded. *)
Theorem normalize_rel : forall p,
  is_abs p = false -> normalize p = join_slash (resolve p).
Proof.
  intros p H. unfold normalize. rewrite normalize_c_components.
  unfold root_prefix. rewrite H. apply render_rel_text.
Qed.

Theorem normalize_text : forall p,
  normalize p = (if is_abs p then [slash] else []) ++ join_slash (resolve p).
Proof.
  intros p. destruct (is_abs p) eqn:H.
  - rewrite normalize_abs, render_abs_text by exact H. reflexivity.
  - apply normalize_rel, H.
Qed.

Lemma no_escape_fold segs : forall st base,
  no_escape_from (List.length st) segs = true ->
  fold_left resolve_step segs (st ++ base)
  = fold_left resolve_step segs st ++ base.
Proof.
  induction segs as [|seg segs IH]; intros st base H; [reflexivity|].
  cbn [fold_left].
  destruct (seg_classify seg) as [->| ->| ->|H1 H2 H3].
  - apply IH. exact H.
  - apply IH. exact H.
  - destruct st as [|x st]; [discriminate H|].
    apply (IH st). exact H.
  - rewrite no_escape_name in H by assumption.
    rewrite !resolve_step_name by assumption.
    apply (IH (seg :: st)). exact H.
Qed.

Lemma resolve_from_no_escape d r :
  no_escape r = true -> resolve_from d r = d ++ resolve r.
Proof.
  intros H. unfold resolve, resolve_from, no_escape in *.
  rewrite (no_escape_fold _ [] (rev d)) by exact H.
  cbn [rev app]. rewrite rev_app_distr, rev_involutive. reflexivity.
Qed.

(* If the relative path never climbs above its start, normalisation
   preserves its meaning in every directory [d]. *)
Theorem normalize_rel_sound : forall d r,
  is_abs r = false -> no_escape r = true ->
  resolve_from d (normalize r) = resolve_from d r.
Proof.
  intros d r Hr Hn. rewrite normalize_rel by assumption.
  rewrite resolve_from_join by apply resolve_good.
  symmetry. apply resolve_from_no_escape, Hn.
Qed.

(* Otherwise it need not: "a/../../b" from /x/y is /x/b, but its
   normalisation "b" is /x/y/b there. *)
Example normalize_rel_unsound :
  let d := [b "x"; b "y"] in
  let r := b "a/../../b" in
  normalize r = b "b" /\
  resolve_from d r = [b "x"; b "b"] /\
  resolve_from d (normalize r) = [b "x"; b "y"; b "b"].
Proof. vm_compute. repeat split. Qed.

(* validation against the real code: each triple is (input text,
   std::path::Path::components() of it, text of ucglib::path::normalize
   of it), as printed by a probe program (rustc, Linux) *)

Local Open Scope string_scope.

Definition rust_observations : list (string * list comp * string) :=
  [
    ("/a/b/../c", [Root; Normal (b "a"); Normal (b "b"); Parent; Normal (b "c")], "/a/c");
    ("/a/./b", [Root; Normal (b "a"); Normal (b "b")], "/a/b");
    ("/../a", [Root; Parent; Normal (b "a")], "/a");
    ("a/../../b", [Normal (b "a"); Parent; Parent; Normal (b "b")], "b");
    ("./a", [Cur; Normal (b "a")], "a");
    ("a//b/", [Normal (b "a"); Normal (b "b")], "a/b");
    ("/", [Root], "/");
    ("", [], "");
    ("..", [Parent], "");
    ("/a/b/../../..", [Root; Normal (b "a"); Normal (b "b"); Parent; Parent; Parent], "/");
    ("./../a", [Cur; Parent; Normal (b "a")], "a");
    (".", [Cur], "");
    ("./", [Cur], "");
    ("./.", [Cur], "");
    ("/.", [Root], "/");
    ("/..", [Root; Parent], "/");
    ("//", [Root], "/");
    ("//a", [Root; Normal (b "a")], "/a");
    ("///a//b//", [Root; Normal (b "a"); Normal (b "b")], "/a/b");
    ("a", [Normal (b "a")], "a");
    ("a/", [Normal (b "a")], "a");
    ("a/.", [Normal (b "a")], "a");
    ("a/..", [Normal (b "a"); Parent], "");
    ("a/../..", [Normal (b "a"); Parent; Parent], "");
    ("../a", [Parent; Normal (b "a")], "a");
    ("../../a", [Parent; Parent; Normal (b "a")], "a");
    ("./..", [Cur; Parent], "");
    ("./a/./b", [Cur; Normal (b "a"); Normal (b "b")], "a/b");
    ("a/./b", [Normal (b "a"); Normal (b "b")], "a/b");
    ("/a/b/c", [Root; Normal (b "a"); Normal (b "b"); Normal (b "c")], "/a/b/c");
    ("/a/b/c/", [Root; Normal (b "a"); Normal (b "b"); Normal (b "c")], "/a/b/c");
    ("/a/b/./c/../d", [Root; Normal (b "a"); Normal (b "b"); Normal (b "c"); Parent; Normal (b "d")], "/a/b/d");
    ("..a/b", [Normal (b "..a"); Normal (b "b")], "..a/b");
    ("a/.../b", [Normal (b "a"); Normal (b "..."); Normal (b "b")], "a/.../b");
    ("/.a/..b/..", [Root; Normal (b ".a"); Normal (b "..b"); Parent], "/.a");
    (".//a", [Cur; Normal (b "a")], "a");
    ("a/b/../../../c", [Normal (b "a"); Normal (b "b"); Parent; Parent; Parent; Normal (b "c")], "c");
    ("/./a", [Root; Normal (b "a")], "/a");
    ("./a/..", [Cur; Normal (b "a"); Parent], "");
    ("./a/../..", [Cur; Normal (b "a"); Parent; Parent], "");
    ("a/b/..", [Normal (b "a"); Normal (b "b"); Parent], "a");
    ("/a/..", [Root; Normal (b "a"); Parent], "/");
    ("a/./", [Normal (b "a")], "a");
    ("/a/../../b/./c//", [Root; Normal (b "a"); Parent; Parent; Normal (b "b"); Normal (b "c")], "/b/c")
  ].

Definition comp_eqb (x y : comp) : bool :=
  match x, y with
  | Root, Root | Cur, Cur | Parent, Parent => true
  | Normal m, Normal n => bytes_eqb m n
  | _, _ => false
  end.
Fixpoint comps_eqb (x y : list comp) : bool :=
  match x, y with
  | [], [] => true
  | c :: x', d :: y' => comp_eqb c d && comps_eqb x' y'
  | _, _ => false
  end.

Example rust_components_agree :
  forallb (fun t => match t with (i, cs, _) => comps_eqb (components (b i)) cs end)
          rust_observations = true.
Proof. vm_compute; reflexivity. Qed.

Example rust_normalize_agree :
  forallb (fun t => match t with (i, _, o) => bytes_eqb (normalize (b i)) (b o) end)
          rust_observations = true.
Proof. vm_compute; reflexivity. Qed.

Example rust_observations_count : List.length rust_observations = 44.
Proof. reflexivity. Qed.

Example ex_1 : normalize (b "/a/b/../c") = b "/a/c". Proof. vm_compute; reflexivity. Qed.
Example ex_2 : normalize (b "/a/./b") = b "/a/b". Proof. vm_compute; reflexivity. Qed.
Example ex_3 : normalize (b "/../a") = b "/a". Proof. vm_compute; reflexivity. Qed.
Example ex_4 : normalize (b "a/../../b") = b "b". Proof. vm_compute; reflexivity. Qed.
Example ex_5 : normalize (b "./a") = b "a". Proof. vm_compute; reflexivity. Qed.
Example ex_6 : normalize (b "a//b/") = b "a/b". Proof. vm_compute; reflexivity. Qed.
Example ex_7 : normalize (b "/") = b "/". Proof. vm_compute; reflexivity. Qed.
Example ex_8 : normalize (b "") = b "". Proof. vm_compute; reflexivity. Qed.
Example ex_9 : normalize (b "..") = b "". Proof. vm_compute; reflexivity. Qed.
Example ex_10 : normalize (b "/a/b/../../..") = b "/". Proof. vm_compute; reflexivity. Qed.
Example ex_11 : normalize (b "./../a") = b "a". Proof. vm_compute; reflexivity. Qed.
Example ex_12 : components (b "./a/./b") = [Cur; Normal (b "a"); Normal (b "b")].
Proof. vm_compute; reflexivity. Qed.
Example ex_13 : components (b "a/./b") = [Normal (b "a"); Normal (b "b")].
Proof. vm_compute; reflexivity. Qed.
