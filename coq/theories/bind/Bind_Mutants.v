(* REFUTATION sanity checks: the theorems of Bind_Lemmas.v are theorems about the GENERATED tables.
   Each claim below is the statement of one of them with the table assignment made a parameter; it holds for
   the generated assignment [table_of] and is FALSE (witness by computation) for an assignment in which one
   table has been changed the way a change of translate.rs would change it. *)
From Ucg Require Import bind.Bind_Lemmas.
Import BindToy.

(* a table assignment: for every type of sub-expressions, statement form -> table *)
Definition assignment := forall E : Type, bstmt E -> list sop.
Definition generated : assignment := fun E => @table_of E.

(* rebind_is_error_every_form *)
Definition rebind_claim (tbl : assignment) : Prop :=
  forall fo E eval_code conforms k_empty out_ok (st : bstate fo) x v0,
    sym_get x (bsyms st) = Some v0 ->
    (forall e st', exec_stmt_with fo E eval_code conforms k_empty out_ok (tbl E) (BLet x e) st <> VOk st') /\
    (forall e c st', exec_stmt_with fo E eval_code conforms k_empty out_ok (tbl E) (BLetC x e c) st <> VOk st') /\
    (forall c st', exec_stmt_with fo E eval_code conforms k_empty out_ok (tbl E) (BConstraint x c) st <> VOk st').

(* stack_balanced *)
Definition balance_claim (tbl : assignment) : Prop :=
  forall fo E eval_code conforms k_empty out_ok (s : bstmt E) (st st' : bstate fo),
    exec_stmt_with fo E eval_code conforms k_empty out_ok (tbl E) s st = VOk st' -> bstk st' = bstk st.

Theorem generated_rebind_claim : rebind_claim generated.
Proof. intros fo E ev cf k ok st x v0 Hb. exact (rebind_is_error_every_form fo E ev cf k ok st x v0 Hb). Qed.

Theorem generated_balance_claim : balance_claim generated.
Proof. intros fo E ev cf k ok s st st' H. exact (stack_balanced fo E ev cf k ok s st st' H). Qed.

Local Open Scope string_scope.
Definition st_x_bound : bstate toy_floats := {| bstk := []; bsyms := [(b "x", WInt 1)]; bout := false |}.

(* Mutant 1 (the one the task names): the constraint statement pre-binds with BindOver instead of Bind *)
Definition m1_constraint_ops : list sop := [SOSym; SOBuildConstraintEmpty; SOBindOver; SOSym; SOCode 0; SOBindOver].
Definition mutant1 : assignment :=
  fun E s => match s with BConstraint _ _ => m1_constraint_ops | _ => table_of s end.

(* `let x = 1; constraint x = 5;` goes through and x changes its value *)
Example mutant1_rebinds :
  exec_stmt_with toy_floats texp toy_eval toy_conforms toy_k_empty toy_out_ok (mutant1 texp)
                 (BConstraint (b "x") (TLit (WInt 5))) st_x_bound
  = VOk {| bstk := []; bsyms := [(b "x", WInt 5)]; bout := false |}.
Proof. reflexivity. Qed.

Theorem mutant1_refutes_rebind_claim : ~ rebind_claim mutant1.
Proof.
  intros H.
  destruct (H toy_floats texp toy_eval toy_conforms toy_k_empty toy_out_ok st_x_bound (b "x") (WInt 1) eq_refl)
    as (_ & _ & Hc).
  exact (Hc _ _ mutant1_rebinds).
Qed.

(* Mutant 2: the Let arm ends in BindOver *)
Definition mutant2 : assignment :=
  fun E s => match s with BLet _ _ => [SOSym; SOCode 0; SOBindOver] | _ => table_of s end.

Example mutant2_rebinds :
  exec_stmt_with toy_floats texp toy_eval toy_conforms toy_k_empty toy_out_ok (mutant2 texp)
                 (BLet (b "x") (TLit (WInt 5))) st_x_bound
  = VOk {| bstk := []; bsyms := [(b "x", WInt 5)]; bout := false |}.
Proof. reflexivity. Qed.

Theorem mutant2_refutes_rebind_claim : ~ rebind_claim mutant2.
Proof.
  intros H.
  destruct (H toy_floats texp toy_eval toy_conforms toy_k_empty toy_out_ok st_x_bound (b "x") (WInt 1) eq_refl)
    as (Hl & _ & _).
  exact (Hl _ _ mutant2_rebinds).
Qed.

(* Mutant 3: the constrained Let drops its CheckConstraint.  The constraint is then taken for the value and the
   value for the NAME: op_bind's unreachable!() -- a panic, not an error message *)
Definition no_bug_claim (tbl : assignment) : Prop :=
  forall fo E eval_code conforms k_empty out_ok (s : bstmt E) (st : bstate fo),
    (forall t e, eval_code t e <> VBug) ->
    exec_stmt_with fo E eval_code conforms k_empty out_ok (tbl E) s st <> VBug.

Theorem generated_no_bug_claim : no_bug_claim generated.
Proof. intros fo E ev cf k ok s st H. exact (stmt_no_bug fo E ev cf k ok s st H). Qed.

Definition mutant3 : assignment :=
  fun E s => match s with BLetC _ _ _ => [SOSym; SOCode 0; SOCode 1; SOBind] | _ => table_of s end.

(* sub-expressions that are their own value *)
Definition lit_eval (t : symtab toy_floats) (e : tval) : outcome tval := VOk e.

Theorem mutant3_refutes_no_bug_claim : ~ no_bug_claim mutant3.
Proof.
  intros H.
  apply (H toy_floats tval lit_eval toy_conforms toy_k_empty toy_out_ok
           (BLetC (b "y") (WInt 7) (WList [WInt 7])) (binit toy_floats)).
  - intros t e. discriminate.
  - reflexivity.
Qed.

(* Mutant 5: the expression statement loses its Pop: the value stays on the stack *)
Definition mutant5 : assignment :=
  fun E s => match s with BExpr _ => [SOCode 0] | _ => table_of s end.

Example mutant5_unbalanced :
  exec_stmt_with toy_floats texp toy_eval toy_conforms toy_k_empty toy_out_ok (mutant5 texp)
                 (BExpr (TLit (WInt 7))) (binit toy_floats)
  = VOk {| bstk := [WInt 7]; bsyms := []; bout := false |}.
Proof. reflexivity. Qed.

Theorem mutant5_refutes_balance_claim : ~ balance_claim mutant5.
Proof.
  intros H.
  pose proof (H toy_floats texp toy_eval toy_conforms toy_k_empty toy_out_ok _ _ _ mutant5_unbalanced) as Hs.
  discriminate Hs.
Qed.

(* Mutant 4: the pre-binding of the constraint statement is dropped altogether (no Sym / BuildConstraint /
   Bind): a rebinding `constraint x = ..` is then accepted as well *)
Definition mutant4 : assignment :=
  fun E s => match s with BConstraint _ _ => [SOSym; SOCode 0; SOBindOver] | _ => table_of s end.

Theorem mutant4_refutes_rebind_claim : ~ rebind_claim mutant4.
Proof.
  intros H.
  destruct (H toy_floats texp toy_eval toy_conforms toy_k_empty toy_out_ok st_x_bound (b "x") (WInt 1) eq_refl)
    as (_ & _ & Hc).
  apply (Hc (TLit (WInt 5)) {| bstk := []; bsyms := [(b "x", WInt 5)]; bout := false |}).
  reflexivity.
Qed.
