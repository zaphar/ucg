(* Theorems about the statement layer (bind/Bind.v) run on the GENERATED tables (gen/StmtOps.v).

   Everything below that talks about [exec_stmt] / [exec_prog] goes through the six characterisation lemmas
   [exec_*_eq], which are proved by unfolding the generated table of the form; a change of an opcode, of the
   order, or of the strictness flags in the source changes the tables and breaks those lemmas (and
   Bind_Mutants.v shows the headline theorem is then really false, not just unproved). *)
From Ucg Require Import base.Bytes_Lemmas.
From Ucg Require Export bind.Bind.

Section Symtab.
  Variable fo : float_ops.

  Lemma ltb_irrefl x : bytes_ltb x x = false.
  Proof. induction x as [|c x IH]; cbn [bytes_ltb]; [reflexivity|]. rewrite N.ltb_irrefl. exact IH. Qed.

  Lemma sym_get_add x k (v : wval fo) t :
    sym_get x (sym_add k v t) = if bytes_eqb x k then Some v else sym_get x t.
  Proof.
    induction t as [|[k' w] t IH]; cbn [sym_add sym_get].
    - destruct (bytes_eqb x k); reflexivity.
    - destruct (bytes_ltb k k') eqn:E1.
      + cbn [sym_get]. destruct (bytes_eqb x k); reflexivity.
      + destruct (bytes_eqb k k') eqn:E2.
        * apply bytes_eqb_spec in E2; subst k'. cbn [sym_get]. destruct (bytes_eqb x k); reflexivity.
        * cbn [sym_get]. rewrite IH.
          destruct (bytes_eqb x k') eqn:E3; [|reflexivity].
          destruct (bytes_eqb x k) eqn:E4; [|reflexivity].
          apply bytes_eqb_spec in E3, E4. subst k k'. rewrite bytes_eqb_refl in E2. discriminate.
  Qed.

  (* inserting twice under the same name leaves no trace of the first value *)
  Lemma sym_add_add x (v1 v2 : wval fo) t : sym_add x v2 (sym_add x v1 t) = sym_add x v2 t.
  Proof.
    induction t as [|[k' w] t IH]; cbn [sym_add].
    - rewrite ltb_irrefl, bytes_eqb_refl. reflexivity.
    - destruct (bytes_ltb x k') eqn:E1.
      + cbn [sym_add]. rewrite ltb_irrefl, bytes_eqb_refl. reflexivity.
      + destruct (bytes_eqb x k') eqn:E2.
        * cbn [sym_add]. rewrite ltb_irrefl, bytes_eqb_refl. reflexivity.
        * cbn [sym_add]. rewrite E1, E2, IH. reflexivity.
  Qed.

  Lemma sym_bound_get x (t : symtab fo) : sym_bound x t = false <-> sym_get x t = None.
  Proof. unfold sym_bound. destruct (sym_get x t); split; intros H; try reflexivity; discriminate. Qed.

  (* VM::binding_push *)
  Lemma binding_push_inv t x (v : wval fo) strict_bind t' :
    binding_push fo t x v strict_bind = VOk t' ->
    vm_is_reserved x = false /\ (strict_bind = true -> sym_get x t = None) /\ t' = sym_add x v t.
  Proof.
    unfold binding_push. destruct (vm_is_reserved x); [discriminate|].
    destruct (sym_bound x t) eqn:Eb; destruct strict_bind; cbn [andb]; try discriminate;
      intros H; inversion H; subst t'; (split; [reflexivity|split; [|reflexivity]]); intros Hs; try discriminate.
    apply sym_bound_get. exact Eb.
  Qed.

  Lemma binding_push_ok t x (v : wval fo) strict_bind :
    vm_is_reserved x = false -> (strict_bind = true -> sym_get x t = None) ->
    binding_push fo t x v strict_bind = VOk (sym_add x v t).
  Proof.
    intros Hr Hb. unfold binding_push. rewrite Hr. destruct strict_bind.
    - apply sym_bound_get in Hb; [|reflexivity]. rewrite Hb. reflexivity.
    - rewrite andb_false_r. reflexivity.
  Qed.

  Lemma binding_push_reserved t x (v : wval fo) strict_bind :
    vm_is_reserved x = true -> binding_push fo t x v strict_bind = VErr.
  Proof. intros Hr. unfold binding_push. rewrite Hr. reflexivity. Qed.

  Lemma binding_push_bound t x (v v0 : wval fo) :
    sym_get x t = Some v0 -> binding_push fo t x v true = VErr.
  Proof.
    intros Hb. unfold binding_push, sym_bound. rewrite Hb. destruct (vm_is_reserved x); reflexivity.
  Qed.

  (* binding_push either succeeds or is a build error: never a panic *)
  Lemma binding_push_no_bug t x (v : wval fo) strict_bind : binding_push fo t x v strict_bind <> VBug.
  Proof.
    unfold binding_push. destruct (vm_is_reserved x); [discriminate|].
    destruct (sym_bound x t && strict_bind); discriminate.
  Qed.
End Symtab.

Lemma vbind_ok {A B} (r : outcome A) (k : A -> outcome B) (y : B) :
  vbind r k = VOk y -> exists a, r = VOk a /\ k a = VOk y.
Proof. destruct r as [a| | | |]; cbn [vbind]; try discriminate. intros H. exists a. split; [reflexivity|exact H]. Qed.

Lemma vbind_no_bug {A B} (r : outcome A) (k : A -> outcome B) :
  r <> VBug -> (forall a, k a <> VBug) -> vbind r k <> VBug.
Proof. intros Hr Hk. destruct r; cbn [vbind]; auto; discriminate. Qed.

Lemma if_no_bug {A} (c : bool) (x y : outcome A) : x <> VBug -> y <> VBug -> (if c then x else y) <> VBug.
Proof. destruct c; auto. Qed.

Section BindLemmas.
  Variable fo : float_ops.
  Variable sub_expression : Type.
  Variable eval_code : symtab fo -> sub_expression -> outcome (wval fo).
  Variable conforms : wval fo -> wval fo -> bool.
  Variable k_empty : wval fo.
  Variable out_ok : bytes -> wval fo -> bool.

  Notation exec_stmt := (Bind.exec_stmt fo sub_expression eval_code conforms k_empty out_ok).
  Notation exec_prog := (Bind.exec_prog fo sub_expression eval_code conforms k_empty out_ok).
  Notation run_sops := (Bind.run_sops fo sub_expression eval_code conforms k_empty out_ok).
  Notation run_sop := (Bind.run_sop fo sub_expression eval_code conforms k_empty out_ok).
  Notation run_sops_upto := (Bind.run_sops_upto fo sub_expression eval_code conforms k_empty out_ok).
  Notation bstate := (bstate fo).
  Notation bstmt := (bstmt sub_expression).

  (* the tables only mention parts their statement form has *)
  Definition sop_ok (si : stmt_instance sub_expression) (o : sop) : Prop :=
    match o with
    | SOSym => si_name si <> None
    | SOCode k => si_code si k <> None
    | SOValTypeName => si_typ si <> None
    | _ => True
    end.

  Lemma tables_well_formed (s : bstmt) : Forall (sop_ok (instance_of s)) (table_of s).
  Proof. destruct s; repeat constructor; cbn; discriminate. Qed.

  (* what each form does, read off its generated table *)
  Ltac run_table :=
    unfold Bind.exec_stmt, exec_stmt_with;
    cbn [table_of instance_of gen_let_ops gen_let_constrained_ops gen_constraint_ops gen_expr_ops gen_assert_ops
         gen_out_ops Bind.run_sops Bind.run_sop si_name si_code si_typ code1 code2 bpush with_bstk bstk bsyms bout
         op_bind pop vbind];
    unfold gen_bind_strict, gen_bindover_strict.

  Lemma exec_let_eq x e (st : bstate) :
    exec_stmt (BLet x e) st =
    (vdo v <- eval_code (bsyms st) e;
     vdo t <- binding_push fo (bsyms st) x v true;
     VOk {| bstk := bstk st; bsyms := t; bout := bout st |}).
  Proof.
    run_table. destruct (eval_code (bsyms st) e) as [v| | | |]; run_table; try reflexivity.
    destruct (binding_push fo (bsyms st) x v true); reflexivity.
  Qed.

  Lemma exec_letc_eq x e c (st : bstate) :
    exec_stmt (BLetC x e c) st =
    (vdo v <- eval_code (bsyms st) e;
     vdo cv <- eval_code (bsyms st) c;
     if conforms cv v
     then vdo t <- binding_push fo (bsyms st) x v true;
          VOk {| bstk := bstk st; bsyms := t; bout := bout st |}
     else VErr).
  Proof.
    run_table. destruct (eval_code (bsyms st) e) as [v| | | |]; run_table; try reflexivity.
    destruct (eval_code (bsyms st) c) as [cv| | | |]; run_table; try reflexivity.
    destruct (conforms cv v); run_table; try reflexivity.
    destruct (binding_push fo (bsyms st) x v true); reflexivity.
  Qed.

  Lemma exec_constraint_eq x c (st : bstate) :
    exec_stmt (BConstraint x c) st =
    (vdo t1 <- binding_push fo (bsyms st) x k_empty true;
     vdo v <- eval_code t1 c;
     vdo t2 <- binding_push fo t1 x v false;
     VOk {| bstk := bstk st; bsyms := t2; bout := bout st |}).
  Proof.
    run_table. destruct (binding_push fo (bsyms st) x k_empty true) as [t1| | | |]; run_table; try reflexivity.
    destruct (eval_code t1 c) as [v| | | |]; run_table; try reflexivity.
    destruct (binding_push fo t1 x v false); reflexivity.
  Qed.

  Lemma exec_expr_eq e (st : bstate) :
    exec_stmt (BExpr e) st = (vdo _ <- eval_code (bsyms st) e; VOk st).
  Proof.
    run_table. destruct (eval_code (bsyms st) e) as [v| | | |]; run_table; try reflexivity.
    destruct st; reflexivity.
  Qed.

  Lemma exec_assert_eq e (st : bstate) :
    exec_stmt (BAssert e) st = (vdo _ <- eval_code (bsyms st) e; VOk st).
  Proof.
    run_table. destruct (eval_code (bsyms st) e) as [v| | | |]; run_table; try reflexivity.
    destruct st; reflexivity.
  Qed.

  Lemma exec_out_eq typ e (st : bstate) :
    exec_stmt (BOut typ e) st =
    (vdo v <- eval_code (bsyms st) e;
     if bout st then VErr
     else if out_ok typ v then VOk {| bstk := bstk st; bsyms := bsyms st; bout := true |} else VErr).
  Proof.
    run_table. destruct (eval_code (bsyms st) e) as [v| | | |]; run_table; try reflexivity.
    destruct (bout st); [reflexivity|]. destruct (out_ok typ v); reflexivity.
  Qed.

  (* what let binds *)
  Theorem let_stmt_result x e (st st' : bstate) :
    exec_stmt (BLet x e) st = VOk st' ->
    vm_is_reserved x = false /\ sym_get x (bsyms st) = None /\
    exists v, eval_code (bsyms st) e = VOk v /\
              st' = {| bstk := bstk st; bsyms := sym_add x v (bsyms st); bout := bout st |}.
  Proof.
    intros H. rewrite exec_let_eq in H.
    apply vbind_ok in H as (v & Hv & H). apply vbind_ok in H as (t & Ht & H).
    apply binding_push_inv in Ht as (Hr & Hb & ->). inversion H. eauto 7.
  Qed.

  Theorem letc_stmt_result x e c (st st' : bstate) :
    exec_stmt (BLetC x e c) st = VOk st' ->
    vm_is_reserved x = false /\ sym_get x (bsyms st) = None /\
    exists v cv, eval_code (bsyms st) e = VOk v /\ eval_code (bsyms st) c = VOk cv /\ conforms cv v = true /\
                 st' = {| bstk := bstk st; bsyms := sym_add x v (bsyms st); bout := bout st |}.
  Proof.
    intros H. rewrite exec_letc_eq in H.
    apply vbind_ok in H as (v & Hv & H). apply vbind_ok in H as (cv & Hc & H).
    destruct (conforms cv v) eqn:Ec; [|discriminate].
    apply vbind_ok in H as (t & Ht & H).
    apply binding_push_inv in Ht as (Hr & Hb & ->). inversion H. eauto 10.
  Qed.

  (* constraint_stmt_result: on success, `constraint x = c` binds x to the value of c evaluated in the scope
     extended with x |-> empty constraint (the recursive pre-binding).  The final table is the ORIGINAL table
     with the single entry x |-> v added: the pre-binding x |-> k_empty is overwritten and is not part of
     the state after the statement (it can only survive inside v, if c chose to mention x). *)
  Theorem constraint_stmt_result x c (st st' : bstate) :
    exec_stmt (BConstraint x c) st = VOk st' ->
    vm_is_reserved x = false /\ sym_get x (bsyms st) = None /\
    exists v, eval_code (sym_add x k_empty (bsyms st)) c = VOk v /\
              st' = {| bstk := bstk st; bsyms := sym_add x v (bsyms st); bout := bout st |} /\
              sym_get x (bsyms st') = Some v /\
              (forall y, y <> x -> sym_get y (bsyms st') = sym_get y (bsyms st)).
  Proof.
    intros H. rewrite exec_constraint_eq in H.
    apply vbind_ok in H as (t1 & Ht1 & H). apply vbind_ok in H as (v & Hv & H).
    apply vbind_ok in H as (t2 & Ht2 & H).
    apply binding_push_inv in Ht1 as (Hr & Hb & ->). apply binding_push_inv in Ht2 as (_ & _ & ->).
    rewrite sym_add_add in H. inversion H; subst st'; clear H. cbn [bsyms].
    split; [exact Hr|]. split; [apply Hb; reflexivity|]. exists v. repeat split; auto.
    - rewrite sym_get_add, bytes_eqb_refl. reflexivity.
    - intros y Hy. rewrite sym_get_add. destruct (bytes_eqb y x) eqn:E; [|reflexivity].
      apply bytes_eqb_spec in E. contradiction.
  Qed.

  (* a second `out` in the same file is an error (the statement-level part of "one output per file") *)
  Theorem out_sets_lock typ e (st st' : bstate) :
    exec_stmt (BOut typ e) st = VOk st' -> bout st = false /\ bout st' = true.
  Proof.
    intros H. rewrite exec_out_eq in H. apply vbind_ok in H as (v & Hv & H).
    destruct (bout st); [discriminate|]. destruct (out_ok typ v); [|discriminate].
    inversion H. split; reflexivity.
  Qed.

  (* The whole effect of a successful statement: the stack is as before and a taken output lock stays taken; a
     form without a name leaves the table alone; a form with name x needs x unreserved and UNBOUND, and the new
     table is the old one with exactly one entry added under x. *)
  Lemma stmt_effect (s : bstmt) (st st' : bstate) :
    exec_stmt s st = VOk st' ->
    bstk st' = bstk st /\ (bout st = true -> bout st' = true) /\
    match stmt_name s with
    | None => bsyms st' = bsyms st
    | Some x => vm_is_reserved x = false /\ sym_get x (bsyms st) = None /\
                exists v, bsyms st' = sym_add x v (bsyms st)
    end.
  Proof.
    destruct s as [x e|x e c|x c|e|e|typ e]; intros H; cbn [stmt_name instance_of si_name].
    - apply let_stmt_result in H as (Hr & Hb & v & _ & ->). cbn [bstk bsyms bout]. eauto 6.
    - apply letc_stmt_result in H as (Hr & Hb & v & _ & _ & _ & _ & ->). cbn [bstk bsyms bout]. eauto 6.
    - apply constraint_stmt_result in H as (Hr & Hb & v & _ & -> & _). cbn [bstk bsyms bout]. eauto 6.
    - rewrite exec_expr_eq in H. apply vbind_ok in H as (v & _ & H). inversion H. auto.
    - rewrite exec_assert_eq in H. apply vbind_ok in H as (v & _ & H). inversion H. auto.
    - rewrite exec_out_eq in H. apply vbind_ok in H as (v & _ & H).
      destruct (bout st); [discriminate|]. destruct (out_ok typ v); [|discriminate]. inversion H. auto.
  Qed.

  (* stack_balanced: every statement form leaves the value stack as it found it *)
  Theorem stack_balanced (s : bstmt) (st st' : bstate) :
    exec_stmt s st = VOk st' -> bstk st' = bstk st.
  Proof. intros H. apply stmt_effect in H. tauto. Qed.

  Theorem stmt_keeps_lock (s : bstmt) (st st' : bstate) :
    exec_stmt s st = VOk st' -> bout st = true -> bout st' = true.
  Proof. intros H. apply stmt_effect in H. tauto. Qed.

  (* stmt_binds_only_its_name, strongest form: a name other than the statement's own has the same lookup
     (bound to the same value, or unbound) before and after *)
  Theorem stmt_binds_only_its_name (s : bstmt) (st st' : bstate) :
    exec_stmt s st = VOk st' ->
    forall y, stmt_name s <> Some y -> sym_get y (bsyms st') = sym_get y (bsyms st).
  Proof.
    intros H y Hy. apply stmt_effect in H as (_ & _ & H). destruct (stmt_name s) as [x|].
    - destruct H as (_ & _ & v & ->). rewrite sym_get_add.
      destruct (bytes_eqb y x) eqn:E; [|reflexivity].
      apply bytes_eqb_spec in E; subst y. exfalso; apply Hy; reflexivity.
    - rewrite H. reflexivity.
  Qed.

  (* ... and in the words of the property: the names bound afterwards are those bound before plus at most the
     statement's own name *)
  Corollary stmt_new_binding_is_its_name (s : bstmt) (st st' : bstate) :
    exec_stmt s st = VOk st' ->
    forall y w, sym_get y (bsyms st') = Some w ->
                sym_get y (bsyms st) = Some w \/ (stmt_name s = Some y /\ sym_get y (bsyms st) = None).
  Proof.
    intros H y w Hy. pose proof (stmt_effect _ _ _ H) as (_ & _ & He).
    destruct (stmt_name s) as [x|] eqn:En.
    - destruct (bytes_eqb y x) eqn:E.
      + apply bytes_eqb_spec in E; subst y. right. split; [reflexivity|tauto].
      + left. rewrite <- Hy. symmetry. apply (stmt_binds_only_its_name _ _ _ H). rewrite En.
        intros Heq; inversion Heq; subst. rewrite bytes_eqb_refl in E. discriminate.
    - left. rewrite <- He. exact Hy.
  Qed.

  (* stmt_keeps_bindings: every name bound before is bound to the same value after *)
  Theorem stmt_keeps_bindings (s : bstmt) (st st' : bstate) :
    exec_stmt s st = VOk st' ->
    forall x v, sym_get x (bsyms st) = Some v -> sym_get x (bsyms st') = Some v.
  Proof.
    intros H x v Hx. rewrite <- Hx. apply (stmt_binds_only_its_name _ _ _ H).
    intros Hn. apply stmt_effect in H as (_ & _ & H). rewrite Hn in H. destruct H as (_ & Hb & _). congruence.
  Qed.

  (* a statement with a name does bind it, and the name was free *)
  Theorem stmt_binds_its_name (s : bstmt) (st st' : bstate) x :
    exec_stmt s st = VOk st' -> stmt_name s = Some x ->
    sym_get x (bsyms st) = None /\ exists v, sym_get x (bsyms st') = Some v.
  Proof.
    intros H Hn. apply stmt_effect in H as (_ & _ & H). rewrite Hn in H. destruct H as (_ & Hb & v & ->).
    split; [exact Hb|]. exists v. rewrite sym_get_add, bytes_eqb_refl. reflexivity.
  Qed.

  (* rebinding, whichever form does it, is never a success ... *)
  Theorem rebind_is_error (s : bstmt) (st : bstate) x v0 :
    stmt_name s = Some x -> sym_get x (bsyms st) = Some v0 -> forall st', exec_stmt s st <> VOk st'.
  Proof.
    intros Hn Hb st' H. apply stmt_effect in H as (_ & _ & H). rewrite Hn in H. destruct H as (_ & Hb' & _). congruence.
  Qed.

  (* rebind_is_error_every_form.  [eval_code] (and [conforms]) are Section variables: after the Section the
     statement is quantified over every behaviour of the sub-expressions. *)
  Theorem rebind_is_error_every_form (st : bstate) x v0 :
    sym_get x (bsyms st) = Some v0 ->
    (forall e st', exec_stmt (BLet x e) st <> VOk st') /\
    (forall e c st', exec_stmt (BLetC x e c) st <> VOk st') /\
    (forall c st', exec_stmt (BConstraint x c) st <> VOk st').
  Proof.
    intros Hb. repeat split; intros; eapply rebind_is_error; eauto; reflexivity.
  Qed.

  (* ... and it is the build error of binding_push ("Binding x already exists"), not a panic, as soon as the
     sub-expressions themselves evaluate; the constraint statement does not even get to evaluate anything *)
  Theorem rebind_reports_build_error (st : bstate) x v0 :
    sym_get x (bsyms st) = Some v0 ->
    (forall e v, eval_code (bsyms st) e = VOk v -> exec_stmt (BLet x e) st = VErr) /\
    (forall e c v cv, eval_code (bsyms st) e = VOk v -> eval_code (bsyms st) c = VOk cv ->
                      exec_stmt (BLetC x e c) st = VErr) /\
    (forall c, exec_stmt (BConstraint x c) st = VErr).
  Proof.
    intros Hb. repeat split.
    - intros e v Hv. rewrite exec_let_eq, Hv. cbn [vbind]. rewrite (binding_push_bound fo _ _ _ _ Hb). reflexivity.
    - intros e c v cv Hv Hc. rewrite exec_letc_eq, Hv. cbn [vbind]. rewrite Hc. cbn [vbind].
      destruct (conforms cv v); [|reflexivity]. rewrite (binding_push_bound fo _ _ _ _ Hb). reflexivity.
    - intros c. rewrite exec_constraint_eq. rewrite (binding_push_bound fo _ _ _ _ Hb). reflexivity.
  Qed.

  (* reserved words cannot be bound by any form *)
  Theorem reserved_is_error (s : bstmt) (st : bstate) x :
    stmt_name s = Some x -> vm_is_reserved x = true -> forall st', exec_stmt s st <> VOk st'.
  Proof.
    intros Hn Hr st' H. apply stmt_effect in H as (_ & _ & H). rewrite Hn in H. destruct H as (Hr' & _). congruence.
  Qed.

  Theorem reserved_is_error_every_form (st : bstate) x :
    vm_is_reserved x = true ->
    (forall e st', exec_stmt (BLet x e) st <> VOk st') /\
    (forall e c st', exec_stmt (BLetC x e c) st <> VOk st') /\
    (forall c st', exec_stmt (BConstraint x c) st <> VOk st').
  Proof.
    intros Hr. repeat split; intros; eapply reserved_is_error; eauto; reflexivity.
  Qed.

  (* the same fact as an equivalence: a constraint statement succeeds exactly like the plain `let x = e` whose
     value is what c yields under the pre-binding, and reaches the same state *)
  Theorem constraint_as_let x c e (st : bstate) :
    eval_code (bsyms st) e = eval_code (sym_add x k_empty (bsyms st)) c ->
    forall st', exec_stmt (BConstraint x c) st = VOk st' <-> exec_stmt (BLet x e) st = VOk st'.
  Proof.
    intros He st'. split; intros H.
    - apply constraint_stmt_result in H as (Hr & Hb & v & Hv & -> & _).
      rewrite exec_let_eq, He, Hv. cbn [vbind]. rewrite binding_push_ok; auto.
    - apply let_stmt_result in H as (Hr & Hb & v & Hv & ->).
      rewrite exec_constraint_eq, binding_push_ok by auto. cbn [vbind]. rewrite <- He, Hv. cbn [vbind].
      rewrite binding_push_ok by (auto; discriminate). cbn [vbind]. rewrite sym_add_add. reflexivity.
  Qed.

  (* the statement layer itself never drives the VM into unreachable!() / a stack-underflow panic: if the
     code of the sub-expressions does not, no statement does, from any state *)
  Theorem stmt_no_bug (s : bstmt) (st : bstate) :
    (forall t e, eval_code t e <> VBug) -> exec_stmt s st <> VBug.
  Proof.
    intros Hnb. pose proof (binding_push_no_bug fo) as Hbp.
    (* every form is built from eval_code and binding_push by vbind and if; its other leaves are VOk and VErr *)
    destruct s as [x e|x e c|x c|e|e|typ e];
      [rewrite exec_let_eq|rewrite exec_letc_eq|rewrite exec_constraint_eq
      |rewrite exec_expr_eq|rewrite exec_assert_eq|rewrite exec_out_eq];
      repeat first [apply vbind_no_bug; [auto|intros ?]|apply if_no_bug]; discriminate.
  Qed.

  Lemma exec_prog_cons s p (st : bstate) :
    exec_prog (s :: p) st = (vdo st1 <- exec_stmt s st; exec_prog p st1).
  Proof. reflexivity. Qed.

  Lemma exec_prog_app p1 p2 (st : bstate) :
    exec_prog (p1 ++ p2) st = (vdo st1 <- exec_prog p1 st; exec_prog p2 st1).
  Proof.
    revert st. induction p1 as [|s p1 IH]; intros st; [reflexivity|].
    cbn [app]. rewrite !exec_prog_cons. destruct (exec_stmt s st) as [st1| | | |]; cbn [vbind]; auto.
  Qed.

  Theorem prog_keeps_bindings p (st st' : bstate) :
    exec_prog p st = VOk st' ->
    forall x v, sym_get x (bsyms st) = Some v -> sym_get x (bsyms st') = Some v.
  Proof.
    revert st. induction p as [|s p IH]; intros st H x v Hx.
    - inversion H; subst. exact Hx.
    - rewrite exec_prog_cons in H. apply vbind_ok in H as (st1 & H1 & H2).
      eapply IH; eauto. eapply stmt_keeps_bindings; eauto.
  Qed.

  Theorem prog_stack_balanced p (st st' : bstate) : exec_prog p st = VOk st' -> bstk st' = bstk st.
  Proof.
    revert st. induction p as [|s p IH]; intros st H.
    - inversion H; reflexivity.
    - rewrite exec_prog_cons in H. apply vbind_ok in H as (st1 & H1 & H2).
      rewrite (IH _ H2). eapply stack_balanced; eauto.
  Qed.

  (* the names a program binds are among the names of its statements *)
  Theorem prog_binds_only_its_names p (st st' : bstate) :
    exec_prog p st = VOk st' ->
    forall y, ~ In (Some y) (map stmt_name p) -> sym_get y (bsyms st') = sym_get y (bsyms st).
  Proof.
    revert st. induction p as [|s p IH]; intros st H y Hy.
    - inversion H; reflexivity.
    - rewrite exec_prog_cons in H. apply vbind_ok in H as (st1 & H1 & H2). cbn [map In] in Hy.
      rewrite (IH _ H2 y) by tauto. apply (stmt_binds_only_its_name _ _ _ H1). tauto.
  Qed.

  (* prog_prefix_stable: a program is its prefix followed by the rest run in the state the prefix produced, so
     every binding made by a prefix has the same value at the end of the whole program *)
  Theorem prog_prefix_stable p1 p2 (st st2 : bstate) :
    exec_prog (p1 ++ p2) st = VOk st2 ->
    exists st1, exec_prog p1 st = VOk st1 /\ exec_prog p2 st1 = VOk st2 /\
                forall x v, sym_get x (bsyms st1) = Some v -> sym_get x (bsyms st2) = Some v.
  Proof.
    intros H. rewrite exec_prog_app in H. apply vbind_ok in H as (st1 & H1 & H2).
    exists st1. repeat split; auto. apply (prog_keeps_bindings _ _ _ H2).
  Qed.

  Theorem prog_prefix_failure_propagates p1 p2 (st : bstate) :
    (forall st1, exec_prog p1 st <> VOk st1) -> exec_prog (p1 ++ p2) st = exec_prog p1 st.
  Proof.
    intros H. rewrite exec_prog_app. destruct (exec_prog p1 st) as [st1| | | |]; cbn [vbind]; try reflexivity.
    exfalso. apply (H st1). reflexivity.
  Qed.

  (* "a second binding of a name in the same scope is an error, whichever statement form makes it":
     no program that contains two statements with the same name, in any position and of any two forms, runs *)
  Theorem prog_rebind_is_error p1 s1 p2 s2 p3 x (st : bstate) :
    stmt_name s1 = Some x -> stmt_name s2 = Some x ->
    forall st', exec_prog (p1 ++ s1 :: p2 ++ s2 :: p3) st <> VOk st'.
  Proof.
    intros Hn1 Hn2 st' H.
    rewrite exec_prog_app in H. apply vbind_ok in H as (sta & _ & H).
    rewrite exec_prog_cons in H. apply vbind_ok in H as (stb & Hs1 & H).
    rewrite exec_prog_app in H. apply vbind_ok in H as (stc & Hp2 & H).
    rewrite exec_prog_cons in H. apply vbind_ok in H as (std & Hs2 & _).
    destruct (stmt_binds_its_name _ _ _ _ Hs1 Hn1) as (_ & v & Hv).
    pose proof (prog_keeps_bindings _ _ _ Hp2 _ _ Hv) as Hv'.
    exact (rebind_is_error _ _ _ _ Hn2 Hv' _ Hs2).
  Qed.

  (* The REPL: a FAILED constraint statement leaves its placeholder behind.
     `ucg build` aborts on the first error, so the intermediate states of a statement are never seen.
     Builder::repl keeps its VM after a failed statement; there the state in which the table stopped is the
     state the next statement starts from.  For the constraint statement whose body fails that state has the
     name bound to the EMPTY constraint (which check() accepts everything against) and one stray symbol on the
     stack.  This is a statement about the real tool, recorded here as a fact
     about the generated table. *)
  Theorem failed_constraint_leaves_placeholder x c (st : bstate) :
    vm_is_reserved x = false -> sym_get x (bsyms st) = None ->
    (forall v, eval_code (sym_add x k_empty (bsyms st)) c <> VOk v) ->
    (forall st', exec_stmt (BConstraint x c) st <> VOk st') /\
    let stop := run_sops_upto gen_constraint_ops (instance_of (BConstraint x c)) st in
    sym_get x (bsyms stop) = Some k_empty /\ bstk stop = WSym x :: bstk st.
  Proof.
    intros Hr Hb Hf. split.
    - intros st' H. apply constraint_stmt_result in H as (_ & _ & v & Hv & _). exact (Hf v Hv).
    - cbv zeta.
      cbn [gen_constraint_ops Bind.run_sops_upto Bind.run_sop instance_of si_name si_code code1 bpush with_bstk
           bstk bsyms bout op_bind pop vbind].
      unfold gen_bind_strict. rewrite binding_push_ok by auto.
      cbn [vbind Bind.run_sops_upto Bind.run_sop instance_of si_name si_code code1 bpush with_bstk bstk bsyms bout].
      destruct (eval_code (sym_add x k_empty (bsyms st)) c) as [v| | | |] eqn:E;
        [exfalso; exact (Hf v eq_refl)| | | |]; cbn [vbind bsyms bstk bpush with_bstk];
        (split; [rewrite sym_get_add, bytes_eqb_refl; reflexivity|reflexivity]).
  Qed.

  (* Agreement with the existing VM model.
     On the four opcodes that vm/Vm.v models, a statement-level op does to (stack, symbols) what [exec_instr]
     does (pc and the self stack are not part of the statement layer). *)
  Definition vm_view (r : outcome (state fo)) : outcome (list (wval fo) * symtab fo) :=
    vdo s <- r; VOk (stk s, syms s).
  Definition b_view (r : outcome bstate) : outcome (list (wval fo) * symtab fo) :=
    vdo s <- r; VOk (bstk s, bsyms s).
  Definition of_vm (vst : state fo) (lock : bool) : bstate :=
    {| bstk := stk vst; bsyms := syms vst; bout := lock |}.

  Theorem sop_agrees_with_vm C strict_ envv run (vst : state fo) lock (si : stmt_instance sub_expression) :
    (forall x, si_name si = Some x ->
               vm_view (exec_instr fo C strict_ envv run (ISym x) vst) = b_view (run_sop SOSym si (of_vm vst lock))) /\
    vm_view (exec_instr fo C strict_ envv run IPop vst) = b_view (run_sop SOPop si (of_vm vst lock)) /\
    vm_view (exec_instr fo C strict_ envv run IBind vst) = b_view (run_sop SOBind si (of_vm vst lock)) /\
    vm_view (exec_instr fo C strict_ envv run IBindOver vst) = b_view (run_sop SOBindOver si (of_vm vst lock)).
  Proof.
    unfold vm_view, b_view, of_vm.
    repeat split;
      [intros x Hx; cbn [Bind.run_sop]; rewrite Hx; reflexivity
      |cbn [exec_instr Bind.run_sop bstk]; destruct (stk vst) as [|v s]; reflexivity
      |..].
    (* Bind and BindOver differ in the strictness flag only, on both sides *)
    all: cbn [exec_instr Bind.run_sop]; unfold op_bind, gen_bind_strict, gen_bindover_strict;
      cbn [bstk bsyms bout]; destruct (stk vst) as [|v [|n s]]; try reflexivity; cbn [pop vbind];
      destruct n as [nm| | | | | | | | | |]; try reflexivity;
      destruct (binding_push fo (syms vst) nm v _); reflexivity.
  Qed.
End BindLemmas.

(* Examples: the hypotheses are satisfiable.
   A toy instance of the abstract parts (defined here only): sub-expressions are literals, names and list
   displays; a list value used as a constraint is an alternation of exact values; the empty constraint is a
   symbol nothing else produces and accepts everything; only the "json" converter exists. *)
Module BindToy.
  Definition toy_floats : float_ops := {|
    F := Z;
    f_of_bits := fun z => z; f_to_bits := fun z => z;
    fadd := Z.add; fsub := Z.sub; fmul := Z.mul; fdiv := fun x y => Z.quot x y;
    feqb := Z.eqb; fltb := Z.ltb; fleb := Z.leb;
    f_of_int := fun z => z; f_to_int := fun z => Some z; f_text := fun z => Some (dec_Z z)
  |}.
  Notation tval := (wval toy_floats).

  Inductive texp := TLit (v : tval) | TVar (x : bytes) | TList (es : list texp).

  Fixpoint toy_eval (t : symtab toy_floats) (e : texp) : outcome tval :=
    match e with
    | TLit v => VOk v
    | TVar x => match sym_get x t with Some v => VOk v | None => VErr end       (* "No such binding" *)
    | TList es =>
      vdo vs <- (fix go (es : list texp) : outcome (list tval) :=
                   match es with
                   | [] => VOk []
                   | e1 :: es' => vdo v <- toy_eval t e1; vdo r <- go es'; VOk (v :: r)
                   end) es;
      VOk (WList vs)
    end.

  Local Open Scope string_scope.
  Definition toy_k_empty : tval := WSym (b "<empty constraint>").
  Definition toy_conforms (c v : tval) : bool :=
    match c with
    | WList alts => existsb (fun a => match weq a v with Some true => true | _ => false end) alts
    | _ => true
    end.
  Definition toy_out_ok (typ : bytes) (v : tval) : bool := bytes_eqb typ (b "json").

  Definition toy_stmt := Bind.exec_stmt toy_floats texp toy_eval toy_conforms toy_k_empty toy_out_ok.
  Definition toy_prog := Bind.exec_prog toy_floats texp toy_eval toy_conforms toy_k_empty toy_out_ok.
  Definition toy_init : bstate toy_floats := binit toy_floats.

  (* let a = 1;  constraint c = 1 | 2 | c;  let x :: c = 2;  x;  assert a;  out json x; *)
  Definition p_ok : list (bstmt texp) :=
    [ BLet (b "a") (TLit (WInt 1));
      BConstraint (b "c") (TList [TLit (WInt 1); TLit (WInt 2); TVar (b "c")]);
      BLetC (b "x") (TLit (WInt 2)) (TVar (b "c"));
      BExpr (TVar (b "x"));
      BAssert (TVar (b "a"));
      BOut (b "json") (TVar (b "x")) ].

  Example p_ok_runs :
    toy_prog p_ok toy_init =
    VOk {| bstk := [];
           bsyms := [ (b "a", WInt 1);
                      (b "c", WList [WInt 1; WInt 2; toy_k_empty]);   (* the self-reference saw the placeholder *)
                      (b "x", WInt 2) ];
           bout := true |}.
  Proof.
    (* by conversion: [vm_compute] would normalise [toy_floats], the parameter of every constructor in sight *)
    reflexivity.
  Qed.

  (* the three-statement prefix binds the same values as the whole program *)
  Example p_ok_prefix :
    toy_prog (firstn 3 p_ok) toy_init =
    VOk {| bstk := [];
           bsyms := [ (b "a", WInt 1); (b "c", WList [WInt 1; WInt 2; toy_k_empty]); (b "x", WInt 2) ];
           bout := false |}.
  Proof. reflexivity. Qed.

  (* a second binding of a name is an error in all nine combinations of forms *)
  Definition binders (x : bytes) : list (bstmt texp) :=
    [ BLet x (TLit (WInt 1)); BLetC x (TLit (WInt 1)) (TList [TLit (WInt 1)]); BConstraint x (TList [TLit (WInt 1)]) ].
  Example rebinding_fails_in_every_combination :
    forallb (fun s1 => forallb (fun s2 => match toy_prog [s1; s2] toy_init with VErr => true | _ => false end)
                               (binders (b "n")))
            (binders (b "n")) = true.
  Proof. reflexivity. Qed.
  Example each_binder_alone_succeeds :
    forallb (fun s1 => match toy_prog [s1] toy_init with VOk _ => true | _ => false end) (binders (b "n")) = true.
  Proof. reflexivity. Qed.

  (* reserved words *)
  Example reserved_fails :
    forallb (fun s1 => match toy_prog [s1] toy_init with VErr => true | _ => false end) (binders (b "self")) = true.
  Proof. reflexivity. Qed.

  (* a value outside the constraint; a second out *)
  Example constraint_violation :
    toy_prog [BConstraint (b "c") (TList [TLit (WInt 1); TLit (WInt 2)]); BLetC (b "x") (TLit (WInt 3)) (TVar (b "c"))]
             toy_init = VErr.
  Proof. reflexivity. Qed.
  Example second_out_fails :
    toy_prog [BOut (b "json") (TLit (WInt 1)); BOut (b "json") (TLit (WInt 1))] toy_init = VErr.
  Proof. reflexivity. Qed.

  (* the REPL observation: `constraint c = 1 | nosuch;` fails and leaves c bound to the empty constraint *)
  Example failed_constraint_in_repl :
    let s := BConstraint (b "c") (TList [TLit (WInt 1); TVar (b "nosuch")]) in
    toy_stmt s toy_init = VErr /\
    run_sops_upto toy_floats texp toy_eval toy_conforms toy_k_empty toy_out_ok gen_constraint_ops (instance_of s) toy_init =
    {| bstk := [WSym (b "c")]; bsyms := [(b "c", toy_k_empty)]; bout := false |}.
  Proof. split; reflexivity. Qed.
End BindToy.
