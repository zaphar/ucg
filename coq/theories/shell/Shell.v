(* MODEL (executable definitions only, no proofs) of
     - the two shell escapers of src/convert/mod.rs,
     - the env / flags / exec converters (src/convert/{env,flags,exec}.rs),
     - a conservative POSIX-sh reader for the text these converters emit.
   All text is [bytes] (UTF-8 bytes of the Rust [String]s). *)
From Ucg Require Export base.Bytes data.Val.
From Ucg Require Export shell.Chains.

(* ------------------------------------------------------------------ *)
(** * 1. Escapers                                                      *)

(* Rust [s.replace(c, r)] for a one-character ASCII pattern: every occurrence
   of the byte is replaced (an ASCII byte never occurs inside a multi-byte
   UTF-8 sequence, so byte-wise = char-wise). *)
Definition replace1 (c : ascii) (r : bytes) (s : bytes) : bytes :=
  flat_map (fun x => if Ascii.eqb x c then r else [x]) s.

(* sequential [.replace(c1,r1).replace(c2,r2)...] over the whole string *)
Fixpoint apply_chain (ch : list (ascii * bytes)) (s : bytes) : bytes :=
  match ch with
  | [] => s
  | (c, r) :: ch' => apply_chain ch' (replace1 c r s)
  end.

(* single pass: each input character is looked up once, first pattern wins *)
Fixpoint subst1 (ch : list (ascii * bytes)) (x : ascii) : bytes :=
  match ch with
  | [] => [x]
  | (c, r) :: ch' => if Ascii.eqb x c then r else subst1 ch' x
  end.
Definition charwise (ch : list (ascii * bytes)) (s : bytes) : bytes :=
  flat_map (subst1 ch) s.

Definition mem_ascii (c : ascii) (s : bytes) : bool := existsb (Ascii.eqb c) s.

(* side condition: no replacement text contains the pattern of a LATER step
   (a later step would then rewrite text inserted by an earlier one). *)
Fixpoint chain_ok (ch : list (ascii * bytes)) : bool :=
  match ch with
  | [] => true
  | (_, r) :: ch' =>
      forallb (fun p => negb (mem_ascii (fst p) r)) ch' && chain_ok ch'
  end.

(* exact (necessary and sufficient) variant: compare both on every 1-byte string *)
Definition bools : list bool := [false; true].
Definition all_ascii : list ascii :=
  flat_map (fun b0 => flat_map (fun b1 => flat_map (fun b2 => flat_map (fun b3 =>
  flat_map (fun b4 => flat_map (fun b5 => flat_map (fun b6 => map (fun b7 =>
    Ascii b0 b1 b2 b3 b4 b5 b6 b7) bools) bools) bools) bools) bools) bools) bools) bools.
Definition chain_exact (ch : list (ascii * bytes)) : bool :=
  forallb (fun x => bytes_eqb (apply_chain ch [x]) (subst1 ch x)) all_ascii.

Definition esc_sq_char (x : ascii) : bytes :=
  if Ascii.eqb x "'" then b "'\''" else [x].
Definition esc_sq (s : bytes) : bytes := flat_map esc_sq_char s.

Definition esc_dq_char (x : ascii) : bytes :=
  if Ascii.eqb x "\" then b "\\"
  else if Ascii.eqb x """" then b "\"""
  else if Ascii.eqb x "$" then b "\$"
  else if Ascii.eqb x "`" then b "\`"
  else [x].
Definition esc_dq (s : bytes) : bytes := flat_map esc_dq_char s.

(* ------------------------------------------------------------------ *)
(** * 2. Emitters                                                      *)

Definition bool_text (v : bool) : bytes := if v then b "true" else b "false".
Definition sq_quoted (s : bytes) : bytes := b "'" ++ esc_sq s ++ b "'".

(** ** env (src/convert/env.rs) *)

Inductive env_mode := Legacy | Fixed.

(* [EnvConverter::write] on a non-tuple value *)
Definition env_scalar (v : val) : bytes :=
  match v with
  | VEmpty => []
  | VBool x => bool_text x ++ [nl]
  | VFloat f => fl_text f ++ [nl]
  | VInt z => dec_of_Z z ++ [nl]
  | VStr s => sq_quoted s ++ [nl]
  | VList _ => []
  | VTuple _ => []            (* not reached: tuples are handled by env_emit / skipped in fields *)
  | VEnv _ => []
  | VConstraint => []
  end.

(* [convert_tuple] without /repo commit 9f44482 (fix: the env converter skips only the field it cannot
   express): first tuple/NULL field returns Ok(()), a list/env/constraint field writes "NAME=" and nothing else. *)
Fixpoint env_tuple_legacy (flds : list (bytes * val)) : bytes :=
  match flds with
  | [] => []
  | (name, v) :: r =>
      match v with
      | VTuple _ => []
      | VEmpty => []
      | _ => name ++ b "=" ++ env_scalar v ++ env_tuple_legacy r
      end
  end.

Definition env_is_scalar (v : val) : bool :=
  match v with VBool _ | VInt _ | VFloat _ | VStr _ => true | _ => false end.

(* [convert_tuple] of env.rs: non-scalar fields are skipped entirely, loop continues *)
Fixpoint env_tuple_fixed (flds : list (bytes * val)) : bytes :=
  match flds with
  | [] => []
  | (name, v) :: r =>
      (if env_is_scalar v then name ++ b "=" ++ env_scalar v else [])
      ++ env_tuple_fixed r
  end.

Definition env_emit (m : env_mode) (v : val) : bytes :=
  match v with
  | VTuple flds =>
      match m with Legacy => env_tuple_legacy flds | Fixed => env_tuple_fixed flds end
  | _ => env_scalar v
  end.

(** ** flags (src/convert/flags.rs) *)

(* [name.chars().count() > 1] on valid UTF-8: count the bytes that are not
   continuation bytes 10xxxxxx.  (Exact for valid UTF-8, which Rust strings are.) *)
Definition is_cont (c : ascii) : bool :=
  match c with Ascii _ _ _ _ _ _ false true => true | _ => false end.
Fixpoint drop_cont (s : bytes) : bytes :=
  match s with
  | [] => []
  | c :: s' => if is_cont c then drop_cont s' else c :: drop_cont s'
  end.
Definition more_than_one_char (s : bytes) : bool :=
  match drop_cont s with _ :: _ :: _ => true | _ => false end.
Definition has_char (s : bytes) : bool :=
  match drop_cont s with _ :: _ => true | _ => false end.

Definition flag_name (pfx name : bytes) : bytes :=
  if more_than_one_char name || has_char pfx
  then b "--" ++ pfx ++ name ++ b " "
  else b "-" ++ name ++ b " ".

Definition flag_simple (v : val) : bytes :=
  match v with
  | VEmpty => []
  | VBool x => bool_text x ++ b " "
  | VFloat f => fl_text f ++ b " "
  | VInt z => dec_of_Z z ++ b " "
  | VStr s => sq_quoted s ++ b " "
  | VList _ | VTuple _ | VEnv _ | VConstraint => []
  end.

Fixpoint flag_list (pfx name : bytes) (items : list val) : bytes :=
  match items with
  | [] => []
  | v :: r =>
      (if is_list v || is_tuple v then []
       else flag_name pfx name ++ flag_simple v)
      ++ flag_list pfx name r
  end.

Fixpoint flags_write (pfx : bytes) (flds : list (bytes * val)) : bytes :=
  match flds with
  | [] => []
  | (name, v) :: r =>
      (match v with
       | VEmpty => flag_name pfx name
       | VTuple _ | VEnv _ | VConstraint => []
       | VList def => flag_list pfx name def
       | VBool _ | VFloat _ | VInt _ | VStr _ => flag_name pfx name ++ flag_simple v
       end) ++ flags_write pfx r
  end.

(* None = Err("Flag outputs must be a tuple") *)
Definition flags_emit (v : val) : option bytes :=
  match v with
  | VTuple flds => Some (flags_write [] flds)
  | _ => None
  end.

(** ** exec (src/convert/exec.rs) *)

Record exec_parts := mk_exec_parts {
  ep_env : option (list (bytes * val));
  ep_cmd : option bytes;
  ep_args : option (list val) }.

(* the field loop; None = one of the Err returns inside the loop *)
Fixpoint exec_scan (flds : list (bytes * val)) (st : exec_parts) : option exec_parts :=
  match flds with
  | [] => Some st
  | (name, v) :: r =>
      if bytes_eqb name (b "command") then
        match ep_cmd st with
        | Some _ => None
        | None =>
            match v with
            | VStr s => exec_scan r (mk_exec_parts (ep_env st) (Some s) (ep_args st))
            | _ => None
            end
        end
      else if bytes_eqb name (b "env") then
        match v with
        | VTuple l =>
            match ep_env st with
            | Some _ => None
            | None => exec_scan r (mk_exec_parts (Some l) (ep_cmd st) (ep_args st))
            end
        | _ => None
        end
      else if bytes_eqb name (b "args") then
        match v with
        | VList l =>
            match ep_args st with
            | Some _ => None
            | None => exec_scan r (mk_exec_parts (ep_env st) (ep_cmd st) (Some l))
            end
        | _ => None
        end
      else exec_scan r st
  end.

Definition exec_header : bytes :=
  b "#!/usr/bin/env bash" ++ [nl] ++
  b "# Turn on unofficial Bash-Strict-Mode" ++ [nl] ++
  b "set -euo pipefail" ++ [nl].

Fixpoint exec_env_lines (env : list (bytes * val)) : option bytes :=
  match env with
  | [] => Some []
  | (name, VStr s) :: r =>
      match exec_env_lines r with
      | Some t => Some (name ++ b "=""" ++ esc_dq s ++ b """" ++ [nl] ++ t)
      | None => None
      end
  | _ :: _ => None
  end.

Fixpoint exec_args_text (args : list val) : option bytes :=
  match args with
  | [] => Some []
  | v :: r =>
      match (match v with
             | VStr s => Some (sq_quoted s ++ b " ")
             | VTuple flds => Some (flags_write [] flds)
             | _ => None
             end), exec_args_text r with
      | Some x, Some t => Some (x ++ t)
      | _, _ => None
      end
  end.

Definition opt_list {A} (o : option (list A)) : list A :=
  match o with Some l => l | None => [] end.

Definition exec_emit (v : val) : option bytes :=
  match v with
  | VTuple flds =>
      match flds with
      | _ :: _ :: _ :: _ :: _ => None            (* fields.len() > 3 *)
      | _ =>
        match exec_scan flds (mk_exec_parts None None None) with
        | None => None
        | Some st =>
            match ep_cmd st with
            | None => None
            | Some cmd =>
                match exec_env_lines (opt_list (ep_env st)),
                      exec_args_text (opt_list (ep_args st)) with
                | Some envt, Some argt =>
                    Some (exec_header ++ envt ++ [nl] ++
                          b "exec " ++ sq_quoted cmd ++ b " " ++ argt)
                | _, _ => None
                end
            end
        end
      end
  | _ => None
  end.

(* ------------------------------------------------------------------ *)
(** * 3. POSIX sh reader (token recognition + quote removal, §2.2/2.3)  *)

Definition in_range (lo hi : N) (c : ascii) : bool :=
  let n := code c in (N.leb lo n && N.leb n hi)%bool.
Definition is_digit (c : ascii) : bool := in_range 48 57 c.
Definition is_alpha (c : ascii) : bool := in_range 65 90 c || in_range 97 122 c.
Definition name_char (c : ascii) : bool := is_alpha c || is_digit c || Ascii.eqb c "_".
(* characters that are certainly literal in an unquoted word (whitelist) *)
Definition plain (c : ascii) : bool := name_char c || mem_ascii c (b "-./=:,+@%").

Inductive uclass := UBlank | UNl | USq | UDq | UBs | UPlain | USpecial.
Definition uclass_of (c : ascii) : uclass :=
  if Ascii.eqb c sp || Ascii.eqb c tab then UBlank
  else if Ascii.eqb c nl then UNl
  else if Ascii.eqb c "'" then USq
  else if Ascii.eqb c """" then UDq
  else if Ascii.eqb c "\" then UBs
  else if plain c then UPlain
  else USpecial.   (* $ ` * ? [ ] ~ # & ; | < > ( ) { } ! ^ controls, bytes >= 128, ... *)

Inductive dclass := DClose | DBs | DExp | DLit.
Definition dclass_of (c : ascii) : dclass :=
  if Ascii.eqb c """" then DClose
  else if Ascii.eqb c "\" then DBs
  else if Ascii.eqb c "$" || Ascii.eqb c "`" then DExp
  else DLit.
(* inside "..." a backslash escapes only these (plus newline = continuation) *)
Definition dq_escapable (c : ascii) : bool :=
  Ascii.eqb c "\" || Ascii.eqb c "$" || Ascii.eqb c "`" || Ascii.eqb c """".

Inductive sh_result :=
| Words (ws : list bytes)
| Expands (what : ascii)
| Unterminated.

(* scanner state: unquoted / '...' / "..." / after unquoted \ / after \ in "..." *)
Inductive mode := MU | MS | MD | MUB | MDB.

(* result for a suffix of the line: [cur] = rest of the word in progress
   (None: nothing more belongs to it), [ws] later words, [rest] = input after
   the command-terminating newline *)
Inductive gres :=
| GLine (cur : option bytes) (ws : list bytes) (rest : bytes)
| GExp (c : ascii)
| GUnterm.

Definition odflt (o : option bytes) : bytes := match o with Some w => w | None => [] end.
Definition ocons (o : option bytes) (ws : list bytes) : list bytes :=
  match o with Some w => w :: ws | None => ws end.

Definition push (c : ascii) (r : gres) : gres :=
  match r with GLine cur ws rest => GLine (Some (c :: odflt cur)) ws rest | e => e end.
Definition touch (r : gres) : gres :=
  match r with GLine cur ws rest => GLine (Some (odflt cur)) ws rest | e => e end.
Definition brk (r : gres) : gres :=
  match r with GLine cur ws rest => GLine None (ocons cur ws) rest | e => e end.

Fixpoint sh_go (m : mode) (s : bytes) : gres :=
  match s with
  | [] => match m with MU => GLine None [] [] | _ => GUnterm end
  | c :: s' =>
      match m with
      | MU =>
          match uclass_of c with
          | UBlank => brk (sh_go MU s')
          | UNl => GLine None [] s'
          | USq => touch (sh_go MS s')
          | UDq => touch (sh_go MD s')
          | UBs => sh_go MUB s'
          | UPlain => push c (sh_go MU s')
          | USpecial => GExp c
          end
      | MS => if Ascii.eqb c "'" then sh_go MU s' else push c (sh_go MS s')
      | MD =>
          match dclass_of c with
          | DClose => sh_go MU s'
          | DBs => sh_go MDB s'
          | DExp => GExp c
          | DLit => push c (sh_go MD s')
          end
      | MUB => if Ascii.eqb c nl then sh_go MU s' else push c (sh_go MU s')
      | MDB =>
          if dq_escapable c then push c (sh_go MD s')
          else if Ascii.eqb c nl then sh_go MD s'
          else push "\" (push c (sh_go MD s'))
      end
  end.

(* one command line: its words and the unread input after its newline *)
Inductive line_result :=
| Line (ws : list bytes) (rest : bytes)
| LExpands (c : ascii)
| LUnterminated.

Definition sh_line (s : bytes) : line_result :=
  match sh_go MU s with
  | GLine cur ws rest => Line (ocons cur ws) rest
  | GExp c => LExpands c
  | GUnterm => LUnterminated
  end.

(* words of the FIRST command line of [s] (input after its newline is not read) *)
Definition sh_words (s : bytes) : sh_result :=
  match sh_line s with
  | Line ws _ => Words ws
  | LExpands c => Expands c
  | LUnterminated => Unterminated
  end.

(** ** scripts *)

Fixpoint skip_blanks (s : bytes) : bytes :=
  match s with
  | c :: s' => if Ascii.eqb c sp || Ascii.eqb c tab then skip_blanks s' else s
  | [] => []
  end.
Fixpoint skip_line (s : bytes) : bytes :=
  match s with
  | c :: s' => if Ascii.eqb c nl then s' else skip_line s'
  | [] => []
  end.

(* assignment prefix at RAW level: NAME= with NAME unquoted [A-Za-z_][A-Za-z0-9_]* *)
Fixpoint take_name (s : bytes) : bytes * bytes :=
  match s with
  | c :: s' => if name_char c then let (n, r) := take_name s' in (c :: n, r) else ([], s)
  | [] => ([], [])
  end.
Definition raw_name (s : bytes) : option bytes :=
  let (n, r) := take_name (skip_blanks s) in
  match n, r with
  | c :: _, e :: _ => if negb (is_digit c) && Ascii.eqb e "=" then Some n else None
  | _, _ => None
  end.

Definition name_ok (n : bytes) : bool :=
  match n with
  | c :: _ => negb (is_digit c) && forallb name_char n
  | [] => false
  end.

Inductive sh_item :=
| Assign (name value : bytes)        (* a command consisting of exactly NAME=value *)
| Cmd (ws : list bytes).             (* any other simple command, >= 1 word *)

Definition classify (raw : bytes) (ws : list bytes) : sh_item :=
  match raw_name raw, ws with
  | Some n, [w] =>
      match strip_prefix (n ++ b "=") w with
      | Some v => Assign n v
      | None => Cmd ws
      end
  | _, _ => Cmd ws
  end.

Definition starts_comment (s : bytes) : option bytes :=
  match skip_blanks s with
  | c :: s' => if Ascii.eqb c "#" then Some s' else None
  | [] => None
  end.

(* None = some command expands something / is unterminated (or fuel ran out:
   never for fuel > length s, see sh_items_fuel_enough) *)
Fixpoint sh_items_fuel (fuel : nat) (s : bytes) : option (list sh_item) :=
  match fuel with
  | O => None
  | S f =>
      match s with
      | [] => Some []
      | _ :: _ =>
          match starts_comment s with
          | Some s' => sh_items_fuel f (skip_line s')
          | None =>
              match sh_line s with
              | Line [] rest => sh_items_fuel f rest
              | Line ws rest =>
                  match sh_items_fuel f rest with
                  | Some l => Some (classify s ws :: l)
                  | None => None
                  end
              | _ => None
              end
          end
      end
  end.
Definition sh_items (s : bytes) : option (list sh_item) := sh_items_fuel (S (List.length s)) s.

Definition item_words (i : sh_item) : list bytes :=
  match i with Assign n v => [n ++ b "=" ++ v] | Cmd ws => ws end.
(* the commands of a script as word lists; comments and empty lines dropped *)
Definition sh_script (s : bytes) : option (list (list bytes)) :=
  match sh_items s with Some l => Some (map item_words l) | None => None end.

(* post-quote-removal recogniser on a single word (coarser than [classify]:
   it cannot see whether NAME= was quoted) *)
Definition sh_assign (w : bytes) : option (bytes * bytes) :=
  let (n, r) := take_name w in
  match n, r with
  | c :: _, e :: v => if negb (is_digit c) && Ascii.eqb e "=" then Some (n, v) else None
  | _, _ => None
  end.

(* a script consisting only of assignments *)
Fixpoint items_assigns (l : list sh_item) : option (list (bytes * bytes)) :=
  match l with
  | [] => Some []
  | Assign n v :: r =>
      match items_assigns r with Some t => Some ((n, v) :: t) | None => None end
  | Cmd _ :: _ => None
  end.
Definition sh_env (s : bytes) : option (list (bytes * bytes)) :=
  match sh_items s with Some l => items_assigns l | None => None end.

(* ------------------------------------------------------------------ *)
(** * 4. Specifications the theorems compare against                   *)

Definition scalar_text (v : val) : option bytes :=
  match v with
  | VBool x => Some (bool_text x)
  | VInt z => Some (dec_of_Z z)
  | VFloat f => Some (fl_text f)
  | VStr s => Some s
  | _ => None
  end.

Fixpoint scalar_fields (flds : list (bytes * val)) : list (bytes * bytes) :=
  match flds with
  | [] => []
  | (n, v) :: r =>
      match scalar_text v with
      | Some t => (n, t) :: scalar_fields r
      | None => scalar_fields r
      end
  end.

Definition plain_word (w : bytes) : bool :=
  match w with [] => false | _ => forallb plain w end.

Definition fl_ok (v : val) : bool :=
  match v with VFloat f => plain_word (fl_text f) | _ => true end.

(* env: names of emitted (scalar) fields are shell identifiers; float texts plain *)
Definition env_fields_ok (flds : list (bytes * val)) : bool :=
  forallb (fun p => if env_is_scalar (snd p) then name_ok (fst p) && fl_ok (snd p) else true) flds.

Definition flag_word (pfx name : bytes) : bytes :=
  if more_than_one_char name || has_char pfx then b "--" ++ pfx ++ name else b "-" ++ name.

Definition simple_words (v : val) : list bytes :=
  match scalar_text v with Some t => [t] | None => [] end.

Definition flag_list_spec (pfx name : bytes) (items : list val) : list bytes :=
  flat_map (fun v => if is_list v || is_tuple v then []
                     else flag_word pfx name :: simple_words v) items.

Definition flag_field_spec (pfx : bytes) (p : bytes * val) : list bytes :=
  match snd p with
  | VEmpty => [flag_word pfx (fst p)]
  | VTuple _ | VEnv _ | VConstraint => []
  | VList def => flag_list_spec pfx (fst p) def
  | v => flag_word pfx (fst p) :: simple_words v
  end.
Definition flags_spec_pfx (pfx : bytes) (flds : list (bytes * val)) : list bytes :=
  flat_map (flag_field_spec pfx) flds.
Definition flags_spec := flags_spec_pfx [].

(* flags: names of emitted fields consist of plain characters; float texts plain *)
Definition flag_field_ok (p : bytes * val) : bool :=
  match snd p with
  | VTuple _ | VEnv _ | VConstraint => true
  | VList def => forallb plain (fst p) && forallb fl_ok def
  | v => forallb plain (fst p) && fl_ok v
  end.
Definition flags_ok (flds : list (bytes * val)) : bool := forallb flag_field_ok flds.

(* exec *)
Fixpoint exec_env_spec (env : list (bytes * val)) : option (list (bytes * bytes)) :=
  match env with
  | [] => Some []
  | (n, VStr s) :: r =>
      match exec_env_spec r with Some t => Some ((n, s) :: t) | None => None end
  | _ :: _ => None
  end.
Fixpoint exec_args_spec (args : list val) : option (list bytes) :=
  match args with
  | [] => Some []
  | v :: r =>
      match (match v with
             | VStr s => Some [s]
             | VTuple flds => Some (flags_spec flds)
             | _ => None
             end), exec_args_spec r with
      | Some x, Some t => Some (x ++ t)
      | _, _ => None
      end
  end.
Definition exec_arg_ok (v : val) : bool :=
  match v with VTuple flds => flags_ok flds | _ => true end.
Definition exec_ok (st : exec_parts) : bool :=
  forallb (fun p => name_ok (fst p)) (opt_list (ep_env st)) &&
  forallb exec_arg_ok (opt_list (ep_args st)).
