(* The escapers of Shell.v as replacement chains, and its emitters read back by its sh reader.  Every theorem about
   an emitter rests on two notions defined below: a text that the reader takes for a piece of a word ([reads_as])
   and a text that it takes for complete words ([reads_words]). *)
From Ucg Require Import base.Bytes base.Bytes_Lemmas data.Val data.Val_Lemmas shell.Shell.

Lemma replace1_app c r s1 s2 :
  replace1 c r (s1 ++ s2) = replace1 c r s1 ++ replace1 c r s2.
Proof. unfold replace1. apply flat_map_app. Qed.

Lemma apply_chain_app ch : forall s1 s2,
  apply_chain ch (s1 ++ s2) = apply_chain ch s1 ++ apply_chain ch s2.
Proof.
  induction ch as [|[c r] ch IH]; intros s1 s2; cbn.
  - reflexivity.
  - rewrite replace1_app. apply IH.
Qed.

Lemma apply_chain_nil ch : apply_chain ch [] = [].
Proof. induction ch as [|[c r] ch IH]; cbn; auto. Qed.

(* a chain acts on each character separately *)
Lemma apply_chain_flat_map ch s : apply_chain ch s = flat_map (fun x => apply_chain ch [x]) s.
Proof.
  induction s as [|x s IH]; [apply apply_chain_nil|].
  change (x :: s) with ([x] ++ s). rewrite apply_chain_app, IH. reflexivity.
Qed.

Lemma replace1_absent c r s :
  mem_ascii c s = false -> replace1 c r s = s.
Proof.
  unfold mem_ascii, replace1.
  induction s as [|x s IH]; cbn; intros Hm.
  - reflexivity.
  - apply orb_false_iff in Hm. destruct Hm as [Hx Hs].
    rewrite Ascii.eqb_sym in Hx. rewrite Hx. cbn. f_equal. apply IH. exact Hs.
Qed.

Lemma apply_chain_absent ch : forall r,
  forallb (fun p => negb (mem_ascii (fst p) r)) ch = true ->
  apply_chain ch r = r.
Proof.
  induction ch as [|[c r'] ch IH]; intros r Hall; cbn in *.
  - reflexivity.
  - apply andb_true_iff in Hall. destruct Hall as [Hc Hrest].
    apply negb_true_iff in Hc.
    rewrite (replace1_absent c r' r Hc). apply IH. exact Hrest.
Qed.

(* on one character: the first step whose pattern it is inserts its text, which no later step touches *)
Lemma chain_ok_char ch : chain_ok ch = true -> forall x, apply_chain ch [x] = subst1 ch x.
Proof.
  induction ch as [|[c r] ch IH]; intros Hok x; [reflexivity|].
  cbn [chain_ok] in Hok. apply andb_true_iff in Hok. destruct Hok as [Habs Hok].
  cbn [apply_chain subst1 replace1 flat_map]. rewrite app_nil_r.
  destruct (Ascii.eqb x c); [apply apply_chain_absent, Habs|apply IH, Hok].
Qed.

Theorem chain_is_charwise : forall ch,
  chain_ok ch = true -> forall s, apply_chain ch s = charwise ch s.
Proof.
  intros ch Hok s. rewrite apply_chain_flat_map. apply flat_map_ext, chain_ok_char, Hok.
Qed.

Lemma in_bools x : In x bools.
Proof. destruct x; cbn; auto. Qed.

Lemma in_all_ascii x : In x all_ascii.
Proof.
  destruct x as [b0 b1 b2 b3 b4 b5 b6 b7]. unfold all_ascii.
  apply in_flat_map; exists b0; split; [apply in_bools|].
  apply in_flat_map; exists b1; split; [apply in_bools|].
  apply in_flat_map; exists b2; split; [apply in_bools|].
  apply in_flat_map; exists b3; split; [apply in_bools|].
  apply in_flat_map; exists b4; split; [apply in_bools|].
  apply in_flat_map; exists b5; split; [apply in_bools|].
  apply in_flat_map; exists b6; split; [apply in_bools|].
  apply in_map. apply in_bools.
Qed.

(* a chain that passes [chain_ok] and agrees with [f] on each of the 256 bytes computes [flat_map f] *)
Lemma chain_is_flat_map ch f :
  chain_ok ch = true ->
  forallb (fun c => bytes_eqb (subst1 ch c) (f c)) all_ascii = true ->
  forall s, apply_chain ch s = flat_map f s.
Proof.
  intros Hok Hall s. rewrite (chain_is_charwise _ Hok). apply flat_map_ext. intros c.
  rewrite forallb_forall in Hall. apply bytes_eqb_spec, Hall, in_all_ascii.
Qed.

(* [chain_exact] is necessary and sufficient *)
Theorem chain_exact_iff : forall ch,
  chain_exact ch = true <-> (forall s, apply_chain ch s = charwise ch s).
Proof.
  intros ch. unfold chain_exact. rewrite forallb_forall. split.
  - intros Hex s. rewrite apply_chain_flat_map. apply flat_map_ext. intros x.
    apply bytes_eqb_spec, Hex, in_all_ascii.
  - intros Hall x _. apply bytes_eqb_spec. rewrite Hall. apply app_nil_r.
Qed.

Lemma sq_chain_ok : chain_ok sq_chain = true.
Proof. reflexivity. Qed.
Lemma dq_chain_ok : chain_ok dq_chain = true.
Proof. reflexivity. Qed.

(* the regression the side condition must catch: quote before backslash *)
Definition dq_chain_reordered : list (ascii * bytes) :=
  [ (""""%char, b "\"""); ("\"%char, b "\\"); ("$"%char, b "\$"); ("`"%char, b "\`") ].
Lemma dq_chain_reordered_rejected :
  chain_ok dq_chain_reordered = false /\ chain_exact dq_chain_reordered = false /\
  apply_chain dq_chain_reordered (b """") = b "\\""".
Proof. repeat split. Qed.

Lemma charwise_sq s : charwise sq_chain s = esc_sq s.
Proof. reflexivity. Qed.
Lemma charwise_dq s : charwise dq_chain s = esc_dq s.
Proof. reflexivity. Qed.

Theorem esc_sq_is_chain : forall s, apply_chain sq_chain s = esc_sq s.
Proof. intros s. rewrite (chain_is_charwise _ sq_chain_ok). apply charwise_sq. Qed.
Theorem esc_dq_is_chain : forall s, apply_chain dq_chain s = esc_dq s.
Proof. intros s. rewrite (chain_is_charwise _ dq_chain_ok). apply charwise_dq. Qed.

Fixpoint pushl (w : bytes) (r : gres) : gres :=
  match w with [] => r | c :: w' => push c (pushl w' r) end.
(* a (possibly empty) quoted piece [w] glued in front of what follows *)
Definition wordl (w : bytes) (r : gres) : gres := touch (pushl w r).
(* a complete word [w] followed by a blank *)
Definition addw (w : bytes) (r : gres) : gres :=
  match r with GLine cur ws rest => GLine (Some w) (ocons cur ws) rest | e => e end.
Definition addws (ws : list bytes) (r : gres) : gres := fold_right addw r ws.

Lemma push_touch c r : push c (touch r) = push c r.
Proof. destruct r; reflexivity. Qed.
Lemma touch_push c r : touch (push c r) = push c r.
Proof. destruct r; reflexivity. Qed.

Lemma pushl_app w1 w2 r : pushl (w1 ++ w2) r = pushl w1 (pushl w2 r).
Proof. induction w1 as [|c w1 IH]; cbn; [reflexivity|]. rewrite IH. reflexivity. Qed.

Lemma wordl_cons c w r : wordl (c :: w) r = push c (wordl w r).
Proof. unfold wordl. cbn [pushl]. rewrite touch_push, push_touch. reflexivity. Qed.

(* a non-empty piece needs no [touch] *)
Lemma wordl_nonempty c w r : wordl (c :: w) r = pushl (c :: w) r.
Proof. apply touch_push. Qed.

(* characters pushed in front of a piece belong to it *)
Lemma pushl_wordl p w r : pushl p (wordl w r) = wordl (p ++ w) r.
Proof.
  induction p as [|c p IH]; [reflexivity|]. cbn [pushl app]. rewrite IH, wordl_cons. reflexivity.
Qed.

Lemma wordl_line w cur ws rest :
  wordl w (GLine cur ws rest) = GLine (Some (w ++ odflt cur)) ws rest.
Proof. induction w as [|c w IH]; [reflexivity|]. rewrite wordl_cons, IH. reflexivity. Qed.

Lemma wordl_exp w c : wordl w (GExp c) = GExp c.
Proof. induction w as [|x w IH]; [reflexivity|]. rewrite wordl_cons, IH. reflexivity. Qed.
Lemma wordl_unterm w : wordl w GUnterm = GUnterm.
Proof. induction w as [|x w IH]; [reflexivity|]. rewrite wordl_cons, IH. reflexivity. Qed.

Lemma wordl_brk w r : wordl w (brk r) = addw w r.
Proof.
  destruct r as [cur ws rest| |]; cbn [brk addw].
  - rewrite wordl_line. cbn [odflt]. rewrite app_nil_r. reflexivity.
  - apply wordl_exp.
  - apply wordl_unterm.
Qed.

Lemma addws_app l1 l2 r : addws (l1 ++ l2) r = addws l1 (addws l2 r).
Proof. apply fold_right_app. Qed.

Definition line_of (r : gres) : line_result :=
  match r with
  | GLine cur ws rest => Line (ocons cur ws) rest
  | GExp c => LExpands c
  | GUnterm => LUnterminated
  end.
Definition consw (w : bytes) (l : line_result) : line_result :=
  match l with Line ws rest => Line (w :: ws) rest | e => e end.

Lemma sh_line_go s : sh_line s = line_of (sh_go MU s).
Proof. reflexivity. Qed.

Lemma line_of_addw w r : line_of (addw w r) = consw w (line_of r).
Proof. destruct r; reflexivity. Qed.

(* words followed by the end of the command are the command's words *)
Lemma line_of_addws ws rest : line_of (addws ws (GLine None [] rest)) = Line ws rest.
Proof. induction ws as [|w ws IH]; [reflexivity|]. cbn [addws fold_right]. fold (addws ws (GLine None [] rest)). rewrite line_of_addw, IH. reflexivity. Qed.

Lemma name_char_plain c : name_char c = true -> plain c = true.
Proof. intros H. unfold plain. rewrite H. reflexivity. Qed.

Lemma forallb_name_plain w : forallb name_char w = true -> forallb plain w = true.
Proof.
  induction w as [|c w IH]; cbn; [reflexivity|]. intros H.
  apply andb_true_iff in H. destruct H as [Hc Hw].
  rewrite (name_char_plain c Hc), (IH Hw). reflexivity.
Qed.

Lemma plain_uclass c : plain c = true -> uclass_of c = UPlain.
Proof.
  intros Hp. unfold uclass_of.
  rewrite (eqb_class plain c sp Hp eq_refl), (eqb_class plain c tab Hp eq_refl),
          (eqb_class plain c nl Hp eq_refl), (eqb_class plain c "'" Hp eq_refl),
          (eqb_class plain c """" Hp eq_refl), (eqb_class plain c "\" Hp eq_refl), Hp.
  reflexivity.
Qed.

Lemma go_plain w t : forallb plain w = true -> sh_go MU (w ++ t) = pushl w (sh_go MU t).
Proof.
  induction w as [|c w IH]; intros H; [reflexivity|].
  cbn in H. apply andb_true_iff in H. destruct H as [Hc Hw].
  cbn [app sh_go pushl]. rewrite (plain_uclass c Hc). rewrite (IH Hw). reflexivity.
Qed.

Lemma go_sq_body s t : sh_go MS (esc_sq s ++ t) = pushl s (sh_go MS t).
Proof.
  induction s as [|x s IH]; [reflexivity|].
  cbn [esc_sq flat_map]. fold (esc_sq s). rewrite <- app_assoc.
  unfold esc_sq_char. destruct (Ascii.eqb_spec x "'") as [->|Hne].
  - cbn [b list_ascii_of_string app]. cbn [sh_go].
    change (uclass_of "\") with UBs. cbn [sh_go].
    change (Ascii.eqb "'" "'") with true. change (Ascii.eqb "'" nl) with false.
    cbv iota. cbn [sh_go]. change (uclass_of "'") with USq. cbv iota.
    rewrite push_touch. rewrite IH. reflexivity.
  - cbn [app sh_go pushl]. apply Ascii.eqb_neq in Hne. rewrite Hne. rewrite IH. reflexivity.
Qed.

Lemma go_dq_body s t : sh_go MD (esc_dq s ++ t) = pushl s (sh_go MD t).
Proof.
  induction s as [|x s IH]; [reflexivity|].
  cbn [esc_dq flat_map]. fold (esc_dq s). rewrite <- app_assoc.
  unfold esc_dq_char.
  destruct (Ascii.eqb_spec x "\") as [->|H1].
  { cbn [b list_ascii_of_string app pushl]. rewrite <- IH. reflexivity. }
  destruct (Ascii.eqb_spec x """") as [->|H2].
  { cbn [b list_ascii_of_string app pushl]. rewrite <- IH. reflexivity. }
  destruct (Ascii.eqb_spec x "$") as [->|H3].
  { cbn [b list_ascii_of_string app pushl]. rewrite <- IH. reflexivity. }
  destruct (Ascii.eqb_spec x "`") as [->|H4].
  { cbn [b list_ascii_of_string app pushl]. rewrite <- IH. reflexivity. }
  cbn [app sh_go pushl]. unfold dclass_of.
  apply Ascii.eqb_neq in H1, H2, H3, H4. rewrite H1, H2, H3, H4. cbn [orb].
  rewrite IH. reflexivity.
Qed.

(* The notion every emitter theorem rests on: in unquoted context the text [body] is read as the piece [w]
   of a word, and reading goes on behind it in unquoted context.  What follows the piece decides what
   becomes of it: a blank ends the word ([reads_words_piece]), the end of the command makes it the last word
   ([reads_line]), more pieces extend it ([reads_prefix]). *)
Definition reads_as (body w : bytes) : Prop :=
  forall t, sh_go MU (body ++ t) = wordl w (sh_go MU t).

Lemma reads_plain w : plain_word w = true -> reads_as w w.
Proof.
  intros H t. destruct w as [|c w]; [discriminate|].
  rewrite wordl_nonempty. apply go_plain, H.
Qed.

Lemma reads_sq s : reads_as (sq_quoted s) s.
Proof.
  intros t. unfold sq_quoted. rewrite <- !app_assoc. cbn [b list_ascii_of_string app sh_go].
  change (uclass_of "'") with USq. cbv iota. rewrite go_sq_body. reflexivity.
Qed.

Definition dq_quoted (s : bytes) : bytes := b """" ++ esc_dq s ++ b """".

Lemma reads_dq s : reads_as (dq_quoted s) s.
Proof.
  intros t. unfold dq_quoted. rewrite <- !app_assoc. cbn [b list_ascii_of_string app sh_go].
  change (uclass_of """") with UDq. cbv iota. rewrite go_dq_body. reflexivity.
Qed.

Lemma reads_prefix p body w :
  forallb plain p = true -> reads_as body w -> reads_as (p ++ body) (p ++ w).
Proof. intros Hp Hb t. rewrite <- app_assoc, go_plain, Hb by exact Hp. apply pushl_wordl. Qed.

Lemma reads_line body w t rest :
  reads_as body w -> sh_go MU t = GLine None [] rest -> sh_line (body ++ t) = Line [w] rest.
Proof.
  intros Hb Ht. rewrite sh_line_go, Hb, Ht, wordl_line. cbn [odflt line_of ocons].
  rewrite app_nil_r. reflexivity.
Qed.

(* NAME=<piece> is one piece *)
Lemma reads_assign n body w :
  name_ok n = true -> reads_as body w -> reads_as (n ++ b "=" ++ body) (n ++ b "=" ++ w).
Proof.
  intros Hn Hb. rewrite !app_assoc. apply reads_prefix; [|exact Hb].
  rewrite forallb_app. unfold name_ok in Hn. destruct n as [|c n]; [discriminate|].
  apply andb_true_iff in Hn. destruct Hn as [_ Hn]. rewrite (forallb_name_plain _ Hn). reflexivity.
Qed.

(* [text] is read as the complete words [ws], and reading goes on behind it at the start of a word *)
Definition reads_words (text : bytes) (ws : list bytes) : Prop :=
  forall t, sh_go MU (text ++ t) = addws ws (sh_go MU t).

Lemma reads_words_nil : reads_words [] [].
Proof. intros t. reflexivity. Qed.

Lemma reads_words_app x ws1 y ws2 :
  reads_words x ws1 -> reads_words y ws2 -> reads_words (x ++ y) (ws1 ++ ws2).
Proof. intros H1 H2 t. rewrite <- app_assoc, H1, H2, addws_app. reflexivity. Qed.

Lemma reads_words_piece body w : reads_as body w -> reads_words (body ++ b " ") [w].
Proof. intros Hb t. rewrite <- app_assoc, Hb. exact (wordl_brk w (sh_go MU t)). Qed.

Lemma reads_words_line text ws : reads_words text ws -> sh_line text = Line ws [].
Proof. intros H. rewrite sh_line_go, <- (app_nil_r text), H. apply line_of_addws. Qed.

Definition sq_piece (s : bytes) : bytes := b "'" ++ esc_sq s ++ b "' ".

Lemma reads_sq_piece s : reads_words (sq_piece s) [s].
Proof.
  replace (sq_piece s) with (sq_quoted s ++ b " ").
  - apply reads_words_piece, reads_sq.
  - unfold sq_piece, sq_quoted. rewrite <- !app_assoc. reflexivity.
Qed.

Lemma reads_sq_pieces ss : reads_words (List.concat (map sq_piece ss)) ss.
Proof.
  induction ss as [|s ss IH]; [exact reads_words_nil|].
  exact (reads_words_app _ [s] _ _ (reads_sq_piece s) IH).
Qed.

Theorem sq_word : forall s, sh_words (b "'" ++ esc_sq s ++ b "' ") = Words [s].
Proof.
  intros s. unfold sh_words. change (b "'" ++ esc_sq s ++ b "' ") with (sq_piece s).
  rewrite (reads_words_line _ _ (reads_sq_piece s)). reflexivity.
Qed.

(* the line is consumed completely, whatever the strings contain *)
Theorem sq_words_line : forall ss, sh_line (List.concat (map sq_piece ss)) = Line ss [].
Proof. intros ss. apply reads_words_line, reads_sq_pieces. Qed.

Theorem sq_words : forall ss, sh_words (List.concat (map sq_piece ss)) = Words ss.
Proof. intros ss. unfold sh_words. rewrite sq_words_line. reflexivity. Qed.

Definition nasty : bytes := b "a'b""c$d`e\f  g" ++ [nl] ++ b "*h ~ #!;|&'' \" ++ [nl].

Example sq_word_ex :
  sh_words (b "'" ++ esc_sq nasty ++ b "' ") = Words [nasty].
Proof. reflexivity. Qed.
Example sq_words_ex :
  sh_words (List.concat (map sq_piece [nasty; []; b "'"; nasty])) = Words [nasty; []; b "'"; nasty].
Proof. reflexivity. Qed.

Lemma dq_assign_eq n s t : n ++ b "=""" ++ esc_dq s ++ b """" ++ t = n ++ b "=" ++ dq_quoted s ++ t.
Proof. unfold dq_quoted. rewrite <- !app_assoc. reflexivity. Qed.

Theorem dq_value : forall name s,
  name_ok name = true ->
  sh_words (name ++ b "=""" ++ esc_dq s ++ b """") = Words [name ++ b "=" ++ s].
Proof.
  intros name s Hn. unfold sh_words.
  rewrite (dq_assign_eq name s [] : name ++ b "=""" ++ esc_dq s ++ b """" = _).
  rewrite (app_assoc (b "=")), (app_assoc name).
  rewrite (reads_line _ _ [] [] (reads_assign name _ s Hn (reads_dq s)) eq_refl). reflexivity.
Qed.

Example dq_value_ex :
  sh_words (b "MY_var1" ++ b "=""" ++ esc_dq nasty ++ b """") = Words [b "MY_var1" ++ b "=" ++ nasty].
Proof. apply dq_value. reflexivity. Qed.
Example dq_value_ex_compute :
  sh_words (b "MY_var1" ++ b "=""" ++ esc_dq nasty ++ b """") = Words [b "MY_var1=" ++ nasty].
Proof. reflexivity. Qed.

Definition grest (r : gres) : option bytes :=
  match r with GLine _ _ rest => Some rest | _ => None end.
Lemma grest_push c r : grest (push c r) = grest r.
Proof. destruct r; reflexivity. Qed.
Lemma grest_touch r : grest (touch r) = grest r.
Proof. destruct r; reflexivity. Qed.
Lemma grest_brk r : grest (brk r) = grest r.
Proof. destruct r; reflexivity. Qed.

(* every step of [sh_go] consumes a character, and only a newline hands the rest over *)
Lemma go_rest_len : forall s m rest,
  grest (sh_go m s) = Some rest -> List.length rest <= pred (List.length s).
Proof.
  induction s as [|c s IH]; intros m rest H.
  - destruct m; inversion H; reflexivity.
  - assert (IH' : forall m', grest (sh_go m' s) = Some rest -> List.length rest <= List.length s).
    { intros m' H'. specialize (IH m' rest H'). lia. }
    cbn [List.length pred].
    destruct m; cbn [sh_go] in H;
      [destruct (uclass_of c)|destruct (Ascii.eqb c "'")|destruct (dclass_of c)|destruct (Ascii.eqb c nl)
      |destruct (dq_escapable c); [|destruct (Ascii.eqb c nl)]];
      rewrite ?grest_brk, ?grest_touch, ?grest_push in H; try discriminate H; eauto.
    inversion H; subst. lia.
Qed.

Lemma sh_line_rest_len c s ws rest :
  sh_line (c :: s) = Line ws rest -> List.length rest <= List.length s.
Proof.
  unfold sh_line. destruct (sh_go MU (c :: s)) as [cur ws' rest'| |] eqn:E; try discriminate.
  intros H. inversion H; subst.
  apply (go_rest_len (c :: s) MU rest). rewrite E. reflexivity.
Qed.

Lemma skip_blanks_len s : List.length (skip_blanks s) <= List.length s.
Proof.
  induction s as [|c s IH]; cbn [skip_blanks List.length]; [lia|].
  destruct (Ascii.eqb c sp || Ascii.eqb c tab); cbn [List.length]; lia.
Qed.
Lemma skip_line_len s : List.length (skip_line s) <= List.length s.
Proof.
  induction s as [|c s IH]; cbn [skip_line List.length]; [lia|].
  destruct (Ascii.eqb c nl); cbn [List.length]; lia.
Qed.
Lemma starts_comment_len s s' :
  starts_comment s = Some s' -> List.length (skip_line s') < List.length s.
Proof.
  unfold starts_comment. pose proof (skip_blanks_len s) as Hb.
  destruct (skip_blanks s) as [|c r]; [discriminate|].
  destruct (Ascii.eqb c "#"); [|discriminate].
  intros H. inversion H; subst. pose proof (skip_line_len s') as Hl. cbn in Hb. lia.
Qed.

Theorem sh_items_fuel_enough : forall n m s,
  List.length s < n -> List.length s < m -> sh_items_fuel n s = sh_items_fuel m s.
Proof.
  induction n as [|n IH]; intros m s Hn Hm; [lia|].
  destruct m as [|m]; [lia|].
  cbn [sh_items_fuel]. destruct s as [|c s]; [reflexivity|].
  destruct (starts_comment (c :: s)) as [s'|] eqn:Ec.
  - apply starts_comment_len in Ec. apply IH; lia.
  - destruct (sh_line (c :: s)) as [ws rest| |] eqn:El; try reflexivity.
    apply sh_line_rest_len in El. cbn [List.length] in Hn, Hm.
    rewrite (IH m rest) by lia. reflexivity.
Qed.

Definition ocons_item (i : sh_item) (o : option (list sh_item)) : option (list sh_item) :=
  match o with Some l => Some (i :: l) | None => None end.
Definition oapp_items (is : list sh_item) (o : option (list sh_item)) : option (list sh_item) :=
  match o with Some l => Some (is ++ l) | None => None end.

Lemma sh_items_nil : sh_items [] = Some [].
Proof. reflexivity. Qed.

Lemma sh_items_comment s s' :
  starts_comment s = Some s' -> sh_items s = sh_items (skip_line s').
Proof.
  intros Hc. unfold sh_items at 1. cbn [sh_items_fuel].
  destruct s as [|c s]; [discriminate Hc|]. rewrite Hc.
  apply starts_comment_len in Hc. unfold sh_items.
  apply sh_items_fuel_enough; lia.
Qed.

Lemma sh_items_line s ws rest :
  s <> [] -> starts_comment s = None -> sh_line s = Line ws rest ->
  sh_items s =
  match ws with
  | [] => sh_items rest
  | _ => ocons_item (classify s ws) (sh_items rest)
  end.
Proof.
  intros Hs Hc Hl. unfold sh_items at 1. cbn [sh_items_fuel].
  destruct s as [|c s]; [congruence|]. rewrite Hc, Hl.
  apply sh_line_rest_len in Hl. unfold sh_items.
  rewrite (sh_items_fuel_enough (List.length (c :: s)) (S (List.length rest)) rest)
    by (cbn [List.length]; lia).
  reflexivity.
Qed.

Lemma plain_not_blank c : plain c = true -> Ascii.eqb c sp || Ascii.eqb c tab = false.
Proof.
  intros Hp. rewrite (eqb_class plain c sp Hp eq_refl), (eqb_class plain c tab Hp eq_refl). reflexivity.
Qed.

Lemma take_name_eq n t :
  forallb name_char n = true -> take_name (n ++ b "=" ++ t) = (n, b "=" ++ t).
Proof.
  induction n as [|c n IH]; intros H.
  - reflexivity.
  - cbn in H. apply andb_true_iff in H. destruct H as [Hc Hn].
    cbn [app take_name]. rewrite Hc, (IH Hn). reflexivity.
Qed.

Lemma name_ok_inv n :
  name_ok n = true ->
  exists c n', n = c :: n' /\ is_digit c = false /\ name_char c = true /\
               forallb name_char n = true.
Proof.
  unfold name_ok. destruct n as [|c n']; [discriminate|]. intros H.
  apply andb_true_iff in H. destruct H as [Hd Hall].
  exists c, n'. repeat split; auto.
  - apply negb_true_iff in Hd. exact Hd.
  - cbn in Hall. apply andb_true_iff in Hall. tauto.
Qed.

Lemma raw_name_eq n t : name_ok n = true -> raw_name (n ++ b "=" ++ t) = Some n.
Proof.
  intros Hn. destruct (name_ok_inv n Hn) as (c & n' & -> & Hd & Hc & Hall).
  unfold raw_name.
  assert (Hsb : skip_blanks ((c :: n') ++ b "=" ++ t) = (c :: n') ++ b "=" ++ t).
  { cbn [app skip_blanks]. rewrite (plain_not_blank c (name_char_plain c Hc)). reflexivity. }
  rewrite Hsb, (take_name_eq _ t Hall). cbn [b list_ascii_of_string app]. rewrite Hd. reflexivity.
Qed.

Lemma starts_comment_name n t : name_ok n = true -> starts_comment (n ++ t) = None.
Proof.
  intros Hn. destruct (name_ok_inv n Hn) as (c & n' & -> & Hd & Hc & Hall).
  unfold starts_comment. cbn [app skip_blanks].
  pose proof (name_char_plain c Hc) as Hp.
  rewrite (plain_not_blank c Hp). rewrite (eqb_class plain c "#" Hp eq_refl). reflexivity.
Qed.

(* NAME=<body>\n where the shell reads <body> as the piece [w] *)
Lemma sh_items_assign_line n body w t :
  name_ok n = true -> reads_as body w ->
  sh_items (n ++ b "=" ++ body ++ [nl] ++ t) = ocons_item (Assign n w) (sh_items t).
Proof.
  intros Hn Hb.
  assert (Hl : sh_line (n ++ b "=" ++ body ++ [nl] ++ t) = Line [n ++ b "=" ++ w] t).
  { rewrite (app_assoc (b "=")), (app_assoc n).
    exact (reads_line _ _ ([nl] ++ t) t (reads_assign n body w Hn Hb) eq_refl). }
  assert (Hne : n ++ b "=" ++ body ++ [nl] ++ t <> []) by (destruct n; discriminate).
  rewrite (sh_items_line _ _ _ Hne (starts_comment_name n _ Hn) Hl).
  unfold classify. rewrite (raw_name_eq n _ Hn), app_assoc, strip_prefix_app. reflexivity.
Qed.

Lemma dec_digit_plain c : dec_digit c = true -> plain c = true.
Proof.
  intros H. unfold plain, name_char. change (is_digit c) with (dec_digit c). rewrite H.
  rewrite orb_true_r. reflexivity.
Qed.

(* the decimal text of an integer: an optional sign, which is plain, and digits *)
Lemma Z_dec_plain z : plain_word (dec_of_Z z) = true.
Proof.
  destruct (Z.eq_dec z 0) as [->|Hz]; [reflexivity|].
  destruct (dec_of_Z_spec z Hz) as (c & t & -> & Hd & _).
  assert (Hp : forallb plain (c :: t) = true).
  { rewrite forallb_forall in *. intros x Hx. apply dec_digit_plain, Hd, Hx. }
  destruct (z <? 0)%Z; [exact Hp|exact Hp].
Qed.

Lemma bool_text_plain x : plain_word (bool_text x) = true.
Proof. destruct x; reflexivity. Qed.

(* env and flags write a scalar as the same piece, and the shell reads it back as the scalar's text *)
Lemma scalar_emitted v w :
  scalar_text v = Some w -> fl_ok v = true ->
  exists body, reads_as body w /\ env_scalar v = body ++ [nl] /\ flag_simple v = body ++ b " ".
Proof.
  intros Hw Hf. destruct v; inversion Hw; subst w; eexists; (split; [|split; reflexivity]).
  - apply reads_plain, bool_text_plain.
  - apply reads_plain, Z_dec_plain.
  - apply reads_plain, Hf.
  - apply reads_sq.
Qed.

Definition assign_of (p : bytes * bytes) : sh_item := Assign (fst p) (snd p).

Lemma env_is_scalar_text v :
  env_is_scalar v = match scalar_text v with Some _ => true | None => false end.
Proof. destruct v; reflexivity. Qed.

Theorem env_fields : forall flds,
  env_fields_ok flds = true ->
  sh_items (env_emit Fixed (VTuple flds)) = Some (map assign_of (scalar_fields flds)).
Proof.
  intros flds. cbn [env_emit].
  induction flds as [|[n v] flds IH]; intros Hok; [reflexivity|].
  cbn [env_fields_ok forallb fst snd] in Hok. apply andb_true_iff in Hok. destruct Hok as [Hf Hrest].
  cbn [env_tuple_fixed scalar_fields]. rewrite env_is_scalar_text in *.
  destruct (scalar_text v) as [w|] eqn:Ew; [|exact (IH Hrest)].
  apply andb_true_iff in Hf. destruct Hf as [Hn Hfl].
  destruct (scalar_emitted v w Ew Hfl) as (body & Hb & -> & _).
  rewrite <- !app_assoc, (sh_items_assign_line n body w _ Hn Hb), (IH Hrest). reflexivity.
Qed.

Corollary env_fields_env : forall flds,
  env_fields_ok flds = true ->
  sh_env (env_emit Fixed (VTuple flds)) = Some (scalar_fields flds).
Proof.
  intros flds Hok. unfold sh_env. rewrite (env_fields flds Hok).
  induction (scalar_fields flds) as [|[n v] l IH]; cbn; [reflexivity|].
  cbn in IH. rewrite IH. reflexivity.
Qed.

Definition env_ex : list (bytes * val) :=
  [ (b "A", VStr nasty); (b "T", VTuple [(b "x", VInt 1)]); (b "_b2", VInt (-1234567890123));
    (b "N", VEmpty); (b "L", VList [VInt 1]); (b "F", VFloat (FFin (b "-1.5")));
    (b "E", VEnv []); (b "ok", VBool true); (b "Z", VStr []); (b "C", VConstraint);
    (b "bad-name", VList []); (b "Q", VStr (b "'")) ].

Example env_fields_ex :
  sh_env (env_emit Fixed (VTuple env_ex)) =
  Some [ (b "A", nasty); (b "_b2", b "-1234567890123"); (b "F", b "-1.5");
         (b "ok", b "true"); (b "Z", []); (b "Q", b "'") ].
Proof. rewrite env_fields_env; reflexivity. Qed.

(* [Legacy] returns at the first tuple/NULL field: everything after it is lost ... *)
Definition env_lost : list (bytes * val) :=
  [ (b "A", VStr (b "1")); (b "T", VTuple []); (b "B", VStr (b "2")) ].
Theorem env_fields_refuted :
  env_fields_ok env_lost = true /\
  scalar_fields env_lost = [ (b "A", b "1"); (b "B", b "2") ] /\
  env_emit Legacy (VTuple env_lost) = b "A='1'" ++ [nl] /\
  sh_env (env_emit Legacy (VTuple env_lost)) = Some [ (b "A", b "1") ] /\
  sh_env (env_emit Legacy (VTuple env_lost)) <> Some (scalar_fields env_lost).
Proof. vm_compute. repeat split. discriminate. Qed.

(* ... and a list/env/constraint field glues "L=" onto the next line *)
Definition env_glued : list (bytes * val) :=
  [ (b "A", VStr (b "1")); (b "L", VList [VInt 1]); (b "B", VStr (b "2")) ].
Theorem env_fields_refuted_glued :
  env_fields_ok env_glued = true /\
  scalar_fields env_glued = [ (b "A", b "1"); (b "B", b "2") ] /\
  env_emit Legacy (VTuple env_glued) = b "A='1'" ++ [nl] ++ b "L=B='2'" ++ [nl] /\
  sh_env (env_emit Legacy (VTuple env_glued)) = Some [ (b "A", b "1"); (b "L", b "B=2") ] /\
  sh_env (env_emit Legacy (VTuple env_glued)) <> Some (scalar_fields env_glued).
Proof. vm_compute. repeat split. discriminate. Qed.

(* [injection] and [inversion] would also normalise the emitted text, unfolding the pieces *)
Lemma some_inj {A} (x y : A) : Some x = Some y -> x = y.
Proof. congruence. Qed.

Lemma flag_word_plain pfx name :
  forallb plain pfx = true -> forallb plain name = true ->
  plain_word (flag_word pfx name) = true.
Proof.
  intros Hp Hn. unfold flag_word.
  destruct (more_than_one_char name || has_char pfx);
    cbn [b list_ascii_of_string app plain_word]; rewrite ?forallb_app;
    cbn [forallb]; rewrite ?forallb_app, ?Hp, Hn; reflexivity.
Qed.

Lemma flag_name_word pfx name : flag_name pfx name = flag_word pfx name ++ b " ".
Proof.
  unfold flag_name, flag_word.
  destruct (more_than_one_char name || has_char pfx); rewrite <- ?app_assoc; reflexivity.
Qed.

Lemma reads_flag_name pfx name :
  forallb plain pfx = true -> forallb plain name = true ->
  reads_words (flag_name pfx name) [flag_word pfx name].
Proof.
  intros Hp Hn. rewrite flag_name_word. apply reads_words_piece, reads_plain, flag_word_plain; assumption.
Qed.

Lemma reads_flag_simple v : fl_ok v = true -> reads_words (flag_simple v) (simple_words v).
Proof.
  intros Hf. unfold simple_words. destruct (scalar_text v) as [w|] eqn:Ew.
  - destruct (scalar_emitted v w Ew Hf) as (body & Hb & _ & ->). apply reads_words_piece, Hb.
  - destruct v; try discriminate Ew; exact reads_words_nil.
Qed.

Lemma reads_flag pfx name v :
  forallb plain pfx = true -> forallb plain name = true -> fl_ok v = true ->
  reads_words (flag_name pfx name ++ flag_simple v) (flag_word pfx name :: simple_words v).
Proof.
  intros Hp Hn Hv. exact (reads_words_app _ [_] _ _ (reads_flag_name _ _ Hp Hn) (reads_flag_simple v Hv)).
Qed.

Lemma reads_flag_list pfx name items :
  forallb plain pfx = true -> forallb plain name = true -> forallb fl_ok items = true ->
  reads_words (flag_list pfx name items) (flag_list_spec pfx name items).
Proof.
  intros Hp Hn. induction items as [|v items IH]; intros Hf; [exact reads_words_nil|].
  cbn [forallb] in Hf. apply andb_true_iff in Hf. destruct Hf as [Hv Hr].
  cbn [flag_list flag_list_spec flat_map]. apply reads_words_app; [|exact (IH Hr)].
  destruct (is_list v || is_tuple v); [exact reads_words_nil|exact (reads_flag _ _ _ Hp Hn Hv)].
Qed.

Lemma reads_flags pfx flds :
  forallb plain pfx = true -> flags_ok flds = true ->
  reads_words (flags_write pfx flds) (flags_spec_pfx pfx flds).
Proof.
  intros Hp. induction flds as [|[name v] flds IH]; intros Hok; [exact reads_words_nil|].
  cbn [flags_ok forallb] in Hok. apply andb_true_iff in Hok. destruct Hok as [Hf Hr].
  cbn [flags_write flags_spec_pfx flat_map]. apply reads_words_app; [|exact (IH Hr)].
  unfold flag_field_ok in Hf. unfold flag_field_spec. cbn [fst snd] in *.
  destruct v; try exact reads_words_nil;
    apply andb_true_iff in Hf; destruct Hf as [Hn Hv];
    [exact (reads_flag_name _ _ Hp Hn)| .. |exact (reads_flag_list _ _ _ Hp Hn Hv)];
    exact (reads_flag _ _ _ Hp Hn Hv).
Qed.

Theorem flags_line : forall flds out,
  flags_emit (VTuple flds) = Some out -> flags_ok flds = true ->
  sh_line out = Line (flags_spec flds) [].
Proof.
  intros flds out He Hok. apply some_inj in He. subst out.
  exact (reads_words_line _ _ (reads_flags [] flds eq_refl Hok)).
Qed.

Theorem flags_words : forall flds out,
  flags_emit (VTuple flds) = Some out -> flags_ok flds = true ->
  sh_words out = Words (flags_spec flds).
Proof.
  intros flds out He Hok. unfold sh_words. rewrite (flags_line flds out He Hok). reflexivity.
Qed.

Definition flags_ex : list (bytes * val) :=
  [ (b "name", VStr nasty); (b "v", VEmpty); (b "n", VInt (-42)); (b "skip", VTuple []);
    (b "tag", VList [VStr (b "it's"); VEmpty; VList []; VInt 7; VEnv []; VTuple []; VBool false;
                     VFloat (FFin (b "0.25"))]);
    (b "rate", VFloat FNegInf); (b "e", VEnv []); (b "c", VConstraint); (b "x.y", VStr []) ].

Example flags_words_ex :
  exists out, flags_emit (VTuple flags_ex) = Some out /\ flags_ok flags_ex = true /\
  sh_words out =
  Words [ b "--name"; nasty; b "-v"; b "-n"; b "-42";
          b "--tag"; b "it's"; b "--tag"; b "--tag"; b "7"; b "--tag"; b "--tag"; b "false";
          b "--tag"; b "0.25"; b "--rate"; b "-inf"; b "--x.y"; [] ].
Proof.
  eexists. split; [reflexivity|]. split; [reflexivity|].
  rewrite (flags_words flags_ex _ eq_refl eq_refl). reflexivity.
Qed.

(* the hypothesis on names is needed: a flag name with a shell-special
   character is written verbatim *)
Theorem flags_words_refuted_bad_name :
  exists out, flags_emit (VTuple [(b "a;reboot", VInt 1)]) = Some out /\
              sh_words out = Expands ";".
Proof. eexists. split; reflexivity. Qed.

Definition set_cmd : sh_item := Cmd [b "set"; b "-euo"; b "pipefail"].

Lemma skip_line_app w X :
  forallb (fun c => negb (Ascii.eqb c nl)) w = true -> skip_line (w ++ nl :: X) = X.
Proof.
  induction w as [|c w IH]; intros H.
  - reflexivity.
  - cbn [forallb] in H. apply andb_true_iff in H. destruct H as [Hc Hw].
    apply negb_true_iff in Hc. cbn [app skip_line]. rewrite Hc. apply IH. exact Hw.
Qed.

Lemma sh_items_comment_line w X :
  forallb (fun c => negb (Ascii.eqb c nl)) w = true ->
  sh_items ("#"%char :: w ++ nl :: X) = sh_items X.
Proof.
  intros Hw. rewrite (sh_items_comment _ (w ++ nl :: X)) by reflexivity.
  rewrite (skip_line_app w X Hw). reflexivity.
Qed.

Lemma exec_header_items X :
  sh_items (exec_header ++ X) = ocons_item set_cmd (sh_items X).
Proof.
  change (exec_header ++ X) with
    ("#"%char :: b "!/usr/bin/env bash" ++ nl ::
     "#"%char :: b " Turn on unofficial Bash-Strict-Mode" ++ nl ::
     b "set -euo pipefail" ++ nl :: X).
  rewrite sh_items_comment_line by reflexivity.
  rewrite sh_items_comment_line by reflexivity.
  cbn [b list_ascii_of_string app].
  erewrite sh_items_line; [| discriminate | reflexivity | reflexivity ].
  reflexivity.
Qed.

Lemma sh_items_blank_line X : sh_items ([nl] ++ X) = sh_items X.
Proof.
  erewrite sh_items_line; [| discriminate | reflexivity | reflexivity ]. reflexivity.
Qed.

Lemma exec_env_lines_cons n s env :
  exec_env_lines ((n, VStr s) :: env) =
  match exec_env_lines env with
  | Some t => Some (n ++ b "=" ++ dq_quoted s ++ [nl] ++ t)
  | None => None
  end.
Proof.
  cbn [exec_env_lines]. destruct (exec_env_lines env) as [t|]; [|reflexivity].
  rewrite <- (dq_assign_eq n s ([nl] ++ t)). reflexivity.
Qed.

(* the env lines are written whenever the spec is defined; they are read back as assignments when the
   names are shell identifiers *)
Lemma exec_env_items : forall env envt,
  exec_env_lines env = Some envt ->
  exists envs, exec_env_spec env = Some envs /\
    (forallb (fun p => name_ok (fst p)) env = true ->
     forall X, sh_items (envt ++ X) = oapp_items (map assign_of envs) (sh_items X)).
Proof.
  induction env as [|[n v] env IH]; intros envt He.
  - injection He as <-. exists []. split; [reflexivity|].
    intros _ X. cbn [app]. destruct (sh_items X); reflexivity.
  - destruct v; try discriminate He. rewrite exec_env_lines_cons in He.
    destruct (exec_env_lines env) as [t|]; [|discriminate He]. apply some_inj in He. subst envt.
    destruct (IH t eq_refl) as (envs & Hspec & Hitems).
    exists ((n, s) :: envs). split; [cbn [exec_env_spec]; rewrite Hspec; reflexivity|].
    intros Hok X. cbn [forallb fst] in Hok. apply andb_true_iff in Hok. destruct Hok as [Hn Hr].
    rewrite <- !app_assoc, (sh_items_assign_line n _ s _ Hn (reads_dq s)), (Hitems Hr).
    destruct (sh_items X); reflexivity.
Qed.

Lemma exec_args_reads : forall args argt,
  exec_args_text args = Some argt ->
  forallb exec_arg_ok args = true ->
  exists argws, exec_args_spec args = Some argws /\ reads_words argt argws.
Proof.
  induction args as [|v args IH]; intros argt He Hok.
  - apply some_inj in He. subst argt. exists []. split; [reflexivity|exact reads_words_nil].
  - cbn [forallb] in Hok. apply andb_true_iff in Hok. destruct Hok as [Hv Hr].
    cbn [exec_args_text] in He.
    destruct (exec_args_text args) as [t'|] eqn:Et.
    2:{ destruct v; discriminate He. }
    destruct (IH t' eq_refl Hr) as (argws & Hspec & Hgo).
    destruct v; try discriminate He; apply some_inj in He; subst argt.
    + exists ([s] ++ argws). split; [cbn [exec_args_spec]; rewrite Hspec; reflexivity|].
      exact (reads_words_app _ _ _ _ (reads_words_piece _ _ (reads_sq s)) Hgo).
    + exists (flags_spec fs ++ argws). split; [cbn [exec_args_spec]; rewrite Hspec; reflexivity|].
      exact (reads_words_app _ _ _ _ (reads_flags [] fs eq_refl Hv) Hgo).
Qed.

Lemma exec_line_items cmd argt argws :
  reads_words argt argws ->
  sh_items (b "exec " ++ sq_quoted cmd ++ b " " ++ argt) =
  Some [Cmd (b "exec" :: cmd :: argws)].
Proof.
  intros Hgo.
  assert (Hl : sh_line (b "exec " ++ sq_quoted cmd ++ b " " ++ argt)
               = Line (b "exec" :: cmd :: argws) []).
  { apply reads_words_line.
    replace (b "exec " ++ sq_quoted cmd ++ b " " ++ argt)
      with ((b "exec" ++ b " ") ++ (sq_quoted cmd ++ b " ") ++ argt) by (rewrite <- !app_assoc; reflexivity).
    apply (reads_words_app _ [b "exec"] _ (cmd :: argws)).
    - exact (reads_words_piece _ _ (reads_plain (b "exec") eq_refl)).
    - exact (reads_words_app _ [cmd] _ _ (reads_words_piece _ _ (reads_sq cmd)) Hgo). }
  erewrite sh_items_line; [| discriminate | reflexivity | exact Hl ].
  rewrite sh_items_nil. unfold classify.
  destruct (raw_name _); reflexivity.
Qed.

Lemma match_longer_than_3 {A B} (l : list A) (x y z : B) :
  match l with _ :: _ :: _ :: _ :: _ => x | _ => y end = z -> x = z \/ y = z.
Proof. destruct l as [|? [|? [|? [|? ?]]]]; auto. Qed.

Lemma exec_emit_inv t out :
  exec_emit t = Some out ->
  exists flds st cmd envt argt,
    t = VTuple flds /\
    exec_scan flds (mk_exec_parts None None None) = Some st /\
    ep_cmd st = Some cmd /\
    exec_env_lines (opt_list (ep_env st)) = Some envt /\
    exec_args_text (opt_list (ep_args st)) = Some argt /\
    out = exec_header ++ envt ++ [nl] ++ b "exec " ++ sq_quoted cmd ++ b " " ++ argt.
Proof.
  destruct t as [| | | | | |flds| |]; try discriminate. cbn [exec_emit]. intros He.
  apply match_longer_than_3 in He. destruct He as [He|He]; [discriminate He|].
  destruct (exec_scan flds _) as [st|] eqn:Escan; [|discriminate He].
  destruct (ep_cmd st) as [cmd|] eqn:Ecmd; [|discriminate He].
  destruct (exec_env_lines _) as [envt|] eqn:Eenv; [|discriminate He].
  destruct (exec_args_text _) as [argt|] eqn:Eargs; [|discriminate He].
  injection He as <-. exists flds, st, cmd, envt, argt. auto 7.
Qed.

Theorem exec_script : forall t out,
  exec_emit t = Some out ->
  exists flds st cmd envs,
    t = VTuple flds /\
    exec_scan flds (mk_exec_parts None None None) = Some st /\
    ep_cmd st = Some cmd /\
    exec_env_spec (opt_list (ep_env st)) = Some envs /\
    (exec_ok st = true ->
     exists argws,
       exec_args_spec (opt_list (ep_args st)) = Some argws /\
       sh_items out =
       Some (set_cmd :: map assign_of envs ++ [Cmd (b "exec" :: cmd :: argws)])).
Proof.
  intros t out He.
  destruct (exec_emit_inv t out He) as (flds & st & cmd & envt & argt & -> & Hscan & Hcmd & Eenv & Eargs & ->).
  destruct (exec_env_items _ _ Eenv) as (envs & Hes & Henv).
  exists flds, st, cmd, envs. repeat split; auto.
  intros Hok. unfold exec_ok in Hok. apply andb_true_iff in Hok. destruct Hok as [Hnames Hargs].
  destruct (exec_args_reads _ _ Eargs Hargs) as (argws & Has & Hgo).
  exists argws. split; [exact Has|].
  rewrite exec_header_items, (Henv Hnames), sh_items_blank_line, (exec_line_items cmd argt argws Hgo).
  reflexivity.
Qed.

(* the same statement at the level of word lists *)
Corollary exec_script_words : forall t out,
  exec_emit t = Some out ->
  exists flds st cmd envs,
    t = VTuple flds /\
    exec_scan flds (mk_exec_parts None None None) = Some st /\
    ep_cmd st = Some cmd /\
    exec_env_spec (opt_list (ep_env st)) = Some envs /\
    (exec_ok st = true ->
     exists argws,
       exec_args_spec (opt_list (ep_args st)) = Some argws /\
       sh_script out =
       Some ([b "set"; b "-euo"; b "pipefail"]
             :: map (fun p => [fst p ++ b "=" ++ snd p]) envs
             ++ [b "exec" :: cmd :: argws])).
Proof.
  intros t out He.
  destruct (exec_script t out He) as (flds & st & cmd & envs & Ht & Hs & Hc & Hes & Hmain).
  exists flds, st, cmd, envs. repeat split; auto.
  intros Hok. destruct (Hmain Hok) as (argws & Has & Hitems).
  exists argws. split; [exact Has|].
  unfold sh_script. rewrite Hitems. cbn [map item_words set_cmd].
  rewrite map_app, map_map. reflexivity.
Qed.

Lemma b_command_env : b "command" <> b "env". Proof. discriminate. Qed.
Lemma b_command_args : b "command" <> b "args". Proof. discriminate. Qed.
Lemma b_env_args : b "env" <> b "args". Proof. discriminate. Qed.

(* how one field [(n, v)] changes the part filled by fields of name [k]: not at all under another name;
   under the name [k] the part was empty and now holds the field's content *)
Lemma part_other {V} (n k : bytes) (v w : V) (X : Prop) : n <> k -> (X <-> X \/ (n, v) = (k, w)).
Proof. intros D. split; [auto|]. intros [H|E]; [exact H|]. destruct D. congruence. Qed.

Lemma part_this {A V} (k : bytes) (inj : A -> V) (a c : A) :
  (forall x y, inj x = inj y -> x = y) ->
  (Some a = Some c <-> None = Some c \/ (k, inj a) = (k, inj c)).
Proof.
  intros Hinj. split.
  - intros E. apply some_inj in E. subst c. right. reflexivity.
  - intros [E|E]; [discriminate E|]. f_equal. apply Hinj. congruence.
Qed.

(* One field: the scan goes on from a state [st1] in which a part is set exactly if it was set before or
   this field, being of its name and type, sets it now. *)
Lemma exec_scan_cons n v r st st' :
  exec_scan ((n, v) :: r) st = Some st' ->
  exists st1, exec_scan r st1 = Some st' /\
    (forall c, ep_cmd st1 = Some c <-> ep_cmd st = Some c \/ (n, v) = (b "command", VStr c)) /\
    (forall l, ep_env st1 = Some l <-> ep_env st = Some l \/ (n, v) = (b "env", VTuple l)) /\
    (forall l, ep_args st1 = Some l <-> ep_args st = Some l \/ (n, v) = (b "args", VList l)).
Proof.
  pose proof b_command_env as D1. pose proof b_command_args as D2. pose proof b_env_args as D3.
  cbn [exec_scan]. intros H.
  destruct (bytes_eqb n (b "command")) eqn:E1; [apply bytes_eqb_spec in E1|apply bytes_eqb_false in E1].
  { destruct (ep_cmd st) eqn:Ec; [discriminate H|]. destruct v; try discriminate H. subst n.
    eexists. split; [exact H|]. cbn [ep_cmd ep_env ep_args].
    split; [|split]; intros x; [apply part_this|apply part_other..]; congruence. }
  destruct (bytes_eqb n (b "env")) eqn:E2; [apply bytes_eqb_spec in E2|apply bytes_eqb_false in E2].
  { destruct v; try discriminate H. destruct (ep_env st) eqn:Ee; [discriminate H|]. subst n.
    eexists. split; [exact H|]. cbn [ep_cmd ep_env ep_args].
    split; [|split]; intros x; [|apply part_this|]; try apply part_other; congruence. }
  destruct (bytes_eqb n (b "args")) eqn:E3; [apply bytes_eqb_spec in E3|apply bytes_eqb_false in E3].
  { destruct v; try discriminate H. destruct (ep_args st) eqn:Ea; [discriminate H|]. subst n.
    eexists. split; [exact H|]. cbn [ep_cmd ep_env ep_args].
    split; [|split]; intros x; [| |apply part_this]; try apply part_other; congruence. }
  exists st. split; [exact H|]. split; [|split]; intros x; apply part_other; assumption.
Qed.

Lemma iff_or_trans {P Q R S T : Prop} : (P <-> Q \/ S) -> (Q <-> R \/ T) -> (P <-> R \/ (T \/ S)).
Proof. tauto. Qed.

Lemma exec_scan_inv : forall flds st st',
  exec_scan flds st = Some st' ->
  (forall c, ep_cmd st' = Some c <-> ep_cmd st = Some c \/ In (b "command", VStr c) flds) /\
  (forall l, ep_env st' = Some l <-> ep_env st = Some l \/ In (b "env", VTuple l) flds) /\
  (forall l, ep_args st' = Some l <-> ep_args st = Some l \/ In (b "args", VList l) flds).
Proof.
  induction flds as [|[n v] r IH]; intros st st' H.
  - apply some_inj in H. subst st'. cbn [In]. repeat split; tauto.
  - apply exec_scan_cons in H. destruct H as (st1 & H & A1 & B1 & C1).
    destruct (IH _ _ H) as (A & B & C).
    exact (conj (fun x => iff_or_trans (A x) (A1 x))
          (conj (fun x => iff_or_trans (B x) (B1 x)) (fun x => iff_or_trans (C x) (C1 x)))).
Qed.

Theorem exec_scan_spec : forall flds st,
  exec_scan flds (mk_exec_parts None None None) = Some st ->
  (forall c, ep_cmd st = Some c <-> In (b "command", VStr c) flds) /\
  (forall l, ep_env st = Some l <-> In (b "env", VTuple l) flds) /\
  (forall l, ep_args st = Some l <-> In (b "args", VList l) flds).
Proof.
  intros flds st H. destruct (exec_scan_inv _ _ _ H) as (A & B & C). cbn [ep_cmd ep_env ep_args] in *.
  split; [|split]; intros x; [rewrite A|rewrite B|rewrite C]; (split; [intros [E|I]; [discriminate E|exact I]|auto]).
Qed.

Definition exec_ex : val :=
  VTuple [ (b "args", VList [ VStr nasty; VTuple flags_ex; VStr []; VStr (b "-x") ]);
           (b "command", VStr (b "/bin/my prog'$(id)"));
           (b "env", VTuple [ (b "FOO", VStr nasty); (b "_x9", VStr []);
                              (b "Q", VStr (b "\""$`!*")) ]) ].

Example exec_script_ex :
  exists out, exec_emit exec_ex = Some out /\
  sh_items out =
  Some [ set_cmd;
         Assign (b "FOO") nasty; Assign (b "_x9") []; Assign (b "Q") (b "\""$`!*");
         Cmd ([ b "exec"; b "/bin/my prog'$(id)"; nasty ] ++ flags_spec flags_ex ++ [ []; b "-x" ]) ].
Proof. eexists. split; reflexivity. Qed.

(* hypotheses are needed: an env name that is not a shell identifier makes the
   line a command, not an assignment *)
Theorem exec_script_refuted_bad_env_name :
  exists out,
    exec_emit (VTuple [ (b "command", VStr (b "true")); (b "env", VTuple [ (b "my-var", VStr (b "1")) ]) ])
      = Some out /\
    sh_items out = Some [ set_cmd; Cmd [ b "my-var=1" ]; Cmd [ b "exec"; b "true" ] ].
Proof. eexists. split; reflexivity. Qed.
