(* Proofs about the shape model (Shape.v): C06 (constraints admit exactly the conforming values)
   and the C07 pieces (inhabitation, narrowing of two shapes of one value, soundness of derive). *)
From Ucg Require Import base.Bytes_Lemmas shape.Shape.

Lemma bytes_eqb_sym x y : bytes_eqb x y = bytes_eqb y x.
Proof. exact (Bytes_Lemmas.bytes_eqb_sym x y). Qed.

Lemma forallb_ext_in {A} (f g : A -> bool) l : (forall x, In x l -> f x = g x) -> forallb f l = forallb g l.
Proof. induction l; simpl; intros H; auto. rewrite H by (now left). rewrite IHl by (intros; apply H; now right). reflexivity. Qed.
Lemma existsb_ext_in {A} (f g : A -> bool) l : (forall x, In x l -> f x = g x) -> existsb f l = existsb g l.
Proof. induction l; simpl; intros H; auto. rewrite H by (now left). rewrite IHl by (intros; apply H; now right). reflexivity. Qed.
Lemma forallb_map {A B} (g : A -> B) (f : B -> bool) l : forallb f (map g l) = forallb (fun a => f (g a)) l.
Proof. induction l; simpl; auto. now rewrite IHl. Qed.
Lemma existsb_map {A B} (g : A -> B) (f : B -> bool) l : existsb f (map g l) = existsb (fun a => f (g a)) l.
Proof. induction l; simpl; auto. now rewrite IHl. Qed.

Lemma nodup_names_NoDup l : nodup_names l = true -> NoDup l.
Proof.
  induction l as [|k l IH]; simpl; intros H; constructor; apply andb_true_iff in H; destruct H as [H1 H2]; auto.
  intros I. apply negb_true_iff in H1.
  assert (existsb (bytes_eqb k) l = true) by (apply existsb_exists; exists k; split; auto; apply bytes_eqb_refl).
  congruence.
Qed.

(* lookup (values), re_get (VM values) and st_get (shapes) are this function at three types (the type is a
   section variable so that the fixpoint has their two arguments and is convertible with each) *)
Section Assoc0.
  Context {A : Type}.
  Fixpoint assoc_get (x : bytes) (l : list (bytes * A)) : option A :=
    match l with [] => None | (y, v) :: l' => if bytes_eqb x y then Some v else assoc_get x l' end.

  Lemma assoc_in {k l v} : assoc_get k l = Some v -> In (k, v) l.
  Proof.
    induction l as [|[k' y] l IH]; simpl; intros H; [discriminate|].
    destruct (bytes_eqb k k') eqn:E; [apply bytes_eqb_spec in E; inversion H; subst; now left|right; auto].
  Qed.
  Lemma assoc_NoDup l k v : NoDup (map fst l) -> In (k, v) l -> assoc_get k l = Some v.
  Proof.
    induction l as [|[k' y] l IH]; simpl; intros N I; [contradiction|].
    inversion N; subst. destruct I as [I|I].
    - inversion I; subst. now rewrite bytes_eqb_refl.
    - destruct (bytes_eqb k k') eqn:E; auto.
      apply bytes_eqb_spec in E. subst k'. exfalso. apply H1. change k with (fst (k, v)). now apply in_map.
  Qed.
  Lemma assoc_rev_NoDup l k : NoDup (map fst l) -> assoc_get k (rev l) = assoc_get k l.
  Proof.
    intros N. assert (Nr : NoDup (map fst (rev l))) by (rewrite map_rev; now apply NoDup_rev).
    destruct (assoc_get k l) as [v|] eqn:E.
    - apply (assoc_NoDup _ _ _ Nr). apply -> in_rev. exact (assoc_in E).
    - destruct (assoc_get k (rev l)) as [v|] eqn:Er; [|reflexivity].
      apply assoc_in, in_rev in Er. rewrite (assoc_NoDup _ _ _ N Er) in E. discriminate.
  Qed.
End Assoc0.

Lemma assoc_map {A B} (g : A -> B) k l :
  assoc_get k (map (fun '(k, x) => (k, g x)) l) = option_map g (assoc_get k l).
Proof. induction l as [|[k' x] l IH]; simpl; auto. destruct (bytes_eqb k k'); auto. Qed.
Lemma map_fst_map {A B} (g : A -> B) (l : list (bytes * A)) : map fst (map (fun '(k, x) => (k, g x)) l) = map fst l.
Proof. rewrite map_map. apply map_ext. intros [k x]; reflexivity. Qed.

Lemma shape_size_pos s : 1 <= shape_size s.
Proof. destruct s; simpl; lia. Qed.
Lemma in_shapes_size (l : list shape) x :
  In x l -> shape_size x <= fold_right (fun s n => shape_size s + n) 0 l.
Proof.
  induction l as [|y l IH]; simpl; intros H; [contradiction|].
  destruct H as [H|H]; [subst; lia|]. specialize (IH H). lia.
Qed.
Lemma in_fields_size (fs : list (bytes * shape)) k x :
  In (k, x) fs -> shape_size x <= fold_right (fun '(_, s) n => shape_size s + n) 0 fs.
Proof.
  induction fs as [|[k' y] fs IH]; simpl; intros H; [contradiction|].
  destruct H as [H|H]; [inversion H; subst; lia|]. specialize (IH H). lia.
Qed.


(* the call on (x, y) leaves the state alone and answers "compatible" iff c *)
Definition pure_at (nf : NF) (x y : shape) (c : bool) : Prop :=
  forall s, exists r, nf x y s = (r, s) /\ negb (is_err r) = c.

(* The shapes compared are the images under g of some other data (values, in the use below), and whether
   the call succeeds on two of them is decided by that data. *)
Section LoopLemmas.
  Variable nf : NF.
  Variable A : Type.
  Variable g : A -> shape.

  Lemma list_elem_match_pure x ys (c : A -> bool) :
    (forall y, In y ys -> pure_at nf x (g y) (c y)) ->
    forall s m, list_elem_match nf x (map g ys) s m = (m || existsb c ys, s).
  Proof.
    induction ys as [|y ys IH]; simpl; intros H s m.
    - now rewrite orb_false_r.
    - destruct (H y (or_introl eq_refl) s) as (r & E & Hc). rewrite E.
      rewrite IH by (intros; apply H; now right). rewrite Hc. now rewrite orb_assoc.
  Qed.

  Lemma list_subset_pure xs ys (c : A -> A -> bool) :
    (forall x y, In x xs -> In y ys -> pure_at nf (g x) (g y) (c x y)) ->
    forall s, list_subset nf (map g xs) (map g ys) s = (forallb (fun x => existsb (c x) ys) xs, s).
  Proof.
    induction xs as [|x xs IH]; simpl; intros H s; auto.
    rewrite (list_elem_match_pure (g x) ys (c x)) by (intros; apply H; auto).
    simpl. destruct (existsb (c x) ys); simpl; auto.
  Qed.

  Lemma any_compat_l_pure other ts (c : A -> bool) :
    (forall t, In t ts -> pure_at nf (g t) other (c t)) ->
    forall s acc, any_compat_l nf (map g ts) other s acc = (acc || existsb c ts, s).
  Proof.
    induction ts as [|t ts IH]; simpl; intros H s acc.
    - now rewrite orb_false_r.
    - destruct (H t (or_introl eq_refl) s) as (r & E & Hc). rewrite E.
      rewrite IH by (intros; apply H; now right). rewrite Hc. now rewrite orb_assoc.
  Qed.

  Lemma any_compat_r_pure other ts (c : A -> bool) :
    (forall t, In t ts -> pure_at nf other (g t) (c t)) ->
    forall s acc, any_compat_r nf (map g ts) other s acc = (acc || existsb c ts, s).
  Proof.
    induction ts as [|t ts IH]; simpl; intros H s acc.
    - now rewrite orb_false_r.
    - destruct (H t (or_introl eq_refl) s) as (r & E & Hc). rewrite E.
      rewrite IH by (intros; apply H; now right). rewrite Hc. now rewrite orb_assoc.
  Qed.

  Definition gf (kv : bytes * A) : bytes * shape := let '(k, x) := kv in (k, g x).

  Lemma tuple_field_match_pure lt ls rs (c : A -> bool) :
    (forall rt y, In (rt, y) rs -> pure_at nf ls (g y) (c y)) ->
    forall s m, tuple_field_match nf lt ls (map gf rs) s m
                = (m || existsb (fun '(rt, y) => bytes_eqb rt lt && c y) rs, s).
  Proof.
    induction rs as [|[rt y] rs IH]; simpl; intros H s m.
    - now rewrite orb_false_r.
    - destruct (bytes_eqb rt lt) eqn:E; simpl.
      + destruct (H rt y (or_introl eq_refl) s) as (r & Er & Hc). rewrite Er.
        rewrite IH by (intros; eapply H; right; eauto). rewrite Hc. now rewrite orb_assoc.
      + apply IH. intros; eapply H; right; eauto.
  Qed.

  Lemma tuple_subset_pure lf rf (c : A -> A -> bool) :
    (forall lt x rt y, In (lt, x) lf -> In (rt, y) rf -> pure_at nf (g x) (g y) (c x y)) ->
    forall s, tuple_subset nf (map gf lf) (map gf rf) s
              = (forallb (fun '(lt, x) => existsb (fun '(rt, y) => bytes_eqb rt lt && c x y) rf) lf, s).
  Proof.
    induction lf as [|[lt x] lf IH]; simpl; intros H s; auto.
    rewrite (tuple_field_match_pure lt (g x) rf (c x)) by (intros; eapply H; eauto).
    simpl. destruct (existsb _ rf); simpl; auto.
    apply IH. intros; eapply H; eauto.
  Qed.
End LoopLemmas.

(* the last step of narrow_cached on two lists or two tuples: the subset test one way, then the other.
   When both tests are pure so is the step, and it succeeds iff one of them does. *)
Lemma two_way_pure (t1 t2 : nst -> bool * nst) (a c : bool) (l r : shape) :
  (forall s, t1 s = (a, s)) -> (forall s, t2 s = (c, s)) -> is_err l = false -> is_err r = false ->
  forall s, exists res,
    (let '(x, s1) := t1 s in
     if x then (l, s1) else let '(y, s2) := t2 s1 in if y then (r, s2) else (SErr EType, s2)) = (res, s)
    /\ negb (is_err res) = a || c.
Proof.
  intros H1 H2 El Er s. rewrite H1. destruct a; [eexists; split; [reflexivity|now rewrite El]|].
  rewrite H2. destruct c; eexists; (split; [reflexivity|]); [now rewrite Er|reflexivity].
Qed.

(* induction on values through the nested lists *)
Section ValueInd.
  Variable fo : float_ops.
  Notation value := (value fo).
  Variable P : value -> Prop.
  Hypothesis Hnull : P VNull.
  Hypothesis Hbool : forall x, P (VBool x).
  Hypothesis Hint : forall z, P (VInt z).
  Hypothesis Hfloat : forall x, P (VFloat x).
  Hypothesis Hstr : forall s, P (VStr s).
  Hypothesis Hlist : forall l, Forall P l -> P (VList l).
  Hypothesis Htuple : forall fs, Forall (fun kv => P (snd kv)) fs -> P (VTuple fs).
  Hypothesis Hfunc : forall ps body clo, P (VFunc ps body clo).
  Hypothesis Hmodule : forall ps out body, P (VModule ps out body).
  Fixpoint value_ind2 (v : value) : P v :=
    match v with
    | VNull => Hnull | VBool x => Hbool x | VInt z => Hint z | VFloat x => Hfloat x | VStr s => Hstr s
    | VList l => Hlist l ((fix go (l : list value) : Forall P l :=
                             match l with
                             | [] => Forall_nil _
                             | x :: l' => Forall_cons _ (value_ind2 x) (go l')
                             end) l)
    | VTuple fs => Htuple fs ((fix go (fs : list (bytes * value)) : Forall (fun kv => P (snd kv)) fs :=
                                 match fs with
                                 | [] => Forall_nil _
                                 | kv :: fs' => Forall_cons _ (value_ind2 (snd kv)) (go fs')
                                 end) fs)
    | VFunc ps body clo => Hfunc ps body clo
    | VModule ps out body => Hmodule ps out body
    end.
End ValueInd.

Section Assoc.
  Variable fo : float_ops.
  Notation value := (value fo).
  Notation lookup := (lookup fo).

  Lemma existsb_names_lookup k (fs : list (bytes * value)) :
    existsb (bytes_eqb k) (names fs) = match lookup k fs with Some _ => true | None => false end.
  Proof.
    induction fs as [|[k' x] fs IH]; simpl; auto.
    destruct (bytes_eqb k k'); simpl; auto.
  Qed.

  Lemma nodup_in_lookup (fs : list (bytes * value)) k x :
    nodup_names (names fs) = true -> In (k, x) fs -> lookup k fs = Some x.
  Proof. intros N. apply (assoc_NoDup fs k x). now apply nodup_names_NoDup. Qed.

  Lemma existsb_field_lookup (fs : list (bytes * value)) k (c : value -> bool) :
    nodup_names (names fs) = true ->
    existsb (fun '(rt, y) => bytes_eqb rt k && c y) fs
    = match lookup k fs with Some y => c y | None => false end.
  Proof.
    intros N. apply eq_iff_eq_true. rewrite existsb_exists. split.
    - intros ([rt y] & I & H). apply andb_true_iff in H. destruct H as [H1 H2].
      apply bytes_eqb_spec in H1. subst rt. now rewrite (nodup_in_lookup _ _ _ N I).
    - destruct (lookup k fs) as [y|] eqn:E; [|discriminate]. intros H.
      exists (k, y). split; [now apply (@assoc_in value)|]. now rewrite bytes_eqb_refl.
  Qed.

  Lemma tuple_subset_agree (fa fb : list (bytes * value)) (c : value -> value -> bool) :
    nodup_names (names fb) = true ->
    forallb (fun '(lt, x) => existsb (fun '(rt, y) => bytes_eqb rt lt && c x y) fb) fa
    = subset_names (names fa) (names fb)
      && forallb (fun '(k, x) => match lookup k fb with Some y => c x y | None => true end) fa.
  Proof.
    intros Nb. unfold subset_names. induction fa as [|[k x] fa IH]; simpl; auto.
    rewrite IH, (existsb_field_lookup fb k (c x) Nb), existsb_names_lookup.
    destruct (lookup k fb) as [y|]; simpl; auto. destruct (c x y); simpl; auto. now rewrite andb_false_r.
  Qed.

  (* the two subset tests against the specification wording:
     "agreeing on the fields they share, with one field set contained in the other" *)
  Lemma tuple_subsets_spec (fa fb : list (bytes * value)) (c : value -> value -> bool) :
    nodup_names (names fa) = true -> nodup_names (names fb) = true ->
    forallb (fun '(lt, x) => existsb (fun '(rt, y) => bytes_eqb rt lt && c x y) fb) fa
    || forallb (fun '(rt, y) => existsb (fun '(lt, x) => bytes_eqb lt rt && c x y) fa) fb
    = (subset_names (names fa) (names fb) || subset_names (names fb) (names fa))
      && forallb (fun '(k, x) => match lookup k fb with Some y => c x y | None => true end) fa.
  Proof.
    intros Na Nb.
    rewrite (tuple_subset_agree fa fb c Nb), (tuple_subset_agree fb fa (fun y x => c x y) Na).
    (* the shared fields agree, seen from either side *)
    replace (forallb (fun '(k, y) => match lookup k fa with Some x => c x y | None => true end) fb)
      with (forallb (fun '(k, x) => match lookup k fb with Some y => c x y | None => true end) fa).
    { destruct (subset_names (names fa) (names fb)), (subset_names (names fb) (names fa)), (forallb _ fa); reflexivity. }
    apply eq_iff_eq_true. rewrite !forallb_forall. split.
    - intros H [k y] I. destruct (lookup k fa) as [x|] eqn:E; auto.
      specialize (H (k, x) (assoc_in E)). simpl in H.
      now rewrite (nodup_in_lookup _ _ _ Nb I) in H.
    - intros H [k x] I. destruct (lookup k fb) as [y|] eqn:E; auto.
      specialize (H (k, y) (assoc_in E)). simpl in H.
      now rewrite (nodup_in_lookup _ _ _ Na I) in H.
  Qed.
End Assoc.

Section Ground.
  Variable fo : float_ops.
  Notation value := (value fo).
  Notation sh := (shape_of_value fo).
  Notation same := (same_shape fo true).
  Notation lit := (literal_value fo).

  Lemma lit_list_in (l : list value) x : lit (VList l) = true -> In x l -> lit x = true.
  Proof. simpl. intros H I. rewrite forallb_forall in H. auto. Qed.
  Lemma lit_tuple_in (fs : list (bytes * value)) k x : lit (VTuple fs) = true -> In (k, x) fs -> lit x = true.
  Proof.
    simpl. intros H I. apply andb_true_iff in H. destruct H as [_ H].
    rewrite forallb_forall in H. apply (H (k, x) I).
  Qed.
  Lemma lit_tuple_nodup (fs : list (bytes * value)) : lit (VTuple fs) = true -> nodup_names (names fs) = true.
  Proof. simpl. intros H. apply andb_true_iff in H. tauto. Qed.

  Lemma same_list nb (l l' : list value) :
    same_shape fo nb (VList l) (VList l')
    = forallb (fun x => existsb (fun y => same_shape fo nb x y) l') l
      || forallb (fun y => existsb (fun x => same_shape fo nb x y) l) l'.
  Proof. reflexivity. Qed.
  Lemma same_tuple nb (fs fs' : list (bytes * value)) :
    same_shape fo nb (VTuple fs) (VTuple fs')
    = (subset_names (names fs) (names fs') || subset_names (names fs') (names fs))
      && forallb (fun '(k, x) => match lookup fo k fs' with Some y => same_shape fo nb x y | None => true end) fs.
  Proof. reflexivity. Qed.

  Ltac prim_case := split; (let st := fresh "st" in intro st); eexists; (split; [reflexivity | reflexivity]).

  (* narrowing two literal shapes, in either order: no state change, and the answer is the
     specification's "same shape" (NULL = any type) *)
  Lemma narrow_lit : forall f (a c : value),
    shape_size (sh a) + shape_size (sh c) <= f ->
    lit a = true -> lit c = true ->
    pure_at (narrow_f f) (sh a) (sh c) (same a c) /\
    pure_at (narrow_f f) (sh c) (sh a) (same a c).
  Proof.
    induction f as [|f IH]; intros a c Hsz La Lc.
    { pose proof (shape_size_pos (sh a)). pose proof (shape_size_pos (sh c)). lia. }
    destruct a as [| | | | |la|fa| |]; try discriminate La;
      destruct c as [| | | | |lc|fc| |]; try discriminate Lc; try prim_case.
    - assert (P : forall x y, In x la -> In y lc ->
                    pure_at (narrow_f f) (sh x) (sh y) (same x y) /\ pure_at (narrow_f f) (sh y) (sh x) (same x y)).
      { intros x y Ix Iy. apply IH; eauto using lit_list_in.
        pose proof (in_shapes_size _ _ (in_map sh _ _ Ix)). pose proof (in_shapes_size _ _ (in_map sh _ _ Iy)).
        simpl in Hsz. lia. }
      pose proof (list_subset_pure (narrow_f f) value sh la lc (fun x y => same x y)
                    (fun x y Ix Iy => proj1 (P x y Ix Iy))) as T1.
      pose proof (list_subset_pure (narrow_f f) value sh lc la (fun y x => same x y)
                    (fun y x Iy Ix => proj2 (P x y Ix Iy))) as T2.
      rewrite same_list. split; intro s.
      + exact (two_way_pure _ _ _ _ (sh (VList la)) (sh (VList lc)) T1 T2 eq_refl eq_refl s).
      + rewrite orb_comm. exact (two_way_pure _ _ _ _ (sh (VList lc)) (sh (VList la)) T2 T1 eq_refl eq_refl s).
    - assert (P : forall lt x rt y, In (lt, x) fa -> In (rt, y) fc ->
                    pure_at (narrow_f f) (sh x) (sh y) (same x y) /\ pure_at (narrow_f f) (sh y) (sh x) (same x y)).
      { intros lt x rt y Ix Iy. apply IH; eauto using lit_tuple_in.
        pose proof (in_fields_size _ _ _ (in_map (fun '(k, x) => (k, sh x)) _ _ Ix)).
        pose proof (in_fields_size _ _ _ (in_map (fun '(k, x) => (k, sh x)) _ _ Iy)).
        simpl in Hsz. lia. }
      pose proof (tuple_subset_pure (narrow_f f) value sh fa fc (fun x y => same x y)
                    (fun lt x rt y Ix Iy => proj1 (P lt x rt y Ix Iy))) as T1.
      pose proof (tuple_subset_pure (narrow_f f) value sh fc fa (fun y x => same x y)
                    (fun rt y lt x Iy Ix => proj2 (P lt x rt y Ix Iy))) as T2.
      rewrite same_tuple, <- (tuple_subsets_spec fo fa fc (fun x y => same x y)) by eauto using lit_tuple_nodup.
      split; intro s.
      + exact (two_way_pure _ _ _ _ (sh (VTuple fa)) (sh (VTuple fc)) T1 T2 eq_refl eq_refl s).
      + rewrite orb_comm. exact (two_way_pure _ _ _ _ (sh (VTuple fc)) (sh (VTuple fa)) T2 T1 eq_refl eq_refl s).
  Qed.
End Ground.

Section C06.
  Variable fo : float_ops.
  Notation value := (value fo).
  Notation sh := (shape_of_value fo).
  Notation rv := (rv_of_value fo).
  Notation same := (same_shape fo true).
  Notation lit := (literal_value fo).

  Lemma narrow_fuel_ge st l r : shape_size l + shape_size r <= narrow_fuel st l r.
  Proof. unfold narrow_fuel. nia. Qed.
  Lemma narrow_fuel_S st l r : exists f, narrow_fuel st l r = S f.
  Proof. eexists. unfold narrow_fuel. apply Nat.add_succ_r. Qed.

  Lemma narrow_st_lit st ex v :
    lit ex = true -> lit v = true ->
    exists r, narrow_st st (sh v) (sh ex) = (r, st) /\ negb (is_err r) = same ex v.
  Proof.
    intros Le Lv. unfold narrow_st.
    destruct (narrow_lit fo (narrow_fuel st (sh v) (sh ex)) ex v) as [_ H]; auto.
    { pose proof (narrow_fuel_ge st (sh v) (sh ex)). lia. }
    destruct (H (mk_nst st [])) as (r & E & C). rewrite E. simpl. eauto.
  Qed.

  (* the exemplar, or for each arm the value whose shape stands for it: a bound of the range, the alternative *)
  Definition arm_witness (a : varm fo) : value :=
    match a with
    | VRange (Some lo) _ => lo
    | VRange None (Some hi) => hi
    | VRange None None => VNull
    | VExact v => v
    end.
  Definition witnesses (c : vconstraint fo) : list value :=
    match c with VExemplar ex => [ex] | VAlt arms => map arm_witness arms end.
  (* one value gives its shape, several a candidate set *)
  Definition shape_of_witnesses (ws : list value) : shape :=
    let shapes := map sh ws in match shapes with [x] => x | _ => SNarrowed shapes end.
  Definition is_null (v : value) : bool := match v with VNull => true | _ => false end.
  Definition admits_static (ws : list value) (v : value) : bool :=
    match ws with [w] => same w v | _ => is_null v || existsb (fun w => same w v) ws end.

  (* the ranges of the grammar: one or two bounds, integers or floats *)
  Inductive range_form : option value -> option value -> Prop :=
  | RF_ii x y : range_form (Some (VInt x)) (Some (VInt y))
  | RF_i x : range_form (Some (VInt x)) None
  | RF__i y : range_form None (Some (VInt y))
  | RF_ff x y : range_form (Some (VFloat x)) (Some (VFloat y))
  | RF_f x : range_form (Some (VFloat x)) None
  | RF__f y : range_form None (Some (VFloat y)).
  Lemma range_ok_form lo hi : range_ok fo lo hi = true -> range_form lo hi.
  Proof. destruct lo as [[]|], hi as [[]|]; try discriminate; constructor. Qed.

  Lemma arm_witness_lit a : arm_grammar fo a = true -> lit (arm_witness a) = true.
  Proof. destruct a as [lo hi|v]; simpl; auto. intros G. destruct (range_ok_form _ _ G); reflexivity. Qed.

  Lemma witnesses_lit c : constraint_grammar fo c = true -> forallb lit (witnesses c) = true /\ witnesses c <> [].
  Proof.
    destruct c as [ex|arms]; simpl; intros G.
    - rewrite G. split; [reflexivity|discriminate].
    - apply andb_true_iff in G. destruct G as [G Gl]. split; [|destruct arms; discriminate].
      rewrite forallb_map. apply forallb_forall. rewrite forallb_forall in G. auto using arm_witness_lit.
  Qed.

  Lemma vshape_witnesses c :
    constraint_grammar fo c = true -> vshape_of_constraint fo c = shape_of_witnesses (witnesses c).
  Proof.
    destruct c as [ex|arms]; simpl; intros G; [reflexivity|].
    apply andb_true_iff in G. destruct G as [G _]. unfold shape_of_witnesses. rewrite map_map.
    erewrite map_ext_in; [reflexivity|]. intros a I. rewrite forallb_forall in G. specialize (G a I).
    destruct a as [[lo|] [hi|]|w]; simpl in *; auto; discriminate.
  Qed.

  Lemma narrow_f_cands_r f l t ts s :
    is_err l = false -> ref_name l = None -> hole_name l = None -> is_any l = false ->
    is_empty_narrowed l = false -> cands l = None ->
    narrow_f (S f) l (SNarrowed (t :: ts)) s
    = let '(ok, s1) := any_compat_r (narrow_f f) (t :: ts) l s false in ((if ok then l else SErr EType), s1).
  Proof.
    intros. destruct l; try discriminate; try (destruct ts0; discriminate); reflexivity.
  Qed.

  Lemma lit_shape_class v :
    lit v = true -> is_null v = false ->
    is_err (sh v) = false /\ ref_name (sh v) = None /\ hole_name (sh v) = None /\ is_any (sh v) = false
    /\ is_empty_narrowed (sh v) = false /\ cands (sh v) = None.
  Proof. destruct v; simpl; intros; try discriminate; repeat split; reflexivity. Qed.

  (* against a candidate set: NULL fits, any other value has to fit one candidate *)
  Lemma narrow_st_narrowed st (ws : list value) v :
    forallb lit ws = true -> lit v = true -> ws <> [] ->
    exists r, narrow_st st (sh v) (SNarrowed (map sh ws)) = (r, st)
              /\ negb (is_err r) = is_null v || existsb (fun w => same w v) ws.
  Proof.
    intros Lw Lv Hne. unfold narrow_st.
    pose proof (narrow_fuel_ge st (sh v) (SNarrowed (map sh ws))) as Hf.
    destruct (narrow_fuel st (sh v) (SNarrowed (map sh ws))) as [|f] eqn:Ef.
    { pose proof (shape_size_pos (sh v)). lia. }
    destruct (is_null v) eqn:Nv.
    { destruct v; try discriminate. eexists. split; reflexivity. }
    destruct ws as [|w ws]; [congruence|].
    destruct (lit_shape_class v Lv Nv) as (C1 & C2 & C3 & C4 & C5 & C6).
    change (map sh (w :: ws)) with (sh w :: map sh ws).
    rewrite narrow_f_cands_r by assumption.
    change (sh w :: map sh ws) with (map sh (w :: ws)).
    rewrite (any_compat_r_pure (narrow_f f) value sh (sh v) (w :: ws) (fun x => same x v)).
    - simpl. eexists. split; [reflexivity|].
      destruct (same w v || existsb (fun x => same x v) ws); simpl; [now rewrite C1|reflexivity].
    - intros t It. apply (narrow_lit fo f t v); auto.
      + pose proof (in_shapes_size _ _ (in_map sh _ _ It)) as H. simpl in Hf, H. lia.
      + rewrite forallb_forall in Lw. auto.
  Qed.

  Lemma narrow_st_witnesses st ws v :
    forallb lit ws = true -> ws <> [] -> lit v = true ->
    exists r, narrow_st st (sh v) (shape_of_witnesses ws) = (r, st) /\ negb (is_err r) = admits_static ws v.
  Proof.
    intros Lw Hne Lv. destruct ws as [|w [|w2 ws]]; [congruence| |].
    - simpl in Lw. rewrite andb_true_r in Lw. apply (narrow_st_lit st w v Lw Lv).
    - apply (narrow_st_narrowed st (w :: w2 :: ws) v Lw Lv Hne).
  Qed.

  (* the static half does not depend on the symbol table *)
  Lemma narrow_st_grammar st c v :
    constraint_grammar fo c = true -> lit v = true ->
    exists r, narrow_st st (sh v) (vshape_of_constraint fo c) = (r, st)
              /\ negb (is_err r) = admits_static (witnesses c) v.
  Proof.
    intros G Lv. rewrite (vshape_witnesses c G). destruct (witnesses_lit c G). now apply narrow_st_witnesses.
  Qed.

  Lemma static_ok_witnesses c v :
    constraint_grammar fo c = true -> lit v = true -> static_ok fo c v = admits_static (witnesses c) v.
  Proof.
    intros G Lv. unfold static_ok, narrow.
    destruct (narrow_st_grammar [] c v G Lv) as (r & E & C). rewrite E. exact C.
  Qed.

  Lemma admits_static_in ws w v : In w ws -> same w v = true -> admits_static ws v = true.
  Proof.
    intros I S. destruct ws as [|w1 [|w2 ws]]; [destruct I|destruct I as [->|[]]; exact S|].
    apply orb_true_iff. right. apply existsb_exists. eauto.
  Qed.

  Definition eqres (o : option bool) : bool := match o with Some true => true | _ => false end.

  Lemma rv_list_eq_spec (x : list value) :
    Forall (fun v => forall w, lit v = true -> lit w = true ->
                               eqres (rv_equal fo (rv v) (rv w)) = val_eqb fo v w) x ->
    forall y, forallb lit x = true -> forallb lit y = true ->
      eqres (if negb (Nat.eqb (List.length x) (List.length y)) then Some false
             else rv_list_eq fo (fun v w => rv_equal fo v w) (map rv x) (map rv y))
      = val_list_eqb fo (fun v w => val_eqb fo v w) x y.
  Proof.
    induction 1 as [|v x Hv Hx IH]; intros y Lx Ly; destruct y as [|w y]; simpl in *; auto.
    apply andb_true_iff in Lx, Ly. destruct Lx as [Lv Lx], Ly as [Lw Ly].
    rewrite <- (IH y Lx Ly), <- (Hv w Lv Lw).
    destruct (negb (Nat.eqb (List.length x) (List.length y))).
    - simpl. now rewrite andb_false_r.
    - destruct (rv_equal fo (rv v) (rv w)) as [[|]|]; reflexivity.
  Qed.

  Lemma rv_fields_eq_spec (x : list (bytes * value)) :
    Forall (fun kv => forall w, lit (snd kv) = true -> lit w = true ->
                                eqres (rv_equal fo (rv (snd kv)) (rv w)) = val_eqb fo (snd kv) w) x ->
    forall y, forallb (fun '(_, v) => lit v) x = true -> forallb (fun '(_, v) => lit v) y = true ->
      eqres (if negb (Nat.eqb (List.length x) (List.length y)) then Some false
             else rv_fields_eq fo (fun v w => rv_equal fo v w)
                               (map (fun '(k, v) => (k, rv v)) x) (map (fun '(k, v) => (k, rv v)) y))
      = val_fields_eqb fo (fun v w => val_eqb fo v w) x y.
  Proof.
    induction 1 as [|[k v] x Hv Hx IH]; intros y Lx Ly; destruct y as [|[k' w] y]; simpl in *; auto.
    apply andb_true_iff in Lx, Ly. destruct Lx as [Lv Lx], Ly as [Lw Ly].
    rewrite <- (IH y Lx Ly), <- (Hv w Lv Lw).
    destruct (negb (Nat.eqb (List.length x) (List.length y))).
    - simpl. now rewrite !andb_false_r.
    - destruct (bytes_eqb k k'); simpl; auto.
      destruct (rv_equal fo (rv v) (rv w)) as [[|]|]; reflexivity.
  Qed.

  Lemma eqres_some c : eqres (Some c) = c.
  Proof. destruct c; reflexivity. Qed.

  Lemma rv_equal_val_eqb : forall v w, lit v = true -> lit w = true ->
    eqres (rv_equal fo (rv v) (rv w)) = val_eqb fo v w.
  Proof.
    induction v as [| | | | |l IH|fs IH| |] using (value_ind2 fo); intros w Lv Lw;
      destruct w as [| | | | |l'|fs'| |]; try discriminate; try reflexivity;
        try (simpl; apply eqres_some).
    - simpl rv_of_value. simpl rv_equal. rewrite !map_length. now apply rv_list_eq_spec.
    - simpl rv_of_value. simpl rv_equal. rewrite !map_length.
      simpl in Lv, Lw. apply andb_true_iff in Lv, Lw. apply rv_fields_eq_spec; tauto.
  Qed.

  Lemma val_list_eqb_same (l : list value) :
    Forall (fun v => forall w, lit v = true -> lit w = true -> val_eqb fo v w = true -> same w v = true) l ->
    forall l0, forallb lit l = true -> forallb lit l0 = true ->
               val_list_eqb fo (fun v w => val_eqb fo v w) l l0 = true ->
               forallb (fun x => existsb (fun y => same x y) l) l0 = true.
  Proof.
    induction 1 as [|v l Hv Hl IH]; intros l0 L1 L2 E; destruct l0 as [|w l0]; simpl in *; try discriminate; auto.
    apply andb_true_iff in L1, L2, E. destruct L1 as [Lv L1], L2 as [Lw L2], E as [E1 E2].
    rewrite (Hv w Lv Lw E1). simpl.
    specialize (IH l0 L1 L2 E2). rewrite forallb_forall in *. intros x I. rewrite (IH x I). apply orb_true_r.
  Qed.

  Lemma val_fields_eqb_names (fs fs0 : list (bytes * value)) :
    val_fields_eqb fo (fun v w => val_eqb fo v w) fs fs0 = true -> names fs = names fs0.
  Proof.
    revert fs0. induction fs as [|[k v] fs IH]; intros [|[k' w] fs0] E; simpl in *; try discriminate; auto.
    apply andb_true_iff in E. destruct E as [E E2]. apply andb_true_iff in E. destruct E as [E0 E1].
    apply bytes_eqb_spec in E0. subst. f_equal. auto.
  Qed.

  Lemma val_fields_eqb_in (fs fs0 : list (bytes * value)) k x :
    val_fields_eqb fo (fun v w => val_eqb fo v w) fs fs0 = true -> In (k, x) fs0 ->
    exists a, In (k, a) fs /\ val_eqb fo a x = true.
  Proof.
    revert fs0. induction fs as [|[k0 v] fs IH]; intros [|[k' w] fs0] E I; simpl in *; try discriminate; try contradiction.
    apply andb_true_iff in E. destruct E as [E E2]. apply andb_true_iff in E. destruct E as [E0 E1].
    apply bytes_eqb_spec in E0. subst. destruct I as [I|I].
    - inversion I; subst. eauto.
    - destruct (IH fs0 E2 I) as (a & Ia & Ea). eauto.
  Qed.

  Lemma subset_names_refl l : subset_names l l = true.
  Proof.
    unfold subset_names. rewrite forallb_forall. intros k I. rewrite existsb_exists.
    exists k. split; auto. apply bytes_eqb_refl.
  Qed.

  Lemma val_eqb_same : forall v w, lit v = true -> lit w = true -> val_eqb fo v w = true -> same w v = true.
  Proof.
    induction v as [| | | | |l IH|fs IH| |] using (value_ind2 fo); intros w Lv Lw E;
      destruct w as [| | | | |l'|fs'| |]; try discriminate; try reflexivity.
    - simpl in E. simpl in Lv, Lw.
      rewrite same_list, (val_list_eqb_same l IH l' Lv Lw E). reflexivity.
    - simpl in E.
      rewrite same_tuple, (val_fields_eqb_names _ _ E), subset_names_refl. simpl.
      rewrite forallb_forall. intros [k x] I.
      destruct (val_fields_eqb_in _ _ k x E I) as (a & Ia & Ea).
      rewrite (nodup_in_lookup fo fs k a (lit_tuple_nodup fo fs Lv) Ia).
      rewrite Forall_forall in IH. apply (IH (k, a) Ia); auto.
      + apply (lit_tuple_in fo fs k a Lv Ia).
      + apply (lit_tuple_in fo fs' k x Lw I).
  Qed.

  Definition arm_admits (v : value) (a : varm fo) : bool :=
    match a with
    | VRange lo hi => in_range fo lo hi v
    | VExact w => val_eqb fo v w
    end.

  Lemma conforms_alt arms v : conforms fo (VAlt arms) v = existsb (arm_admits v) arms.
  Proof. reflexivity. Qed.

  Lemma arm_admits_same a v :
    arm_grammar fo a = true -> lit v = true -> arm_admits v a = true -> same (arm_witness a) v = true.
  Proof.
    destruct a as [lo hi|w]; simpl; intros G Lv E.
    - destruct (range_ok_form _ _ G); destruct v; simpl in E; try discriminate; reflexivity.
    - apply val_eqb_same; auto.
  Qed.

  Definition rarm_check (v : rval fo) (a : rarm fo) : bool :=
    match a with
    | RRangeI lo hi => match v with
                       | RInt z => le_opt_lo Z.leb lo z && le_opt_hi Z.leb z hi
                       | _ => false end
    | RRangeF lo hi => match v with
                       | RFloat x => le_opt_lo (fleb fo) lo x && le_opt_hi (fleb fo) x hi
                       | _ => false end
    | RExact expected => match rv_equal fo v expected with Some true => true | _ => false end
    end.

  Lemma cv_check_nonempty a arms v : cv_check fo (a :: arms) v = existsb (rarm_check v) (a :: arms).
  Proof. reflexivity. Qed.

  Lemma no_empty_constraint : forall v : value, contains_empty_constraint fo (rv v) = false.
  Proof.
    induction v as [| | | | |l IH|fs IH| |] using (value_ind2 fo); try reflexivity.
    - simpl. induction IH as [|x l Hx Hl IHl]; simpl; auto. now rewrite Hx.
    - simpl. induction IH as [|[k x] fs Hx Hf IHf]; simpl in *; auto. now rewrite Hx.
  Qed.

  Lemma rarm_of_spec a :
    arm_grammar fo a = true ->
    exists ra, rarm_of fo a = Some ra
               /\ (match ra with RExact w => contains_empty_constraint fo w | _ => false end) = false
               /\ forall v, lit v = true -> rarm_check (rv v) ra = arm_admits v a.
  Proof.
    destruct a as [lo hi|w]; simpl; intros G.
    - destruct (range_ok_form _ _ G); eexists; (split; [reflexivity|]); (split; [reflexivity|]);
        intros v Lv; destruct v; simpl; rewrite ?andb_true_r; reflexivity.
    - eexists. split; [reflexivity|]. split; [apply no_empty_constraint|].
      intros v Lv. simpl. apply (rv_equal_val_eqb v w Lv G).
  Qed.

  Lemma rarms_of_spec arms :
    forallb (arm_grammar fo) arms = true ->
    exists rs, rarms_of fo arms = Some rs
               /\ List.length rs = List.length arms
               /\ contains_self_ref fo rs = false
               /\ forall v, lit v = true -> existsb (rarm_check (rv v)) rs = existsb (arm_admits v) arms.
  Proof.
    induction arms as [|a arms IH]; simpl; intros G.
    - exists []. repeat split; auto.
    - apply andb_true_iff in G. destruct G as [Ga G].
      destruct (rarm_of_spec a Ga) as (ra & Ea & Ca & Ha).
      destruct (IH G) as (rs & Es & Ls & Cs & Hs).
      rewrite Ea, Es. exists (ra :: rs). split; [reflexivity|]. split; [simpl; congruence|]. split.
      + unfold contains_self_ref in *. simpl. rewrite Cs. rewrite orb_false_r. exact Ca.
      + intros v Lv. simpl. now rewrite Ha, Hs.
  Qed.

  Lemma runtime_alt arms v :
    forallb (arm_grammar fo) arms = true -> arms <> [] -> lit v = true ->
    runtime_ok fo (VAlt arms) v = conforms fo (VAlt arms) v.
  Proof.
    intros G Hne Lv. rewrite conforms_alt. unfold runtime_ok.
    destruct (rarms_of_spec arms G) as (rs & Es & Ls & Cs & Hs). rewrite Es.
    unfold check_constraint. rewrite Cs.
    destruct rs as [|r rs]; [destruct arms; [congruence|discriminate]|].
    rewrite cv_check_nonempty. apply Hs, Lv.
  Qed.

  Lemma conforms_static c v :
    constraint_grammar fo c = true -> lit v = true -> conforms fo c v = true -> static_ok fo c v = true.
  Proof.
    intros G Lv C. rewrite (static_ok_witnesses c v G Lv). destruct c as [ex|arms].
    - apply (admits_static_in [ex] ex); [now left|exact C].
    - rewrite conforms_alt in C. apply existsb_exists in C. destruct C as (a & Ia & Ha).
      simpl in G. apply andb_true_iff in G. destruct G as [G _]. rewrite forallb_forall in G.
      apply (admits_static_in _ (arm_witness a)); [now apply in_map|]. apply arm_admits_same; auto.
  Qed.

  (* the run-time exemplar check (VM::conforms_to_exemplar, fix 761a6c7) is the specification's "same shape" on
     data values *)
  Notation rvf := (fun '(k, x) => (k, rv x)).

  (* the LAST binding of a name in the VM tuple is the field of the value (names are distinct) *)
  Lemma re_get_rev_map (fv : list (bytes * value)) k :
    nodup_names (names fv) = true ->
    re_get fo k (rev (map rvf fv)) = option_map rv (lookup fo k fv).
  Proof.
    intros N. transitivity (assoc_get k (map rvf fv)); [|apply (assoc_map rv k fv)].
    apply (assoc_rev_NoDup (A := rval fo)). rewrite map_fst_map. now apply nodup_names_NoDup.
  Qed.

  Theorem runtime_exemplar_conforms : forall ex v,
    lit ex = true -> lit v = true -> rv_conforms fo (rv ex) (rv v) = same ex v.
  Proof.
    induction ex as [| | | | |le IH|fe IH| |] using (value_ind2 fo); intros v Le Lv;
      try discriminate Le; destruct v as [| | | | |lv|fv| |]; try discriminate Lv; try reflexivity.
    - change (rv (VList le)) with (RList (map rv le)). change (rv (VList lv)) with (RList (map rv lv)).
      rewrite same_list. simpl rv_conforms. rewrite !forallb_map.
      rewrite Forall_forall in IH. simpl in Le, Lv. rewrite forallb_forall in Le, Lv.
      f_equal.
      + apply forallb_ext_in. intros x Ix. rewrite existsb_map. apply existsb_ext_in. intros y Iy. apply IH; auto.
      + apply forallb_ext_in. intros y Iy. rewrite existsb_map. apply existsb_ext_in. intros x Ix. apply IH; auto.
    - change (rv (VTuple fe)) with (RTuple (map rvf fe)). change (rv (VTuple fv)) with (RTuple (map rvf fv)).
      rewrite same_tuple. simpl rv_conforms. rewrite !forallb_map.
      pose proof (lit_tuple_nodup fo fe Le) as Ne. pose proof (lit_tuple_nodup fo fv Lv) as Nv.
      f_equal; [f_equal|].
      + unfold subset_names. change (names fe) with (map fst fe). rewrite forallb_map. apply forallb_ext_in. intros [k x] _.
        simpl fst. rewrite (re_get_rev_map fv k Nv). rewrite existsb_names_lookup. destruct (lookup fo k fv); reflexivity.
      + unfold subset_names. change (names fv) with (map fst fv). rewrite forallb_map. apply forallb_ext_in. intros [k y] _.
        simpl fst. rewrite (re_get_rev_map fe k Ne). rewrite existsb_names_lookup. destruct (lookup fo k fe); reflexivity.
      + rewrite Forall_forall in IH. apply forallb_ext_in. intros [k x] I.
        rewrite (re_get_rev_map fv k Nv). destruct (lookup fo k fv) as [y|] eqn:L; simpl; auto.
        apply (IH (k, x) I).
        * apply (lit_tuple_in fo fe k x Le I).
        * apply (lit_tuple_in fo fv k y Lv). now apply (@assoc_in value).
  Qed.

  (* data values: NULL, booleans, numbers, strings, lists and tuples (distinct field names) of such -
     every value the evaluator can bind except functions and modules *)
  Definition data_value (v : value) : bool := literal_value fo v.

  (* with that check (fix 761a6c7) the run-time half alone decides conformance to an exemplar *)
  Theorem runtime_exemplar_exact : forall ex v,
    literal_value fo ex = true -> data_value v = true ->
    runtime_ok fo (VExemplar ex) v = same_shape fo true ex v.
  Proof. intros ex v Le Lv. apply runtime_exemplar_conforms; auto. Qed.

  Lemma check_constraint_plain (ex : value) x : check_constraint fo (rv ex) x = rv_conforms fo (rv ex) x.
  Proof. destruct ex; reflexivity. Qed.

  Lemma runtime_ok_conforms c v :
    constraint_grammar fo c = true -> lit v = true -> runtime_ok fo c v = conforms fo c v.
  Proof.
    intros G Lv. destruct c as [ex|arms].
    - now apply runtime_exemplar_conforms.
    - simpl in G. apply andb_true_iff in G. destruct G as [Ga Gl].
      apply runtime_alt; auto. destruct arms; discriminate.
  Qed.

  (* C06, the heart: a constraint admits exactly the conforming values *)
  Theorem let_constraint_exact_lit : forall c v,
    constraint_grammar fo c = true -> literal_value fo v = true ->
    build_accepts fo c v = conforms fo c v.
  Proof.
    intros c v G Lv. unfold build_accepts. rewrite (runtime_ok_conforms c v G Lv).
    destruct (conforms fo c v) eqn:C; [|apply andb_false_r]. now rewrite (conforms_static c v G Lv C).
  Qed.
End C06.

(* derive_step, dot_fall and dot_step repeat the bodies of derive_f and dot_f (Shape.v) with the recursive
   calls as parameters; derive_f_twin ties the copy to the model by `reflexivity`, so it cannot drift.
   The copy is there because the model gives only the closed fixpoint: the kernel converts
   [derive_f (S f) e st] with a term that mentions [derive_f f] by comparing the whole body of the fixpoint
   at each recursive call it meets, whereas derive_f_S is a rewrite and one step of derive_step is a
   single match.  No proof below unfolds derive_f itself. *)

Definition derive_step (dv : expr -> symtab -> shape * symtab) (dot : shape -> expr -> symtab -> shape * symtab)
           (e : expr) (st : symtab) : shape * symtab :=
  let dlist := derive_list dv in
  let dfields := derive_fields dv in
  match e with
  | ENull => (SAny, st)
  | EBool _ => (SBool, st)
  | EInt _ => (SInt, st)
  | EFloat _ => (SFloat, st)
  | EStr _ => (SStr, st)
  | ESym x => (match st_get x st with Some s => s | None => SHole x end, st)
  | ETuple fs => let '(r, st1) := dfields fs st in (STuple r, st1)
  | EList es => let '(r, st1) := dlist es st in (SList r, st1)
  | EFormatL _ _ | EFormatS _ _ => (SStr, st)
  | ENot e1 =>
    let '(s1, st1) := dv e1 st in
    (match s1 with
     | SBool | SHole _ | SAny => SBool
     | SNarrowed ts => if existsb may_be_boolean ts then SBool else SErr EType
     | _ => SErr EType
     end, st1)
  | EGroup e1 => dv e1 st
  | ERange _ _ _ => (SList [SInt], st)
  | ECast CInt _ => (SInt, st)
  | ECast CStr _ => (SStr, st)
  | ECast CFloat _ => (SFloat, st)
  | ECast CBool _ => (SBool, st)
  | EImport p => (SImportU p, st)
  | EBin DOT l r =>
    let '(ls, st1) := dv l st in
    let '(sh, st2) := dot ls r st1 in
    (sh, match l with
         | ESym x =>
           if is_err sh then st2
           else match ls with
                | SHole _ =>
                  if bytes_eqb x (b "env") then st2 else
                  let inferred := match r with
                                  | ESym k | EStr k => STuple [(k, SAny)]
                                  | EInt _ => SListAny
                                  | _ => ls
                                  end in
                  st_set x inferred st2
                | _ => st2
                end
         | _ => st2
         end)
  | EBin o l r =>
    let '(ls, st1) := dv l st in
    let '(rs, st2) := dv r st1 in
    if is_cmp_op o then (SBool, st2)
    else match o with
         | AND | OR =>
           let '(n, st3) := narrow_st st2 ls rs in
           ((if is_err n then n else SBool), st3)
         | _ => narrow_st st2 ls rs
         end
  | ECopy t fs =>
    let '(base, st1) := dv t st in
    match base with
    | SErr _ => (base, st1)
    | SBool | SInt | SFloat | SStr | SList _ | SListAny | SFunc _ _ _ | SRef _ => (SErr EType, st1)
    | SHole x => (SNarrowed [STuple []; SModule [] (SNarrowed []); SImportU x], st1)
    | SAny => (SNarrowed [STuple []; SModule [] SAny], st1)
    | SNarrowed potentials =>
      let filtered := filter (fun v => match v with
                                       | STuple _ | SModule _ _ | SImportU _ | SImportR _ | SHole _ => true
                                       | _ => false end) potentials in
      (match filtered with [] => SErr EType | _ => SNarrowed filtered end, st1)
    | SModule items ret =>
      let '(arg_fields, st2) := dfields fs st1 in
      let get k := st_get k (rev arg_fields) in
      (fix go (items : list (bytes * shape)) (st : symtab) : shape * symtab :=
         match items with
         | [] => (ret, st)
         | (sym, shp) :: items' =>
           match get sym with
           | Some s => let '(n, st') := narrow_st st shp s in
                       if is_err n then (n, st') else go items' st'
           | None => go items' st
           end
         end) items st2
    | STuple base_fields =>
      let '(r, st2) := dfields fs st1 in (STuple (base_fields ++ r), st2)
    | SImportU _ => (SNarrowed [STuple []], st1)
    | SImportR base_fields =>
      let '(r, st2) := dfields fs st1 in (STuple (base_fields ++ r), st2)
    end
  | EInclude _ _ => (SNarrowed [STuple []; SList []], st)
  | ECall fe args =>
    let '(fsh, st1) := dv fe st in
    match fsh with
    | SFunc order fargs ret =>
      if negb (Nat.eqb (List.length fargs) (List.length args)) then (SErr EType, st1)
      else
        (fix go (order : list bytes) (args : list expr) (st : symtab) : shape * symtab :=
           match order, args with
           | an :: order', ae :: args' =>
             let '(actual, st') := dv ae st in
             match st_get an fargs with
             | Some declared =>
               let '(n, _) := narrow_st st' declared actual in
               if is_err n then (n, st') else go order' args' st'
             | None => go order' args' st'
             end
           | _, _ => (ret, st)
           end) order args st1
    | SHole _ | SAny => let '(_, st2) := dlist args st1 in (SAny, st2)
    | SNarrowed types =>
      let funcs := filter (fun t => match t with SFunc _ _ _ => true | _ => false end) types in
      match funcs with
      | [] => (SErr EType, st1)
      | _ =>
        let '(arg_shapes, st2) := dlist args st1 in
        let rets := fold_right (fun t acc => match t with
                                             | SFunc _ fa fr =>
                                               if Nat.eqb (List.length fa) (List.length arg_shapes)
                                               then fr :: acc else acc
                                             | _ => acc end) [] funcs in
        (one_or_narrowed rets, st2)
      end
    | _ => (SErr EType, st1)
    end
  | EFunc ps body =>
    let inner := fold_left (fun acc p => st_set p (SHole p) acc) ps st in
    let '(bs, inner') := dv body inner in
    let table := fold_left (fun acc p => match st_get p inner' with
                                         | Some s => args_insert p s acc
                                         | None => acc end) ps [] in
    (SFunc ps table bs, st)
  | ESelect _ dflt arms => derive_select dv merge_in_shape dflt arms [] st
  | EMap fe te =>
    let '(ts, st1) := dv te st in
    let '(fs, st2) := dv fe st1 in
    (match ts with
     | SList _ | SListAny =>
       match fs with SFunc _ _ ret => SList [ret] | _ => SListAny end
     | STuple _ | SStr | SHole _ | SAny | SNarrowed _ => SAny
     | _ => SErr EType
     end, st2)
  | EFilter fe te =>
    let '(ts, st1) := dv te st in
    let '(_, st2) := dv fe st1 in
    (match ts with
     | SList _ | SListAny => ts
     | SHole _ | SAny => SAny
     | SStr => ts
     | STuple _ | SNarrowed _ => SAny
     | _ => SErr EType
     end, st2)
  | EReduce fe ae te =>
    let '(ts, st1) := dv te st in
    let '(acc, st2) := dv ae st1 in
    let '(fs, st3) := dv fe st2 in
    match ts with
    | SList _ | SListAny | SHole _ | SAny | SNarrowed _ | STuple _ | SStr =>
      match fs with
      | SFunc _ _ ret => let '(n, st4) := narrow_st st3 acc ret in ((if is_err n then acc else n), st4)
      | _ => (acc, st3)
      end
    | _ => (SErr EType, st3)
    end
  | EModule _ _ _ => (SErr EUnmod, st)
  | EFail e1 =>
    let '(ms, st1) := dv e1 st in
    (match ms with SStr | SHole _ | SAny => SAny | _ => SErr EType end, st1)
  | ETrace e1 => dv e1 st
  | EConvert _ _ => (SStr, st)
  end.
(* the fall-through cases of derive_dot_expression.  The model binds them by a `let` in front of its match on
   r; a `let` that mentions r is copied into every branch of that match, so here they are a definition. *)
Definition dot_fall (dot : shape -> expr -> symtab -> shape * symtab) (ls : shape) (r : expr) (st : symtab)
  : shape * symtab :=
  match r with
  | EGroup e1 => dot ls e1 st
  | _ => match ls with
         | SImportR fs => dot (STuple fs) r st
         | SImportU _ => (SAny, st)
         | SErr _ => (ls, st)
         | STuple _ | SHole _ | SAny | SNarrowed _ =>
           match r with
           | ECall _ _ | ECopy _ _ => (SAny, st)
           | _ => (SErr EType, st)
           end
         | _ => (SErr EType, st)
         end
  end.
Definition dot_step (dv : expr -> symtab -> shape * symtab) (dot : shape -> expr -> symtab -> shape * symtab)
           (ls : shape) (r : expr) (st : symtab) : shape * symtab :=
  match r with
  | EBin DOT l2 r2 =>
    match ls with
    | STuple fs =>
      let '(_, st1) := dv l2 st in
      let resolved := resolve_tuple_field fs l2 in
      if is_err resolved then (resolved, st1) else dot resolved r2 st1
    | SList _ | SListAny =>
      let '(acc, st1) := dv l2 st in
      match acc with
      | SInt | SHole _ => dot (elem_shape ls) r2 st1
      | _ => (SErr EType, st1)
      end
    | SAny => (SAny, st)
    | SNarrowed types =>
      let '(results, st1) :=
          (fix go (types : list shape) (st : symtab) : list shape * symtab :=
             match types with
             | [] => ([], st)
             | t :: types' =>
               let '(ir, st1) := dot t r st in
               let '(rest, st2) := go types' st1 in
               ((if is_err ir then rest else ir :: rest), st2)
             end) types st in
      (one_or_narrowed results, st1)
    | SHole _ =>
      let '(acc, st1) := dv l2 st in
      match acc with
      | SHole _ | SStr | SInt => dot SAny r2 st1
      | _ => (SAny, st1)
      end
    | _ => dot_fall dot ls r st
    end
  | EStr k | ESym k =>
    match ls with
    | STuple fs => (match st_get k (rev fs) with Some s => s | None => SErr EType end, st)
    | SList _ | SListAny => (SErr EType, st)
    | SHole _ => (SAny, st)
    | SAny | SNarrowed [] => (SAny, st)
    | SNarrowed types =>
      let results := flat_map (fun t => match t with
                                        | STuple fs =>
                                          flat_map (fun '(n, s) => if bytes_eqb n k then [s] else []) fs
                                        | SHole _ | SAny | SNarrowed _ => [SAny]
                                        | _ => [] end) types in
      (one_or_narrowed results, st)
    | _ => dot_fall dot ls r st
    end
  | EInt _ =>
    match ls with
    | STuple _ => (SErr EType, st)
    | SList _ | SListAny => (elem_shape ls, st)
    | SHole _ => (SAny, st)
    | SAny | SNarrowed [] => (SAny, st)
    | SNarrowed types =>
      let results := flat_map (fun t => match t with
                                        | SList _ | SListAny => [elem_shape t]
                                        | SHole _ | SAny | SNarrowed _ => [SAny]
                                        | _ => [] end) types in
      (one_or_narrowed results, st)
    | _ => dot_fall dot ls r st
    end
  | _ => dot_fall dot ls r st
  end.

Fixpoint derive_g (fuel : nat) (e : expr) (st : symtab) {struct fuel} : shape * symtab :=
  match fuel with O => (SErr EFuel, st) | S f => derive_step (derive_g f) (dot_g f) e st end
with dot_g (fuel : nat) (ls : shape) (r : expr) (st : symtab) {struct fuel} : shape * symtab :=
  match fuel with O => (SErr EFuel, st) | S f => dot_step (derive_g f) (dot_g f) ls r st end.

(* in this comparison the recursive calls of either side are the bound variables of the two fixpoints *)
Lemma derive_f_twin : derive_f = derive_g /\ dot_f = dot_g.
Proof. split; reflexivity. Qed.

Lemma derive_f_S f e st : derive_f (S f) e st = derive_step (derive_f f) (dot_f f) e st.
Proof. destruct derive_f_twin as [-> ->]. reflexivity. Qed.
Lemma dot_f_S f ls r st : dot_f (S f) ls r st = dot_step (derive_f f) (dot_f f) ls r st.
Proof. destruct derive_f_twin as [-> ->]. reflexivity. Qed.

Section Prog.
  Variable fo : float_ops.
  (* a float literal denotes the float it was printed from *)
  Hypothesis float_roundtrip : forall x : F fo, f_of_bits fo (f_to_bits fo x) = x.
  Notation value := (value fo).
  Notation sh := (shape_of_value fo).
  Notation rv := (rv_of_value fo).
  Notation same := (same_shape fo true).
  Notation lit := (literal_value fo).
  Notation lex := (lit_expr fo).

  Lemma depth_list_in (d : expr -> nat) es e : In e es -> d e <= depth_list d es.
  Proof. induction es as [|x es IH]; simpl; intros H; [contradiction|]. destruct H as [->|H]; [lia|]. specialize (IH H). lia. Qed.
  Lemma depth_fields_in (d : expr -> nat) fs k e : In (k, e) fs -> d e <= depth_fields d fs.
  Proof.
    induction fs as [|[k' x] fs IH]; simpl; intros H; [contradiction|].
    destruct H as [H|H]; [inversion H; subst; lia|]. specialize (IH H). lia.
  Qed.

  Lemma derive_list_lit f (l : list value) :
    Forall (fun v => lit v = true -> forall fuel st, expr_depth (lex v) <= fuel -> derive_f fuel (lex v) st = (sh v, st)) l ->
    forallb lit l = true -> (forall x, In x l -> expr_depth (lex x) <= f) ->
    forall st, derive_list (derive_f f) (map lex l) st = (map sh l, st).
  Proof.
    induction 1 as [|v l Hv Hl IH]; simpl; intros L D st; auto.
    apply andb_true_iff in L. destruct L as [Lv L].
    rewrite (Hv Lv f st) by (apply D; now left).
    rewrite IH by (auto; intros; apply D; now right). reflexivity.
  Qed.

  Lemma derive_fields_lit f (fs : list (bytes * value)) :
    Forall (fun kv => lit (snd kv) = true -> forall fuel st, expr_depth (lex (snd kv)) <= fuel ->
                                                          derive_f fuel (lex (snd kv)) st = (sh (snd kv), st)) fs ->
    forallb (fun '(_, x) => lit x) fs = true -> (forall k x, In (k, x) fs -> expr_depth (lex x) <= f) ->
    forall st, derive_fields (derive_f f) (map (fun '(k, x) => (k, lex x)) fs) st
               = (map (fun '(k, x) => (k, sh x)) fs, st).
  Proof.
    induction 1 as [|[k v] fs Hv Hf IH]; simpl; intros L D st; auto.
    apply andb_true_iff in L. destruct L as [Lv L]. simpl in Hv.
    rewrite (Hv Lv f st) by (eapply D; now left).
    rewrite IH by (auto; intros; eapply D; right; eauto). reflexivity.
  Qed.

  Lemma derive_f_lit : forall v, lit v = true ->
    forall fuel st, expr_depth (lex v) <= fuel -> derive_f fuel (lex v) st = (sh v, st).
  Proof.
    induction v as [| | | | |l IH|fs IH| |] using (value_ind2 fo); intros L fuel st D;
      try discriminate L; (destruct fuel as [|f]; [simpl in D; lia|]); try reflexivity.
    - simpl lit_expr. simpl lit_expr in D. simpl in D. apply le_S_n in D.
      rewrite derive_f_S. simpl. rewrite (derive_list_lit f l IH L); auto.
      intros x I. eapply Nat.le_trans; [|exact D].
      apply (depth_list_in (fun e1 => expr_depth e1) (map lex l) (lex x)). now apply in_map.
    - simpl lit_expr. simpl lit_expr in D. simpl in D. apply le_S_n in D.
      simpl in L. apply andb_true_iff in L. destruct L as [_ L].
      rewrite derive_f_S. simpl. rewrite (derive_fields_lit f fs IH L); auto.
      intros k x I. eapply Nat.le_trans; [|exact D].
      apply (depth_fields_in (fun e1 => expr_depth e1) (map (fun '(k, x) => (k, lex x)) fs) k (lex x)).
      apply in_map_iff. exists (k, x). auto.
  Qed.

  Lemma derive_st_lit v st : lit v = true -> derive_st (lex v) st = (sh v, st).
  Proof. intros L. unfold derive_st. apply derive_f_lit; auto. lia. Qed.

  Lemma derive_st_sym x st :
    derive_st (ESym x) st = (match st_get x st with Some s => s | None => SHole x end, st).
  Proof. reflexivity. Qed.

  Lemma has_key_map k (fs : list (bytes * value)) :
    has_key k (map (fun '(k, x) => (k, rv x)) fs) = existsb (bytes_eqb k) (names fs).
  Proof. induction fs as [|[k' x] fs IH]; simpl; auto. now rewrite IH. Qed.

  Lemma lit_eval_lit : forall v, lit v = true -> forall re, lit_eval fo re (lex v) = Ok (rv v).
  Proof.
    induction v as [| | | | |l IH|fs IH| |] using (value_ind2 fo); intros L re; try discriminate L; try reflexivity.
    - simpl. now rewrite float_roundtrip.
    - simpl in L. simpl lit_expr. simpl lit_eval.
      assert (E : lit_eval_list fo (fun e1 => lit_eval fo re e1) (map lex l) = Ok (map rv l)).
      { induction IH as [|x l Hx Hl IHl]; simpl in *; auto.
        apply andb_true_iff in L. destruct L as [Lx L]. rewrite (Hx Lx re). simpl. rewrite (IHl L). reflexivity. }
      rewrite E. reflexivity.
    - simpl in L. apply andb_true_iff in L. destruct L as [N L]. simpl lit_expr. simpl lit_eval.
      assert (E : lit_eval_fields fo (fun e1 => lit_eval fo re e1) (map (fun '(k, x) => (k, lex x)) fs)
                  = Ok (map (fun '(k, x) => (k, rv x)) fs)).
      { induction IH as [|[k x] fs Hx Hf IHf]; simpl in *; auto.
        apply andb_true_iff in L, N. destruct L as [Lx L], N as [N1 N]. rewrite (Hx Lx re). simpl.
        rewrite (IHf N L). simpl. rewrite has_key_map.
        apply negb_true_iff in N1. now rewrite N1. }
      rewrite E. reflexivity.
  Qed.

  Lemma derive_arms_grammar arms : forallb (arm_grammar fo) arms = true ->
    forall acc st, derive_arms (map (carm_of fo) arms) acc st
                   = (inr (acc ++ map sh (map (arm_witness fo) arms)), st).
  Proof.
    induction arms as [|a arms IH]; simpl; intros G acc st.
    - now rewrite app_nil_r.
    - apply andb_true_iff in G. destruct G as [Ga G].
      destruct a as [lo hi|w].
      + (* the bound whose shape is taken is the witness of the arm *)
        destruct (range_ok_form fo _ _ Ga); simpl; rewrite IH by auto; now rewrite <- app_assoc.
      + simpl. rewrite derive_st_lit by auto. rewrite IH by auto. now rewrite <- app_assoc.
  Qed.

  Lemma derive_cexpr_grammar c st :
    constraint_grammar fo c = true -> derive_cexpr (cexpr_of fo c) st = (vshape_of_constraint fo c, st).
  Proof.
    intros G. rewrite (vshape_witnesses fo c G). destruct c as [ex|arms]; simpl in *.
    - now apply derive_st_lit.
    - apply andb_true_iff in G. destruct G as [G _].
      rewrite (derive_arms_grammar arms G). reflexivity.
  Qed.

  Lemma sh_not_import v (X Y : option symtab) :
    match sh v with SImportU _ => Y | _ => X end = X.
  Proof. destruct v; reflexivity. Qed.

  Lemma build_arm_grammar re a ra :
    arm_grammar fo a = true -> rarm_of fo a = Some ra -> build_arm fo re (carm_of fo a) = Ok ra.
  Proof.
    destruct a as [lo hi|w]; simpl; intros G E.
    - destruct (range_ok_form fo _ _ G); simpl in *; inversion E; subst; rewrite ?float_roundtrip; reflexivity.
    - inversion E; subst. now rewrite lit_eval_lit.
  Qed.

  Lemma build_arms_grammar re arms rs :
    forallb (arm_grammar fo) arms = true -> rarms_of fo arms = Some rs ->
    build_arms fo re (map (carm_of fo) arms) = Ok rs.
  Proof.
    revert rs. induction arms as [|a arms IH]; simpl; intros rs G E.
    - now inversion E.
    - apply andb_true_iff in G. destruct G as [Ga G].
      destruct (rarm_of fo a) as [ra|] eqn:Ea; [|discriminate].
      destruct (rarms_of fo arms) as [rs'|] eqn:Es; [|discriminate]. inversion E; subst.
      rewrite (build_arm_grammar re a ra Ga Ea). simpl. rewrite (IH rs' G eq_refl). reflexivity.
  Qed.


  (* the run-time check, for the constraint value [k] that the constraint expression evaluates to *)
  Lemma eval_cexpr_grammar re c v :
    constraint_grammar fo c = true ->
    exists k, eval_cexpr fo re (cexpr_of fo c) = Ok k /\ check_constraint fo k (rv v) = runtime_ok fo c v.
  Proof.
    destruct c as [ex|arms]; simpl; intros G.
    - exists (rv ex). split; [now apply lit_eval_lit|exact (check_constraint_plain fo ex (rv v))].
    - apply andb_true_iff in G. destruct G as [G _].
      destruct (rarms_of_spec fo arms G) as (rs & Es & _).
      rewrite (build_arms_grammar re arms rs G Es). simpl. exists (RCon rs). split; auto. now rewrite Es.
  Qed.

  Lemma xname_not_reserved : is_reserved xname = false.
  Proof. reflexivity. Qed.

  Local Opaque bytes_eqb is_reserved xname rv_conforms.

  Lemma check_stmts_app ss1 ss2 st :
    check_stmts (ss1 ++ ss2) st = match check_stmts ss1 st with Some st1 => check_stmts ss2 st1 | None => None end.
  Proof. revert st. induction ss1 as [|s ss1 IH]; simpl; intros st; auto. destruct (check_stmt s st); auto. Qed.

  Lemma run_stmts_app ss1 ss2 re :
    run_stmts fo (ss1 ++ ss2) re = (do re1 <- run_stmts fo ss1 re; run_stmts fo ss2 re1).
  Proof.
    revert re. induction ss1 as [|s ss1 IH]; simpl; intros re; auto.
    destruct (run_stmt fo s re); simpl; auto.
  Qed.

  Definition res_ok {A} (r : res A) : bool := match r with Ok _ => true | _ => false end.

  (* a file builds when its last statement passes the checker in the table, and the VM in the environment,
     that the statements before it leave *)
  Lemma builds_last ss s st re :
    check_stmts ss [] = Some st -> run_stmts fo ss [] = Ok re ->
    builds fo (ss ++ [s]) = is_some (check_stmt s st) && res_ok (run_stmt fo s re).
  Proof.
    intros C R. unfold builds, build_prog. rewrite check_stmts_app, run_stmts_app, C, R. simpl.
    destruct (check_stmt s st); simpl; auto. destruct (run_stmt fo s re); reflexivity.
  Qed.

  (* `let x :: ce = v;` as the last statement, where ce stands for the constraint c: in the table it derives
     to the shape of c, in the environment it evaluates to a constraint value k that checks like c *)
  Lemma let_last_builds ss st re ce c v k :
    check_stmts ss [] = Some st -> run_stmts fo ss [] = Ok re ->
    constraint_grammar fo c = true -> lit v = true ->
    derive_cexpr ce st = (vshape_of_constraint fo c, st) ->
    eval_cexpr fo re ce = Ok k -> check_constraint fo k (rv v) = runtime_ok fo c v ->
    re_get fo xname re = None ->
    builds fo (ss ++ [CLet xname (Some ce) (lex v)]) = build_accepts fo c v.
  Proof.
    intros C R G Lv Dc Ek Ck Hx. rewrite (builds_last ss _ st re C R). unfold build_accepts. f_equal.
    - simpl. rewrite (derive_st_lit v st Lv), sh_not_import, Dc, (static_ok_witnesses fo c v G Lv).
      destruct (narrow_st_grammar fo st c v G Lv) as (r & E & <-). rewrite E. destruct (is_err r); reflexivity.
    - simpl. rewrite (lit_eval_lit v Lv). simpl. rewrite Ek. simpl. rewrite Ck.
      destruct (runtime_ok fo c v); simpl; auto. rewrite xname_not_reserved, Hx. reflexivity.
  Qed.

  (* `let x :: c = v;` *)
  Theorem build_accepts_prog_eq c v :
    constraint_grammar fo c = true -> lit v = true -> build_accepts_prog fo c v = build_accepts fo c v.
  Proof.
    intros G Lv. destruct (eval_cexpr_grammar [] c v G) as (k & Ek & Ck).
    apply (let_last_builds [] [] [] (cexpr_of fo c) c v k); auto. apply (derive_cexpr_grammar c [] G).
  Qed.

  (* `constraint n = c; let x :: n = v;` *)
  Definition name_ok (n : bytes) : bool := negb (is_reserved n) && negb (bytes_eqb xname n).

  Lemma no_ref_in_value_shape n : forall v : value,
    shape_contains_ref n (sh v) = false /\ forall g, bad_constraint_ref n (sh v) g = false.
  Proof.
    induction v as [| | | | |l IH|fs IH| |] using (value_ind2 fo); try (split; [reflexivity|intros; reflexivity]).
    - split; [|intro g]; simpl; induction IH as [|x l Hx Hl IHl]; simpl; auto; destruct Hx as [H1 H2];
        rewrite ?H1, ?H2; auto.
    - split; [|intro g]; simpl; induction IH as [|[k x] fs Hx Hf IHf]; simpl in *; auto; destruct Hx as [H1 H2];
        rewrite ?H1, ?H2; auto.
  Qed.

  Lemma vshape_no_bad_ref n c :
    constraint_grammar fo c = true -> bad_constraint_ref n (vshape_of_constraint fo c) false = false.
  Proof.
    intros G. rewrite (vshape_witnesses fo c G). unfold shape_of_witnesses.
    assert (H : forall g, existsb (fun t => bad_constraint_ref n t g) (map sh (witnesses fo c)) = false).
    { intro g. induction (witnesses fo c) as [|w ws IHw]; simpl; auto.
      rewrite (proj2 (no_ref_in_value_shape n w)). exact IHw. }
    destruct (map sh (witnesses fo c)) as [|x [|y l]] eqn:E.
    - reflexivity.
    - specialize (H false). simpl in H. now rewrite orb_false_r in H.
    - simpl. apply H.
  Qed.

  Lemma sh_not_err v : lit v = true -> is_err (sh v) = false.
  Proof. destruct v; simpl; auto; discriminate. Qed.

  Lemma vshape_not_err c : constraint_grammar fo c = true -> is_err (vshape_of_constraint fo c) = false.
  Proof.
    intros G. rewrite (vshape_witnesses fo c G). destruct (witnesses_lit fo c G) as [Lw Hne].
    destruct (witnesses fo c) as [|w [|w2 ws]]; [congruence| |reflexivity].
    simpl in Lw. rewrite andb_true_r in Lw. now apply sh_not_err.
  Qed.

  Theorem named_constraint_transparent : forall n c v,
    name_ok n = true -> constraint_grammar fo c = true -> literal_value fo v = true ->
    build_accepts_named fo n c v = build_accepts fo c v.
  Proof.
    intros n c v Hn G Lv. unfold name_ok in Hn. apply andb_true_iff in Hn. destruct Hn as [Hr Hx].
    apply negb_true_iff in Hr, Hx.
    destruct (eval_cexpr_grammar [(n, RCon [])] c v G) as (k & Ek & Ck).
    apply (let_last_builds [CConstraint n (cexpr_of fo c)] [(n, vshape_of_constraint fo c); (n, SRef n)] [(n, k)]
                           (CPlain (ESym n)) c v k); auto.
    - simpl. unfold st_set. rewrite (derive_cexpr_grammar c _ G), (vshape_not_err c G), (vshape_no_bad_ref n c G).
      reflexivity.
    - simpl. rewrite Hr, Ek. reflexivity.
    - simpl. rewrite derive_st_sym. cbn [st_get]. now rewrite bytes_eqb_refl.
    - simpl. now rewrite bytes_eqb_refl.
    - simpl. now rewrite Hx.
  Qed.

  (* `let n = ex; let x :: n = v;` : a let-bound exemplar is the exemplar *)
  Theorem let_bound_exemplar_transparent : forall n ex v,
    name_ok n = true -> literal_value fo ex = true -> literal_value fo v = true ->
    build_accepts_let_named fo n ex v = build_accepts fo (VExemplar ex) v.
  Proof.
    intros n ex v Hn Le Lv. unfold name_ok in Hn. apply andb_true_iff in Hn. destruct Hn as [Hr Hx].
    apply negb_true_iff in Hr, Hx.
    apply (let_last_builds [CLet n None (lex ex)] [(n, sh ex)] [(n, rv ex)] (CPlain (ESym n)) (VExemplar ex) v (rv ex));
      auto.
    - simpl. unfold st_set. now rewrite (derive_st_lit ex _ Le), sh_not_import, (sh_not_err ex Le).
    - simpl. now rewrite (lit_eval_lit ex Le), Hr.
    - simpl. rewrite derive_st_sym. cbn [st_get]. now rewrite bytes_eqb_refl.
    - simpl. now rewrite bytes_eqb_refl.
    - apply (check_constraint_plain fo ex).
    - simpl. now rewrite Hx.
  Qed.

  Lemma run_stmt_let_gen x c e re : run_stmt fo (CLet x c e) re = run_let_gen fo (lit_eval fo) x c e re.
  Proof. reflexivity. Qed.

  (* whatever evaluates the bound expression: `let x :: ex = e` binds x only to a value that passes
     conforms_to_exemplar against ex *)
  Theorem let_exemplar_binds_conforming : forall (ev : renv fo -> expr -> res (rval fo)) x ex e re re',
    literal_value fo ex = true ->
    run_let_gen fo ev x (Some (CPlain (lex ex))) e re = Ok re' ->
    exists w, ev re e = Ok w /\ re' = (x, w) :: re /\ rv_conforms fo (rv ex) w = true.
  Proof.
    intros ev x ex e re re' Le H. unfold run_let_gen in H.
    destruct (ev re e) as [w| | |] eqn:E; simpl in H; try discriminate.
    simpl eval_cexpr in H. rewrite (lit_eval_lit ex Le) in H. simpl in H.
    rewrite (check_constraint_plain fo ex) in H.
    destruct (rv_conforms fo (rv ex) w) eqn:C; simpl in H; try discriminate.
    destruct (is_reserved x); try discriminate. destruct (re_get fo x re); try discriminate.
    inversion H; subst. eauto.
  Qed.

  (* ... and for a data value that is exactly the specification's "same shape" *)
  Theorem let_exemplar_binds_same_shape : forall (ev : renv fo -> expr -> res (rval fo)) x ex e re re' v,
    literal_value fo ex = true -> data_value fo v = true ->
    ev re e = Ok (rv v) ->
    run_let_gen fo ev x (Some (CPlain (lex ex))) e re = Ok re' ->
    same_shape fo true ex v = true /\ re' = (x, rv v) :: re.
  Proof.
    intros ev x ex e re re' v Le Dv E H.
    destruct (let_exemplar_binds_conforming ev x ex e re re' Le H) as (w & Ew & R & C).
    rewrite E in Ew. inversion Ew; subst w. split; auto.
    now rewrite <- (runtime_exemplar_conforms fo ex v Le Dv).
  Qed.

  (* conversely a conforming data value is bound (fresh, non-reserved name) *)
  Theorem let_exemplar_accepts_same_shape : forall (ev : renv fo -> expr -> res (rval fo)) x ex e re v,
    literal_value fo ex = true -> data_value fo v = true ->
    ev re e = Ok (rv v) -> is_reserved x = false -> re_get fo x re = None ->
    same_shape fo true ex v = true ->
    run_let_gen fo ev x (Some (CPlain (lex ex))) e re = Ok ((x, rv v) :: re).
  Proof.
    intros ev x ex e re v Le Dv E Hr Hx S. unfold run_let_gen. rewrite E. simpl.
    rewrite (lit_eval_lit ex Le). simpl. rewrite (check_constraint_plain fo ex).
    rewrite (runtime_exemplar_conforms fo ex v Le Dv), S. simpl. now rewrite Hr, Hx.
  Qed.

  (* on run_stmt: the bound expression may be any name of the environment, whatever was bound to it *)
  Corollary run_stmt_exemplar_name : forall x ex y re re' v,
    literal_value fo ex = true -> data_value fo v = true -> re_get fo y re = Some (rv v) ->
    run_stmt fo (CLet x (Some (CPlain (lex ex))) (ESym y)) re = Ok re' ->
    same_shape fo true ex v = true.
  Proof.
    intros x ex y re re' v Le Dv G H. rewrite run_stmt_let_gen in H.
    apply (let_exemplar_binds_same_shape (lit_eval fo) x ex (ESym y) re re' v Le Dv); auto.
    simpl. now rewrite G.
  Qed.

  (* on build_prog: a file that ends with `let x :: ex = e;` and builds has bound x to a conforming value *)
  Theorem build_prog_exemplar_last : forall ss x ex e re',
    literal_value fo ex = true ->
    build_prog fo (ss ++ [CLet x (Some (CPlain (lex ex))) e]) = Ok re' ->
    exists w re1, re' = (x, w) :: re1 /\ rv_conforms fo (rv ex) w = true.
  Proof.
    intros ss x ex e re' Le H. unfold build_prog in H.
    destruct (check_stmts _ []); try discriminate.
    rewrite run_stmts_app in H. destruct (run_stmts fo ss []) as [re1| | |]; try discriminate H.
    change (run_stmts fo [CLet x (Some (CPlain (lex ex))) e] re1 = Ok re') in H.
    change (run_stmts fo [CLet x (Some (CPlain (lex ex))) e] re1)
      with (do r <- run_stmt fo (CLet x (Some (CPlain (lex ex))) e) re1; Ok r) in H.
    rewrite run_stmt_let_gen in H.
    destruct (run_let_gen fo (lit_eval fo) x (Some (CPlain (lex ex))) e re1) as [re2| | |] eqn:R; try discriminate H.
    inversion H; subst.
    destruct (let_exemplar_binds_conforming (lit_eval fo) x ex e re1 re' Le R) as (w & _ & E & C). eauto.
  Qed.
End Prog.

Section C06More.
  Variable fo : float_ops.
  Notation value := (value fo).
  Notation sh := (shape_of_value fo).
  Notation same := (same_shape fo true).
  Notation lit := (literal_value fo).

  (* Under the strict reading "NULL is a type of its own" the statement is false:
       let x :: 0 = NULL;          builds, although NULL is not an integer. *)
  Lemma let_constraint_exact_strict_refuted :
    exists c v, constraint_grammar fo c = true /\ literal_value fo v = true
                /\ build_accepts fo c v = true /\ conforms_strict fo c v = false.
  Proof. exists (VExemplar (VInt 0)), VNull. repeat split; reflexivity. Qed.
  (*   let x :: {a = 0} = {a = NULL};   likewise for a NULL inside a tuple *)
  Lemma let_constraint_exact_strict_refuted_nested :
    build_accepts fo (VExemplar (VTuple [(b "a", VInt 0)])) (VTuple [(b "a", VNull)]) = true
    /\ conforms_strict fo (VExemplar (VTuple [(b "a", VInt 0)])) (VTuple [(b "a", VNull)]) = false.
  Proof. split; reflexivity. Qed.

  (* ... and it is exact again once no NULL occurs in the exemplar or in the value *)
  Lemma same_shape_null_free : forall ex v nb,
    null_free fo ex = true -> null_free fo v = true -> same_shape fo nb ex v = same ex v.
  Proof.
    induction ex as [| | | | |l IH|fs IH| |] using (value_ind2 fo); intros v nb Ne Nv;
      destruct v as [| | | | |l'|fs'| |]; try discriminate; try reflexivity.
    - simpl in Ne, Nv. rewrite !same_list.
      rewrite Forall_forall in IH. rewrite forallb_forall in Ne, Nv.
      f_equal.
      + apply forallb_ext_in. intros x Ix. apply existsb_ext_in. intros y Iy. apply IH; auto.
      + apply forallb_ext_in. intros y Iy. apply existsb_ext_in. intros x Ix. apply IH; auto.
    - simpl in Ne, Nv. rewrite !same_tuple.
      f_equal. rewrite Forall_forall in IH. rewrite forallb_forall in Ne, Nv.
      apply forallb_ext_in. intros [k x] I. destruct (lookup fo k fs') as [y|] eqn:E; auto.
      apply (IH (k, x) I); auto.
      + apply (Ne (k, x) I).
      + apply (Nv (k, y)). now apply (@assoc_in value).
  Qed.

  Theorem let_constraint_exact_strict_null_free : forall c v,
    constraint_grammar fo c = true -> literal_value fo v = true ->
    (match c with VExemplar ex => null_free fo ex | VAlt _ => true end) = true -> null_free fo v = true ->
    build_accepts fo c v = conforms_strict fo c v.
  Proof.
    intros c v G Lv Nc Nv. rewrite (let_constraint_exact_lit fo c v G Lv).
    destruct c as [ex|arms]; [|reflexivity].
    unfold conforms, conforms_strict, conforms_gen. symmetry. now apply same_shape_null_free.
  Qed.

  (* Outside constraint_grammar: a range whose bounds have different numeric types cannot be built at run
     time and takes the whole alternation with it:
       let x :: in 0..2.5 | "x" = "x";      is rejected although the value equals an alternative. *)
  Lemma let_constraint_mixed_range_refuted :
    let c := VAlt [VRange (Some (VInt 0)) (Some (VFloat (f_of_bits fo 4612811918334230528))); VExact (VStr (b "x"))] in
    constraint_grammar fo c = false /\ build_accepts fo c (VStr (b "x")) = false /\ conforms fo c (VStr (b "x")) = true.
  Proof. repeat split; reflexivity. Qed.

  (* The name of a constraint must be a legal new binding: with n = "x"
       constraint x = 0; let x :: x = 1;       fails (x is already bound) while  let x :: 0 = 1;  builds. *)
  Lemma named_constraint_transparent_refuted :
    build_accepts_named fo (b "x") (VExemplar (VInt 0)) (VInt 1) = false
    /\ build_accepts fo (VExemplar (VInt 0)) (VInt 1) = true.
  Proof. split; reflexivity. Qed.

  Lemma same_refl : forall v, lit v = true -> same v v = true.
  Proof.
    induction v as [| | | | |l IH|fs IH| |] using (value_ind2 fo); intros L; try discriminate; try reflexivity.
    - rewrite same_list. apply orb_true_iff. left. rewrite Forall_forall in IH. rewrite forallb_forall. intros x I.
      rewrite existsb_exists. exists x. split; auto. apply IH; auto. eapply lit_list_in; eauto.
    - rewrite same_tuple, subset_names_refl. simpl. rewrite Forall_forall in IH. rewrite forallb_forall. intros [k x] I.
      rewrite (nodup_in_lookup fo fs k x (lit_tuple_nodup fo fs L) I).
      apply (IH (k, x) I). eapply lit_tuple_in; eauto.
  Qed.

  (* a literal shape narrows against itself *)
  Theorem narrow_refl_lit st v : lit v = true -> ~ is_type_err (narrow st (sh v) (sh v)).
  Proof.
    intros L. unfold is_type_err, narrow.
    destruct (narrow_st_lit fo st v v L L) as (r & E & C). rewrite E. simpl.
    rewrite (same_refl v L) in C. destruct (is_err r); [discriminate|congruence].
  Qed.

  (* compatibility of literal shapes is symmetric *)
  Theorem narrow_sym_lit st a c : lit a = true -> lit c = true ->
    is_err (narrow st (sh a) (sh c)) = is_err (narrow st (sh c) (sh a)).
  Proof.
    intros La Lc. unfold narrow, narrow_st.
    destruct (narrow_lit fo (narrow_fuel st (sh a) (sh c)) a c) as [H1 _]; auto.
    { apply narrow_fuel_ge. }
    destruct (narrow_lit fo (narrow_fuel st (sh c) (sh a)) a c) as [_ H2]; auto.
    { pose proof (narrow_fuel_ge st (sh c) (sh a)). lia. }
    destruct (H1 (mk_nst st [])) as (r1 & E1 & C1). destruct (H2 (mk_nst st [])) as (r2 & E2 & C2).
    rewrite E1, E2. simpl. destruct (is_err r1), (is_err r2); simpl in *; congruence.
  Qed.

  (* narrowing a literal shape never touches the symbol table *)
  Theorem narrow_lit_pure st a c : lit a = true -> lit c = true -> snd (narrow_st st (sh a) (sh c)) = st.
  Proof.
    intros La Lc. destruct (narrow_st_lit fo st c a Lc La) as (r & E & _). now rewrite E.
  Qed.

  (* TypeErr propagates, NULL (Narrowed Any) and a hole not in the table give the other side *)
  Lemma narrow_err_l st k r : narrow st (SErr k) r = SErr k.
  Proof. unfold narrow, narrow_st. destruct (narrow_fuel_S st (SErr k) r) as [f ->]. reflexivity. Qed.
  Lemma narrow_any_l st r : is_err r = false -> ref_name r = None -> hole_name r = None -> narrow st SAny r = r.
  Proof.
    intros H1 H2 H3. unfold narrow, narrow_st. destruct (narrow_fuel_S st SAny r) as [f ->]. simpl.
    rewrite H1, H2. destruct r; try discriminate; reflexivity.
  Qed.
End C06More.

(* C07: inhabitation, narrowing two shapes of one value, soundness of derive
   (the checker with fix 05372e0: last field wins, select default, parameters shadow, ...). *)
Section C07.
  Variable fo : float_ops.
  Notation value := (value fo).
  Notation inh := (inhabitsb fo).
  Notation sh := (shape_of_value fo).
  Notation lit := (literal_value fo).

  (* Hole, Narrowed(Any) and the empty Narrowed are top *)
  Lemma inhabits_hole (v : value) x : inhabits fo v (SHole x).
  Proof. reflexivity. Qed.
  Lemma inhabits_any (v : value) : inhabits fo v SAny.
  Proof. reflexivity. Qed.
  Lemma inhabits_empty_narrowed (v : value) : inhabits fo v (SNarrowed []).
  Proof. reflexivity. Qed.

  Lemma st_get_app k (a c : list (bytes * shape)) :
    st_get k (a ++ c) = match st_get k a with Some x => Some x | None => st_get k c end.
  Proof. induction a as [|[k' t] a IH]; simpl; auto. destruct (bytes_eqb k k'); auto. Qed.

  Lemma st_get_rev_NoDup (l : list (bytes * shape)) k t :
    NoDup (map fst l) -> In (k, t) l -> st_get k (rev l) = Some t.
  Proof.
    intros N I. transitivity (assoc_get k l); [exact (assoc_rev_NoDup l k N)|now apply assoc_NoDup].
  Qed.

  (* the "last declaration" loop of inhabitsb *)
  Lemma last_st_get (ss : list (bytes * shape)) k (P : shape -> bool) : forall acc,
    (fix last (fs : list (bytes * shape)) (acc : bool) : bool :=
       match fs with
       | [] => acc
       | (k', t) :: fs' => last fs' (if bytes_eqb k k' then P t else acc)
       end) ss acc
    = match st_get k (rev ss) with Some t => P t | None => acc end.
  Proof.
    induction ss as [|[k' t] ss IH]; intros acc; simpl; auto.
    rewrite IH. rewrite st_get_app. destruct (st_get k (rev ss)); auto.
    simpl. destruct (bytes_eqb k k'); auto.
  Qed.

  Lemma inh_tuple_unfold (vs : list (bytes * value)) ss :
    inh (VTuple vs) (STuple ss)
    = forallb (fun '(k, x) => match st_get k (rev ss) with Some t => inh x t | None => false end) vs.
  Proof. simpl. apply forallb_ext_in. intros [k x] _. apply last_st_get. Qed.

  Lemma value_inhabits_own_shape : forall v, lit v = true -> inhabits fo v (sh v).
  Proof.
    unfold inhabits.
    induction v as [| | | | |l IH|fs IH| |] using (value_ind2 fo); intros L; try discriminate; try reflexivity.
    - simpl. rewrite Forall_forall in IH. rewrite forallb_forall. intros x I.
      rewrite existsb_exists. exists (sh x). split; [now apply in_map|].
      apply IH; auto. eapply lit_list_in; eauto.
    - change (sh (VTuple fs)) with (STuple (map (fun '(k, y) => (k, sh y)) fs)).
      rewrite inh_tuple_unfold. rewrite Forall_forall in IH. rewrite forallb_forall. intros [k x] I.
      rewrite (st_get_rev_NoDup (map (fun '(k, y) => (k, sh y)) fs) k (sh x)).
      + apply (IH (k, x) I). eapply lit_tuple_in; eauto.
      + rewrite map_fst_map. apply nodup_names_NoDup, (lit_tuple_nodup fo fs L).
      + apply in_map_iff. exists (k, x). auto.
  Qed.

  (* two shapes of one value need not narrow: one value, two shapes it inhabits, narrowing fails *)
  (* the empty list inhabits [int] and [str]; ucg witness (Known class K2):
       let r = filter(func(x) => false, [1]) + filter(func(x) => false, ["a"]);   evaluates to [], build: type error *)
  Lemma narrow_compat_refuted_list :
    exists (v : value) s1 s2, inhabits fo v s1 /\ inhabits fo v s2 /\ is_type_err (narrow [] s1 s2).
  Proof. exists (VList []), (SList [SInt]), (SList [SStr]). repeat split; reflexivity. Qed.
  Lemma narrow_compat_refuted_list_incomparable :
    exists (v : value) s1 s2, inhabits fo v s1 /\ inhabits fo v s2 /\ is_type_err (narrow [] s1 s2).
  Proof. exists (VList [VInt 1]), (SList [SInt; SStr]), (SList [SInt; SBool]). repeat split; reflexivity. Qed.
  Lemma narrow_compat_refuted_tuple :
    exists (v : value) s1 s2, inhabits fo v s1 /\ inhabits fo v s2 /\ is_type_err (narrow [] s1 s2).
  Proof.
    exists (VTuple [(b "a", VInt 1)]), (STuple [(b "a", SInt); (b "b", SStr)]), (STuple [(b "a", SInt); (b "c", SStr)]).
    repeat split; reflexivity.
  Qed.

  Lemma prim_same_refl s : is_prim s = true -> prim_same s s = true.
  Proof. destruct s; simpl; auto; discriminate. Qed.

  Lemma narrow_st_prims st a c :
    is_prim a = true -> is_prim c = true ->
    narrow_st st a c = ((if prim_same a c then a else SErr EType), st).
  Proof.
    intros Pa Pc. unfold narrow_st. destruct (narrow_fuel_S st a c) as [f ->].
    destruct a; try discriminate; destruct c; try discriminate; reflexivity.
  Qed.

  Theorem narrow_compat_prim : forall (v : value) s1 s2 st,
    is_prim s1 = true -> is_prim s2 = true -> inhabits fo v s1 -> inhabits fo v s2 ->
    narrow_st st s1 s2 = (s1, st) /\ s1 = s2.
  Proof.
    unfold inhabits. intros v s1 s2 st P1 P2 I1 I2.
    assert (s1 = s2) by (destruct s1; try discriminate; destruct s2; try discriminate; destruct v; try discriminate;
                         reflexivity).
    subst s2. split; auto. now rewrite narrow_st_prims, prim_same_refl.
  Qed.
  Theorem narrow_compat_top_l : forall s2 st, is_err s2 = false -> ref_name s2 = None -> hole_name s2 = None ->
    ~ is_type_err (narrow st SAny s2).
  Proof. intros s2 st H1 H2 H3. rewrite narrow_any_l; auto. unfold is_type_err. congruence. Qed.

  Definition st_ok (st : symtab) : Prop := forall x s, st_get x st = Some s -> hfb s = true.
  Definition env_ok (sc : scope fo) (st : symtab) : Prop :=
    forall x v, lookup fo x sc = Some v -> exists s, st_get x st = Some s /\ inh v s = true.

  Lemma inh_not_err (v : value) s : inh v s = true -> is_err s = false.
  Proof. destruct s; simpl; auto; discriminate. Qed.

  Lemma mapM_ok {A B} (f : A -> res B) l r : mapM f l = Ok r -> Forall2 (fun a x => f a = Ok x) l r.
  Proof.
    revert r. induction l as [|a l IH]; simpl; intros r H.
    - inversion H. constructor.
    - destruct (f a) eqn:E; try discriminate. simpl in H.
      destruct (mapM f l) eqn:E2; try discriminate. simpl in H. inversion H; subst. constructor; auto.
  Qed.

  Lemma mapM_keep_snd {A B} (g : A -> res B) (keep : B -> bool) l r :
    mapM (fun v => do o <- g v; Ok (keep o, v)) l = Ok r -> map snd r = l.
  Proof.
    revert r. induction l as [|a l IH]; simpl; intros r H.
    - now inversion H.
    - destruct (g a); simpl in H; try discriminate.
      destruct (mapM _ l) eqn:E; simpl in H; try discriminate. inversion H; subst. simpl. f_equal. auto.
  Qed.

  Lemma forall2_in_l {A B} (R : A -> B -> Prop) l l' a : Forall2 R l l' -> In a l -> exists x, In x l' /\ R a x.
  Proof.
    induction 1 as [|a0 x0 l l' H F IH]; intros I; [contradiction|].
    destruct I as [->|I]; [exists x0; split; [now left|auto]|].
    destruct (IH I) as (x & Ix & Rx). exists x. split; [now right|auto].
  Qed.

  Lemma merge_field_fresh (a : list (bytes * value)) k v :
    existsb (bytes_eqb k) (names a) = false -> merge_field fo a k v = Ok (a ++ [(k, v)]).
  Proof.
    induction a as [|[k' w] a IH]; simpl; intros H; auto.
    apply orb_false_iff in H. destruct H as [H1 H2]. rewrite H1. rewrite (IH H2). reflexivity.
  Qed.

  Lemma fold_not_ok (ev : expr -> res value) fs (x : res (list (bytes * value))) :
    (forall r, x <> Ok r) ->
    forall r, fold_left (fun acc '(k, e) => do a <- acc; do v <- ev e; merge_field fo a k v) fs x <> Ok r.
  Proof.
    revert x. induction fs as [|[k e] fs IH]; simpl; intros x H r; auto.
    apply IH. intros r'. destruct x; simpl; try discriminate. exfalso. eapply H; eauto.
  Qed.

  Lemma tuple_lit_spec (ev : expr -> res value) fs :
    forall acc r,
      fold_left (fun acc '(k, e) => do a <- acc; do v <- ev e; merge_field fo a k v) fs (Ok acc) = Ok r ->
      nodup_fields fs = true ->
      (forall k e, In (k, e) fs -> existsb (bytes_eqb k) (names acc) = false) ->
      exists vs, Forall2 (fun ke kv => fst ke = fst kv /\ ev (snd ke) = Ok (snd kv)) fs vs /\ r = acc ++ vs.
  Proof.
    induction fs as [|[k e] fs IH]; simpl; intros acc r H N D.
    - inversion H. exists []. split; [constructor|now rewrite app_nil_r].
    - apply andb_true_iff in N. destruct N as [N1 N2].
      destruct (ev e) as [v| | |] eqn:E; simpl in H;
        try (exfalso; eapply (fold_not_ok ev fs); [|exact H]; intros; discriminate).
      rewrite (merge_field_fresh acc k v) in H by (eapply D; left; reflexivity).
      destruct (IH (acc ++ [(k, v)]) r H N2) as (vs & F & R).
      + intros k' e' I. replace (names (acc ++ [(k, v)])) with (names acc ++ [k]) by (unfold names; now rewrite map_app).
        rewrite existsb_app. simpl.
        rewrite (D k' e') by (right; exact I). simpl. rewrite orb_false_r.
        apply negb_true_iff in N1. destruct (bytes_eqb k' k) eqn:E'; auto.
        apply bytes_eqb_spec in E'. subst k'. exfalso.
        assert (existsb (fun '(k', _) => bytes_eqb k k') fs = true).
        { apply existsb_exists. exists (k, e'). split; auto. apply bytes_eqb_refl. }
        congruence.
      + exists ((k, v) :: vs). split.
        * constructor; auto.
        * rewrite R. now rewrite <- app_assoc.
  Qed.

  Lemma nodup_fields_names (fs : list (bytes * expr)) : nodup_fields fs = nodup_names (map fst fs).
  Proof.
    induction fs as [|[k e] fs IH]; simpl; auto. rewrite IH. f_equal. f_equal.
    clear IH. induction fs as [|[k' e'] fs IH]; simpl; auto. now rewrite IH.
  Qed.

  Lemma inh_tuple_forall2 (vs : list (bytes * value)) (ss : list (bytes * shape)) :
    Forall2 (fun kv ks => fst kv = fst ks /\ inh (snd kv) (snd ks) = true) vs ss ->
    NoDup (map fst ss) -> inh (VTuple vs) (STuple ss) = true.
  Proof.
    intros F N. rewrite inh_tuple_unfold. rewrite forallb_forall. intros [k x] I.
    destruct (forall2_in_l _ _ _ _ F I) as ([k' t] & It & E & Hi). simpl in *. subst k'.
    now rewrite (st_get_rev_NoDup ss k t N It).
  Qed.

  Lemma inh_list_forall2 (vs : list value) (ss : list shape) :
    Forall2 (fun v s => inh v s = true) vs ss -> inh (VList vs) (SList ss) = true.
  Proof.
    intros F. simpl. induction F as [|v s vs ss H F IH]; simpl; auto.
    rewrite H. simpl. rewrite forallb_forall in *. intros x I. rewrite (IH x I). apply orb_true_r.
  Qed.

  Lemma range_from_ints n a stp z :
    forallb (fun x => existsb (inh x) [SInt]) (range_from fo n a stp z) = true.
  Proof.
    revert a. induction n as [|n IH]; simpl; intros a; auto.
    destruct (Z.ltb z a); simpl; auto. destruct (in_i64 (a + stp)); simpl; auto.
  Qed.

  Lemma one_or_narrowed_inh (v : value) results r :
    In r results -> inh v r = true -> inh v (one_or_narrowed results) = true.
  Proof.
    intros I H. destruct results as [|x [|y l]]; [contradiction| |].
    - destruct I as [->|[]]. exact H.
    - change (inh v (one_or_narrowed (x :: y :: l))) with (existsb (inh v) (x :: y :: l)).
      apply existsb_exists. eauto.
  Qed.
  Lemma one_or_narrowed_hf results :
    (forall r, In r results -> hfb r = true) -> hfb (one_or_narrowed results) = true.
  Proof.
    intros H. destruct results as [|x [|y l]]; [reflexivity|apply H; now left|].
    change (hfb (one_or_narrowed (x :: y :: l))) with (forallb hfb (x :: y :: l)).
    apply forallb_forall. exact H.
  Qed.
  Lemma inh_narrowed_in (v : value) l s : In s l -> inh v s = true -> inh v (SNarrowed l) = true.
  Proof.
    intros I H. destruct l as [|x l]; [reflexivity|].
    change (inh v (SNarrowed (x :: l))) with (existsb (inh v) (x :: l)). apply existsb_exists. eauto.
  Qed.
  Lemma inh_narrowed_cons (v : value) x l :
    inh v (SNarrowed (x :: l)) = true -> exists t, In t (x :: l) /\ inh v t = true.
  Proof.
    change (inh v (SNarrowed (x :: l))) with (existsb (inh v) (x :: l)). intros H.
    apply existsb_exists in H. exact H.
  Qed.

  (* selection: what derive_dot_expression answers on hole-free shapes *)
  Definition dot_sym (k : bytes) (ls : shape) : shape :=
    match ls with
    | STuple fs => match st_get k (rev fs) with Some s => s | None => SErr EType end
    | SList _ | SListAny => SErr EType
    | SHole _ => SAny
    | SAny | SNarrowed [] => SAny
    | SNarrowed types =>
      one_or_narrowed
        (flat_map (fun t => match t with
                            | STuple fs => flat_map (fun '(n, s) => if bytes_eqb n k then [s] else []) fs
                            | SHole _ | SAny | SNarrowed _ => [SAny]
                            | _ => [] end) types)
    | SErr _ => ls
    | _ => SErr EType
    end.
  Definition dot_int (ls : shape) : shape :=
    match ls with
    | STuple _ => SErr EType
    | SList _ | SListAny => elem_shape ls
    | SHole _ => SAny
    | SAny | SNarrowed [] => SAny
    | SNarrowed types =>
      one_or_narrowed
        (flat_map (fun t => match t with
                            | SList _ | SListAny => [elem_shape t]
                            | SHole _ | SAny | SNarrowed _ => [SAny]
                            | _ => [] end) types)
    | SErr _ => ls
    | _ => SErr EType
    end.
  Definition dot_call (ls : shape) : shape :=
    match ls with
    | STuple _ | SHole _ | SAny | SNarrowed _ => SAny
    | SErr _ => ls
    | _ => SErr EType
    end.

  Lemma hf_tuple_in fs k t : hfb (STuple fs) = true -> In (k, t) fs -> hfb t = true.
  Proof. simpl. intros H I. rewrite forallb_forall in H. apply (H (k, t) I). Qed.

  Lemma hf_dot_sym k ls : hfb ls = true -> hfb (dot_sym k ls) = true.
  Proof.
    intros H. destruct ls; try discriminate; try reflexivity.
    - simpl. destruct (st_get k (rev fs)) eqn:E; auto.
      apply (@assoc_in shape) in E. apply in_rev in E. eapply hf_tuple_in; eauto.
    - destruct ts as [|t ts]; [reflexivity|]. unfold dot_sym.
      apply one_or_narrowed_hf. intros r I. apply in_flat_map in I. destruct I as (t0 & It & Ir).
      change (forallb hfb (t :: ts) = true) in H. rewrite forallb_forall in H. specialize (H t0 It).
      destruct t0; simpl in Ir; try contradiction; try (destruct Ir as [<-|[]]; reflexivity).
      apply in_flat_map in Ir. destruct Ir as ([n s] & Is & Hs).
      destruct (bytes_eqb n k); [destruct Hs as [<-|[]]|contradiction]. eapply hf_tuple_in; eauto.
  Qed.

  Lemma hf_elem_shape t : hfb t = true -> hfb (elem_shape t) = true.
  Proof. destruct t; simpl; auto. Qed.

  Lemma hf_dot_int ls : hfb ls = true -> hfb (dot_int ls) = true.
  Proof.
    intros H. destruct ls; try discriminate; try reflexivity.
    - exact H.
    - destruct ts as [|t ts]; [reflexivity|]. unfold dot_int.
      apply one_or_narrowed_hf. intros r I. apply in_flat_map in I. destruct I as (t0 & It & Ir).
      change (forallb hfb (t :: ts) = true) in H. rewrite forallb_forall in H. specialize (H t0 It).
      destruct t0; simpl in Ir; try contradiction; destruct Ir as [<-|[]]; try reflexivity.
      exact H.
  Qed.

  Lemma hf_dot_call ls : hfb (dot_call ls) = true.
  Proof. destruct ls; reflexivity. Qed.

  Lemma dot_sym_sound ls k (fs : list (bytes * value)) v :
    hfb ls = true -> inh (VTuple fs) ls = true -> lookup fo k fs = Some v -> inh v (dot_sym k ls) = true.
  Proof.
    intros H I L. apply (@assoc_in value) in L.
    destruct ls; try discriminate; try reflexivity.
    - rewrite inh_tuple_unfold in I. rewrite forallb_forall in I. specialize (I (k, v) L). simpl in I.
      simpl. destruct (st_get k (rev fs0)); [exact I|discriminate].
    - destruct ts as [|t ts]; [reflexivity|].
      destruct (inh_narrowed_cons _ _ _ I) as (t0 & It & I0). unfold dot_sym.
      change (forallb hfb (t :: ts) = true) in H. rewrite forallb_forall in H. specialize (H t0 It).
      destruct t0; try discriminate.
      + rewrite inh_tuple_unfold in I0. rewrite forallb_forall in I0. specialize (I0 (k, v) L). simpl in I0.
        destruct (st_get k (rev fs0)) as [tk|] eqn:E; [|discriminate].
        apply (@assoc_in shape) in E. apply in_rev in E.
        apply (one_or_narrowed_inh v _ tk); auto.
        apply in_flat_map. exists (STuple fs0). split; auto.
        apply in_flat_map. exists (k, tk). split; auto. rewrite bytes_eqb_refl. now left.
      + apply (one_or_narrowed_inh v _ SAny); auto. apply in_flat_map. exists SAny. split; auto. now left.
      + apply (one_or_narrowed_inh v _ SAny); auto. apply in_flat_map. exists (SNarrowed ts0). split; auto. now left.
  Qed.

  Lemma inh_list_elem (items : list value) ts v :
    inh (VList items) (SList ts) = true -> In v items -> inh v (SNarrowed ts) = true.
  Proof.
    simpl. intros H I. rewrite forallb_forall in H. specialize (H v I).
    apply existsb_exists in H. destruct H as (t & It & Ht). eapply inh_narrowed_in; eauto.
  Qed.

  Lemma dot_int_sound ls (items : list value) v :
    hfb ls = true -> inh (VList items) ls = true -> In v items -> inh v (dot_int ls) = true.
  Proof.
    intros H I L.
    destruct ls; try discriminate; try reflexivity.
    - simpl. eapply inh_list_elem; eauto.
    - destruct ts as [|t ts]; [reflexivity|].
      destruct (inh_narrowed_cons _ _ _ I) as (t0 & It & I0). unfold dot_int.
      change (forallb hfb (t :: ts) = true) in H. rewrite forallb_forall in H. specialize (H t0 It).
      destruct t0; try discriminate.
      + apply (one_or_narrowed_inh v _ SAny); auto. apply in_flat_map. exists SListAny. split; auto. now left.
      + apply (one_or_narrowed_inh v _ (SNarrowed ts0)); [|eapply inh_list_elem; eauto].
        apply in_flat_map. exists (SList ts0). split; auto. now left.
      + apply (one_or_narrowed_inh v _ SAny); auto. apply in_flat_map. exists SAny. split; auto. now left.
      + apply (one_or_narrowed_inh v _ SAny); auto. apply in_flat_map. exists (SNarrowed ts0). split; auto. now left.
  Qed.

  Lemma dot_call_sound ls (fs : list (bytes * value)) (v : value) :
    inh (VTuple fs) ls = true -> inh v (dot_call ls) = true.
  Proof. intros I. destruct ls; try discriminate; reflexivity. Qed.

  Lemma dot_no_update (l : expr) (ls sh : shape) (r : expr) (st2 : symtab) :
    hfb ls = true ->
    match l with
    | ESym x =>
      if is_err sh then st2
      else match ls with
           | SHole _ =>
             if bytes_eqb x (b "env") then st2 else
             st_set x (match r with
                       | ESym k | EStr k => STuple [(k, SAny)]
                       | EInt _ => SListAny
                       | _ => ls
                       end) st2
           | _ => st2
           end
    | _ => st2
    end = st2.
  Proof. intros H. destruct l; auto. destruct (is_err sh); auto. destruct ls; try discriminate; reflexivity. Qed.

  Lemma merge_keeps types s t : In t types -> In t (merge_in_shape types s).
  Proof. unfold merge_in_shape. destruct (existsb _ types); auto. intros; apply in_or_app; now left. Qed.
  Lemma merge_subset types s x : In x (merge_in_shape types s) -> In x types \/ x = s.
  Proof.
    unfold merge_in_shape. destruct (existsb _ types); auto. intros I. apply in_app_or in I.
    destruct I as [I|[<-|[]]]; auto.
  Qed.
  Lemma prim_same_eq t s : prim_same t s = true -> t = s.
  Proof. destruct t; try discriminate; destruct s; try discriminate; reflexivity. Qed.
  Lemma sel_ok_in types s : sel_ok types s = true -> In s (merge_in_shape types s).
  Proof.
    unfold sel_ok, merge_in_shape. intros H. apply orb_true_iff in H. destruct H as [H|H].
    - apply negb_true_iff in H. rewrite H. apply in_or_app. right. now left.
    - apply existsb_exists in H. destruct H as (t & It & Ht). apply prim_same_eq in Ht. subst t.
      destruct (existsb _ types); auto. apply in_or_app. now left.
  Qed.
  Lemma fold_merge_keeps l : forall types t, In t types -> In t (fold_left merge_in_shape l types).
  Proof. induction l as [|s l IH]; simpl; auto. intros types t I. apply IH. now apply merge_keeps. Qed.
  Lemma sel_ok_all_in l : forall types s, sel_ok_all types l = true -> In s l -> In s (fold_left merge_in_shape l types).
  Proof.
    induction l as [|s0 l IH]; simpl; intros types s H I; [contradiction|].
    apply andb_true_iff in H. destruct H as [H1 H2]. destruct I as [<-|I].
    - apply fold_merge_keeps. now apply sel_ok_in.
    - apply IH; auto.
  Qed.
  Lemma fold_merge_subset l : forall types x, In x (fold_left merge_in_shape l types) -> In x types \/ In x l.
  Proof.
    induction l as [|s l IH]; simpl; auto. intros types x I.
    destruct (IH _ _ I) as [J|J]; auto. destruct (merge_subset _ _ _ J) as [K | ->]; auto.
  Qed.

  Lemma find_arm_in k (arms : list (bytes * expr)) ae :
    (fix find (arms : list (bytes * expr)) : option expr :=
       match arms with
       | [] => None
       | (k', ae) :: arms' => if bytes_eqb k k' then Some ae else find arms'
       end) arms = Some ae -> exists k', In (k', ae) arms.
  Proof.
    induction arms as [|[k' a] arms IH]; intros H; [discriminate|].
    destruct (bytes_eqb k k'); [inversion H; subst; exists k'; now left|].
    destruct (IH H) as (k2 & I). exists k2. now right.
  Qed.

  Lemma sublist_inh (l sub : list value) ts :
    inh (VList l) (SList ts) = true -> (forall x, In x sub -> In x l) -> inh (VList sub) (SList ts) = true.
  Proof. simpl. rewrite !forallb_forall. intros H S x I. apply H, S, I. Qed.

  Lemma narrow_f_cands_l f t ts r s :
    is_err r = false -> ref_name r = None -> hole_name r = None -> is_any r = false ->
    is_empty_narrowed r = false ->
    narrow_f (S f) (SNarrowed (t :: ts)) r s
    = let '(ok, s1) := any_compat_l (narrow_f f) (t :: ts) r s false in ((if ok then r else SErr EType), s1).
  Proof. intros. destruct r; try discriminate; try reflexivity. destruct ts0; try discriminate; reflexivity. Qed.

  (* a data shape against a primitive one: no state change; the result is the primitive shape when the
     data shape admits it, a TypeErr otherwise *)
  Definition pres (nf : NF) (x y : shape) (c : bool) (p : shape) : Prop :=
    forall s, exists r, nf x y s = (r, s) /\ (if c then r = p else is_err r = true).

  Lemma pres_pure_at nf x y c p : is_prim p = true -> pres nf x y c p -> pure_at nf x y c.
  Proof.
    intros Pp H s. destruct (H s) as (r & E & C). exists r. split; auto.
    destruct c; [subst r; destruct p; try discriminate Pp; reflexivity|now rewrite C].
  Qed.

  Ltac pres_leaf := let s := fresh "s" in intro s; eexists; (split; [reflexivity|reflexivity]).

  Lemma narrow_ds_prim : forall f l p,
    is_prim p = true -> dsb l = true -> shape_size l < f ->
    pres (narrow_f f) l p (admits p l) p /\ pres (narrow_f f) p l (admits p l) p.
  Proof.
    induction f as [|f IH]; intros l p Pp Dl Hsz; [lia|].
    destruct l; try discriminate Dl;
      try (destruct p; try discriminate Pp; split; pres_leaf).
    (* SNarrowed *)
    destruct ts as [|t ts].
    { destruct p; try discriminate Pp; split; pres_leaf. }
    assert (IHt : forall t0, In t0 (t :: ts) ->
                             pure_at (narrow_f f) t0 p (admits p t0) /\ pure_at (narrow_f f) p t0 (admits p t0)).
    { intros t0 I. destruct (IH t0 p Pp) as [H1 H2].
      - change (forallb dsb (t :: ts) = true) in Dl. rewrite forallb_forall in Dl. auto.
      - pose proof (in_shapes_size (t :: ts) t0 I). simpl in Hsz. simpl in H. lia.
      - split; eapply pres_pure_at; eauto. }
    change (admits p (SNarrowed (t :: ts))) with (existsb (admits p) (t :: ts)).
    split; intro s.
    + rewrite narrow_f_cands_l by (destruct p; try discriminate Pp; reflexivity).
      pose proof (any_compat_l_pure (narrow_f f) shape (fun x => x) p (t :: ts) (admits p)) as E.
      rewrite map_id in E. rewrite E by (intros; apply IHt; auto).
      rewrite orb_false_l. destruct (existsb (admits p) (t :: ts)); eexists; split; reflexivity.
    + rewrite narrow_f_cands_r by (destruct p; try discriminate Pp; reflexivity).
      pose proof (any_compat_r_pure (narrow_f f) shape (fun x => x) p (t :: ts) (admits p)) as E.
      rewrite map_id in E. rewrite E by (intros; apply IHt; auto).
      rewrite orb_false_l. destruct (existsb (admits p) (t :: ts)); eexists; split; reflexivity.
  Qed.

  Definition prim_shape_of (v : value) : option shape :=
    match v with
    | VBool _ => Some SBool | VInt _ => Some SInt | VFloat _ => Some SFloat | VStr _ => Some SStr
    | _ => None
    end.

  Lemma inh_admits : forall n s (v : value) p,
    shape_size s <= n -> prim_shape_of v = Some p -> inh v s = admits p s.
  Proof.
    induction n as [|n IH]; intros s v p Hsz Hp.
    { pose proof (shape_size_pos s). lia. }
    destruct s; try (destruct v; inversion Hp; subst; reflexivity).
    destruct ts as [|t ts]; [reflexivity|].
    change (inh v (SNarrowed (t :: ts))) with (existsb (inh v) (t :: ts)).
    change (admits p (SNarrowed (t :: ts))) with (existsb (admits p) (t :: ts)).
    apply existsb_ext_in. intros t0 I. apply IH; auto.
    pose proof (in_shapes_size (t :: ts) t0 I). simpl in Hsz. simpl in H. lia.
  Qed.

  Lemma prim_shape_inh (v : value) p : prim_shape_of v = Some p -> is_prim p = true /\ inh v p = true.
  Proof. destruct v; simpl; intros H; inversion H; subst; split; reflexivity. Qed.
  Lemma inh_prim_shape (v : value) p : is_prim p = true -> inh v p = true -> prim_shape_of v = Some p.
  Proof. destruct p; try discriminate; destruct v; try discriminate; reflexivity. Qed.

  (* the operands of a successful arithmetic operation have one primitive kind, and so has the result *)
  Lemma arith_kind o lv rv v p :
    arith' fo o lv rv = Ok v -> (prim_shape_of lv = Some p \/ prim_shape_of rv = Some p) ->
    prim_shape_of lv = Some p /\ prim_shape_of rv = Some p /\ prim_shape_of v = Some p.
  Proof.
    intros H K.
    destruct o; simpl in H; try discriminate H;
      destruct lv; simpl in H; try discriminate H; destruct rv; simpl in H; try discriminate H; unfold chk in H;
        repeat match type of H with
               | (if ?c then _ else _) = Ok _ => destruct c; try discriminate
               end;
        inversion H; subst; simpl in *; destruct K as [K|K]; inversion K; subst; auto.
  Qed.

  Lemma arith_prim o lv rv v sl sr :
    arith' fo o lv rv = Ok v -> is_prim sl = true -> is_prim sr = true ->
    inh lv sl = true -> inh rv sr = true -> sl = sr /\ inh v sl = true.
  Proof.
    intros H Pl Pr Il Ir.
    destruct (arith_kind o lv rv v sl H (or_introl (inh_prim_shape lv sl Pl Il))) as (_ & K2 & K3).
    rewrite (inh_prim_shape rv sr Pr Ir) in K2. inversion K2; subst sr.
    split; [reflexivity|apply (prim_shape_inh v sl K3)].
  Qed.

  (* narrowing for arithmetic (arith_ok): the table is untouched; when both operand values have the
     primitive kind p and inhabit the operand shapes, the result is the shape p *)
  (* what is used of such an outcome: the result is hole-free, and it is p once the other shape admits p *)
  Lemma pres_result (nf : NF) x y c p st :
    is_prim p = true -> pres nf x y c p ->
    exists res, (let '(r, s) := nf x y (mk_nst st []) in (r, n_st s)) = (res, st)
                /\ hfb res = true /\ (c = true -> res = p).
  Proof.
    intros Pp P. destruct (P (mk_nst st [])) as (res & E & C). rewrite E. exists res. split; [reflexivity|]. split.
    - destruct c; [subst; destruct p; try discriminate; reflexivity|destruct res; try discriminate; reflexivity].
    - intros ->. exact C.
  Qed.

  Lemma narrow_st_arith st sl sr :
    arith_ok sl sr = true ->
    exists res, narrow_st st sl sr = (res, st) /\ hfb res = true
                /\ forall (lv rv : value) p,
                     prim_shape_of lv = Some p -> prim_shape_of rv = Some p ->
                     inh lv sl = true -> inh rv sr = true -> res = p.
  Proof.
    intros A. unfold arith_ok in A. apply orb_true_iff in A.
    pose proof (narrow_fuel_ge st sl sr) as Hf. unfold narrow_st.
    destruct A as [A|A]; apply andb_true_iff in A; destruct A as [A1 A2].
    - destruct (narrow_ds_prim (narrow_fuel st sl sr) sr sl A1 A2) as [_ P].
      { pose proof (shape_size_pos sl). lia. }
      destruct (pres_result _ _ _ _ _ st A1 P) as (res & E & H & C). exists res. split; [exact E|]. split; [exact H|].
      intros lv rv p Hl Hr Il Ir. rewrite (inh_prim_shape lv sl A1 Il) in Hl. inversion Hl; subst p.
      apply C. now rewrite <- (inh_admits _ sr rv sl (le_n _) Hr).
    - destruct (narrow_ds_prim (narrow_fuel st sl sr) sl sr A2 A1) as [P _].
      { pose proof (shape_size_pos sr). lia. }
      destruct (pres_result _ _ _ _ _ st A2 P) as (res & E & H & C). exists res. split; [exact E|]. split; [exact H|].
      intros lv rv p Hl Hr Il Ir. rewrite (inh_prim_shape rv sr A2 Ir) in Hr. inversion Hr; subst p.
      apply C. now rewrite <- (inh_admits _ sl lv sr (le_n _) Hl).
  Qed.

  Lemma arith_ok_kind sl sr (lv rv : value) :
    arith_ok sl sr = true -> inh lv sl = true -> inh rv sr = true ->
    exists p, prim_shape_of lv = Some p \/ prim_shape_of rv = Some p.
  Proof.
    intros A Il Ir. unfold arith_ok in A. apply orb_true_iff in A.
    destruct A as [A|A]; apply andb_true_iff in A; destruct A as [A1 A2].
    - exists sl. left. now apply inh_prim_shape.
    - exists sr. right. now apply inh_prim_shape.
  Qed.

  Local Opaque bytes_eqb arith'.

  Lemma bind_ok {A B} (m : res A) (k : A -> res B) v :
    (do x <- m; k x) = Ok v -> exists x, m = Ok x /\ k x = Ok v.
  Proof. destruct m; simpl; try discriminate. eauto. Qed.

  Lemma expr_depth_pos e : 1 <= expr_depth e.
  Proof. destruct e; simpl; lia. Qed.

  (* deriving e leaves the table alone and gives s whatever the (sufficient) fuel, s is hole-free, and every
     value e evaluates to inhabits s.  The lemmas below take the shape of an operand as a variable s with
     [sound_at st e s]: a conversion in which [derive st e] meets another head constant unfolds it down to
     the fixpoint derive_f. *)
  Definition sound_at (st : symtab) (e : expr) (s : shape) : Prop :=
    (forall df, expr_depth e <= df -> derive_f df e st = (s, st))
    /\ hfb s = true
    /\ (forall fuel c v, strict fo c = true -> env_ok (sc fo c) st -> eval fo fuel c e = Ok v -> inh v s = true).
  Definition sound (st : symtab) (e : expr) : Prop := sound_at st e (derive st e).

  (* the way [sound] is established: name the shape, and look at one step of derive_f and of eval *)
  Lemma sound_intro st e s :
    (forall df, expr_depth e <= S df -> derive_step (derive_f df) (dot_f df) e st = (s, st)) ->
    hfb s = true ->
    (forall fuel c v, strict fo c = true -> env_ok (sc fo c) st -> eval fo (S fuel) c e = Ok v -> inh v s = true) ->
    sound st e.
  Proof.
    intros D H E.
    assert (Ds : derive st e = s).
    { unfold derive, derive_st. replace (2 * expr_depth e + 2) with (S (2 * expr_depth e + 1)) by lia.
      rewrite derive_f_S, D by lia. reflexivity. }
    unfold sound, sound_at. rewrite Ds. split; [|split]; auto.
    - intros [|df] Hd; [pose proof (expr_depth_pos e); lia|]. rewrite derive_f_S. auto.
    - intros [|fuel] c v Hs He Hv; [discriminate|eauto].
  Qed.

  Lemma sound_const st e s (w : value) :
    (forall dv dot, derive_step dv dot e st = (s, st)) -> (forall fuel c, eval fo (S fuel) c e = Ok w) ->
    hfb s = true -> inh w s = true -> sound st e.
  Proof.
    intros D E H I. apply (sound_intro st e s); auto.
    intros fuel c v _ _ Hv. rewrite E in Hv. inversion Hv; subst. exact I.
  Qed.

  Lemma sound_sym st x : st_ok st -> sym_ok st x = true -> sound st (ESym x).
  Proof.
    intros Hst F. unfold sym_ok, st_has in F.
    apply andb_true_iff in F. destruct F as [F F3]. apply andb_true_iff in F. destruct F as [F1 F2].
    apply negb_true_iff in F2, F3. simpl in F2, F3.
    destruct (st_get x st) as [s0|] eqn:G; [|discriminate].
    apply (sound_intro st _ s0).
    - intros df _. simpl. now rewrite G.
    - eapply Hst; eauto.
    - intros fuel c v Hs He H. simpl in H. rewrite F2 in H.
      destruct (lookup fo x (sc fo c)) as [w|] eqn:L.
      + inversion H; subst. destruct (He x v L) as (s' & G' & I'). rewrite G in G'. now inversion G'; subst.
      + rewrite F3 in H. discriminate.
  Qed.

  (* (e) and TRACE e: derive and eval pass through to the operand *)
  Lemma sound_wrapped st e' e s :
    (forall dv dot, derive_step dv dot e' st = dv e st) ->
    (forall fuel c, eval fo (S fuel) c e' = eval fo fuel c e) ->
    expr_depth e' = S (expr_depth e) -> sound_at st e s -> sound st e'.
  Proof.
    intros Dw Ew Hw (D & H & E). apply (sound_intro st _ s).
    - intros df Hd. rewrite Dw. apply D. lia.
    - exact H.
    - intros fuel c v Hs He Hv. rewrite Ew in Hv. eapply E; eauto.
  Qed.

  Definition not_shape (s1 : shape) : shape :=
    match s1 with
    | SBool | SHole _ | SAny => SBool
    | SNarrowed ts => if existsb may_be_boolean ts then SBool else SErr EType
    | _ => SErr EType
    end.

  Lemma sound_not st e s : sound_at st e s -> not_cands s = true -> sound st (ENot e).
  Proof.
    intros (D & H & E) N. apply (sound_intro st _ (not_shape s)).
    - intros df Hd. simpl in Hd. simpl. rewrite D by lia. reflexivity.
    - destruct s; try discriminate N; reflexivity.
    - intros fuel c v Hs He Hv. simpl in Hv. apply bind_ok in Hv. destruct Hv as (w & Ew & Hv).
      destruct w; try discriminate. inversion Hv; subst.
      specialize (E _ _ _ Hs He Ew). destruct s; try discriminate; reflexivity.
  Qed.

  Definition field_shapes (st : symtab) (fs : list (bytes * expr)) : list (bytes * shape) :=
    map (fun '(k, e) => (k, derive st e)) fs.
  Notation fsound st := (fun ke : bytes * expr => sound st (snd ke)).

  Lemma derive_list_sound st es :
    Forall (sound st) es ->
    forall df, depth_list (fun e1 => expr_depth e1) es <= df ->
               derive_list (derive_f df) es st = (map (derive st) es, st).
  Proof.
    induction 1 as [|e es [D _] F IH]; simpl; intros df H; auto.
    rewrite D by lia. rewrite IH by lia. reflexivity.
  Qed.
  Lemma derive_fields_sound st fs :
    Forall (fsound st) fs ->
    forall df, depth_fields (fun e1 => expr_depth e1) fs <= df ->
               derive_fields (derive_f df) fs st = (field_shapes st fs, st).
  Proof.
    induction 1 as [|[k e] fs [D _] F IH]; simpl in *; intros df H; auto.
    rewrite D by lia. rewrite IH by lia. reflexivity.
  Qed.
  Lemma list_inh st es fuel c vs :
    strict fo c = true -> env_ok (sc fo c) st -> Forall (sound st) es ->
    Forall2 (fun e v => eval fo fuel c e = Ok v) es vs ->
    Forall2 (fun v s => inh v s = true) vs (map (derive st) es).
  Proof.
    intros Hs He F G. induction G as [|e v es vs Ev G IH]; inversion F as [|? ? (_ & _ & E)]; subst; constructor; eauto.
  Qed.
  Lemma fields_inh st fs fuel c vs :
    strict fo c = true -> env_ok (sc fo c) st -> Forall (fsound st) fs ->
    Forall2 (fun ke kv => fst ke = fst kv /\ eval fo fuel c (snd ke) = Ok (snd kv)) fs vs ->
    Forall2 (fun kv ks => fst kv = fst ks /\ inh (snd kv) (snd ks) = true) vs (field_shapes st fs).
  Proof.
    intros Hs He F G.
    induction G as [|[k e] [k' v] fs vs [K Ev] G IH]; inversion F as [|? ? (_ & _ & E)]; subst; constructor; eauto.
  Qed.

  Lemma sound_tuple st fs : nodup_fields fs = true -> Forall (fsound st) fs -> sound st (ETuple fs).
  Proof.
    intros N F. apply (sound_intro st _ (STuple (field_shapes st fs))).
    - intros df Hd. simpl in Hd. simpl. rewrite (derive_fields_sound st fs F) by lia. reflexivity.
    - simpl. unfold field_shapes. rewrite forallb_map. apply forallb_forall. intros [k e] I.
      rewrite Forall_forall in F. apply (F (k, e) I).
    - intros fuel c v Hs He Hv. simpl in Hv. apply bind_ok in Hv. destruct Hv as (r & T & Hv). inversion Hv; subst.
      destruct (tuple_lit_spec (eval fo fuel c) fs [] r T N) as (vs & FA & ->); [reflexivity|].
      apply inh_tuple_forall2.
      + eapply fields_inh; eauto.
      + unfold field_shapes. rewrite map_fst_map. apply nodup_names_NoDup. now rewrite <- nodup_fields_names.
  Qed.

  Lemma sound_list st es : Forall (sound st) es -> sound st (EList es).
  Proof.
    intros F. apply (sound_intro st _ (SList (map (derive st) es))).
    - intros df Hd. simpl in Hd. simpl. rewrite (derive_list_sound st es F) by lia. reflexivity.
    - simpl. rewrite forallb_map. apply forallb_forall. rewrite Forall_forall in F. intros e I. apply (F e I).
    - intros fuel c v Hs He Hv. simpl in Hv. apply bind_ok in Hv. destruct Hv as (r & M & Hv). inversion Hv; subst.
      apply inh_list_forall2. apply (list_inh st es fuel c r Hs He F). now apply mapM_ok.
  Qed.

  Lemma eval_arith fuel c o l r :
    is_arith o = true ->
    eval fo (S fuel) c (EBin o l r) = (do rv <- eval fo fuel c r; do lv <- eval fo fuel c l; arith' fo o lv rv).
  Proof. destruct o; try discriminate; reflexivity. Qed.

  Ltac break_H H :=
    unfold bind in H;
    repeat match type of H with
           | context [match ?x with _ => _ end] => destruct x eqn:?; simpl in H; try discriminate H
           end.

  Lemma eval_cmp_bool fuel c o l r v :
    is_cmp_fo o = true -> eval fo (S fuel) c (EBin o l r) = Ok v -> exists x, v = VBool x.
  Proof.
    intros C H. destruct o; try discriminate C; simpl in H;
      apply bind_ok in H; destruct H as (rv & _ & H); apply bind_ok in H; destruct H as (lv & _ & H);
        unfold compare_num in H; break_H H; inversion H; eauto.
  Qed.

  Lemma sound_cmp st o l r sl sr :
    is_cmp_fo o = true -> sound_at st l sl -> sound_at st r sr -> sound st (EBin o l r).
  Proof.
    intros C (Dl & _) (Dr & _). apply (sound_intro st _ SBool); auto.
    - intros df Hd. simpl in Hd. destruct o; try discriminate C; simpl; rewrite Dl by lia; rewrite Dr by lia; reflexivity.
    - intros fuel c v _ _ Hv. destruct (eval_cmp_bool _ _ _ _ _ _ C Hv) as [x ->]. reflexivity.
  Qed.

  Lemma sound_arith st o l r sl sr :
    is_arith o = true -> arith_ok sl sr = true -> sound_at st l sl -> sound_at st r sr -> sound st (EBin o l r).
  Proof.
    intros A K (Dl & _ & El) (Dr & _ & Er).
    destruct (narrow_st_arith st _ _ K) as (res & En & Hn & Pn).
    apply (sound_intro st _ res); auto.
    - intros df Hd. simpl in Hd. destruct o; try discriminate A; simpl; rewrite Dl by lia; rewrite Dr by lia; exact En.
    - intros fuel c v Hs He Hv. rewrite (eval_arith fuel c o l r A) in Hv.
      apply bind_ok in Hv. destruct Hv as (rv & E2 & Hv). apply bind_ok in Hv. destruct Hv as (lv & E1 & Hv).
      pose proof (El _ _ _ Hs He E1) as Il. pose proof (Er _ _ _ Hs He E2) as Ir.
      destruct (arith_ok_kind _ _ lv rv K Il Ir) as [p Kp].
      destruct (arith_kind _ lv rv v p Hv Kp) as (K1 & K2 & K3).
      rewrite (Pn lv rv p K1 K2 Il Ir). apply (prim_shape_inh v p K3).
  Qed.

  (* the right operands of `.` in the fragment *)
  Definition dot_rhs (r : expr) : bool :=
    match r with
    | ESym _ | EStr _ | EInt _ => true
    | ECall f _ | ECopy f _ => match f with ESym _ | EStr _ => true | _ => false end
    | _ => false
    end.
  Definition dot_shape (r : expr) (ls : shape) : shape :=
    match r with
    | ESym k | EStr k => dot_sym k ls
    | EInt _ => dot_int ls
    | _ => dot_call ls
    end.

  Lemma fragment_fo_dot st l r : fragment_fo st (EBin DOT l r) = fragment_fo st l && dot_rhs r.
  Proof.
    destruct r; simpl; rewrite ?andb_true_r, ?andb_false_r; try reflexivity;
      match goal with |- context [match ?f with _ => _ end] => destruct f end;
      simpl; rewrite ?andb_true_r, ?andb_false_r; reflexivity.
  Qed.

  Lemma dot_f_rhs n ls r st : hfb ls = true -> dot_rhs r = true -> dot_f (S n) ls r st = (dot_shape r ls, st).
  Proof.
    intros H R. rewrite dot_f_S.
    destruct r; try discriminate R; destruct ls; try discriminate H; try reflexivity; destruct ts; reflexivity.
  Qed.

  Lemma hf_dot_shape r ls : hfb ls = true -> hfb (dot_shape r ls) = true.
  Proof. intros H. destruct r; simpl; auto using hf_dot_sym, hf_dot_int, hf_dot_call. Qed.

  (* what a successful selection says about the value of the left operand *)
  Definition dot_value (r : expr) (lv v : value) : Prop :=
    match r with
    | ESym k | EStr k => exists fs, lv = VTuple fs /\ lookup fo k fs = Some v
    | EInt _ => exists items, lv = VList items /\ In v items
    | _ => exists fs, lv = VTuple fs
    end.

  Lemma index_field c lv k (v : value) :
    strict fo c = true -> index fo c lv (VStr k) = Ok v -> exists fs, lv = VTuple fs /\ lookup fo k fs = Some v.
  Proof.
    intros Hs H. unfold index in H. rewrite Hs in H. destruct lv; try discriminate H.
    destruct (lookup fo k fs) eqn:L; inversion H; subst. eauto.
  Qed.
  Lemma index_item c lv i (v : value) :
    strict fo c = true -> index fo c lv (VInt i) = Ok v -> exists items, lv = VList items /\ In v items.
  Proof.
    intros Hs H. unfold index in H. rewrite Hs in H. destruct lv; try discriminate H.
    destruct (Z.leb 0 i); try discriminate H.
    destruct (nth_error l (Z.to_nat i)) eqn:N; inversion H; subst. eauto using nth_error_In.
  Qed.

  Lemma eval_dot_inv fuel c l r v :
    strict fo c = true -> dot_rhs r = true -> eval fo (S fuel) c (EBin DOT l r) = Ok v ->
    exists lv, eval fo fuel c l = Ok lv /\ dot_value r lv v.
  Proof.
    intros Hs R H. destruct r; try discriminate R; simpl in H.
    - (* e.<i> *) apply bind_ok in H. destruct H as (lv & E & H). destruct fuel; [discriminate|]. simpl in H.
      exists lv. split; auto. eapply index_item; eauto.
    - (* e."k" *) apply bind_ok in H. destruct H as (lv & E & H). destruct fuel; [discriminate|]. simpl in H.
      exists lv. split; auto. eapply index_field; eauto.
    - (* e.k *) apply bind_ok in H. destruct H as (lv & E & H).
      exists lv. split; auto. eapply index_field; eauto.
    - (* e.k{...} *) destruct r; try discriminate R;
        apply bind_ok in H; destruct H as (lv & E & H); apply bind_ok in H; destruct H as (tv & I & _);
          exists lv; (split; auto); destruct (index_field _ _ _ _ Hs I) as (fs0 & -> & _); simpl; eauto.
    - (* e.k(...) *) destruct r; try discriminate R;
        apply bind_ok in H; destruct H as (avs & _ & H);
          apply bind_ok in H; destruct H as (lv & E & H); apply bind_ok in H; destruct H as (tv & I & _);
            exists lv; (split; auto); destruct (index_field _ _ _ _ Hs I) as (fs0 & -> & _); simpl; eauto.
  Qed.

  Lemma dot_shape_sound r ls (lv v : value) :
    hfb ls = true -> inh lv ls = true -> dot_value r lv v -> inh v (dot_shape r ls) = true.
  Proof.
    intros H I V.
    destruct r; simpl in *;
      try (destruct V as (fs0 & ->); eapply dot_call_sound; eassumption).
    - destruct V as (items & -> & Iv). eapply dot_int_sound; eauto.
    - destruct V as (fs0 & -> & L). eapply dot_sym_sound; eauto.
    - destruct V as (fs0 & -> & L). eapply dot_sym_sound; eauto.
  Qed.

  Lemma sound_dot st l r sl : sound_at st l sl -> dot_rhs r = true -> sound st (EBin DOT l r).
  Proof.
    intros (Dl & Hl & El) R. apply (sound_intro st _ (dot_shape r sl)).
    - intros df Hd. simpl in Hd. cbn [derive_step]. rewrite Dl by lia.
      destruct df as [|df]; [pose proof (expr_depth_pos r); lia|].
      rewrite (dot_f_rhs df _ r st Hl R). f_equal. now apply dot_no_update.
    - now apply hf_dot_shape.
    - intros fuel c v Hs He Hv. destruct (eval_dot_inv _ _ _ _ _ Hs R Hv) as (lv & E & V).
      apply (dot_shape_sound r _ lv v Hl (El _ _ _ Hs He E) V).
  Qed.

  Lemma sound_range st a s z : sound st (ERange a s z).
  Proof.
    apply (sound_intro st _ (SList [SInt])); auto.
    intros fuel c v _ _ H. simpl in H.
    assert (K : exists n a0 stp z0, v = VList (range_from fo n a0 stp z0)) by (break_H H; inversion H; eauto).
    destruct K as (n & a0 & stp & z0 & ->). simpl. apply range_from_ints.
  Qed.

  Lemma sound_format_list st parts args : sound st (EFormatL parts args).
  Proof.
    apply (sound_intro st _ SStr); auto.
    intros fuel c v _ _ H. simpl in H.
    destruct (negb (Nat.eqb _ _)); try discriminate.
    assert (K : exists t, v = VStr t).
    { revert v H. generalize args as es. induction parts as [|p ps IHp]; intros es v H; simpl in H.
      - inversion H; eauto.
      - destruct p; simpl in H.
        + break_H H. inversion H; eauto.
        + destruct es; try discriminate. break_H H. inversion H; eauto.
        + discriminate. }
    destruct K as [t ->]. reflexivity.
  Qed.

  Lemma sound_format_item st parts e : sound st (EFormatS parts e).
  Proof.
    apply (sound_intro st _ SStr); auto.
    intros fuel c v _ _ H. simpl in H. apply bind_ok in H. destruct H as (item & _ & H).
    assert (K : exists t, v = VStr t).
    { revert v H. induction parts as [|p ps IHp]; intros v H; simpl in H.
      - inversion H; eauto.
      - destruct p; simpl in H.
        + break_H H. inversion H; eauto.
        + discriminate.
        + break_H H. inversion H; eauto. }
    destruct K as [t ->]. reflexivity.
  Qed.

  Definition cast_shape (ct : cast_type) : shape :=
    match ct with CInt => SInt | CStr => SStr | CFloat => SFloat | CBool => SBool end.
  Lemma cast_inh ct (w v : value) : cast fo ct w = Ok v -> inh v (cast_shape ct) = true.
  Proof. intros H. destruct ct; unfold cast in H; break_H H; inversion H; reflexivity. Qed.

  Lemma sound_cast st ct e : sound st (ECast ct e).
  Proof.
    apply (sound_intro st _ (cast_shape ct)).
    - intros df _. destruct ct; reflexivity.
    - destruct ct; reflexivity.
    - intros fuel c v _ _ H. simpl in H. apply bind_ok in H. destruct H as (w & _ & H). eapply cast_inh; eauto.
  Qed.

  Definition select_shapes (st : symtab) (dflt : option expr) (arms : list (bytes * expr)) : list shape :=
    map (fun '(_, e1) => derive st e1) arms ++ match dflt with Some d => [derive st d] | None => [] end.

  Lemma derive_select_sound st dflt arms :
    Forall (fsound st) arms -> (forall d, dflt = Some d -> sound st d) ->
    forall df types,
      depth_fields (fun e1 => expr_depth e1) arms <= df ->
      match dflt with Some d => expr_depth d | None => 0 end <= df ->
      derive_select (derive_f df) merge_in_shape dflt arms types st
      = (SNarrowed (fold_left merge_in_shape (select_shapes st dflt arms) types), st).
  Proof.
    intros F Hd. unfold select_shapes.
    induction F as [|[k e] arms [D _] F IH]; simpl in *; intros df types H1 H2.
    - destruct dflt as [d|]; auto. destruct (Hd d eq_refl) as [Dd _]. rewrite Dd by lia. reflexivity.
    - rewrite D by lia. apply IH; lia.
  Qed.

  Lemma sound_select st v dflt arms :
    Forall (fsound st) arms -> (forall d, dflt = Some d -> sound st d) ->
    sel_ok_all [] (select_shapes st dflt arms) = true -> sound st (ESelect v dflt arms).
  Proof.
    intros F Hd OK.
    apply (sound_intro st _ (SNarrowed (fold_left merge_in_shape (select_shapes st dflt arms) []))).
    - intros df D. simpl in D. simpl. apply (derive_select_sound st dflt arms F Hd); destruct dflt; simpl in *; lia.
    - simpl. apply forallb_forall. intros x I. apply fold_merge_subset in I. destruct I as [[]|I].
      apply in_app_or in I. destruct I as [I|I].
      + apply in_map_iff in I. destruct I as ([k e] & <- & I). rewrite Forall_forall in F. apply (F (k, e) I).
      + destruct dflt as [d|]; [|destruct I]. destruct I as [<-|[]]. apply (Hd d eq_refl).
    - intros fuel c v0 Hs He H. simpl in H. apply bind_ok in H. destruct H as (w & _ & H).
      match type of H with
      | match ?h with Some _ => _ | None => _ end = _ => destruct h as [ae|] eqn:Hit
      end.
      + assert (Ia : exists k', In (k', ae) arms).
        { match type of Hit with
          | match ?kk with Some _ => _ | None => _ end = _ => destruct kk as [kx|]; [|discriminate]
          end.
          eapply find_arm_in; eauto. }
        destruct Ia as [k' Ia]. rewrite Forall_forall in F. destruct (F (k', ae) Ia) as (_ & _ & E0).
        apply (inh_narrowed_in v0 _ (derive st ae)); [|eapply E0; eauto].
        apply sel_ok_all_in; auto. apply in_or_app. left. apply in_map_iff. exists (k', ae). auto.
      + destruct dflt as [d|]; try discriminate. destruct (Hd d eq_refl) as (_ & _ & Ed).
        apply (inh_narrowed_in v0 _ (derive st d)); [|eapply Ed; eauto].
        apply sel_ok_all_in; auto. apply in_or_app. right. now left.
  Qed.

  (* of the function argument only this is used: deriving it leaves the table alone *)
  Definition derives_pure (st : symtab) (e : expr) : Prop :=
    forall df, expr_depth e <= df -> exists s, derive_f df e st = (s, st).

  Lemma derive_f_func_lit df ps body st :
    exists table bs, derive_f (S df) (EFunc ps body) st = (SFunc ps table bs, st).
  Proof. rewrite derive_f_S. simpl. destruct (derive_f df body _). eauto. Qed.

  Lemma fn_arg_pure st e :
    (fragment_fo st e = true -> sound st e) -> (fragment_fo st e || is_func_lit e) = true -> derives_pure st e.
  Proof.
    intros S F df Hd. apply orb_true_iff in F. destruct F as [F|L]; [destruct (S F) as (D & _); eauto|].
    destruct e; try discriminate. destruct df; [simpl in Hd; lia|].
    destruct (derive_f_func_lit df params e st) as (table & bs & E'). eauto.
  Qed.

  Definition filter_shape (ts : shape) : shape :=
    match ts with
    | SList _ | SListAny => ts
    | SHole _ | SAny => SAny
    | SStr => ts
    | STuple _ | SNarrowed _ => SAny
    | _ => SErr EType
    end.

  Lemma sound_map st fe te ts :
    derives_pure st fe -> sound_at st te ts -> map_target_ok ts = true -> sound st (EMap fe te).
  Proof.
    intros Pf (Dt & _) T. apply (sound_intro st _ SAny); auto.
    intros df D. simpl in D. simpl. rewrite Dt by lia. destruct (Pf df) as [s' ->]; [lia|].
    destruct ts; try discriminate T; reflexivity.
  Qed.

  Lemma sound_filter st fe te ts :
    derives_pure st fe -> sound_at st te ts -> filter_target_ok ts = true -> sound st (EFilter fe te).
  Proof.
    intros Pf (Dt & Ht & Et) T. apply (sound_intro st _ (filter_shape ts)).
    - intros df D. simpl in D. simpl. rewrite Dt by lia. destruct (Pf df) as [s' ->]; [lia|]. reflexivity.
    - destruct ts; simpl; auto.
    - intros fuel c v Hs He H. simpl in H.
      apply bind_ok in H. destruct H as (fv & _ & H). apply bind_ok in H. destruct H as (tv & Ev & H).
      specialize (Et _ _ _ Hs He Ev).
      destruct ts; try discriminate T; try reflexivity.
      + destruct tv; try discriminate Et. destruct fv; try discriminate H.
        break_H H. inversion H; reflexivity.
      + destruct tv; try discriminate Et. destruct fv; try discriminate H.
        break_H H. inversion H; reflexivity.
      + (* SList: the result is a sublist of the target *)
        destruct tv; try discriminate Et. destruct fv; try discriminate H.
        destruct (negb (Nat.eqb (List.length params) 1)); try discriminate H.
        apply bind_ok in H. destruct H as (r & M & H). inversion H; subst. apply mapM_keep_snd in M.
        apply (sublist_inh l); auto. intros x I. rewrite <- M.
        apply in_map_iff in I. destruct I as (p & <- & I). apply filter_In in I. apply in_map. tauto.
  Qed.

  Lemma fragment_fo_bin st o l r :
    o <> DOT ->
    fragment_fo st (EBin o l r)
    = fragment_fo st l && fragment_fo st r
      && (is_cmp_fo o || (is_arith o && arith_ok (derive st l) (derive st r))).
  Proof. destruct o; try reflexivity. congruence. Qed.

  Lemma fragment_fo_bin_inv st o l r :
    fragment_fo st (EBin o l r) = true ->
    fragment_fo st l = true
    /\ (o = DOT /\ dot_rhs r = true
        \/ fragment_fo st r = true
           /\ (is_cmp_fo o = true \/ is_arith o = true /\ arith_ok (derive st l) (derive st r) = true)).
  Proof.
    intros F. assert (Dec : o = DOT \/ o <> DOT) by (destruct o; auto; right; discriminate).
    destruct Dec as [-> | N].
    - rewrite fragment_fo_dot in F. apply andb_true_iff in F. tauto.
    - rewrite (fragment_fo_bin st o l r N) in F.
      apply andb_true_iff in F. destruct F as [F K]. apply andb_true_iff in F. destruct F as [Fl Fr].
      apply orb_true_iff in K. rewrite andb_true_iff in K. tauto.
  Qed.

  Theorem fragment_sound : forall n e st,
    expr_depth e <= n -> st_ok st -> fragment_fo st e = true -> sound st e.
  Proof.
    induction n as [|n IH]; intros e st Hd Hst F.
    { pose proof (expr_depth_pos e). lia. }
    destruct e; try (simpl in F; discriminate F); simpl in Hd; apply le_S_n in Hd.
    - apply (sound_const st _ SAny VNull); reflexivity.
    - apply (sound_const st _ SBool (VBool v)); reflexivity.
    - apply (sound_const st _ SInt (VInt z)); reflexivity.
    - apply (sound_const st _ SFloat (VFloat (f_of_bits fo bits))); reflexivity.
    - apply (sound_const st _ SStr (VStr s)); reflexivity.
    - now apply sound_sym.
    - simpl in F. apply andb_true_iff in F. destruct F as [F1 F2]. apply sound_tuple; auto.
      apply Forall_forall. intros [k e1] I. rewrite forallb_forall in F2. apply IH; auto; [|apply (F2 (k, e1) I)].
      pose proof (depth_fields_in (fun e1 => expr_depth e1) fs k e1 I). simpl. lia.
    - apply sound_list. apply Forall_forall. intros e1 I. simpl in F. rewrite forallb_forall in F. apply IH; auto.
      pose proof (depth_list_in (fun e1 => expr_depth e1) es e1 I). lia.
    - assert (S1 : fragment_fo st e1 = true -> sound st e1) by (intros; apply IH; auto; lia).
      assert (S2 : fragment_fo st e2 = true -> sound st e2) by (intros; apply IH; auto; lia).
      destruct (fragment_fo_bin_inv _ _ _ _ F) as [Fl [[-> R] | [Fr [C | [A K]]]]].
      + apply (sound_dot st e1 e2 _ (S1 Fl) R).
      + apply (sound_cmp st o e1 e2 _ _ C (S1 Fl) (S2 Fr)).
      + apply (sound_arith st o e1 e2 _ _ A K (S1 Fl) (S2 Fr)).
    - simpl in F. apply andb_true_iff in F. destruct F as [F1 F2]. apply (sound_not st e _ (IH e st Hd Hst F1) F2).
    - apply (sound_wrapped st (EGroup e) e _ (fun _ _ => eq_refl) (fun _ _ => eq_refl) eq_refl (IH e st Hd Hst F)).
    - apply sound_range.
    - apply sound_format_list.
    - apply sound_format_item.
    - apply sound_cast.
    - simpl in F. apply andb_true_iff in F. destruct F as [F F3]. apply andb_true_iff in F. destruct F as [F1 F2].
      apply sound_select; auto.
      + apply Forall_forall. intros [k e1] I. rewrite forallb_forall in F1. apply IH; auto; [|apply (F1 (k, e1) I)].
        pose proof (depth_fields_in (fun e1 => expr_depth e1) arms k e1 I). simpl. lia.
      + intros d ->. apply IH; auto. simpl in Hd. lia.
    - simpl in F. apply andb_true_iff in F. destruct F as [F F3]. apply andb_true_iff in F. destruct F as [F1 F2].
      apply (sound_map st e1 e2 (derive st e2)); auto; [|apply IH; auto; lia].
      apply fn_arg_pure; auto. intros; apply IH; auto; lia.
    - simpl in F. apply andb_true_iff in F. destruct F as [F F3]. apply andb_true_iff in F. destruct F as [F1 F2].
      apply (sound_filter st e1 e2 (derive st e2)); auto; [|apply IH; auto; lia].
      apply fn_arg_pure; auto. intros; apply IH; auto; lia.
    - apply (sound_wrapped st (ETrace e) e _ (fun _ _ => eq_refl) (fun _ _ => eq_refl) eq_refl (IH e st Hd Hst F)).
  Qed.

  Local Transparent bytes_eqb.

  (* C07 for one expression of the fragment *)
  Theorem derive_sound_fo : forall fuel c e v st,
    strict fo c = true -> st_ok st -> env_ok (sc fo c) st -> fragment_fo st e = true -> eval fo fuel c e = Ok v ->
    ~ is_type_err (derive st e) /\ inhabits fo v (derive st e) /\ snd (derive_st e st) = st.
  Proof.
    intros fuel c e v st Hs Hst Henv F H.
    destruct (fragment_sound (expr_depth e) e st (le_n _) Hst F) as (D & G & E).
    specialize (E _ _ _ Hs Henv H). split; [|split]; auto.
    - unfold is_type_err. rewrite (inh_not_err v _ E). discriminate.
    - unfold derive_st. rewrite D by lia. reflexivity.
  Qed.

  (* without evaluating: deriving an expression of the fragment never touches the symbol table *)
  Theorem derive_fragment_stable : forall e st,
    st_ok st -> fragment_fo st e = true -> snd (derive_st e st) = st /\ hfb (derive st e) = true.
  Proof.
    intros e st Hst F.
    destruct (fragment_sound (expr_depth e) e st (le_n _) Hst F) as (D & G & _).
    unfold derive_st. rewrite D by lia. auto.
  Qed.

  Lemma env_ok_cons sc0 st x v s :
    env_ok sc0 st -> inh v s = true -> env_ok ((x, v) :: sc0) (st_set x s st).
  Proof.
    intros He I y w L. simpl in *. destruct (bytes_eqb y x).
    - inversion L; subst. eauto.
    - apply He; auto.
  Qed.
  Lemma st_ok_cons st x s : st_ok st -> hfb s = true -> st_ok (st_set x s st).
  Proof.
    intros Hst H y t G. simpl in G. destruct (bytes_eqb y x).
    - inversion G; subst. exact H.
    - eapply Hst; eauto.
  Qed.

  (* the right side of a let: an expression of the fragment, or a func literal *)
  Lemma let_rhs_sound st e :
    st_ok st -> (fragment_fo st e || is_func_lit e) = true ->
    derive_st e st = (derive st e, st) /\ hfb (derive st e) = true
    /\ (forall fuel c v, strict fo c = true -> env_ok (sc fo c) st -> eval fo fuel c e = Ok v ->
                         inh v (derive st e) = true).
  Proof.
    intros Hst F. apply orb_true_iff in F. destruct F as [F|F].
    - destruct (fragment_sound (expr_depth e) e st (le_n _) Hst F) as (D & G & E).
      split; [|split]; auto. unfold derive_st. apply D. lia.
    - destruct e; try discriminate.
      assert (Ds : exists table bs, derive_st (EFunc params e) st = (SFunc params table bs, st)).
      { unfold derive_st. replace (2 * expr_depth (EFunc params e) + 2) with (S (2 * expr_depth (EFunc params e) + 1)) by lia.
        apply derive_f_func_lit. }
      destruct Ds as (table & bs & Ds). unfold derive. rewrite Ds. split; [|split]; auto.
      intros [|fuel] c v _ _ H; [discriminate|]. simpl in H. inversion H; subst. reflexivity.
  Qed.

  (* one statement: the checker accepts it, and the table it leaves describes the scope evaluation leaves *)
  Lemma check_let_sound st x e fuel c v :
    strict fo c = true -> st_ok st -> env_ok (sc fo c) st -> (fragment_fo st e || is_func_lit e) = true ->
    eval fo fuel c e = Ok v ->
    check_stmt (CLet x None e) st = Some (st_set x (derive st e) st)
    /\ st_ok (st_set x (derive st e) st) /\ env_ok ((x, v) :: sc fo c) (st_set x (derive st e) st).
  Proof.
    intros Hs Hst Henv F E. destruct (let_rhs_sound st e Hst F) as (D & G & I). specialize (I _ _ _ Hs Henv E).
    split; [|split; [now apply st_ok_cons|now apply env_ok_cons]].
    simpl. rewrite D. set (s := derive st e) in *. clearbody s.
    rewrite (inh_not_err v s I). destruct s; try discriminate G; reflexivity.
  Qed.
  Lemma check_expr_sound st e fuel c v :
    strict fo c = true -> st_ok st -> env_ok (sc fo c) st -> fragment_fo st e = true ->
    eval fo fuel c e = Ok v -> check_stmt (CExpr e) st = Some st.
  Proof.
    intros Hs Hst Henv F E. destruct (let_rhs_sound st e Hst) as (D & _ & I); [now rewrite F|].
    simpl. now rewrite D, (inh_not_err v _ (I _ _ _ Hs Henv E)).
  Qed.

  (* C07 for programs: when evaluation (no checker) runs to completion, the checker accepts the program *)
  Theorem check_sound_prog : forall fuel p c st sc' cs,
    strict fo c = true -> st_ok st -> env_ok (sc fo c) st -> fragment_prog st p = true -> cstmts_of p = Some cs ->
    exec_list fo fuel c p = Ok sc' ->
    exists st', check_stmts cs st = Some st' /\ st_ok st' /\ env_ok sc' st'.
  Proof.
    induction fuel as [|f IH]; intros p c st sc' cs Hs Hst Henv F C H; [discriminate|].
    destruct p as [|s p]; simpl in H.
    - inversion H; subst. inversion C; subst. simpl. eauto.
    - destruct s as [x e|e|e|t e]; simpl in F, C; try discriminate;
        apply andb_true_iff in F; destruct F as [Fe Fp];
        (destruct (cstmts_of p) as [cs'|] eqn:Cp; try discriminate); inversion C; subst cs; clear C;
        (destruct (eval fo f c e) as [v| | |] eqn:E; simpl in H; try discriminate).
      + destruct (is_reserved x); simpl in H; try discriminate.
        destruct (lookup fo x (sc fo c)); simpl in H; try discriminate.
        destruct (check_let_sound st x e f c v Hs Hst Henv Fe E) as (K & Hst1 & Henv1).
        cbn [check_stmts]. rewrite K. apply (IH p (with_scope fo c ((x, v) :: sc fo c)) _ sc' cs'); auto.
      + replace (with_scope fo c (sc fo c)) with c in H by (destruct c; reflexivity).
        cbn [check_stmts]. rewrite (check_expr_sound st e f c v Hs Hst Henv Fe E). now apply (IH p c st sc' cs').
  Qed.

  Lemma st_ok_nil : st_ok [].
  Proof. intros x s H. discriminate. Qed.
  Lemma env_ok_nil : env_ok [] [].
  Proof. intros x v H. discriminate. Qed.
End C07.

(* Not proved.
   First:
     the statement of derive_sound_fo / check_sound_prog with fragment_fo extended by
       - ECall (ESym f) args   direct calls of let-bound functions.  The declared parameter shapes and the
                               return shape come from ONE derivation of the body with the parameters as holes;
                               a proof needs soundness of that derivation for every argument value.  It is false
                               in general (class N4: a parameter narrowed by a branch the call does not execute);
       - EMap f t on a list    result List(func.ret): the same function-body soundness;
       - EReduce f acc t       result acc narrowed with func.ret: likewise;
       - ECopy (ESym t) fs     direct copy of a tuple.  With last-wins lookup (05372e0) the shape base ++ overrides
                               is right, but the proof needs the invariant "a tuple value has no repeated field",
                               which inhabits/env_ok do not carry (merge_field replaces the FIRST field of a name);
       - ENot e                when the derived shape of e is a candidate set (a3555a1 accepts nested candidates;
                               the empty candidate set inside another one is still not "may_be_boolean");
       - EBin AND/OR l r       when r is a comparison, a `not`, a boolean literal or again such an AND/OR
                               (otherwise Known class K10);
       - EBin IN l r, EBin REMatch l r;
       - arithmetic where BOTH operand shapes are candidate sets, and `+` on lists with equal element
         candidates (otherwise K1/K1b/K2);
       - a func literal inside a tuple / list literal (its Func shape depends on the fuel of the enclosing
         derivation; the statement "the same shape for every sufficient fuel" needs fuel-monotonicity of derive_f).

   Second:
     forall (v : value fo) s1 s2 st, dsb s1 = true -> dsb s2 = true -> inhabits fo v s1 -> inhabits fo v s2 ->
       prim_shape_of v <> None -> ~ is_type_err (narrow st s1 s2)
     (both shapes candidate sets; narrow_ds_prim / narrow_st_arith prove the case where one side is primitive). *)

