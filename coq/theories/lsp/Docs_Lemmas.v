(* Proofs about the document store of the language server (lsp/Docs.v). *)
From Coq Require Import List Bool.
From Ucg Require Import base.Bytes base.Bytes_Lemmas lsp.Docs.
Import ListNotations.

Lemma eqb_sym x y : bytes_eqb x y = bytes_eqb y x.
Proof. exact (bytes_eqb_sym x y). Qed.

Lemma lookup_remove s u v : lookup (remove s u) v = if bytes_eqb u v then None else lookup s v.
Proof.
  induction s as [|[k t] s IH]; cbn [remove lookup].
  - destruct (bytes_eqb u v); reflexivity.
  - destruct (bytes_eqb k u) eqn:E.
    + apply bytes_eqb_spec in E. subst k. rewrite IH. destruct (bytes_eqb u v); reflexivity.
    + cbn [lookup]. rewrite IH. destruct (bytes_eqb k v) eqn:E2; [|reflexivity].
      apply bytes_eqb_spec in E2. subst k. rewrite (bytes_eqb_sym u v), E. reflexivity.
Qed.

Lemma lookup_set s u t v : lookup (set s u t) v = if bytes_eqb u v then Some t else lookup s v.
Proof. unfold set. cbn [lookup]. rewrite lookup_remove. destruct (bytes_eqb u v); reflexivity. Qed.

(* two stores that answer every lookup alike *)
Definition same_view (a b : store) : Prop := forall u, lookup a u = lookup b u.

Lemma same_view_set a b u t : same_view a b -> same_view (set a u t) (set b u t).
Proof. intros H v. rewrite !lookup_set, (H v). reflexivity. Qed.

Lemma same_view_remove a b u : same_view a b -> same_view (remove a u) (remove b u).
Proof. intros H v. rewrite !lookup_remove, (H v). reflexivity. Qed.

Section Server.
  Variable D : Type.
  Variable analyze : store -> uri -> text -> D.
  Variable none : D.
  Variable disk : store.
  (* the analysis sees the workspace only through lookups *)
  Hypothesis analyze_ext : forall w1 w2 u t, same_view w1 w2 -> analyze w1 u t = analyze w2 u t.

  Notation step := (step D analyze none disk).
  Notation run := (run D analyze none disk).

  Lemma run_cons s m ms : fst (run s (m :: ms)) = fst (run (fst (step s m)) ms).
  Proof. cbn [Docs.run]. destruct (step s m) as [s1 p]. cbn [fst]. destruct (run s1 ms). reflexivity. Qed.

  Lemma run_snoc ms m : forall s, fst (run s (ms ++ [m])) = fst (step (fst (run s ms)) m).
  Proof.
    induction ms as [|m' ms IH]; intros s; cbn [app]; rewrite !run_cons; [reflexivity|apply IH].
  Qed.

  (* the invariant: the workspace is the disk overlaid by the open documents *)
  Definition ws_ok (s : state) : Prop :=
    forall u, lookup (ws s) u = match lookup (docs s) u with Some t => Some t | None => lookup disk u end.

  Lemma init_ok : ws_ok (init disk).
  Proof. intros u. reflexivity. Qed.

  Lemma step_ok s m : ws_ok s -> ws_ok (fst (step s m)).
  Proof.
    intros H. destruct m as [u t|u t|u|u]; unfold Docs.step; cbn [fst]; try exact H; intros v; cbn [docs ws].
    1, 2: rewrite !lookup_set, (H v); destruct (bytes_eqb u v); reflexivity.
    rewrite lookup_remove.
    destruct (lookup disk u) as [t|] eqn:Ed; rewrite ?lookup_set, ?lookup_remove, (H v);
      (destruct (bytes_eqb u v) eqn:E; [|reflexivity]);
      apply bytes_eqb_spec in E; subst v; symmetry; exact Ed.
  Qed.

  Lemma run_ok ms : forall s, ws_ok s -> ws_ok (fst (run s ms)).
  Proof.
    induction ms as [|m ms IH]; intros s H; [exact H|]. rewrite run_cons. apply IH, step_ok, H.
  Qed.

  (* the open documents are what the history says, whatever happened before *)
  Lemma run_docs ms : forall s u,
    lookup (docs (fst (run s ms))) u =
    match current_text_after ms u with Some r => r | None => lookup (docs s) u end.
  Proof.
    induction ms as [|m ms IH]; intros s u; [reflexivity|].
    rewrite run_cons, IH. cbn [current_text_after].
    destruct (current_text_after ms u) as [r|]; [reflexivity|].
    destruct m as [k t|k t|k|k]; cbn [Docs.step fst docs];
      rewrite ?lookup_set, ?lookup_remove; try destruct (bytes_eqb k u); reflexivity.
  Qed.

  (* after any session the store is a function of the current texts only *)
  Lemma docs_are_current_lemma ms u : lookup (docs (fst (run (init disk) ms))) u = current_text ms u.
  Proof. rewrite run_docs. unfold current_text. cbn. destruct (current_text_after ms u); reflexivity. Qed.

  Lemma ws_is_overlay_lemma ms u : lookup (ws (fst (run (init disk) ms))) u = overlay disk ms u.
  Proof.
    pose proof (run_ok ms (init disk) init_ok u) as H. rewrite H. unfold overlay. now rewrite docs_are_current_lemma.
  Qed.

  (* two servers whose open documents agree publish the same diagnostics for the same notification *)
  Lemma same_docs_same_publish_lemma s1 s2 m :
    ws_ok s1 -> ws_ok s2 -> same_view (docs s1) (docs s2) -> snd (step s1 m) = snd (step s2 m).
  Proof.
    intros H1 H2 Hd. assert (Hw : same_view (ws s1) (ws s2)).
    { intros u. rewrite H1, H2, Hd. reflexivity. }
    destruct m as [u t|u t|u|u]; cbn; try reflexivity.
    - f_equal. f_equal. apply analyze_ext. now apply same_view_set.
    - f_equal. f_equal. apply analyze_ext. now apply same_view_set.
  Qed.

  (* ... in particular the session's server and a fresh server that was sent the current texts *)
  Lemma session_vs_fresh_lemma ms ms' m :
    (forall u, current_text ms u = current_text ms' u) ->
    snd (step (fst (run (init disk) ms)) m) = snd (step (fst (run (init disk) ms')) m).
  Proof.
    intros H. apply same_docs_same_publish_lemma; try (apply run_ok; apply init_ok).
    intros u. rewrite !docs_are_current_lemma. apply H.
  Qed.

  (* what a notification publishes is the analysis of the text it carries against the overlay it produces *)
  Lemma publish_is_analysis_lemma ms u t :
    snd (step (fst (run (init disk) ms)) (Change u t)) =
    Some (u, analyze (ws (fst (run (init disk) (ms ++ [Change u t])))) u t).
  Proof.
    rewrite run_snoc. reflexivity.
  Qed.

  (* a closed document publishes the empty list *)
  Lemma close_publishes_none_lemma s u : snd (step s (Close u)) = Some (u, none).
  Proof. reflexivity. Qed.

  (* requests do not touch the store *)
  Lemma request_no_effect_lemma s u : step s (Request u) = (s, None).
  Proof. reflexivity. Qed.
End Server.
