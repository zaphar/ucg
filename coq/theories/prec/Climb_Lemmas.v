From Ucg Require Import prec.Climb.

Section Proofs.
  Variable A : Type.
  Variable prec : op -> nat.
  Notation tree := (tree A).
  Notation chain := (list (op * A)).
  Notation parse_op := (parse_op prec).
  Notation inner := (inner prec).
  Notation WF := (WF prec).

  Lemma parse_op_S f (lhs : tree) (rest : chain) minp :
    parse_op (S f) lhs rest minp =
    match rest with
    | [] => Some (lhs, [])
    | (o, a) :: rest1 =>
      if minp <=? prec o then
        match inner f o (Leaf a) rest1 with
        | None => None
        | Some (rhs, rest2) => parse_op f (Node o lhs rhs) rest2 minp
        end
      else Some (lhs, rest)
    end.
  Proof. reflexivity. Qed.

  Lemma inner_S f o (rhs : tree) (rest : chain) :
    inner (S f) o rhs rest =
    match rest with
    | [] => Some (rhs, [])
    | (o2, _) :: _ =>
      if prec o <? prec o2 then
        match parse_op f rhs rest (prec o2) with
        | None => None
        | Some (rhs', rest') => inner f o rhs' rest'
        end
      else Some (rhs, rest)
    end.
  Proof. reflexivity. Qed.

  Definition ops_ge (n : nat) (t : tree) : Prop := forall o', In o' (all_ops_of t) -> n <= prec o'.
  Definition ops_gt (n : nat) (t : tree) : Prop := forall o', In o' (all_ops_of t) -> n < prec o'.

  (* "the next operator is not tighter than anything already inside lhs" *)
  Definition Pre (lhs : tree) (rest : chain) : Prop :=
    WF lhs /\ forall o a r1, rest = (o, a) :: r1 -> ops_ge (prec o) lhs.

  Definition head_lt (rest : chain) (n : nat) : Prop :=
    match rest with [] => True | (o, _) :: _ => prec o < n end.
  Definition head_le (rest : chain) (n : nat) : Prop :=
    match rest with [] => True | (o, _) :: _ => prec o <= n end.

  Definition yield_ext (lhs : tree) (rest : chain) (t : tree) (rest' : chain) : Prop :=
    fst (yield t) = fst (yield lhs) /\ snd (yield t) ++ rest' = snd (yield lhs) ++ rest.

  Lemma Pre_leaf a (rest : chain) : Pre (Leaf a) rest.
  Proof. split; [exact I|]. intros ? ? ? _ o' []. Qed.

  Lemma yield_node o (l r : tree) :
    yield (Node o l r) = (fst (yield l), snd (yield l) ++ (o, fst (yield r)) :: snd (yield r)).
  Proof. cbn. destruct (yield l), (yield r); reflexivity. Qed.

  Lemma ops_yield (t : tree) : map fst (snd (yield t)) = all_ops_of t.
  Proof.
    induction t as [a|o l IHl r IHr]; [reflexivity|].
    rewrite yield_node; cbn [snd all_ops_of]. rewrite map_app; cbn. now rewrite IHl, IHr.
  Qed.

  (* soundness: both loops preserve the yield and build a WF tree *)
  Lemma climb_inv fuel :
    (forall lhs rest minp t rest',
        parse_op fuel lhs rest minp = Some (t, rest') ->
        Pre lhs rest ->
        yield_ext lhs rest t rest' /\ head_lt rest' minp /\ WF t /\ Pre t rest' /\
        (forall o', In o' (all_ops_of t) -> In o' (all_ops_of lhs) \/ minp <= prec o')) /\
    (forall o rhs rest t rest',
        inner fuel o rhs rest = Some (t, rest') ->
        Pre rhs rest -> ops_gt (prec o) rhs ->
        yield_ext rhs rest t rest' /\ head_le rest' (prec o) /\ WF t /\ Pre t rest' /\
        ops_gt (prec o) t).
  Proof.
    induction fuel as [|f [IHp IHi]]; [split; cbn; intros; discriminate|].
    split.
    - intros lhs rest minp t rest' H HPre. rewrite parse_op_S in H.
      destruct rest as [|[o a] rest1].
      + inversion H; subst. repeat split; try apply HPre; cbn; auto;
          try (intros; discriminate).
      + destruct (Nat.leb_spec minp (prec o)) as [Hle|Hgt].
        * destruct (inner f o (Leaf a) rest1) as [[rhs rest2]|] eqn:Ei; [|discriminate H].
          destruct (IHi _ _ _ _ _ Ei (Pre_leaf a rest1)) as ((Hy1 & Hy2) & Hh & Hwf & HPre2 & Hgt).
          { intros o' []. }
          destruct HPre as [Hwl Hge]. specialize (Hge _ _ _ eq_refl).
          assert (HPreN : Pre (Node o lhs rhs) rest2).
          { split.
            - cbn. repeat split; auto.
            - intros o4 a4 r4 ->. cbn in Hh. intros o' Hin. cbn in Hin.
              apply in_app_or in Hin. destruct Hin as [Hin|[<-|Hin]].
              + specialize (Hge _ Hin). lia.
              + lia.
              + specialize (Hgt _ Hin). lia. }
          destruct (IHp _ _ _ _ _ H HPreN) as ((Hz1 & Hz2) & Hh' & Hwf' & HPre' & Hops).
          split; [|split; [exact Hh'|split; [exact Hwf'|split; [exact HPre'|]]]].
          -- split.
             ++ rewrite Hz1, yield_node; reflexivity.
             ++ rewrite Hz2, yield_node. cbn [snd]. cbn in Hy1, Hy2.
                rewrite <- app_assoc. cbn. rewrite Hy1. f_equal. f_equal. exact Hy2.
          -- intros o' Hin. destruct (Hops _ Hin) as [Hin'|]; [|auto].
             cbn in Hin'. apply in_app_or in Hin'. destruct Hin' as [|[<-|Hin']]; auto.
             right. specialize (Hgt _ Hin'). lia.
        * inversion H; subst. repeat split; try apply HPre; cbn; auto.
    - intros o rhs rest t rest' H HPre Hgt. rewrite inner_S in H.
      destruct rest as [|[o2 a2] rest1].
      + inversion H; subst. repeat split; try apply HPre; cbn; auto;
          try (intros; discriminate).
      + destruct (Nat.ltb_spec (prec o) (prec o2)) as [Hlt|Hge].
        * destruct (parse_op f rhs ((o2, a2) :: rest1) (prec o2)) as [[rhs' rest'']|] eqn:Ep;
            [|discriminate H].
          destruct (IHp _ _ _ _ _ Ep HPre) as ((Hy1 & Hy2) & Hh & Hwf & HPre2 & Hops).
          assert (Hgt' : ops_gt (prec o) rhs').
          { intros o' Hin. destruct (Hops _ Hin) as [Hin'|]; [apply Hgt; exact Hin'|lia]. }
          destruct (IHi _ _ _ _ _ H HPre2 Hgt') as ((Hz1 & Hz2) & Hh' & Hwf' & HPre' & Hgt'').
          repeat split; auto; try apply HPre'.
          -- congruence.
          -- rewrite Hz2. exact Hy2.
        * inversion H; subst. repeat split; try apply HPre; cbn; auto.
  Qed.

  (* totality: fuel 2n+1 for [parse_op] and 2n+2 for [inner] is enough on a chain of length n; [parse_op]
     consumes the head whenever it admits it *)
  Lemma climb_total_aux fuel :
    (forall (lhs : tree) (rest : chain) minp, 2 * length rest + 1 <= fuel ->
        exists t rest', parse_op fuel lhs rest minp = Some (t, rest') /\
                        length rest' <= length rest /\
                        (forall o a r1, rest = (o, a) :: r1 -> minp <= prec o ->
                                        length rest' < length rest)) /\
    (forall o (rhs : tree) (rest : chain), 2 * length rest + 2 <= fuel ->
        exists t rest', inner fuel o rhs rest = Some (t, rest') /\
                        length rest' <= length rest).
  Proof.
    induction fuel as [|f [IHp IHi]]; [split; intros; lia|]. split.
    - intros lhs rest minp Hf. rewrite parse_op_S. destruct rest as [|[o a] rest1].
      + eexists _, _; repeat split; auto. intros; discriminate.
      + cbn [length] in Hf. destruct (Nat.leb_spec minp (prec o)) as [Hle|Hgt].
        * destruct (IHi o (Leaf a) rest1) as (rhs & rest2 & Ei & Hl2); [lia|]. rewrite Ei.
          destruct (IHp (Node o lhs rhs) rest2 minp) as (t & rest' & Ep & Hl3 & _); [lia|]. rewrite Ep.
          eexists _, _; split; [reflexivity|]. cbn [length]. split; [lia|]. intros; lia.
        * eexists _, _; split; [reflexivity|]. split; [lia|].
          intros o0 a0 r1 Heq Hle. inversion Heq; subst. lia.
    - intros o rhs rest Hf. rewrite inner_S. destruct rest as [|[o2 a2] rest1].
      + eexists _, _; repeat split; auto.
      + destruct (Nat.ltb_spec (prec o) (prec o2)) as [Hlt|Hge].
        * (* the inner call to parse_op admits o2, so it consumes at least that much *)
          destruct (IHp rhs ((o2, a2) :: rest1) (prec o2)) as (rhs' & rest'' & Ep & Hl2 & Hprog); [lia|].
          rewrite Ep. specialize (Hprog _ _ _ eq_refl (le_n _)).
          destruct (IHi o rhs' rest'') as (t & rest' & Ei & Hl3); [lia|].
          rewrite Ei. eexists _, _; split; [reflexivity|]. lia.
        * eexists _, _; split; [reflexivity|]. lia.
  Qed.

  Theorem climb_total_lemma : forall (a : A) (rest : chain), exists t, climb prec a rest = Some t.
  Proof.
    intros a rest. unfold climb.
    destruct (proj1 (climb_total_aux (2 * length rest + 2)) (Leaf a) rest 0)
      as (t & rest' & E & _ & _); [lia|].
    rewrite E.
    destruct (proj1 (climb_inv _) _ _ _ _ _ E (Pre_leaf a rest)) as (_ & Hh & _).
    destruct rest' as [|[o ?] ?]; [eauto|]. cbn in Hh. lia.
  Qed.

  Theorem climb_sound_lemma : forall (a : A) (rest : chain) t,
      climb prec a rest = Some t -> yield t = (a, rest) /\ WF t.
  Proof.
    intros a rest t. unfold climb.
    destruct (Climb.parse_op prec _ (Leaf a) rest 0) as [[t' rest']|] eqn:E; [|discriminate].
    destruct rest'; [|discriminate]. intros H; inversion H; subst t'.
    destruct (proj1 (climb_inv _) _ _ _ _ _ E (Pre_leaf a rest)) as ((Hy1 & Hy2) & _ & Hwf & _).
    split; [|exact Hwf]. cbn in Hy1, Hy2. rewrite app_nil_r in Hy2.
    rewrite (surjective_pairing (yield t)), Hy1, Hy2; reflexivity.
  Qed.

  Lemma split_unique (X : Type) (l1 l1' l2 l2' : list X) x x' :
    l1 ++ x :: l2 = l1' ++ x' :: l2' ->
    (l1 = l1' /\ x = x' /\ l2 = l2') \/
    (exists m, l1' = l1 ++ x :: m /\ l2 = m ++ x' :: l2') \/
    (exists m, l1 = l1' ++ x' :: m /\ l2' = m ++ x :: l2).
  Proof.
    revert l1'; induction l1 as [|y l1 IH]; intros [|y' l1'] H; cbn in H.
    - inversion H; auto.
    - inversion H; subst. right; left. exists l1'. auto.
    - inversion H; subst. right; right. exists l1. auto.
    - inversion H; subst. destruct (IH _ H2) as [(-> & -> & ->)|[(m & -> & ->)|(m & -> & ->)]].
      + auto.
      + right; left; exists m; auto.
      + right; right; exists m; auto.
  Qed.

  Lemma in_ops_of_chain (c : chain) o a : In (o, a) c -> In o (map fst c).
  Proof. intros H. apply (in_map fst) in H. exact H. Qed.

  (* two root operators cannot each lie below the other: o1 in the left part under o2 and o2 in the right
     part under o1 would give prec o2 <= prec o1 < prec o2 *)
  Lemma roots_cross o1 (r1 : tree) o2 (l2 : tree) (c1 c2 m : chain) a a' :
    snd (yield l2) = c1 ++ (o1, a) :: m -> snd (yield r1) = m ++ (o2, a') :: c2 ->
    (forall o', In o' (all_ops_of l2) -> prec o2 <= prec o') ->
    (forall o', In o' (all_ops_of r1) -> prec o1 < prec o') -> False.
  Proof.
    intros E1 E2 Gl2 Gr1.
    assert (H1 : In o1 (all_ops_of l2)).
    { rewrite <- ops_yield, E1, map_app. apply in_or_app; right; left; reflexivity. }
    assert (H2 : In o2 (all_ops_of r1)).
    { rewrite <- ops_yield, E2, map_app. apply in_or_app; right; left; reflexivity. }
    specialize (Gl2 _ H1). specialize (Gr1 _ H2). lia.
  Qed.

  Theorem wf_unique_lemma : forall t1 t2 : tree, WF t1 -> WF t2 -> yield t1 = yield t2 -> t1 = t2.
  Proof.
    induction t1 as [a1|o1 l1 IHl r1 IHr]; intros [a2|o2 l2 r2] W1 W2 Hy.
    - cbn in Hy. congruence.
    - rewrite yield_node in Hy. cbn in Hy. injection Hy as _ Hc.
      destruct (snd (yield l2)); discriminate.
    - rewrite yield_node in Hy. cbn in Hy. injection Hy as _ Hc.
      destruct (snd (yield l1)); discriminate.
    - rewrite !yield_node in Hy. injection Hy as Ha Hc.
      cbn in W1, W2. destruct W1 as (Wl1 & Wr1 & Gl1 & Gr1), W2 as (Wl2 & Wr2 & Gl2 & Gr2).
      destruct (split_unique _ _ _ _ _ _ _ Hc) as [(E1 & E2 & E3)|[(m & E1 & E2)|(m & E1 & E2)]].
      + inversion E2; subst o2.
        rewrite (IHl l2 Wl1 Wl2), (IHr r2 Wr1 Wr2); [reflexivity| |].
        * destruct (yield r1), (yield r2); cbn in *; congruence.
        * destruct (yield l1), (yield l2); cbn in *; congruence.
      + exfalso. exact (roots_cross _ _ _ _ _ _ _ _ _ E1 E2 Gl2 Gr1).
      + exfalso. exact (roots_cross _ _ _ _ _ _ _ _ _ E1 E2 Gl1 Gr2).
  Qed.
End Proofs.

Section Shape.
  Variables A B : Type.
  Variable prec : op -> nat.

  Definition rel_res (x : option (tree A * list (op * A))) (y : option (tree B * list (op * B))) :=
    match x, y with
    | None, None => True
    | Some (t, r), Some (t', r') => shape_of t = shape_of t' /\ map fst r = map fst r'
    | _, _ => False
    end.

  Lemma shape_rel fuel :
    (forall (l : tree A) (l' : tree B) r r' minp,
        shape_of l = shape_of l' -> map fst r = map fst r' ->
        rel_res (parse_op prec fuel l r minp) (parse_op prec fuel l' r' minp)) /\
    (forall o (l : tree A) (l' : tree B) r r',
        shape_of l = shape_of l' -> map fst r = map fst r' ->
        rel_res (inner prec fuel o l r) (inner prec fuel o l' r')).
  Proof.
    induction fuel as [|f [IHp IHi]]; [split; intros; exact I|].
    split.
    - intros l l' r r' minp Hs Hr. rewrite !parse_op_S.
      destruct r as [|[o a] r1], r' as [|[o' a'] r1']; try discriminate.
      + cbn. auto.
      + cbn in Hr. inversion Hr; subst o'.
        destruct (minp <=? prec o); [|cbn; auto; split; auto; cbn; congruence].
        specialize (IHi o (Leaf a) (Leaf a') r1 r1' eq_refl H1).
        destruct (inner prec f o (Leaf a) r1) as [[rhs r2]|], (inner prec f o (Leaf a') r1') as [[rhs' r2']|];
          cbn in IHi; try contradiction; [|exact I].
        destruct IHi as [Hs2 Hr2]. apply IHp; [cbn; congruence|exact Hr2].
    - intros o l l' r r' Hs Hr. rewrite !inner_S.
      destruct r as [|[o2 a] r1], r' as [|[o2' a'] r1']; try discriminate.
      + cbn; auto.
      + cbn in Hr. inversion Hr; subst o2'.
        destruct (prec o <? prec o2); [|cbn; split; auto; cbn; congruence].
        specialize (IHp l l' ((o2, a) :: r1) ((o2, a') :: r1') (prec o2) Hs Hr).
        destruct (parse_op prec f l ((o2, a) :: r1) (prec o2)) as [[x y]|],
                 (parse_op prec f l' ((o2, a') :: r1') (prec o2)) as [[x' y']|];
          cbn in IHp; try contradiction; [|exact I].
        destruct IHp. apply IHi; auto.
  Qed.

  Theorem shape_operand_independent_lemma :
    forall (a : A) (a' : B) (c : list (op * A)) (c' : list (op * B)),
      map fst c = map fst c' ->
      option_map (@shape_of A) (climb prec a c) = option_map (@shape_of B) (climb prec a' c').
  Proof.
    intros a a' c c' Hc. unfold climb.
    assert (Hl : length c = length c') by (rewrite <- (map_length fst c), Hc, map_length; reflexivity).
    rewrite <- Hl.
    pose proof (proj1 (shape_rel (2 * length c + 2)) (Leaf a) (Leaf a') c c' 0 eq_refl Hc) as H.
    destruct (parse_op prec _ (Leaf a) c 0) as [[t r]|], (parse_op prec _ (Leaf a') c' 0) as [[t' r']|];
      cbn in H; try contradiction; [|reflexivity].
    destruct H as [Hs Hr]. destruct r, r'; try discriminate; cbn; congruence.
  Qed.
End Shape.
