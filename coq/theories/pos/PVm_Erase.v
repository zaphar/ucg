(* Erasure: the positioned machine of pos/PVm.v with positions forgotten IS the machine of vm/Vm.v
   ([pvm_run_erase], [pvm_erase]).  One commutation lemma per function of PVm.v, in the order of that file. *)
From Ucg Require Import pos.PTranslate_Lemmas pos.PVm.

#[local] Arguments p_symbols_to_tuple : simpl never.
#[local] Arguments symbols_to_tuple : simpl never.

Definition erase_out {A B : Type} (f : A -> B) (r : pout A) : outcome B :=
  match r with POk a => VOk (f a) | PErr _ _ _ => VErr | PBug => VBug | PUnsup => VUnsup | PFuel => VFuel end.

Lemma erase_out_bind : forall (A B A' B' : Type) (f : A -> A') (g : B -> B') (r : pout A) (k : A -> pout B)
    (r' : outcome A') (k' : A' -> outcome B'),
  erase_out f r = r' ->
  (forall a, r = POk a -> erase_out g (k a) = k' (f a)) ->
  erase_out g (pbind r k) = vbind r' k'.
Proof.
  intros A B A' B' f g r k r' k' Hr Hk. subst r'. destruct r as [a|e p via| | |]; simpl; try reflexivity.
  apply Hk. reflexivity.
Qed.

Lemma erase_out_decorate : forall (A B : Type) (f : A -> B) p (r : pout A),
  erase_out f (decorate_call p r) = erase_out f r.
Proof. intros A B f p r. destruct r; reflexivity. Qed.

Lemma erase_out_pout_of : forall (A : Type) k p (r : outcome A), erase_out (fun a => a) (pout_of k p r) = r.
Proof. intros A k p r. destruct r; reflexivity. Qed.

Lemma pout_of_ok : forall (A : Type) k p (r : outcome A) a, pout_of k p r = POk a -> r = VOk a.
Proof. intros A k p r a H. destruct r; simpl in H; try discriminate. now inversion H. Qed.

Section Erase.
  Variable fo : float_ops.
  Notation pval := (pval fo).
  Notation pentry := (pentry fo).
  Notation pfield := (pfield fo).
  Notation psymtab := (psymtab fo).
  Notation pstate := (pstate fo).
  Notation wval := (wval fo).

  Definition erase_e (e : pentry) : wval := erase_v (fst e).
  Definition erase_st (st : pstate) : state fo :=
    {| pc := ppc st; stk := erase_entries (pstk st); syms := erase_syms (psyms st); selfs := erase_entries (pselfs st) |}.

  Definition scalar (w : wval) : Prop :=
    match w with WList _ | WTuple _ | WFunc _ _ _ | WMod _ _ _ | WThunk _ => False | _ => True end.

  Lemma inj_erase : forall w, scalar w -> erase_v (inj w) = w.
  Proof. intros w Hs. destruct w; simpl in *; try reflexivity; contradiction. Qed.

  Lemma checked_scalar : forall z w, checked fo z = VOk w -> scalar w.
  Proof. intros z w H. unfold checked in H. destruct (in_i64 z); inversion H. exact I. Qed.

  Lemma vm_cast_scalar : forall t v w, vm_cast fo t v = VOk w -> scalar w.
  Proof.
    intros t v w H. destruct v; destruct t; simpl in H;
      repeat match type of H with
             | context [match ?x with _ => _ end] => destruct x
             end; inversion H; exact I.
  Qed.

  Lemma vm_compare_scalar : forall o l r w, vm_compare fo o l r = VOk w -> scalar w.
  Proof. intros o l r w H. destruct l; destruct r; simpl in H; inversion H; exact I. Qed.

  Definition is_wlist (w : wval) : bool := match w with WList _ => true | _ => false end.

  Lemma vm_arith_scalar : forall o l r w,
    vm_arith fo o l r = VOk w -> is_wlist l && is_wlist r = false -> scalar w.
  Proof.
    intros o l r w H Hl.
    destruct o; simpl in H; try discriminate;
      destruct l; try discriminate; destruct r; try discriminate; simpl in Hl; try discriminate;
      repeat match type of H with
             | context [if ?x then _ else _] => destruct x
             end; try discriminate;
      first [ exact (checked_scalar _ _ H) | inversion H; exact I ].
  Qed.

  (* a clause that pops: the clauses agree if what follows agrees for every top entry and rest of the stack *)
  Lemma erase_pop : forall (B B' : Type) (g : B -> B') s (k : pentry * list pentry -> pout B) k',
    (forall v vp s1, erase_out g (k ((v, vp), s1)) = k' (erase_v v, erase_entries s1)) ->
    erase_out g (pbind (ppop fo s) k) = vbind (Vm.pop fo (erase_entries s)) k'.
  Proof. intros B B' g s k k' H. destruct s as [|[v vp] s1]; [reflexivity|]. apply H. Qed.

  Lemma psym_get_erase : forall x (t : psymtab), sym_get x (erase_syms t) = option_map erase_e (psym_get x t).
  Proof.
    intros x t. induction t as [|[k e] t IH]; simpl; [reflexivity|].
    destruct (bytes_eqb x k); [reflexivity|exact IH].
  Qed.

  Lemma psym_add_erase : forall k (e : pentry) (t : psymtab), erase_syms (psym_add k e t) = sym_add k (erase_e e) (erase_syms t).
  Proof.
    intros k e t. induction t as [|[k' w] t IH]; simpl; [reflexivity|].
    destruct (bytes_ltb k k'); [reflexivity|]. destruct (bytes_eqb k k'); [reflexivity|].
    simpl. f_equal. exact IH.
  Qed.

  Lemma psym_bound_erase : forall x (t : psymtab), sym_bound x (erase_syms t) = psym_bound x t.
  Proof. intros x t. unfold sym_bound, psym_bound. rewrite psym_get_erase. destruct (psym_get x t); reflexivity. Qed.

  Variable PC : pops.
  Variable strict_ : bool.
  Variable envv : list (bytes * bytes).
  Variable envpos : pos.
  Notation C := (map fst PC).

  Lemma env_tuple_erase : erase_v (env_tuple_p fo envv envpos) = env_tuple_w fo envv.
  Proof.
    unfold env_tuple_p, env_tuple_w. simpl. f_equal. rewrite map_map. apply map_ext. intros [k v]. reflexivity.
  Qed.

  Lemma p_get_binding_erase : forall st name,
    option_map erase_e (p_get_binding fo envv envpos st name) = get_binding fo envv (erase_st st) name.
  Proof.
    intros st name. unfold p_get_binding, get_binding.
    destruct (bytes_eqb name (b "self")).
    - simpl. destruct (pselfs st); reflexivity.
    - destruct (bytes_eqb name (b "env")).
      + simpl. rewrite psym_get_erase. destruct (psym_get name (psyms st)); simpl; [reflexivity|].
        unfold erase_e. simpl fst. now rewrite env_tuple_erase.
      + simpl. now rewrite psym_get_erase.
  Qed.

  Lemma p_binding_push_erase : forall kres t name v sb p np,
    erase_out erase_syms (p_binding_push fo kres t name v sb p np)
    = binding_push fo (erase_syms t) name (erase_v v) sb.
  Proof.
    intros kres t name v sb p np. unfold p_binding_push, binding_push.
    destruct (vm_is_reserved name); [reflexivity|]. rewrite psym_bound_erase.
    destruct (psym_bound name t && sb); [reflexivity|]. simpl. now rewrite psym_add_erase.
  Qed.

  Lemma pfld_get_erase : forall k fs, fld_get fo k (erase_flds fs) = option_map erase_v (pfld_get fo k fs).
  Proof.
    intros k fs. induction fs as [|[k' [v pp]] fs IH]; simpl; [reflexivity|].
    destruct (bytes_eqb k' k); [reflexivity|exact IH].
  Qed.

  Lemma erase_entries_length : forall s : list pentry, List.length (erase_entries s) = List.length s.
  Proof. intros s. apply map_length. Qed.

  Lemma p_index_erase : forall safe l r rp p,
    erase_out erase_e (p_index fo safe l r rp p) = vm_index fo safe (erase_v l) (erase_v r).
  Proof.
    intros safe l r rp p. unfold p_index, vm_index.
    assert (Hmiss : erase_out erase_e (if safe then POk (QEmpty, p) else PErr KIndex p [])
                    = (if safe then VOk WEmpty else VErr)) by (destruct safe; reflexivity).
    destruct r; simpl; try exact Hmiss.
    - destruct l; simpl; try exact Hmiss.
      rewrite map_length.
      destruct (Z.ltb z (Z.of_nat (List.length l)) && Z.leb 0 z); [|exact Hmiss].
      rewrite nth_error_map. destruct (nth_error l (Z.to_nat z)); reflexivity.
    - destruct l; simpl; try exact Hmiss.
      fold (erase_flds fs). rewrite pfld_get_erase. destruct (pfld_get fo s fs); [reflexivity|exact Hmiss].
  Qed.

  Lemma p_exist_erase : forall l r lp rp,
    erase_out erase_v (p_exist fo l r lp rp) = vm_exist fo (erase_v l) (erase_v r).
  Proof.
    intros l r lp rp. unfold p_exist, vm_exist. destruct l; simpl; try reflexivity.
    - destruct r; reflexivity.
    - fold (erase_entries l). destruct (list_has fo (erase_entries l) (erase_v r)); reflexivity.
    - destruct r; simpl; try reflexivity.
      fold (erase_flds fs). rewrite pfld_get_erase. destruct (pfld_get fo s fs); reflexivity.
  Qed.

  Lemma p_range_erase : forall a s z p,
    erase_out erase_v (p_range fo a s z p) = vm_range fo (erase_v a) (erase_v s) (erase_v z).
  Proof.
    intros a s z p. unfold p_range, vm_range.
    destruct a; try reflexivity. destruct s; try reflexivity; (destruct z; try reflexivity); simpl.
    - destruct (Z.leb z1 0); [reflexivity|]. simpl. f_equal. f_equal. rewrite map_map. apply map_ext.
      intros v. destruct v; reflexivity.
    - f_equal. f_equal. rewrite map_map. apply map_ext. intros v. destruct v; reflexivity.
  Qed.

  Lemma pcompatible_erase : forall a c : pval, pcompatible a c = wcompatible (erase_v a) (erase_v c).
  Proof. reflexivity. Qed.

  Lemma p_merge_field_erase : forall (fs : list pfield) k np v vp,
    erase_out erase_flds (p_merge_field fs k np v vp) = wmerge_field (erase_flds fs) k (erase_v v).
  Proof.
    intros fs k np v vp. induction fs as [|[k' [w [np' vp']]] fs IH]; simpl; [reflexivity|].
    destruct (bytes_eqb k' k).
    - unfold pcompatible. destruct (wcompatible (erase_v w) (erase_v v)); reflexivity.
    - eapply erase_out_bind; [exact IH|]. intros a _. reflexivity.
  Qed.

  Lemma p_merge_fields_erase : forall ov base : list pfield,
    erase_out erase_flds (p_merge_fields base ov) = wmerge_fields (erase_flds base) (erase_flds ov).
  Proof.
    intros ov. induction ov as [|[k [v [np vp]]] ov IH]; intros base; simpl; [reflexivity|].
    eapply erase_out_bind; [apply p_merge_field_erase|]. intros a _. apply IH.
  Qed.

  Lemma arith_erase : forall o l r rp,
    erase_out erase_v (p_arith fo o l r rp) = vm_arith fo o (erase_v l) (erase_v r).
  Proof.
    intros o l r rp. unfold p_arith.
    assert (Hgen : is_wlist (erase_v l) && is_wlist (erase_v r) = false ->
                   erase_out erase_v (pdo w <- pout_of KArith rp (vm_arith fo o (erase_v l) (erase_v r)); POk (inj w))
                   = vm_arith fo o (erase_v l) (erase_v r)).
    { intros Hl. destruct (vm_arith fo o (erase_v l) (erase_v r)) as [w| | | |] eqn:E; simpl; try reflexivity.
      f_equal. apply inj_erase. exact (vm_arith_scalar _ _ _ _ E Hl). }
    destruct l; try (apply Hgen; reflexivity).
    destruct r; try (apply Hgen; simpl; reflexivity).
    destruct o; simpl; try reflexivity. f_equal. f_equal. apply map_app.
  Qed.

  Section Nested.
    Variable prun : pstate -> pout pstate.
    Variable run : state fo -> outcome (state fo).
    Hypothesis Hrun : forall st, erase_out erase_st (prun st) = run (erase_st st).

    Lemma p_bind_args_erase : forall names s t,
      erase_out (fun x : list pentry * psymtab => (erase_entries (fst x), erase_syms (snd x))) (p_bind_args fo names s t)
      = bind_args fo names (erase_entries s) (erase_syms t).
    Proof.
      intros names. induction names as [|nm names IH]; intros s t; simpl; [reflexivity|].
      destruct s as [|[v vp] s']; simpl; [reflexivity|].
      eapply erase_out_bind; [apply p_binding_push_erase|]. intros t' _. apply IH.
    Qed.

    Lemma p_fcall_impl_erase : forall ptr bs snap s,
      erase_out (fun x : pentry * list pentry => (erase_e (fst x), erase_entries (snd x)))
                (p_fcall_impl fo prun ptr bs snap s)
      = fcall_impl fo run ptr bs (erase_syms snap) (erase_entries s).
    Proof.
      intros ptr bs snap s. unfold p_fcall_impl, fcall_impl.
      eapply erase_out_bind; [apply p_bind_args_erase|]. intros [s' t] _. simpl.
      eapply erase_out_bind; [apply Hrun|]. intros fin _. simpl.
      apply erase_pop; intros e ep rest. reflexivity.
    Qed.

    Lemma p_op_fcall_erase : forall st p,
      erase_out erase_st (p_op_fcall fo prun st p) = op_fcall fo run (erase_st st).
    Proof.
      intros st p. unfold p_op_fcall, op_fcall.
      apply erase_pop; intros f fp s1. simpl.
      apply erase_pop; intros a ap s2. simpl.
      unfold erase_e; simpl.
      destruct f; simpl; try reflexivity.
      eapply erase_out_bind with (f := fun x : unit => x).
      - destruct a; simpl; try reflexivity.
        destruct (Z.ltb (Z.of_nat (List.length bindings)) z); [reflexivity|].
        destruct (Z.ltb z (Z.of_nat (List.length bindings))); reflexivity.
      - intros _ _.
        eapply erase_out_bind.
        + rewrite erase_out_decorate. apply p_fcall_impl_erase.
        + intros [[v vp] s3] _. reflexivity.
    Qed.

    Lemma pjump_erase : forall st j, erase_out erase_st (pjump fo PC st j) = jump fo C (erase_st st) j.
    Proof.
      intros st j. unfold pjump, jump. rewrite map_length. change (pc (erase_st st)) with (ppc st).
      unfold PTranslate.pop. destruct (Nat.ltb _ _); reflexivity.
    Qed.

    Lemma ppush_next_erase : forall st s,
      erase_out erase_st (ppush_next fo st s) = push_next fo (erase_st st) (erase_entries s).
    Proof. reflexivity. Qed.

    Lemma p_op_new_scope_erase : forall st j,
      erase_out erase_st (p_op_new_scope fo PC prun st j) = op_new_scope fo C run (erase_st st) j.
    Proof.
      intros st j. unfold p_op_new_scope, op_new_scope.
      eapply erase_out_bind; [apply Hrun|]. intros fin _. simpl.
      apply erase_pop; intros e ep rest. simpl.
      apply pjump_erase.
    Qed.

    Lemma filter_syms_erase : forall (keep : bytes -> bool) (t : psymtab),
      map (fun kv : pfield => (fst kv, erase_v (fst (snd kv))))
          (map (fun '(k, (v, p)) => (k, (v, (p, p)))) (filter (fun '(k, _) => keep k) t))
      = filter (fun '(k, _) => keep k) (erase_syms t).
    Proof.
      intros keep t. induction t as [|[k [v p]] t IH]; simpl; [reflexivity|].
      destruct (keep k); simpl; [f_equal|]; exact IH.
    Qed.

    Lemma p_symbols_to_tuple_erase : forall t im,
      erase_v (p_symbols_to_tuple fo t im) = symbols_to_tuple fo (erase_syms t) im.
    Proof.
      intros t im. unfold p_symbols_to_tuple, symbols_to_tuple. cbn [erase_v]. f_equal.
      exact (filter_syms_erase (fun k => im || negb (bytes_eqb k (b "mod"))) t).
    Qed.

    Lemma p_op_copy_erase : forall st p,
      erase_out erase_st (p_op_copy fo PC prun st p) = op_copy fo C run (erase_st st).
    Proof.
      intros st p. unfold p_op_copy, op_copy.
      apply erase_pop; intros ov ovp s1. simpl.
      apply erase_pop; intros tg tgp s2. simpl.
      unfold erase_e; simpl.
      destruct ov; simpl; try reflexivity.
      destruct tg; simpl; try reflexivity.
      - eapply erase_out_bind; [apply p_merge_fields_erase|]. intros flds' _. reflexivity.
      - eapply erase_out_bind; [apply p_merge_fields_erase|]. intros flds1 _.
        eapply erase_out_bind; [apply (p_merge_field_erase flds1 (b "this") p (QMod ptr result_ptr flds) ovp)|].
        intros flds2 _.
        eapply erase_out_bind; [rewrite erase_out_decorate; apply Hrun|]. intros fin _.
        destruct result_ptr as [rp|].
        + rewrite map_length. unfold PTranslate.pop. destruct (Nat.ltb _ _); [|reflexivity].
          eapply erase_out_bind; [rewrite erase_out_decorate; apply Hrun|]. intros fin2 _.
          apply erase_pop; intros e ep rest. reflexivity.
        + rewrite ppush_next_erase. unfold erase_entries at 1. rewrite map_cons. cbn [fst].
          now rewrite p_symbols_to_tuple_erase.
    Qed.

    Lemma p_arity_ok_erase : forall bs n fp, erase_out (fun x : unit => x) (p_arity_ok bs n fp) = arity_ok bs n.
    Proof. intros bs n fp. unfold p_arity_ok, arity_ok. destruct (Nat.eqb (List.length bs) n); reflexivity. Qed.

    Section Callback.
      Variables (ptr : nat) (bs : list bytes) (snap : psymtab) (hp : pos).

      Lemma p_call_with_erase : forall args s,
        erase_out (fun x : pentry * list pentry => (erase_e (fst x), erase_entries (snd x)))
                  (p_call_with fo prun ptr bs snap hp args s)
        = call_with fo run ptr bs (erase_syms snap) (erase_entries args) (erase_entries s).
      Proof.
        intros args s. unfold p_call_with, call_with. rewrite erase_out_decorate. unfold erase_entries. rewrite <- map_app.
        apply p_fcall_impl_erase.
      Qed.

      Lemma p_map_list_erase : forall elems s,
        erase_out (fun x : list pentry * list pentry => (erase_entries (fst x), erase_entries (snd x)))
                  (p_map_list fo prun ptr bs snap hp elems s)
        = map_list fo run ptr bs (erase_syms snap) (erase_entries elems) (erase_entries s).
      Proof.
        intros elems. induction elems as [|e rest IH]; intros s; simpl; [reflexivity|].
        eapply erase_out_bind; [apply (p_call_with_erase [e] s)|]. intros [r s1] _. simpl.
        eapply erase_out_bind; [apply IH|]. intros [rs s2] _. reflexivity.
      Qed.

      Lemma p_map_tuple_erase : forall flds s,
        erase_out (fun x : list pfield * list pentry => (erase_flds (fst x), erase_entries (snd x)))
                  (p_map_tuple fo prun ptr bs snap hp flds s)
        = map_tuple fo run ptr bs (erase_syms snap) (erase_flds flds) (erase_entries s).
      Proof.
        intros flds. induction flds as [|[k [v [np vp]]] rest IH]; intros s; simpl; [reflexivity|].
        eapply erase_out_bind; [apply (p_call_with_erase [(v, vp); (QStr k, np)] s)|]. intros [[r rp] s1] _.
        unfold erase_e. simpl.
        destruct r; simpl; try apply IH.
        destruct l as [|[n np1] [|[v' vp1] [|x l]]]; simpl; try reflexivity.
        destruct n; simpl; try reflexivity.
        eapply erase_out_bind; [apply IH|]. intros [rs s2] _. reflexivity.
      Qed.

      Lemma p_map_str_erase : forall lp chars s,
        erase_out (fun x : bytes * list pentry => (fst x, erase_entries (snd x)))
                  (p_map_str fo prun ptr bs snap hp lp chars s)
        = map_str fo run ptr bs (erase_syms snap) chars (erase_entries s).
      Proof.
        intros lp chars. induction chars as [|c rest IH]; intros s; simpl; [reflexivity|].
        eapply erase_out_bind; [apply (p_call_with_erase [(QStr c, lp)] s)|]. intros [[r rp] s1] _.
        unfold erase_e. simpl.
        destruct r; simpl; try reflexivity.
        eapply erase_out_bind; [apply IH|]. intros [rs s2] _. reflexivity.
      Qed.

      Lemma p_filter_list_erase : forall elems s,
        erase_out (fun x : list pentry * list pentry => (erase_entries (fst x), erase_entries (snd x)))
                  (p_filter_list fo prun ptr bs snap hp elems s)
        = filter_list fo run ptr bs (erase_syms snap) (erase_entries elems) (erase_entries s).
      Proof.
        intros elems. induction elems as [|e rest IH]; intros s; simpl; [reflexivity|].
        eapply erase_out_bind; [apply (p_call_with_erase [e] s)|]. intros [r s1] _. simpl.
        eapply erase_out_bind; [apply IH|]. intros [rs s2] _. simpl. unfold pkeeps, erase_e.
        destruct (keeps fo (erase_v (fst r))); reflexivity.
      Qed.

      Lemma p_filter_tuple_erase : forall flds s,
        erase_out (fun x : list pfield * list pentry => (erase_flds (fst x), erase_entries (snd x)))
                  (p_filter_tuple fo prun ptr bs snap hp flds s)
        = filter_tuple fo run ptr bs (erase_syms snap) (erase_flds flds) (erase_entries s).
      Proof.
        intros flds. induction flds as [|[k [v [np vp]]] rest IH]; intros s; simpl; [reflexivity|].
        eapply erase_out_bind; [apply (p_call_with_erase [(v, vp); (QStr k, np)] s)|]. intros [r s1] _. simpl.
        eapply erase_out_bind; [apply IH|]. intros [rs s2] _. simpl. unfold pkeeps, erase_e.
        destruct (keeps fo (erase_v (fst r))); reflexivity.
      Qed.

      Lemma p_filter_str_erase : forall lp chars s,
        erase_out (fun x : bytes * list pentry => (fst x, erase_entries (snd x)))
                  (p_filter_str fo prun ptr bs snap hp lp chars s)
        = filter_str fo run ptr bs (erase_syms snap) chars (erase_entries s).
      Proof.
        intros lp chars. induction chars as [|c rest IH]; intros s; simpl; [reflexivity|].
        eapply erase_out_bind; [apply (p_call_with_erase [(QStr c, lp)] s)|]. intros [r s1] _. simpl.
        eapply erase_out_bind; [apply IH|]. intros [rs s2] _. simpl. unfold pkeeps, erase_e.
        destruct (keeps fo (erase_v (fst r))); reflexivity.
      Qed.

      Lemma p_reduce_list_erase : forall elems acc s,
        erase_out (fun x : pentry * list pentry => (erase_e (fst x), erase_entries (snd x)))
                  (p_reduce_list fo prun ptr bs snap hp elems acc s)
        = reduce_list fo run ptr bs (erase_syms snap) (erase_entries elems) (erase_e acc) (erase_entries s).
      Proof.
        intros elems. induction elems as [|e rest IH]; intros acc s; simpl; [reflexivity|].
        eapply erase_out_bind; [apply (p_call_with_erase [e; acc] s)|]. intros [acc' s1] _. simpl. apply IH.
      Qed.

      Lemma p_reduce_tuple_erase : forall flds acc s,
        erase_out (fun x : pentry * list pentry => (erase_e (fst x), erase_entries (snd x)))
                  (p_reduce_tuple fo prun ptr bs snap hp flds acc s)
        = reduce_tuple fo run ptr bs (erase_syms snap) (erase_flds flds) (erase_e acc) (erase_entries s).
      Proof.
        intros flds. induction flds as [|[k [v [np vp]]] rest IH]; intros acc s; simpl; [reflexivity|].
        eapply erase_out_bind; [apply (p_call_with_erase [(v, vp); (QStr k, np); acc] s)|]. intros [acc' s1] _. simpl.
        apply IH.
      Qed.

      Lemma p_reduce_str_erase : forall lp chars acc s,
        erase_out (fun x : pentry * list pentry => (erase_e (fst x), erase_entries (snd x)))
                  (p_reduce_str fo prun ptr bs snap hp lp chars acc s)
        = reduce_str fo run ptr bs (erase_syms snap) chars (erase_e acc) (erase_entries s).
      Proof.
        intros lp chars. induction chars as [|c rest IH]; intros acc s; simpl; [reflexivity|].
        eapply erase_out_bind; [apply (p_call_with_erase [(QStr c, lp); acc] s)|]. intros [acc' s1] _. simpl.
        apply IH.
      Qed.
    End Callback.

    Lemma p_hook_map_erase : forall st p, erase_out erase_st (p_hook_map fo prun st p) = hook_map fo run (erase_st st).
    Proof.
      intros st p. unfold p_hook_map, hook_map. destruct st as [pc0 s syms0 selfs0]. simpl.
      destruct s as [|[t tp] [|[f fp] s]]; simpl; try reflexivity.
      destruct f; simpl; try reflexivity.
      destruct t; simpl; try reflexivity.
      - eapply erase_out_bind; [apply p_arity_ok_erase|]. intros _ _.
        eapply erase_out_bind; [apply p_map_str_erase|]. intros [rs s'] _. reflexivity.
      - eapply erase_out_bind; [apply p_arity_ok_erase|]. intros _ _.
        eapply erase_out_bind; [apply p_map_list_erase|]. intros [rs s'] _. reflexivity.
      - eapply erase_out_bind; [apply p_arity_ok_erase|]. intros _ _.
        eapply erase_out_bind; [apply p_map_tuple_erase|]. intros [rs s'] _. reflexivity.
    Qed.

    Lemma p_hook_filter_erase : forall st p,
      erase_out erase_st (p_hook_filter fo prun st p) = hook_filter fo run (erase_st st).
    Proof.
      intros st p. unfold p_hook_filter, hook_filter. destruct st as [pc0 s syms0 selfs0]. simpl.
      destruct s as [|[t tp] [|[f fp] s]]; simpl; try reflexivity.
      destruct f; simpl; try reflexivity.
      destruct t; simpl; try reflexivity.
      - eapply erase_out_bind; [apply p_arity_ok_erase|]. intros _ _.
        eapply erase_out_bind; [apply p_filter_str_erase|]. intros [rs s'] _. reflexivity.
      - eapply erase_out_bind; [apply p_arity_ok_erase|]. intros _ _.
        eapply erase_out_bind; [apply p_filter_list_erase|]. intros [rs s'] _. reflexivity.
      - eapply erase_out_bind; [apply p_arity_ok_erase|]. intros _ _.
        eapply erase_out_bind; [apply p_filter_tuple_erase|]. intros [rs s'] _. reflexivity.
    Qed.

    Lemma p_hook_reduce_erase : forall st p,
      erase_out erase_st (p_hook_reduce fo prun st p) = hook_reduce fo run (erase_st st).
    Proof.
      intros st p. unfold p_hook_reduce, hook_reduce. destruct st as [pc0 s syms0 selfs0]. simpl.
      destruct s as [|[t tp] [|acc [|[f fp] s]]]; simpl; try reflexivity.
      destruct f; simpl; try reflexivity.
      destruct t; simpl; try reflexivity.
      - eapply erase_out_bind; [apply p_arity_ok_erase|]. intros _ _.
        eapply erase_out_bind; [apply p_reduce_str_erase|]. intros [r s'] _. reflexivity.
      - eapply erase_out_bind; [apply p_arity_ok_erase|]. intros _ _.
        eapply erase_out_bind; [apply p_reduce_list_erase|]. intros [r s'] _. reflexivity.
      - eapply erase_out_bind; [apply p_arity_ok_erase|]. intros _ _.
        eapply erase_out_bind; [apply p_reduce_tuple_erase|]. intros [r s'] _. reflexivity.
    Qed.

    Lemma p_op_runtime_erase : forall h st p,
      erase_out erase_st (p_op_runtime fo prun h st p) = op_runtime fo run h (erase_st st).
    Proof.
      intros h st p. destruct h; simpl; try reflexivity.
      - apply p_hook_map_erase.
      - apply p_hook_filter_erase.
      - apply p_hook_reduce_erase.
      - destruct st as [pc0 s syms0 selfs0]. simpl.
        destruct s as [|[l lp] s]; simpl; [reflexivity|].
        destruct l; simpl; try reflexivity.
        destruct s as [|[r rp] s]; simpl; [reflexivity|]. destruct r; reflexivity.
      - destruct st as [pc0 s syms0 selfs0]. simpl.
        destruct s as [|[a ap] [|[st1 sp] [|[z zp] s]]]; simpl; try reflexivity.
        eapply erase_out_bind; [apply p_range_erase|]. intros v _. reflexivity.
      - destruct st as [pc0 s syms0 selfs0]. simpl.
        destruct s as [|[v vp] [|[e ep] s]]; simpl; try reflexivity. destruct e; reflexivity.
    Qed.

    Lemma pexec_instr_erase : forall i p st,
      erase_out erase_st (pexec_instr fo PC strict_ envv envpos prun i p st)
      = exec_instr fo C strict_ envv run i (erase_st st).
    Proof.
      intros i p st. unfold pexec_instr, exec_instr.
      (* the clauses that stand for several ops, each once; they are found by the primitive they call *)
      destruct i;
        try (lazymatch goal with |- context [p_index] => idtac end; (* IIndex ISafeIndex *)
             solve [apply erase_pop; intros r rp s1; simpl; apply erase_pop; intros l lp s2; simpl;
              eapply erase_out_bind; [apply p_index_erase|]; intros e _; reflexivity]);
        try (lazymatch goal with |- context [vm_compare] => idtac end; (* IGt ILt IGtEq ILtEq *)
             solve [apply erase_pop; intros l lp s1; simpl; apply erase_pop; intros r rp s2; simpl;
              eapply erase_out_bind; [apply erase_out_pout_of|]; intros w Hw;
              unfold ppush_next, push_next, erase_st; simpl; unfold erase_e; simpl; rewrite inj_erase;
              [reflexivity|]; exact (vm_compare_scalar _ _ _ _ (pout_of_ok _ _ _ _ _ Hw))]);
        try (lazymatch goal with |- context [p_arith] => idtac end; (* IAdd ISub IMul IDiv IMod *)
             solve [apply erase_pop; intros l lp s1; simpl; apply erase_pop; intros r rp s2; simpl;
              eapply erase_out_bind; [apply arith_erase|]; intros v _; reflexivity]);
        try (lazymatch goal with |- context [p_binding_push] => idtac end; (* IBind IBindOver *)
             solve [apply erase_pop; intros v vp s1; simpl; apply erase_pop; intros n np s2; simpl; unfold erase_e;
              simpl; destruct n; simpl; try reflexivity; eapply erase_out_bind; [apply p_binding_push_erase|];
              intros t _; reflexivity]).
      - (* IPop *)
        apply erase_pop; intros e ep s1. reflexivity.
      - (* INewScope *) apply p_op_new_scope_erase.
      - (* IEqual *)
        apply erase_pop; intros l lp s1. simpl.
        apply erase_pop; intros r rp s2. simpl.
        unfold erase_e, pcompatible; simpl.
        destruct (wcompatible (erase_v l) (erase_v r)); [|reflexivity].
        destruct (weq (erase_v l) (erase_v r)); reflexivity.
      - (* INot *)
        apply erase_pop; intros v vp s1. simpl.
        unfold erase_e; simpl. destruct v; reflexivity.
      - (* IVal *) destruct l; reflexivity.
      - (* ICast *)
        apply erase_pop; intros v vp s1. simpl.
        eapply erase_out_bind; [apply erase_out_pout_of|]. intros w Hw.
        unfold ppush_next, push_next, erase_st; simpl. unfold erase_e; simpl.
        rewrite inj_erase; [reflexivity|]. exact (vm_cast_scalar _ _ _ (pout_of_ok _ _ _ _ _ Hw)).
      - (* ISym *) reflexivity.
      - (* IDeRef *)
        rewrite <- p_get_binding_erase.
        destruct (p_get_binding fo envv envpos st s) as [[v vp]|]; reflexivity.
      - (* IInitTuple *) reflexivity.
      - (* IField *)
        apply erase_pop; intros v vp s1. simpl.
        apply erase_pop; intros n np s2. simpl.
        unfold erase_e; simpl.
        destruct n; simpl; try reflexivity;
          (* a symbol or a string names the field *)
          (apply erase_pop; intros t tp s3; simpl; unfold erase_e; simpl; destruct t; simpl; try reflexivity;
           eapply erase_out_bind; [apply p_merge_field_erase|]; intros flds' _; reflexivity).
      - (* IInitList *) reflexivity.
      - (* IElement *)
        apply erase_pop; intros v vp s1. simpl.
        apply erase_pop; intros l lp s2. simpl.
        unfold erase_e; simpl. destruct l; simpl; try reflexivity.
        unfold ppush_next, push_next, erase_st; simpl. unfold erase_e; simpl. now rewrite map_app.
      - (* ICp *) apply p_op_copy_erase.
      - (* IBang *)
        apply erase_pop; intros v vp s1. simpl.
        unfold erase_e; simpl. destruct v; reflexivity.
      - (* IJump *) apply pjump_erase.
      - (* IJumpIfTrue *)
        apply erase_pop; intros v vp s1. simpl.
        unfold erase_e; simpl. destruct v; simpl; try reflexivity.
        destruct v; [apply (pjump_erase (pwith_stk fo st s1))|reflexivity].
      - (* IJumpIfFalse *)
        apply erase_pop; intros v vp s1. simpl.
        unfold erase_e; simpl. destruct v; simpl; try reflexivity.
        destruct v; [reflexivity|apply (pjump_erase (pwith_stk fo st s1))].
      - (* ISelectJump *)
        apply erase_pop; intros f fp s1. simpl.
        apply erase_pop; intros se sp s2. simpl.
        unfold erase_e; simpl.
        destruct (select_matches fo (erase_v f) (erase_v se)); [reflexivity|].
        apply (pjump_erase (pwith_stk fo st ((se, sp) :: s2))).
      - (* IAnd *)
        apply erase_pop; intros v vp s1. simpl.
        unfold erase_e; simpl. destruct v; simpl; try reflexivity.
        destruct v; [reflexivity|apply (pjump_erase (pwith_stk fo st ((QBool false, vp) :: s1)))].
      - (* IOr *)
        apply erase_pop; intros v vp s1. simpl.
        unfold erase_e; simpl. destruct v; simpl; try reflexivity.
        destruct v; [apply (pjump_erase (pwith_stk fo st ((QBool true, vp) :: s1)))|reflexivity].
      - (* IExist *)
        apply erase_pop; intros r rp s1. simpl.
        apply erase_pop; intros l lp s2. simpl.
        eapply erase_out_bind; [apply p_exist_erase|]. intros v _. reflexivity.
      - (* INoop *) reflexivity.
      - (* IInitThunk *) apply (pjump_erase (pwith_stk fo st ((QThunk (ppc st), p) :: pstk st))).
      - (* IModule *)
        apply erase_pop; intros m mp s1. simpl.
        unfold erase_e; simpl. destruct m; simpl; try reflexivity.
        + apply (pjump_erase (pwith_stk fo st ((QMod (ppc st) None fs, p) :: s1))).
        + apply erase_pop; intros t tp s2. simpl.
          unfold erase_e; simpl. destruct t; simpl; try reflexivity.
          apply (pjump_erase (pwith_stk fo st ((QMod (ppc st) (Some idx) fs, p) :: s2))).
      - (* IFunc *)
        apply erase_pop; intros l lp s1. simpl.
        unfold erase_e; simpl. destruct l; simpl; try reflexivity.
        eapply erase_out_bind with (f := fun x : list bytes => x).
        + induction l as [|[v vp] l IH]; simpl; [reflexivity|].
          destruct v; simpl; try reflexivity.
          eapply erase_out_bind; [exact IH|]. intros r _. reflexivity.
        + intros names _. apply (pjump_erase (pwith_stk fo st ((QFunc (ppc st) (rev names) (psyms st), p) :: s1))).
      - (* IReturn *) reflexivity.
      - (* IFCall *) apply p_op_fcall_erase.
      - (* ITyp *)
        apply erase_pop; intros v vp s1. reflexivity.
      - (* IRuntime *) apply p_op_runtime_erase.
      - (* IRender *)
        apply erase_pop; intros v vp s1. simpl.
        unfold erase_e; simpl. destruct (wrender (erase_v v)); reflexivity.
      - (* IPushSelf *)
        apply erase_pop; intros v vp s1. reflexivity.
      - (* IPopSelf *)
        unfold erase_st; simpl. f_equal. f_equal. destruct (pselfs st); reflexivity.
      - (* ITranslatorPanic *) reflexivity.
    Qed.
  End Nested.

  (* the positioned run, positions forgotten, is the run of vm/Vm.v on the code without positions *)
  Theorem pvm_run_erase : forall fuel st,
    erase_out erase_st (pvm_run fo PC strict_ envv envpos fuel st)
    = vm_run fo (map fst PC) strict_ envv fuel (erase_st st).
  Proof.
    intros fuel. induction fuel as [|f IH]; intros st; simpl; [reflexivity|].
    rewrite nth_error_map. change (pc (erase_st st)) with (ppc st). unfold PTranslate.pop.
    destruct (nth_error _ _) as [[i p]|]; simpl; [|reflexivity].
    destruct i; try reflexivity;
      (eapply erase_out_bind; [apply pexec_instr_erase; exact IH|]; intros st' _; apply IH).
  Qed.
End Erase.

Arguments erase_st {fo}. Arguments erase_e {fo}.

Definition erase_bindings {fo : float_ops} (t : list (bytes * (pval fo * pos))) : list (bytes * wval fo) := erase_syms t.

Theorem pvm_erase : forall fo fuel envv strict_ code,
  erase_out erase_bindings (pvm_prog fo fuel envv strict_ code) = vm_prog fo fuel envv strict_ (map fst code).
Proof.
  intros fo fuel envv strict_ code. unfold pvm_prog, vm_prog.
  eapply erase_out_bind; [apply pvm_run_erase|]. intros st _. reflexivity.
Qed.

(* with PTranslate_Lemmas.ptranslate_erase: the positioned pipeline, positions forgotten, is the pipeline the compile
   correctness theorems of vm/ are about *)
Theorem pvm_erase_translated : forall fo fuel envv strict_ (p : pprog),
  erase_out erase_bindings (pvm_prog fo fuel envv strict_ (ptranslate p))
  = vm_prog fo fuel envv strict_ (translate (map erase_stmt p)).
Proof.
  intros fo fuel envv strict_ p. rewrite pvm_erase, ptranslate_erase. reflexivity.
Qed.
