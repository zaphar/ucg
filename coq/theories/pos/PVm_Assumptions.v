(* Print Assumptions for every headline theorem about the positioned machine: each must answer
   "Closed under the global context". *)
From Ucg Require Import pos.PVm pos.PVm_Erase pos.PVm_Map pos.PVm_Lemmas.

(* erasure *)
Print Assumptions pvm_run_erase.
Print Assumptions pvm_erase.
Print Assumptions pvm_erase_translated.
(* naturality *)
Print Assumptions pvm_run_map.
Print Assumptions pvm_prog_at_map.
(* shift *)
Print Assumptions pvm_shift_env.
Print Assumptions pvm_shift.
Print Assumptions pvm_shift_translated.
Print Assumptions pvm_shift_error.
Print Assumptions pvm_shift_env_refuted.
(* provenance *)
Print Assumptions pvm_positions_from_code.
Print Assumptions pvm_positions_from_program.
Print Assumptions pvm_positions_from_program_no_env.
Print Assumptions pvm_error_lines_in_some_statement.
(* blame index *)
Print Assumptions pvm_blame_index.
Print Assumptions pvm_blame_in_statement.
From Ucg Require Import pos.PVm_Inv pos.PVm_Locality.
(* the one-step invariant *)
Print Assumptions pexec_instr_ok.
(* provenance by the invariant, the dummy position *)
Print Assumptions pvm_run_inv.
Print Assumptions until_inv.
Print Assumptions pvm_state_positions_from_code.
Print Assumptions pvm_error_positions_by_kind.
Print Assumptions pvm_dummy_only_in_nested_kinds.
(* locality *)
Print Assumptions pc_step.
Print Assumptions run_splits_at.
Print Assumptions closed_frame_local.
Print Assumptions until_local.
Print Assumptions pvm_locality.
Print Assumptions function_body_local.
Print Assumptions scopedb_sound.
Print Assumptions pvm_locality_translated.
Print Assumptions function_body_local_translated.
Print Assumptions pvm_locality_translated_prop.
Print Assumptions function_body_local_translated_prop.
Print Assumptions locality_module_result_example.
Print Assumptions locality_module_out_expression_example.
Print Assumptions locality_map_result_refuted.
From Ucg Require Import pos.PVm_Scoped.
(* [scoped] holds for every translated program; locality for source programs *)
Print Assumptions ptranslate_stmt_wfc.
Print Assumptions ptranslate_scoped.
Print Assumptions pvm_locality_program.
Print Assumptions function_body_local_program.
