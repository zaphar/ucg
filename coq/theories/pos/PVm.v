(* M-PVM: the POSITIONED virtual machine: vm/Vm.v (model of src/build/opcode/vm.rs and of the hooks
   range/map/filter/reduce/trace/regex of runtime.rs) with every Position the implementation keeps:
     - the code is a list of (op, position) pairs (OpPointer.pos_map),
     - every stack entry and every entry of the self stack is a (value, position) pair,
     - every binding of a symbol table carries the position given to Stack::add,
     - a list value carries one position per element, a tuple value (and the argument tuple of a module)
       a (name position, value position) pair per field (Composite::List / Composite::Tuple pos lists),
     - the error outcome is [PErr kind pos via]: [pos] is the Position given to Error::new / with_pos at
       the failing site, [via] the call stack pushed by decorate_call! while the error unwinds, in the order
       Display prints the VIA lines (innermost call site first).
   [kind] names the failing site (it is not part of the implementation's Error; theorems use it to say which
   sites can report the dummy position).  The dummy Position::new(0, 0, 0) enters the machine in one place:
   the positions of the `env` tuple (environment.rs get_env_vars_tuple, vm.rs get_binding); it is the
   section variable [envpos], instantiated with [pos0] by [pvm_prog].
   Control structure, fuel and the unsupported hooks are exactly those of vm/Vm.v (PVm_Erase.pvm_erase).
   Values whose result carries no position (equality, rendering, type names, casts, scalar arithmetic,
   comparisons) are computed by the functions of vm/ on the erased operands. *)
From Ucg Require Export vm.Vm pos.PTranslate.

(* the failing sites *)
Inductive ekind :=
| KCast            (* do_cast: the conversions of convert.rs, "Cannot cast a .. to .." *)
| KNoBinding       (* get_binding: "No such binding" *)
| KArith           (* add/sub/mul/div/modulus: type mismatch, overflow, division by zero *)
| KReservedBind    (* binding_push from op_bind: ".. is a reserved word." *)
| KRebind          (* binding_push: "Binding .. already exists" *)
| KReservedArg     (* binding_push from fcall_impl *)
| KEqualType       (* op_equal *)
| KNotBool         (* op_not *)
| KCompare         (* op_gt / op_lt / op_gteq / op_lteq *)
| KFieldType       (* merge_field_into_tuple *)
| KIndex           (* op_index: "Invalid selector index" *)
| KExistRight | KExistLeft   (* op_exist *)
| KCopyTarget      (* op_copy: "Expected a Tuple or Module" *)
| KBang            (* op_bang: fail expressions, select without default, format argument count *)
| KCond            (* op_jump_if_true / op_jump_if_false *)
| KAndOr           (* op_and / op_or *)
| KModuleArg       (* op_module *)
| KFuncArgs        (* op_func *)
| KArity           (* op_fcall: too many / too few arguments *)
| KNotFunc         (* op_fcall: "Not a function!" *)
| KHookNotFunc     (* map / filter / reduce: "Not a function!!" *)
| KHookArity       (* check_callback_arity *)
| KMapTuple        (* map over a tuple: the callback's result *)
| KMapStr          (* map over a string: the callback's result *)
| KHookTarget      (* "You can only map/filter/reduce over lists, tuples, or strings" *)
| KRange           (* Builtins::range *)
| KRegex.          (* Builtins::regex: operand not a string *)

Inductive pout (A : Type) :=
| POk (a : A)
| PErr (k : ekind) (p : pos) (via : list pos)
| PBug | PUnsup | PFuel.
Arguments POk {A}. Arguments PErr {A}. Arguments PBug {A}. Arguments PUnsup {A}. Arguments PFuel {A}.

Definition pbind {A B} (r : pout A) (k : A -> pout B) : pout B :=
  match r with POk a => k a | PErr e p via => PErr e p via | PBug => PBug | PUnsup => PUnsup | PFuel => PFuel end.
Notation "'pdo' x <- r ; k" := (pbind r (fun x => k)) (at level 200, x pattern, r at level 100, k at level 200).

(* decorate_call!(pos => result): push_call_stack(pos) on an error *)
Definition decorate_call {A} (p : pos) (r : pout A) : pout A :=
  match r with PErr e q via => PErr e q (via ++ [p]) | _ => r end.

(* a position-free outcome of vm/ with the kind and position an error gets here *)
Definition pout_of {A} (k : ekind) (p : pos) (r : outcome A) : pout A :=
  match r with VOk a => POk a | VErr => PErr k p [] | VBug => PBug | VUnsup => PUnsup | VFuel => PFuel end.

(* Position::new(0, 0, 0) *)
Definition pos0 : pos := (0%N, 0%N).

Section PVal.
  Variable fo : float_ops.
  Notation wval := (wval fo).

  (* enum Value with the position lists of Composite and the positions of a scope snapshot *)
  Inductive pval :=
  | QSym (s : bytes)
  | QInt (z : Z) | QFloat (f : F fo) | QStr (s : bytes) | QBool (v : bool) | QEmpty
  | QList (l : list (pval * pos))
  | QTuple (fs : list (bytes * (pval * (pos * pos))))          (* name, value, (name pos, value pos) *)
  | QThunk (idx : nat)
  | QFunc (ptr : nat) (bindings : list bytes) (snap : list (bytes * (pval * pos)))
  | QMod (ptr : nat) (result_ptr : option nat) (flds : list (bytes * (pval * (pos * pos)))).

  Definition pentry := (pval * pos)%type.
  Definition pfield := (bytes * (pval * (pos * pos)))%type.
  Definition psymtab := list (bytes * (pval * pos)).

  (* forgetting positions *)
  Fixpoint erase_v (v : pval) : wval :=
    match v with
    | QSym s => WSym s | QInt z => WInt z | QFloat f => WFloat f | QStr s => WStr s | QBool c => WBool c
    | QEmpty => WEmpty
    | QList l => WList (map (fun e => erase_v (fst e)) l)
    | QTuple fs => WTuple (map (fun kv => (fst kv, erase_v (fst (snd kv)))) fs)
    | QThunk i => WThunk i
    | QFunc ptr bs snap => WFunc ptr bs (map (fun kv => (fst kv, erase_v (fst (snd kv)))) snap)
    | QMod ptr rp fs => WMod ptr rp (map (fun kv => (fst kv, erase_v (fst (snd kv)))) fs)
    end.
  Definition erase_entries (s : list pentry) : list wval := map (fun e => erase_v (fst e)) s.
  Definition erase_flds (fs : list pfield) : list (bytes * wval) := map (fun kv => (fst kv, erase_v (fst (snd kv)))) fs.
  Definition erase_syms (t : psymtab) : symtab fo := map (fun kv => (fst kv, erase_v (fst (snd kv)))) t.

  (* the scalar results of vm/ (casts, scalar arithmetic, comparisons) back as positioned values; they contain no
     position.  Composite results never occur at the use sites (PVm_Erase.vm_cast_scalar & co.). *)
  Definition inj (w : wval) : pval :=
    match w with
    | WSym s => QSym s | WInt z => QInt z | WFloat f => QFloat f | WStr s => QStr s | WBool c => QBool c
    | _ => QEmpty
    end.

  (* scope.rs with positions *)
  Fixpoint psym_get (x : bytes) (t : psymtab) : option pentry :=
    match t with
    | [] => None
    | (k, e) :: t' => if bytes_eqb x k then Some e else psym_get x t'
    end.
  Fixpoint psym_add (k : bytes) (e : pentry) (t : psymtab) : psymtab :=
    match t with
    | [] => [(k, e)]
    | (k', w) :: t' => if bytes_ltb k k' then (k, e) :: t
                       else if bytes_eqb k k' then (k, e) :: t'
                       else (k', w) :: psym_add k e t'
    end.
  Definition psym_bound (x : bytes) (t : psymtab) : bool :=
    match psym_get x t with Some _ => true | None => false end.

  Record pstate := { ppc : nat; pstk : list pentry; psyms : psymtab; pselfs : list pentry }.

  Definition plit_val (l : lit) : pval :=
    match l with
    | LInt z => QInt z | LFloat bits => QFloat (f_of_bits fo bits) | LStr s => QStr s
    | LBool v => QBool v | LEmpty => QEmpty
    end.

  Definition pcompatible (a c : pval) : bool := wcompatible (erase_v a) (erase_v c).

  (* merge_field_into_tuple(flds, pos_list, name, name_pos, value, val_pos): a type error carries val_pos; an
     existing field keeps its name position and takes the new value position *)
  Fixpoint p_merge_field (fs : list pfield) (k : bytes) (np : pos) (v : pval) (vp : pos) : pout (list pfield) :=
    match fs with
    | [] => POk [(k, (v, (np, vp)))]
    | (k', (w, (np', vp'))) :: fs' =>
      if bytes_eqb k' k then (if pcompatible w v then POk ((k', (v, (np', vp))) :: fs') else PErr KFieldType vp [])
      else pdo r <- p_merge_field fs' k np v vp; POk ((k', (w, (np', vp'))) :: r)
    end.
  (* the override loops of op_copy: name and value position from the override tuple's position list *)
  Fixpoint p_merge_fields (base ov : list pfield) : pout (list pfield) :=
    match ov with
    | [] => POk base
    | (k, (v, (np, vp))) :: ov' => pdo base' <- p_merge_field base k np v vp; p_merge_fields base' ov'
    end.
End PVal.

Arguments QSym {fo}. Arguments QInt {fo}. Arguments QStr {fo}. Arguments QBool {fo}. Arguments QEmpty {fo}.
Arguments QThunk {fo}. Arguments QFloat {fo}. Arguments QList {fo}. Arguments QTuple {fo}.
Arguments QFunc {fo}. Arguments QMod {fo}.
Arguments Build_pstate {fo}. Arguments ppc {fo}. Arguments pstk {fo}. Arguments psyms {fo}. Arguments pselfs {fo}.
Arguments erase_v {fo}. Arguments erase_entries {fo}. Arguments erase_flds {fo}. Arguments erase_syms {fo}.
Arguments inj {fo}. Arguments psym_get {fo}. Arguments psym_add {fo}. Arguments psym_bound {fo}.
Arguments pcompatible {fo}. Arguments p_merge_field {fo}. Arguments p_merge_fields {fo}.

Section PVm.
  Variable fo : float_ops.
  Variable PC : pops.                      (* the positioned code all pointers of this run refer to *)
  Variable strict_ : bool.
  Variable envv : list (bytes * bytes).
  Variable envpos : pos.                   (* the position of everything in the `env` tuple: pos0 *)

  Notation pval := (pval fo).
  Notation pentry := (pentry fo).
  Notation pfield := (pfield fo).
  Notation psymtab := (psymtab fo).
  Notation pstate := (pstate fo).

  Definition pwith_pc (st : pstate) (n : nat) : pstate :=
    {| ppc := n; pstk := pstk st; psyms := psyms st; pselfs := pselfs st |}.
  Definition pwith_stk (st : pstate) (s : list pentry) : pstate :=
    {| ppc := ppc st; pstk := s; psyms := psyms st; pselfs := pselfs st |}.
  Definition pnext (st : pstate) : pstate := pwith_pc st (S (ppc st)).
  Definition ppush_next (st : pstate) (s : list pentry) : pout pstate := POk (pnext (pwith_stk st s)).

  Definition pjump (st : pstate) (j : nat) : pout pstate :=
    if Nat.ltb (ppc st + j) (List.length PC) then POk (pwith_pc st (S (ppc st + j))) else PBug.

  Definition ppop (s : list pentry) : pout (pentry * list pentry) :=
    match s with e :: s' => POk (e, s') | [] => PBug end.

  (* add / sub / mul / div / modulus: every error carries the position of the SECOND popped operand *)
  Definition p_arith (o : instr) (l r : pval) (rp : pos) : pout pval :=
    match l, r with
    | QList x, QList y => match o with IAdd => POk (QList (x ++ y)) | _ => PErr KArith rp [] end
    | _, _ => pdo w <- pout_of KArith rp (vm_arith fo o (erase_v l) (erase_v r)); POk (inj w)
    end.

  (* the `env` tuple: every position in it is the dummy *)
  Definition env_tuple_p : pval := QTuple (map (fun '(k, v) => (k, (QStr v, (envpos, envpos)))) envv).

  (* get_binding (the binding's position is returned; op_deref drops it) *)
  Definition p_get_binding (st : pstate) (name : bytes) : option pentry :=
    if bytes_eqb name (b "self") then hd_error (pselfs st)
    else if bytes_eqb name (b "env") then
      match psym_get name (psyms st) with Some e => Some e | None => Some (env_tuple_p, envpos) end
    else psym_get name (psyms st).

  (* binding_push(name, val, strict, pos, name_pos) *)
  Definition p_binding_push (kres : ekind) (t : psymtab) (name : bytes) (v : pval) (strict_bind : bool)
             (p np : pos) : pout psymtab :=
    if vm_is_reserved name then PErr kres np []
    else if psym_bound name t && strict_bind then PErr KRebind p []
    else POk (psym_add name (v, p) t).

  Fixpoint pfld_get (k : bytes) (fs : list pfield) : option pval :=
    match fs with
    | [] => None
    | (k', (v, _)) :: fs' => if bytes_eqb k' k then Some v else pfld_get k fs'
    end.

  (* op_index(safe, pos): a found element is pushed with the position of the INDEX operand, the NULL of a safe
     miss with the op position, the error carries the op position *)
  Definition p_index (safe : bool) (left right : pval) (rp p : pos) : pout pentry :=
    let miss := if safe then POk (QEmpty, p) else PErr KIndex p [] in
    match right with
    | QInt i =>
      match left with
      | QList elems =>
        if Z.ltb i (Z.of_nat (List.length elems)) && Z.leb 0 i
        then match nth_error elems (Z.to_nat i) with Some e => POk (fst e, rp) | None => PBug end
        else miss
      | _ => miss
      end
    | QStr s =>
      match left with
      | QTuple flds => match pfld_get s flds with Some v => POk (v, rp) | None => miss end
      | _ => miss
      end
    | _ => miss
    end.

  (* op_exist *)
  Definition p_exist (left right : pval) (lp rp : pos) : pout pval :=
    match left with
    | QTuple flds =>
      match right with
      | QStr name => POk (QBool (match pfld_get name flds with Some _ => true | None => false end))
      | _ => PErr KExistRight rp []
      end
    | QList elems =>
      pdo r <- pout_of KExistLeft lp (list_has fo (erase_entries elems) (erase_v right)); POk (QBool r)
    | QStr s =>
      match right with
      | QStr part => POk (QBool (contains_sub s part))
      | _ => POk (QBool false)
      end
    | _ => PErr KExistLeft lp []
    end.

  (* Builtins::range: every element and the list at the hook's position *)
  Definition p_range (start step stop : pval) (p : pos) : pout pval :=
    let step := match step with QEmpty => QInt 1 | s => s end in
    match start, step, stop with
    | QInt a, QInt s, QInt z =>
      if Z.leb s 0 then PErr KRange p []
      else POk (QList (map (fun v => (match v with VInt _ n => QInt n | _ => QEmpty end, p))
                           (range_from fo (Z.to_nat (range_len a s z)) a s z)))
    | _, _, _ => PErr KRange p []
    end.

  Section Nested.
    Variable run : pstate -> pout pstate.

    (* fcall_impl: vm.binding_push(nm, val, false, &pos, &pos) with the position of the argument *)
    Fixpoint p_bind_args (names : list bytes) (s : list pentry) (t : psymtab) : pout (list pentry * psymtab) :=
      match names with
      | [] => POk (s, t)
      | nm :: names' =>
        match s with
        | [] => PBug
        | (v, vp) :: s' => pdo t' <- p_binding_push KReservedArg t nm v false vp vp; p_bind_args names' s' t'
        end
      end.

    (* the result is (value, position) of the callee's stack top *)
    Definition p_fcall_impl (ptr : nat) (bindings : list bytes) (snap : psymtab) (s : list pentry)
      : pout (pentry * list pentry) :=
      pdo (s', t) <- p_bind_args bindings s snap;
      pdo fin <- run {| ppc := S ptr; pstk := []; psyms := t; pselfs := [] |};
      pdo (e, _) <- ppop (pstk fin);
      POk (e, s').

    (* op_fcall(pos): arity errors and "Not a function" at the op; the call is decorated with the position
       of the FUNCTION VALUE on the stack; the result is pushed at the op position *)
    Definition p_op_fcall (st : pstate) (p : pos) : pout pstate :=
      pdo (fe, s1) <- ppop (pstk st);
      pdo (ae, s2) <- ppop s1;
      match fst fe with
      | QFunc ptr bindings snap =>
        pdo _ <- match fst ae with
                 | QInt n => let arity := Z.of_nat (List.length bindings) in
                             if Z.ltb arity n then PErr KArity p [] else if Z.ltb n arity then PErr KArity p []
                             else POk tt
                 | _ => POk tt
                 end;
        pdo (e, s3) <- decorate_call (snd fe) (p_fcall_impl ptr bindings snap s2);
        ppush_next st ((fst e, p) :: s3)
      | _ => PErr KNotFunc p []
      end.

    (* op_new_scope: not a call (nothing is added to the call stack); the result keeps its position *)
    Definition p_op_new_scope (st : pstate) (j : nat) : pout pstate :=
      pdo fin <- run {| ppc := S (ppc st); pstk := []; psyms := psyms st; pselfs := pselfs st |};
      pdo (e, _) <- ppop (pstk fin);
      pjump (pwith_stk st (e :: pstk st)) j.

    (* symbols_to_tuple: both positions of a field are the binding's position *)
    Definition p_symbols_to_tuple (t : psymtab) (include_mod : bool) : pval :=
      QTuple (map (fun '(k, (v, p)) => (k, (v, (p, p))))
                  (filter (fun '(k, _) => include_mod || negb (bytes_eqb k (b "mod"))) t)).

    (* op_copy(pos).  Module: `this` is merged with name position [pos] and the position of the override tuple
       as value position; the body and (since commit 5138c88) the out expression run under
       decorate_call!(pos => ..), and the value of the out expression is pushed at [pos], the position of the
       instantiation (its position on the module VM's stack is dropped) *)
    Definition p_op_copy (st : pstate) (p : pos) : pout pstate :=
      pdo (oe, s1) <- ppop (pstk st);
      pdo (te, s2) <- ppop s1;
      match fst oe with
      | QTuple overrides =>
        match fst te with
        | QTuple flds =>
          pdo flds' <- p_merge_fields flds overrides;
          ppush_next st ((QTuple flds', snd te) :: s2)
        | QMod ptr result_ptr flds =>
          pdo flds1 <- p_merge_fields flds overrides;
          pdo flds2 <- p_merge_field flds1 (b "this") p (fst te) (snd oe);
          pdo fin <- decorate_call p
                       (run {| ppc := S ptr; pstk := [(QTuple flds2, p); (QSym (b "mod"), p)]; psyms := [];
                               pselfs := pselfs st |});
          match result_ptr with
          | Some rp =>
            if Nat.ltb rp (List.length PC) then
              pdo fin2 <- decorate_call p (run (pwith_pc fin (S rp)));
              pdo (e, _) <- ppop (pstk fin2);
              ppush_next st ((fst e, p) :: s2)
            else PBug
          | None => ppush_next st ((p_symbols_to_tuple (psyms fin) false, p) :: s2)
          end
        | _ => PErr KCopyTarget p []
        end
      | _ => PBug
      end.

    (* check_callback_arity(f, n, what, &fptr_pos) *)
    Definition p_arity_ok (bindings : list bytes) (n : nat) (fp : pos) : pout unit :=
      if Nat.eqb (List.length bindings) n then POk tt else PErr KHookArity fp [].

    Section Callback.
      Variables (ptr : nat) (bindings : list bytes) (snap : psymtab).
      Variable hp : pos.                   (* the hook's position: decorate_call!(pos => fcall_impl ..) *)
      Definition p_call_with (args_rev : list pentry) (s : list pentry) : pout (pentry * list pentry) :=
        decorate_call hp (p_fcall_impl ptr bindings snap (args_rev ++ s)).

      (* map over a list: argument at the element's position, result element at the result's position *)
      Fixpoint p_map_list (elems : list pentry) (s : list pentry) : pout (list pentry * list pentry) :=
        match elems with
        | [] => POk ([], s)
        | e :: rest =>
          pdo (r, s1) <- p_call_with [e] s;
          pdo (rs, s2) <- p_map_list rest s1;
          POk (r :: rs, s2)
        end.
      (* map over a tuple: name at the name position, value at the value position; the errors about the
         result carry the result's position; a new field is (old name position, result position) *)
      Fixpoint p_map_tuple (flds : list pfield) (s : list pentry) : pout (list pfield * list pentry) :=
        match flds with
        | [] => POk ([], s)
        | (k, (v, (np, vp))) :: rest =>
          pdo (r, s1) <- p_call_with [(v, vp); (QStr k, np)] s;
          match fst r with
          | QList fval =>
            match fval with
            | [n; v'] =>
              match fst n with
              | QStr name => pdo (rs, s2) <- p_map_tuple rest s1; POk ((name, (fst v', (np, snd r))) :: rs, s2)
              | _ => PErr KMapTuple (snd r) []
              end
            | _ => PErr KMapTuple (snd r) []
            end
          | _ => p_map_tuple rest s1
          end
        end.
      (* map over a string: every character at the position of the string *)
      Fixpoint p_map_str (lp : pos) (chars : list bytes) (s : list pentry) : pout (bytes * list pentry) :=
        match chars with
        | [] => POk ([], s)
        | c :: rest =>
          pdo (r, s1) <- p_call_with [(QStr c, lp)] s;
          match fst r with
          | QStr t => pdo (rs, s2) <- p_map_str lp rest s1; POk (t ++ rs, s2)
          | _ => PErr KMapStr (snd r) []
          end
        end.

      Definition pkeeps (cond : pval) : bool := keeps fo (erase_v cond).
      Fixpoint p_filter_list (elems : list pentry) (s : list pentry) : pout (list pentry * list pentry) :=
        match elems with
        | [] => POk ([], s)
        | e :: rest =>
          pdo (r, s1) <- p_call_with [e] s;
          pdo (rs, s2) <- p_filter_list rest s1;
          POk (if pkeeps (fst r) then e :: rs else rs, s2)
        end.
      Fixpoint p_filter_tuple (flds : list pfield) (s : list pentry) : pout (list pfield * list pentry) :=
        match flds with
        | [] => POk ([], s)
        | (k, (v, (np, vp))) :: rest =>
          pdo (r, s1) <- p_call_with [(v, vp); (QStr k, np)] s;
          pdo (rs, s2) <- p_filter_tuple rest s1;
          POk (if pkeeps (fst r) then (k, (v, (np, vp))) :: rs else rs, s2)
        end.
      Fixpoint p_filter_str (lp : pos) (chars : list bytes) (s : list pentry) : pout (bytes * list pentry) :=
        match chars with
        | [] => POk ([], s)
        | c :: rest =>
          pdo (r, s1) <- p_call_with [(QStr c, lp)] s;
          pdo (rs, s2) <- p_filter_str lp rest s1;
          POk (if pkeeps (fst r) then c ++ rs else rs, s2)
        end.

      (* reduce: the accumulator travels with its position (the result position of the previous call) *)
      Fixpoint p_reduce_list (elems : list pentry) (acc : pentry) (s : list pentry) : pout (pentry * list pentry) :=
        match elems with
        | [] => POk (acc, s)
        | e :: rest => pdo (acc', s1) <- p_call_with [e; acc] s; p_reduce_list rest acc' s1
        end.
      Fixpoint p_reduce_tuple (flds : list pfield) (acc : pentry) (s : list pentry) : pout (pentry * list pentry) :=
        match flds with
        | [] => POk (acc, s)
        | (k, (v, (np, vp))) :: rest =>
          pdo (acc', s1) <- p_call_with [(v, vp); (QStr k, np); acc] s; p_reduce_tuple rest acc' s1
        end.
      Fixpoint p_reduce_str (lp : pos) (chars : list bytes) (acc : pentry) (s : list pentry)
        : pout (pentry * list pentry) :=
        match chars with
        | [] => POk (acc, s)
        | c :: rest => pdo (acc', s1) <- p_call_with [(QStr c, lp); acc] s; p_reduce_str lp rest acc' s1
        end.
    End Callback.

    (* Builtins::map(pos): "Not a function" and the arity error at the position of the function value; the
       mapped list is pushed at the position of the LIST operand, the mapped tuple / string at the hook *)
    Definition p_hook_map (st : pstate) (p : pos) : pout pstate :=
      match pstk st with
      | te :: fe :: s =>
        match fst fe with
        | QFunc ptr bindings snap =>
          match fst te with
          | QList elems =>
            pdo _ <- p_arity_ok bindings 1 (snd fe);
            pdo (rs, s') <- p_map_list ptr bindings snap p elems s; ppush_next st ((QList rs, snd te) :: s')
          | QTuple flds =>
            pdo _ <- p_arity_ok bindings 2 (snd fe);
            pdo (rs, s') <- p_map_tuple ptr bindings snap p flds s; ppush_next st ((QTuple rs, p) :: s')
          | QStr str =>
            pdo _ <- p_arity_ok bindings 1 (snd fe);
            pdo (rs, s') <- p_map_str ptr bindings snap p (snd te) (utf8_chars str) s;
            ppush_next st ((QStr rs, p) :: s')
          | _ => PErr KHookTarget p []
          end
        | _ => PErr KHookNotFunc (snd fe) []
        end
      | _ => PBug
      end.

    (* Builtins::filter(pos): every result at the hook's position *)
    Definition p_hook_filter (st : pstate) (p : pos) : pout pstate :=
      match pstk st with
      | te :: fe :: s =>
        match fst fe with
        | QFunc ptr bindings snap =>
          match fst te with
          | QList elems =>
            pdo _ <- p_arity_ok bindings 1 (snd fe);
            pdo (rs, s') <- p_filter_list ptr bindings snap p elems s; ppush_next st ((QList rs, p) :: s')
          | QTuple flds =>
            pdo _ <- p_arity_ok bindings 2 (snd fe);
            pdo (rs, s') <- p_filter_tuple ptr bindings snap p flds s; ppush_next st ((QTuple rs, p) :: s')
          | QStr str =>
            pdo _ <- p_arity_ok bindings 1 (snd fe);
            pdo (rs, s') <- p_filter_str ptr bindings snap p (snd te) (utf8_chars str) s;
            ppush_next st ((QStr rs, p) :: s')
          | _ => PErr KHookTarget p []
          end
        | _ => PErr KHookNotFunc (snd fe) []
        end
      | _ => PBug
      end.

    (* Builtins::reduce(pos): the final accumulator at the hook's position *)
    Definition p_hook_reduce (st : pstate) (p : pos) : pout pstate :=
      match pstk st with
      | te :: acc :: fe :: s =>
        match fst fe with
        | QFunc ptr bindings snap =>
          match fst te with
          | QList elems =>
            pdo _ <- p_arity_ok bindings 2 (snd fe);
            pdo (r, s') <- p_reduce_list ptr bindings snap p elems acc s; ppush_next st ((fst r, p) :: s')
          | QTuple flds =>
            pdo _ <- p_arity_ok bindings 3 (snd fe);
            pdo (r, s') <- p_reduce_tuple ptr bindings snap p flds acc s; ppush_next st ((fst r, p) :: s')
          | QStr str =>
            pdo _ <- p_arity_ok bindings 2 (snd fe);
            pdo (r, s') <- p_reduce_str ptr bindings snap p (snd te) (utf8_chars str) acc s;
            ppush_next st ((fst r, p) :: s')
          | _ => PErr KHookTarget p []
          end
        | _ => PErr KHookNotFunc (snd fe) []
        end
      | _ => PBug
      end.

    Definition p_op_runtime (h : hook) (st : pstate) (p : pos) : pout pstate :=
      match h with
      | HRange =>
        match pstk st with
        | start :: step :: stop :: s =>
          pdo v <- p_range (fst start) (fst step) (fst stop) p; ppush_next st ((v, p) :: s)
        | _ => PBug
        end
      | HTrace =>
        (* the traced value goes back with its own position *)
        match pstk st with
        | v :: e :: s => match fst e with QStr _ => ppush_next st (v :: s) | _ => PBug end
        | _ => PBug
        end
      | HMap => p_hook_map st p
      | HFilter => p_hook_filter st p
      | HReduce => p_hook_reduce st p
      | HRegex =>
        (* a non-string operand is reported at its own position *)
        match pstk st with
        | [] => PBug
        | l :: s1 =>
          match fst l with
          | QStr _ => match s1 with
                      | [] => PBug
                      | r :: _ => match fst r with QStr _ => PUnsup | _ => PErr KRegex (snd r) [] end
                      end
          | _ => PErr KRegex (snd l) []
          end
        end
      | HInclude | HImport | HOut | HAssert | HConvert => PUnsup
      end.

    (* one iteration of the dispatch loop for the op [i] with position [p] at index [ppc st] *)
    Definition pexec_instr (i : instr) (p : pos) (st : pstate) : pout pstate :=
      let s := pstk st in
      match i with
      | IVal l => ppush_next st ((plit_val fo l, p) :: s)
      | ICast t =>
        (* do_cast under decorate_error!(pos): result and every error at the operand's position *)
        pdo (e, s1) <- ppop s;
        pdo w <- pout_of KCast (snd e) (vm_cast fo t (erase_v (fst e)));
        ppush_next st ((inj w, snd e) :: s1)
      | ISym name => ppush_next st ((QSym name, p) :: s)
      | IDeRef name =>
        (* the value is pushed at the op position, "No such binding" carries the op position *)
        match p_get_binding st name with Some e => ppush_next st ((fst e, p) :: s) | None => PErr KNoBinding p [] end
      | IAdd | ISub | IMul | IDiv | IMod =>
        pdo (l, s1) <- ppop s; pdo (r, s2) <- ppop s1;
        pdo v <- p_arith i (fst l) (fst r) (snd r); ppush_next st ((v, p) :: s2)
      | IBind | IBindOver =>
        (* binding_push(name, val, strict, &val_pos, &name_pos) *)
        pdo (ve, s1) <- ppop s; pdo (ne, s2) <- ppop s1;
        match fst ne with
        | QSym nm =>
          pdo t <- p_binding_push KReservedBind (psyms st) nm (fst ve) (match i with IBind => true | _ => false end)
                                  (snd ve) (snd ne);
          POk {| ppc := S (ppc st); pstk := s2; psyms := t; pselfs := pselfs st |}
        | _ => PBug
        end
      | IEqual =>
        pdo (l, s1) <- ppop s; pdo (r, s2) <- ppop s1;
        if pcompatible (fst l) (fst r) then
          match weq (erase_v (fst l)) (erase_v (fst r)) with
          | Some q => ppush_next st ((QBool q, p) :: s2)
          | None => PUnsup
          end
        else PErr KEqualType p []
      | INot =>
        (* result and error at the operand's position *)
        pdo (e, s1) <- ppop s;
        match fst e with QBool x => ppush_next st ((QBool (negb x), snd e) :: s1) | _ => PErr KNotBool (snd e) [] end
      | IGt | ILt | IGtEq | ILtEq =>
        pdo (l, s1) <- ppop s; pdo (r, s2) <- ppop s1;
        pdo w <- pout_of KCompare p (vm_compare fo i (erase_v (fst l)) (erase_v (fst r)));
        ppush_next st ((inj w, p) :: s2)
      | IInitList => ppush_next st ((QList [], p) :: s)
      | IInitTuple => ppush_next st ((QTuple [], p) :: s)
      | IField =>
        (* the tuple keeps its position; the field gets (name position, value position) *)
        pdo (ve, s1) <- ppop s; pdo (ne, s2) <- ppop s1;
        match fst ne with
        | QSym name | QStr name =>
          pdo (te, s3) <- ppop s2;
          match fst te with
          | QTuple flds =>
            pdo flds' <- p_merge_field flds name (snd ne) (fst ve) (snd ve);
            ppush_next st ((QTuple flds', snd te) :: s3)
          | _ => PBug
          end
        | _ => PBug
        end
      | IElement =>
        pdo (ve, s1) <- ppop s; pdo (le, s2) <- ppop s1;
        match fst le with QList elems => ppush_next st ((QList (elems ++ [ve]), snd le) :: s2) | _ => PBug end
      | IIndex =>
        pdo (r, s1) <- ppop s; pdo (l, s2) <- ppop s1;
        pdo e <- p_index (negb strict_) (fst l) (fst r) (snd r) p; ppush_next st (e :: s2)
      | ISafeIndex =>
        pdo (r, s1) <- ppop s; pdo (l, s2) <- ppop s1;
        pdo e <- p_index true (fst l) (fst r) (snd r) p; ppush_next st (e :: s2)
      | IExist =>
        pdo (r, s1) <- ppop s; pdo (l, s2) <- ppop s1;
        pdo v <- p_exist (fst l) (fst r) (snd l) (snd r); ppush_next st ((v, p) :: s2)
      | ICp => p_op_copy st p
      | IBang =>
        (* Error::new(msg, err_pos): the position of the MESSAGE on the stack *)
        pdo (e, _) <- ppop s; match fst e with QStr _ => PErr KBang (snd e) [] | _ => PBug end
      | IInitThunk j => pjump (pwith_stk st ((QThunk (ppc st), p) :: s)) j
      | INoop => POk (pnext st)
      | IJump j => pjump st j
      | IJumpIfTrue j =>
        pdo (e, s1) <- ppop s;
        match fst e with
        | QBool c => if c then pjump (pwith_stk st s1) j else POk (pnext (pwith_stk st s1))
        | _ => PErr KCond (snd e) []
        end
      | IJumpIfFalse j =>
        pdo (e, s1) <- ppop s;
        match fst e with
        | QBool c => if c then POk (pnext (pwith_stk st s1)) else pjump (pwith_stk st s1) j
        | _ => PErr KCond (snd e) []
        end
      | ISelectJump j =>
        pdo (fe, s1) <- ppop s; pdo (se, s2) <- ppop s1;
        if select_matches fo (erase_v (fst fe)) (erase_v (fst se)) then POk (pnext (pwith_stk st s2))
        else pjump (pwith_stk st (se :: s2)) j
      | IAnd j =>
        (* the error carries the position of the condition *)
        pdo (e, s1) <- ppop s;
        match fst e with
        | QBool c => if c then POk (pnext (pwith_stk st s1)) else pjump (pwith_stk st (e :: s1)) j
        | _ => PErr KAndOr (snd e) []
        end
      | IOr j =>
        pdo (e, s1) <- ppop s;
        match fst e with
        | QBool c => if c then pjump (pwith_stk st (e :: s1)) j else POk (pnext (pwith_stk st s1))
        | _ => PErr KAndOr (snd e) []
        end
      | IModule j =>
        pdo (me, s1) <- ppop s;
        match fst me with
        | QTuple flds => pjump (pwith_stk st ((QMod (ppc st) None flds, p) :: s1)) j
        | QThunk tp =>
          pdo (te, s2) <- ppop s1;
          match fst te with
          | QTuple flds => pjump (pwith_stk st ((QMod (ppc st) (Some tp) flds, p) :: s2)) j
          | _ => PErr KModuleArg (snd te) []
          end
        | _ => PErr KModuleArg (snd me) []
        end
      | IFunc j =>
        pdo (le, s1) <- ppop s;
        match fst le with
        | QList elems =>
          pdo names <- (fix go (l : list pentry) : pout (list bytes) :=
                          match l with
                          | [] => POk []
                          | (QSym nm, _) :: l' => pdo r <- go l'; POk (nm :: r)
                          | _ :: _ => PErr KFuncArgs (snd le) []
                          end) elems;
          pjump (pwith_stk st ((QFunc (ppc st) (rev names) (psyms st), p) :: s1)) j
        | _ => PErr KFuncArgs (snd le) []
        end
      | IFCall => p_op_fcall st p
      | INewScope j => p_op_new_scope st j
      | IReturn => POk st
      | IPop => pdo (_, s1) <- ppop s; POk (pnext (pwith_stk st s1))
      | ITyp => pdo (e, s1) <- ppop s; ppush_next st ((QStr (wtyp (erase_v (fst e))), snd e) :: s1)
      | IRuntime h => p_op_runtime h st p
      | IRender =>
        pdo (e, s1) <- ppop s;
        match wrender (erase_v (fst e)) with Some t => ppush_next st ((QStr t, snd e) :: s1) | None => PUnsup end
      | IPushSelf =>
        pdo (e, s1) <- ppop s;
        POk {| ppc := S (ppc st); pstk := e :: s1; psyms := psyms st; pselfs := e :: pselfs st |}
      | IPopSelf =>
        POk {| ppc := S (ppc st); pstk := s; psyms := psyms st; pselfs := tl (pselfs st) |}
      | ITranslatorPanic => PBug
      end.
  End Nested.

  (* VM::run *)
  Fixpoint pvm_run (fuel : nat) (st : pstate) : pout pstate :=
    match fuel with
    | O => PFuel
    | S f =>
      match nth_error PC (ppc st) with
      | None => POk st
      | Some (IReturn, _) => POk st
      | Some (i, p) => pdo st' <- pexec_instr (pvm_run f) i p st; pvm_run f st'
      end
    end.

  Definition pinit_state : pstate := {| ppc := 0; pstk := []; psyms := []; pselfs := [] |}.
End PVm.

(* a whole program: the bindings (with their positions) after the run; the dummy position is Position::new(0,0,0) *)
Definition pvm_prog (fo : float_ops) (fuel : nat) (envv : list (bytes * bytes)) (strict_ : bool) (c : pops)
  : pout (list (bytes * (pval fo * pos))) :=
  pdo st <- pvm_run fo c strict_ envv pos0 fuel (pinit_state fo); POk (psyms st).
