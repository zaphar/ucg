(* Naturality of the positioned machine in its positions: renaming every position of the code (and of the
   state, and the dummy position of the `env` tuple) by any function [f] renames the positions of the outcome
   by [f] and changes nothing else ([pvm_run_map]); the shift theorems and the blame index in PVm_Lemmas.v are corollaries.
   One commutation lemma per function of PVm.v, in the order of that file. *)
From Ucg Require Import pos.PTranslate_Lemmas pos.PVm pos.PVm_Run.

#[local] Arguments p_symbols_to_tuple : simpl never.

Section MapV.
  Variable fo : float_ops.
  Variable f : pos -> pos.
  Notation pval := (pval fo).
  Notation pentry := (pentry fo).
  Notation pfield := (pfield fo).
  Notation psymtab := (psymtab fo).
  Notation pstate := (pstate fo).

  Fixpoint map_v (v : pval) : pval :=
    match v with
    | QList l => QList (map (fun e => (map_v (fst e), f (snd e))) l)
    | QTuple fs => QTuple (map (fun kv => (fst kv, (map_v (fst (snd kv)), (f (fst (snd (snd kv))), f (snd (snd (snd kv))))))) fs)
    | QFunc ptr bs snap => QFunc ptr bs (map (fun kv => (fst kv, (map_v (fst (snd kv)), f (snd (snd kv))))) snap)
    | QMod ptr rp fs =>
      QMod ptr rp (map (fun kv => (fst kv, (map_v (fst (snd kv)), (f (fst (snd (snd kv))), f (snd (snd (snd kv))))))) fs)
    | QSym s => QSym s | QInt z => QInt z | QFloat x => QFloat x | QStr s => QStr s | QBool c => QBool c
    | QEmpty => QEmpty | QThunk i => QThunk i
    end.
  Definition map_e (e : pentry) : pentry := (map_v (fst e), f (snd e)).
  Definition map_entries (s : list pentry) : list pentry := map map_e s.
  Definition map_fld (kv : pfield) : pfield :=
    (fst kv, (map_v (fst (snd kv)), (f (fst (snd (snd kv))), f (snd (snd (snd kv)))))).
  Definition map_flds (fs : list pfield) : list pfield := map map_fld fs.
  Definition map_binding (kv : bytes * pentry) : bytes * pentry := (fst kv, map_e (snd kv)).
  Definition map_syms (t : psymtab) : psymtab := map map_binding t.
  Definition map_st (st : pstate) : pstate :=
    {| ppc := ppc st; pstk := map_entries (pstk st); psyms := map_syms (psyms st); pselfs := map_entries (pselfs st) |}.

  Definition map_out {A B : Type} (g : A -> B) (r : pout A) : pout B :=
    match r with
    | POk a => POk (g a) | PErr k p via => PErr k (f p) (map f via)
    | PBug => PBug | PUnsup => PUnsup | PFuel => PFuel
    end.

  Lemma map_out_bind : forall (A B A' B' : Type) (h : A -> A') (g : B -> B') (r : pout A) (k : A -> pout B)
      (r' : pout A') (k' : A' -> pout B'),
    map_out h r = r' ->
    (forall a, r = POk a -> map_out g (k a) = k' (h a)) ->
    map_out g (pbind r k) = pbind r' k'.
  Proof.
    intros A B A' B' h g r k r' k' Hr Hk. subst r'. destruct r as [a|e p via| | |]; simpl; try reflexivity.
    apply Hk. reflexivity.
  Qed.

  Lemma map_out_decorate : forall (A B : Type) (g : A -> B) p (r : pout A),
    map_out g (decorate_call p r) = decorate_call (f p) (map_out g r).
  Proof. intros A B g p r. destruct r; simpl; try reflexivity. now rewrite map_app. Qed.

  Lemma map_out_pout_of : forall (A : Type) k p (r : outcome A),
    map_out (fun a => a) (pout_of k p r) = pout_of k (f p) r.
  Proof. intros A k p r. destruct r; reflexivity. Qed.

  (* erasure does not see the renaming *)
  Lemma erase_map_v : forall v, erase_v (map_v v) = erase_v v.
  Proof.
    fix IH 1. intros v. destruct v as [s|z|x|s|c| |l|fs|i|ptr bs snap|ptr rp fs]; simpl; try reflexivity; f_equal;
      rewrite map_map.
    - induction l as [|e l IHl]; simpl in *; [reflexivity|]. now rewrite IH, IHl.
    - induction fs as [|e l IHl]; simpl in *; [reflexivity|]. now rewrite IH, IHl.
    - induction snap as [|e l IHl]; simpl in *; [reflexivity|]. now rewrite IH, IHl.
    - induction fs as [|e l IHl]; simpl in *; [reflexivity|]. now rewrite IH, IHl.
  Qed.

  Lemma erase_map_entries : forall s, erase_entries (map_entries s) = erase_entries s.
  Proof.
    intros s. unfold erase_entries, map_entries. rewrite map_map. apply map_ext. intros e. simpl. apply erase_map_v.
  Qed.

  Lemma map_v_inj : forall w : wval fo, map_v (inj w) = inj w.
  Proof. intros w. destruct w; reflexivity. Qed.

  (* a clause that pops: the clauses agree if what follows agrees for every top entry and rest of the stack *)
  Lemma map_pop : forall (B B' : Type) (g : B -> B') s (k : pentry * list pentry -> pout B) k',
    (forall v vp s1, map_out g (k ((v, vp), s1)) = k' ((map_v v, f vp), map_entries s1)) ->
    map_out g (pbind (ppop fo s) k) = pbind (ppop fo (map_entries s)) k'.
  Proof. intros B B' g s k k' H. destruct s as [|[v vp] s1]; [reflexivity|]. apply H. Qed.

  Lemma psym_get_map : forall x (t : psymtab), psym_get x (map_syms t) = option_map map_e (psym_get x t).
  Proof.
    intros x t. induction t as [|[k e] t IH]; simpl; [reflexivity|].
    destruct (bytes_eqb x k); [reflexivity|exact IH].
  Qed.

  Lemma psym_add_map : forall k (e : pentry) (t : psymtab),
    map_syms (psym_add k e t) = psym_add k (map_e e) (map_syms t).
  Proof.
    intros k e t. induction t as [|[k' w] t IH]; simpl; [reflexivity|].
    destruct (bytes_ltb k k'); [reflexivity|]. destruct (bytes_eqb k k'); [reflexivity|].
    simpl. f_equal. exact IH.
  Qed.

  Lemma psym_bound_map : forall x (t : psymtab), psym_bound x (map_syms t) = psym_bound x t.
  Proof. intros x t. unfold psym_bound. rewrite psym_get_map. destruct (psym_get x t); reflexivity. Qed.

  Variable PC : pops.
  Variable strict_ : bool.
  Variable envv : list (bytes * bytes).
  Variable envpos : pos.
  (* the dummy position of the renamed run: [f envpos], or anything at all when there are no environment variables *)
  Variable envpos' : pos.
  Hypothesis Henv : env_tuple_p fo envv envpos' = env_tuple_p fo envv (f envpos).
  Notation C' := (mp f PC).

  Lemma env_tuple_map : map_v (env_tuple_p fo envv envpos) = env_tuple_p fo envv envpos'.
  Proof.
    rewrite Henv. unfold env_tuple_p. simpl. f_equal. rewrite map_map. apply map_ext. intros [k v]. reflexivity.
  Qed.

  (* op_deref only takes the value of the binding *)
  Lemma p_get_binding_map : forall st name,
    option_map (fun e : pentry => map_v (fst e)) (p_get_binding fo envv envpos st name)
    = option_map fst (p_get_binding fo envv envpos' (map_st st) name).
  Proof.
    intros st name. unfold p_get_binding.
    destruct (bytes_eqb name (b "self")).
    - simpl. destruct (pselfs st); reflexivity.
    - destruct (bytes_eqb name (b "env")).
      + cbn [psyms map_st]. rewrite psym_get_map. destruct (psym_get name (psyms st)); [reflexivity|].
        cbn [option_map fst]. now rewrite env_tuple_map.
      + cbn [psyms map_st]. rewrite psym_get_map. destruct (psym_get name (psyms st)); reflexivity.
  Qed.

  Lemma p_binding_push_map : forall kres t name v sb p np,
    map_out map_syms (p_binding_push fo kres t name v sb p np)
    = p_binding_push fo kres (map_syms t) name (map_v v) sb (f p) (f np).
  Proof.
    intros kres t name v sb p np. unfold p_binding_push.
    destruct (vm_is_reserved name); [reflexivity|]. rewrite psym_bound_map.
    destruct (psym_bound name t && sb); [reflexivity|]. simpl. now rewrite psym_add_map.
  Qed.

  Lemma pfld_get_map : forall k (fs : list pfield), pfld_get fo k (map_flds fs) = option_map map_v (pfld_get fo k fs).
  Proof.
    intros k fs. induction fs as [|[k' [v pp]] fs IH]; simpl; [reflexivity|].
    destruct (bytes_eqb k' k); [reflexivity|exact IH].
  Qed.

  Lemma p_index_map : forall safe l r rp p,
    map_out map_e (p_index fo safe l r rp p) = p_index fo safe (map_v l) (map_v r) (f rp) (f p).
  Proof.
    intros safe l r rp p. unfold p_index.
    assert (Hmiss : map_out map_e (if safe then POk (QEmpty, p) else PErr KIndex p [])
                    = (if safe then POk (QEmpty, f p) else PErr KIndex (f p) [])) by (destruct safe; reflexivity).
    destruct r; simpl; try exact Hmiss.
    - destruct l; simpl; try exact Hmiss.
      rewrite map_length.
      destruct (Z.ltb z (Z.of_nat (List.length l)) && Z.leb 0 z); [|exact Hmiss].
      rewrite nth_error_map. destruct (nth_error l (Z.to_nat z)); reflexivity.
    - destruct l; simpl; try exact Hmiss.
      fold (map_flds fs). fold map_fld. rewrite pfld_get_map. destruct (pfld_get fo s fs); [reflexivity|exact Hmiss].
  Qed.

  Lemma p_exist_map : forall l r lp rp,
    map_out map_v (p_exist fo l r lp rp) = p_exist fo (map_v l) (map_v r) (f lp) (f rp).
  Proof.
    intros l r lp rp. unfold p_exist. destruct l; simpl; try reflexivity.
    - destruct r; reflexivity.
    - fold map_e. fold (map_entries l). rewrite erase_map_entries, erase_map_v.
      destruct (list_has fo (erase_entries l) (erase_v r)); reflexivity.
    - destruct r; simpl; try reflexivity.
      fold map_fld. fold (map_flds fs). rewrite pfld_get_map. destruct (pfld_get fo s fs); reflexivity.
  Qed.

  Lemma p_range_map : forall a s z p,
    map_out map_v (p_range fo a s z p) = p_range fo (map_v a) (map_v s) (map_v z) (f p).
  Proof.
    intros a s z p. unfold p_range.
    destruct a; try reflexivity. destruct s; try reflexivity; (destruct z; try reflexivity); simpl.
    - destruct (Z.leb z1 0); [reflexivity|]. simpl. f_equal. f_equal. rewrite map_map. apply map_ext.
      intros v. destruct v; reflexivity.
    - f_equal. f_equal. rewrite map_map. apply map_ext. intros v. destruct v; reflexivity.
  Qed.

  Lemma pcompatible_map : forall a c : pval, pcompatible (map_v a) (map_v c) = pcompatible a c.
  Proof. intros a c. unfold pcompatible. now rewrite !erase_map_v. Qed.

  Lemma p_merge_field_map : forall (fs : list pfield) k np v vp,
    map_out map_flds (p_merge_field fs k np v vp) = p_merge_field (map_flds fs) k (f np) (map_v v) (f vp).
  Proof.
    intros fs k np v vp. induction fs as [|[k' [w [np' vp']]] fs IH]; simpl; [reflexivity|].
    destruct (bytes_eqb k' k).
    - rewrite pcompatible_map. destruct (pcompatible w v); reflexivity.
    - eapply map_out_bind; [exact IH|]. intros a _. reflexivity.
  Qed.

  Lemma p_merge_fields_map : forall ov base : list pfield,
    map_out map_flds (p_merge_fields base ov) = p_merge_fields (map_flds base) (map_flds ov).
  Proof.
    intros ov. induction ov as [|[k [v [np vp]]] ov IH]; intros base; simpl; [reflexivity|].
    eapply map_out_bind; [apply p_merge_field_map|]. intros a _. apply IH.
  Qed.

  Lemma arith_map : forall o l r rp,
    map_out map_v (p_arith fo o l r rp) = p_arith fo o (map_v l) (map_v r) (f rp).
  Proof.
    intros o l r rp. unfold p_arith.
    assert (Hgen : map_out map_v (pdo w <- pout_of KArith rp (vm_arith fo o (erase_v l) (erase_v r)); POk (inj w))
                   = (pdo w <- pout_of KArith (f rp) (vm_arith fo o (erase_v (map_v l)) (erase_v (map_v r))); POk (inj w))).
    { rewrite !erase_map_v. destruct (vm_arith fo o (erase_v l) (erase_v r)) as [w| | | |]; simpl; try reflexivity.
      now rewrite map_v_inj. }
    destruct l; try exact Hgen.
    destruct r; try exact Hgen.
    destruct o; simpl; try reflexivity. f_equal. f_equal. apply map_app.
  Qed.

  Section Nested.
    Variable prun : pstate -> pout pstate.
    Variable prun' : pstate -> pout pstate.
    Hypothesis Hrun : forall st, map_out map_st (prun st) = prun' (map_st st).

    Lemma p_bind_args_map : forall names s t,
      map_out (fun x : list pentry * psymtab => (map_entries (fst x), map_syms (snd x))) (p_bind_args fo names s t)
      = p_bind_args fo names (map_entries s) (map_syms t).
    Proof.
      intros names. induction names as [|nm names IH]; intros s t; simpl; [reflexivity|].
      destruct s as [|[v vp] s']; simpl; [reflexivity|].
      eapply map_out_bind; [apply p_binding_push_map|]. intros t' _. apply IH.
    Qed.

    Lemma p_fcall_impl_map : forall ptr bs snap s,
      map_out (fun x : pentry * list pentry => (map_e (fst x), map_entries (snd x)))
              (p_fcall_impl fo prun ptr bs snap s)
      = p_fcall_impl fo prun' ptr bs (map_syms snap) (map_entries s).
    Proof.
      intros ptr bs snap s. unfold p_fcall_impl.
      eapply map_out_bind; [apply p_bind_args_map|]. intros [s' t] _. simpl.
      eapply map_out_bind; [apply Hrun|]. intros fin _. simpl.
      apply map_pop; intros e ep rest. reflexivity.
    Qed.

    Lemma p_op_fcall_map : forall st p,
      map_out map_st (p_op_fcall fo prun st p) = p_op_fcall fo prun' (map_st st) (f p).
    Proof.
      intros st p. unfold p_op_fcall.
      apply map_pop; intros fv fp s1. simpl.
      apply map_pop; intros a ap s2. simpl.
      destruct fv; simpl; try reflexivity.
      eapply map_out_bind with (h := fun x : unit => x).
      - destruct a; simpl; try reflexivity.
        destruct (Z.ltb (Z.of_nat (List.length bindings)) z); [reflexivity|].
        destruct (Z.ltb z (Z.of_nat (List.length bindings))); reflexivity.
      - intros _ _.
        eapply map_out_bind.
        + rewrite map_out_decorate. f_equal. apply p_fcall_impl_map.
        + intros [[v vp] s3] _. reflexivity.
    Qed.

    Lemma pjump_map : forall st j, map_out map_st (pjump fo PC st j) = pjump fo C' (map_st st) j.
    Proof.
      intros st j. unfold pjump. rewrite mp_length. change (ppc (map_st st)) with (ppc st).
      destruct (Nat.ltb _ _); reflexivity.
    Qed.

    Lemma ppush_next_map : forall st s,
      map_out map_st (ppush_next fo st s) = ppush_next fo (map_st st) (map_entries s).
    Proof. reflexivity. Qed.

    Lemma p_op_new_scope_map : forall st j,
      map_out map_st (p_op_new_scope fo PC prun st j) = p_op_new_scope fo C' prun' (map_st st) j.
    Proof.
      intros st j. unfold p_op_new_scope.
      eapply map_out_bind; [apply Hrun|]. intros fin _. simpl.
      apply map_pop; intros e ep rest. simpl.
      apply (pjump_map (pwith_stk fo st ((e, ep) :: pstk st))).
    Qed.

    Lemma filter_syms_map : forall (keep : bytes -> bool) (t : psymtab),
      map map_fld (map (fun '(k, (v, p)) => (k, (v, (p, p)))) (filter (fun '(k, _) => keep k) t))
      = map (fun '(k, (v, p)) => (k, (v, (p, p)))) (filter (fun '(k, _) => keep k) (map_syms t)).
    Proof.
      intros keep t. induction t as [|[k [v p]] t IH]; simpl; [reflexivity|].
      destruct (keep k); simpl; [f_equal|]; exact IH.
    Qed.

    Lemma p_symbols_to_tuple_map : forall t im,
      map_v (p_symbols_to_tuple fo t im) = p_symbols_to_tuple fo (map_syms t) im.
    Proof.
      intros t im. unfold p_symbols_to_tuple. cbn [map_v]. f_equal.
      exact (filter_syms_map (fun k => im || negb (bytes_eqb k (b "mod"))) t).
    Qed.

    Lemma p_op_copy_map : forall st p,
      map_out map_st (p_op_copy fo PC prun st p) = p_op_copy fo C' prun' (map_st st) (f p).
    Proof.
      intros st p. unfold p_op_copy.
      apply map_pop; intros ov ovp s1. simpl.
      apply map_pop; intros tg tgp s2. simpl.
      destruct ov; simpl; try reflexivity.
      destruct tg; simpl; try reflexivity.
      - eapply map_out_bind; [apply p_merge_fields_map|]. intros flds' _. reflexivity.
      - eapply map_out_bind; [apply p_merge_fields_map|]. intros flds1 _.
        eapply map_out_bind; [apply (p_merge_field_map flds1 (b "this") p (QMod ptr result_ptr flds) ovp)|].
        intros flds2 _.
        eapply map_out_bind; [rewrite map_out_decorate; f_equal; apply Hrun|]. intros fin _.
        destruct result_ptr as [rp|].
        + rewrite mp_length. destruct (Nat.ltb _ _); [|reflexivity].
          eapply map_out_bind; [rewrite map_out_decorate; f_equal; apply Hrun|]. intros fin2 _.
          apply map_pop; intros e ep rest. reflexivity.
        + rewrite ppush_next_map. unfold map_entries at 1. rewrite map_cons. unfold map_e at 1. cbn [fst snd].
          now rewrite p_symbols_to_tuple_map.
    Qed.

    Lemma p_arity_ok_map : forall bs n fp,
      map_out (fun x : unit => x) (p_arity_ok bs n fp) = p_arity_ok bs n (f fp).
    Proof. intros bs n fp. unfold p_arity_ok. destruct (Nat.eqb (List.length bs) n); reflexivity. Qed.

    Section Callback.
      Variables (ptr : nat) (bs : list bytes) (snap : psymtab) (hp : pos).

      Lemma p_call_with_map : forall args s,
        map_out (fun x : pentry * list pentry => (map_e (fst x), map_entries (snd x)))
                (p_call_with fo prun ptr bs snap hp args s)
        = p_call_with fo prun' ptr bs (map_syms snap) (f hp) (map_entries args) (map_entries s).
      Proof.
        intros args s. unfold p_call_with. rewrite map_out_decorate. unfold map_entries. rewrite <- map_app. f_equal.
        apply p_fcall_impl_map.
      Qed.

      Lemma p_map_list_map : forall elems s,
        map_out (fun x : list pentry * list pentry => (map_entries (fst x), map_entries (snd x)))
                (p_map_list fo prun ptr bs snap hp elems s)
        = p_map_list fo prun' ptr bs (map_syms snap) (f hp) (map_entries elems) (map_entries s).
      Proof.
        intros elems. induction elems as [|e rest IH]; intros s; simpl; [reflexivity|].
        eapply map_out_bind; [apply (p_call_with_map [e] s)|]. intros [r s1] _. simpl.
        eapply map_out_bind; [apply IH|]. intros [rs s2] _. reflexivity.
      Qed.

      Lemma p_map_tuple_map : forall flds s,
        map_out (fun x : list pfield * list pentry => (map_flds (fst x), map_entries (snd x)))
                (p_map_tuple fo prun ptr bs snap hp flds s)
        = p_map_tuple fo prun' ptr bs (map_syms snap) (f hp) (map_flds flds) (map_entries s).
      Proof.
        intros flds. induction flds as [|[k [v [np vp]]] rest IH]; intros s; simpl; [reflexivity|].
        eapply map_out_bind; [apply (p_call_with_map [(v, vp); (QStr k, np)] s)|]. intros [[r rp] s1] _.
        simpl.
        destruct r; simpl; try apply IH.
        destruct l as [|[n np1] [|[v' vp1] [|x l]]]; simpl; try reflexivity.
        destruct n; simpl; try reflexivity.
        eapply map_out_bind; [apply IH|]. intros [rs s2] _. reflexivity.
      Qed.

      Lemma p_map_str_map : forall lp chars s,
        map_out (fun x : bytes * list pentry => (fst x, map_entries (snd x)))
                (p_map_str fo prun ptr bs snap hp lp chars s)
        = p_map_str fo prun' ptr bs (map_syms snap) (f hp) (f lp) chars (map_entries s).
      Proof.
        intros lp chars. induction chars as [|c rest IH]; intros s; simpl; [reflexivity|].
        eapply map_out_bind; [apply (p_call_with_map [(QStr c, lp)] s)|]. intros [[r rp] s1] _.
        simpl.
        destruct r; simpl; try reflexivity.
        eapply map_out_bind; [apply IH|]. intros [rs s2] _. reflexivity.
      Qed.

      Lemma pkeeps_map : forall v, pkeeps fo (map_v v) = pkeeps fo v.
      Proof. intros v. unfold pkeeps. now rewrite erase_map_v. Qed.

      Lemma p_filter_list_map : forall elems s,
        map_out (fun x : list pentry * list pentry => (map_entries (fst x), map_entries (snd x)))
                (p_filter_list fo prun ptr bs snap hp elems s)
        = p_filter_list fo prun' ptr bs (map_syms snap) (f hp) (map_entries elems) (map_entries s).
      Proof.
        intros elems. induction elems as [|e rest IH]; intros s; simpl; [reflexivity|].
        eapply map_out_bind; [apply (p_call_with_map [e] s)|]. intros [r s1] _. simpl.
        eapply map_out_bind; [apply IH|]. intros [rs s2] _. simpl. rewrite pkeeps_map.
        destruct (pkeeps fo (fst r)); reflexivity.
      Qed.

      Lemma p_filter_tuple_map : forall flds s,
        map_out (fun x : list pfield * list pentry => (map_flds (fst x), map_entries (snd x)))
                (p_filter_tuple fo prun ptr bs snap hp flds s)
        = p_filter_tuple fo prun' ptr bs (map_syms snap) (f hp) (map_flds flds) (map_entries s).
      Proof.
        intros flds. induction flds as [|[k [v [np vp]]] rest IH]; intros s; simpl; [reflexivity|].
        eapply map_out_bind; [apply (p_call_with_map [(v, vp); (QStr k, np)] s)|]. intros [r s1] _. simpl.
        eapply map_out_bind; [apply IH|]. intros [rs s2] _. simpl. rewrite pkeeps_map.
        destruct (pkeeps fo (fst r)); reflexivity.
      Qed.

      Lemma p_filter_str_map : forall lp chars s,
        map_out (fun x : bytes * list pentry => (fst x, map_entries (snd x)))
                (p_filter_str fo prun ptr bs snap hp lp chars s)
        = p_filter_str fo prun' ptr bs (map_syms snap) (f hp) (f lp) chars (map_entries s).
      Proof.
        intros lp chars. induction chars as [|c rest IH]; intros s; simpl; [reflexivity|].
        eapply map_out_bind; [apply (p_call_with_map [(QStr c, lp)] s)|]. intros [r s1] _. simpl.
        eapply map_out_bind; [apply IH|]. intros [rs s2] _. simpl. rewrite pkeeps_map.
        destruct (pkeeps fo (fst r)); reflexivity.
      Qed.

      Lemma p_reduce_list_map : forall elems acc s,
        map_out (fun x : pentry * list pentry => (map_e (fst x), map_entries (snd x)))
                (p_reduce_list fo prun ptr bs snap hp elems acc s)
        = p_reduce_list fo prun' ptr bs (map_syms snap) (f hp) (map_entries elems) (map_e acc) (map_entries s).
      Proof.
        intros elems. induction elems as [|e rest IH]; intros acc s; simpl; [reflexivity|].
        eapply map_out_bind; [apply (p_call_with_map [e; acc] s)|]. intros [acc' s1] _. simpl. apply IH.
      Qed.

      Lemma p_reduce_tuple_map : forall flds acc s,
        map_out (fun x : pentry * list pentry => (map_e (fst x), map_entries (snd x)))
                (p_reduce_tuple fo prun ptr bs snap hp flds acc s)
        = p_reduce_tuple fo prun' ptr bs (map_syms snap) (f hp) (map_flds flds) (map_e acc) (map_entries s).
      Proof.
        intros flds. induction flds as [|[k [v [np vp]]] rest IH]; intros acc s; simpl; [reflexivity|].
        eapply map_out_bind; [apply (p_call_with_map [(v, vp); (QStr k, np); acc] s)|]. intros [acc' s1] _. simpl.
        apply IH.
      Qed.

      Lemma p_reduce_str_map : forall lp chars acc s,
        map_out (fun x : pentry * list pentry => (map_e (fst x), map_entries (snd x)))
                (p_reduce_str fo prun ptr bs snap hp lp chars acc s)
        = p_reduce_str fo prun' ptr bs (map_syms snap) (f hp) (f lp) chars (map_e acc) (map_entries s).
      Proof.
        intros lp chars. induction chars as [|c rest IH]; intros acc s; simpl; [reflexivity|].
        eapply map_out_bind; [apply (p_call_with_map [(QStr c, lp); acc] s)|]. intros [acc' s1] _. simpl.
        apply IH.
      Qed.
    End Callback.

    Lemma p_hook_map_map : forall st p, map_out map_st (p_hook_map fo prun st p) = p_hook_map fo prun' (map_st st) (f p).
    Proof.
      intros st p. unfold p_hook_map. destruct st as [pc0 s syms0 selfs0]. simpl.
      destruct s as [|[t tp] [|[fv fp] s]]; simpl; try reflexivity.
      destruct fv; simpl; try reflexivity.
      destruct t; simpl; try reflexivity.
      - eapply map_out_bind; [apply p_arity_ok_map|]. intros _ _.
        eapply map_out_bind; [apply p_map_str_map|]. intros [rs s'] _. reflexivity.
      - eapply map_out_bind; [apply p_arity_ok_map|]. intros _ _.
        eapply map_out_bind; [apply p_map_list_map|]. intros [rs s'] _. reflexivity.
      - eapply map_out_bind; [apply p_arity_ok_map|]. intros _ _.
        eapply map_out_bind; [apply p_map_tuple_map|]. intros [rs s'] _. reflexivity.
    Qed.

    Lemma p_hook_filter_map : forall st p,
      map_out map_st (p_hook_filter fo prun st p) = p_hook_filter fo prun' (map_st st) (f p).
    Proof.
      intros st p. unfold p_hook_filter. destruct st as [pc0 s syms0 selfs0]. simpl.
      destruct s as [|[t tp] [|[fv fp] s]]; simpl; try reflexivity.
      destruct fv; simpl; try reflexivity.
      destruct t; simpl; try reflexivity.
      - eapply map_out_bind; [apply p_arity_ok_map|]. intros _ _.
        eapply map_out_bind; [apply p_filter_str_map|]. intros [rs s'] _. reflexivity.
      - eapply map_out_bind; [apply p_arity_ok_map|]. intros _ _.
        eapply map_out_bind; [apply p_filter_list_map|]. intros [rs s'] _. reflexivity.
      - eapply map_out_bind; [apply p_arity_ok_map|]. intros _ _.
        eapply map_out_bind; [apply p_filter_tuple_map|]. intros [rs s'] _. reflexivity.
    Qed.

    Lemma p_hook_reduce_map : forall st p,
      map_out map_st (p_hook_reduce fo prun st p) = p_hook_reduce fo prun' (map_st st) (f p).
    Proof.
      intros st p. unfold p_hook_reduce. destruct st as [pc0 s syms0 selfs0]. simpl.
      destruct s as [|[t tp] [|acc [|[fv fp] s]]]; simpl; try reflexivity.
      destruct fv; simpl; try reflexivity.
      destruct t; simpl; try reflexivity.
      - eapply map_out_bind; [apply p_arity_ok_map|]. intros _ _.
        eapply map_out_bind; [apply p_reduce_str_map|]. intros [r s'] _. reflexivity.
      - eapply map_out_bind; [apply p_arity_ok_map|]. intros _ _.
        eapply map_out_bind; [apply p_reduce_list_map|]. intros [r s'] _. reflexivity.
      - eapply map_out_bind; [apply p_arity_ok_map|]. intros _ _.
        eapply map_out_bind; [apply p_reduce_tuple_map|]. intros [r s'] _. reflexivity.
    Qed.

    Lemma p_op_runtime_map : forall h st p,
      map_out map_st (p_op_runtime fo prun h st p) = p_op_runtime fo prun' h (map_st st) (f p).
    Proof.
      intros h st p. destruct h; simpl; try reflexivity.
      - apply p_hook_map_map.
      - apply p_hook_filter_map.
      - apply p_hook_reduce_map.
      - destruct st as [pc0 s syms0 selfs0]. simpl.
        destruct s as [|[l lp] s]; simpl; [reflexivity|].
        destruct l; simpl; try reflexivity.
        destruct s as [|[r rp] s]; simpl; [reflexivity|]. destruct r; reflexivity.
      - destruct st as [pc0 s syms0 selfs0]. simpl.
        destruct s as [|[a ap] [|[st1 sp] [|[z zp] s]]]; simpl; try reflexivity.
        eapply map_out_bind; [apply p_range_map|]. intros v _. reflexivity.
      - destruct st as [pc0 s syms0 selfs0]. simpl.
        destruct s as [|[v vp] [|[e ep] s]]; simpl; try reflexivity. destruct e; reflexivity.
    Qed.

    Lemma pexec_instr_map : forall i p st,
      map_out map_st (pexec_instr fo PC strict_ envv envpos prun i p st)
      = pexec_instr fo C' strict_ envv envpos' prun' i (f p) (map_st st).
    Proof.
      intros i p st. unfold pexec_instr.
      (* the clauses that stand for several ops, each once; they are found by the primitive they call *)
      destruct i;
        try (lazymatch goal with |- context [p_index] => idtac end; (* IIndex ISafeIndex *)
             solve [apply map_pop; intros r rp s1; simpl; apply map_pop; intros l lp s2; simpl; eapply map_out_bind;
              [apply p_index_map|]; intros e _; reflexivity]);
        try (lazymatch goal with |- context [vm_compare] => idtac end; (* IGt ILt IGtEq ILtEq *)
             solve [apply map_pop; intros l lp s1; simpl; apply map_pop; intros r rp s2; simpl; rewrite !erase_map_v;
              eapply map_out_bind; [apply map_out_pout_of|]; intros w _; rewrite ppush_next_map;
              unfold map_entries at 1; rewrite map_cons; unfold map_e at 1; cbn [fst snd]; now rewrite map_v_inj]);
        try (lazymatch goal with |- context [p_arith] => idtac end; (* IAdd ISub IMul IDiv IMod *)
             solve [apply map_pop; intros l lp s1; simpl; apply map_pop; intros r rp s2; simpl; eapply map_out_bind;
              [apply arith_map|]; intros v _; reflexivity]);
        try (lazymatch goal with |- context [p_binding_push] => idtac end; (* IBind IBindOver *)
             solve [apply map_pop; intros v vp s1; simpl; apply map_pop; intros n np s2; simpl; destruct n; simpl;
              try reflexivity; eapply map_out_bind; [apply p_binding_push_map|]; intros t _; reflexivity]).
      - (* IPop *)
        apply map_pop; intros e ep s1. reflexivity.
      - (* INewScope *) apply p_op_new_scope_map.
      - (* IEqual *)
        apply map_pop; intros l lp s1. simpl.
        apply map_pop; intros r rp s2. simpl.
        rewrite pcompatible_map, !erase_map_v.
        destruct (pcompatible l r); [|reflexivity].
        destruct (weq (erase_v l) (erase_v r)); reflexivity.
      - (* INot *)
        apply map_pop; intros v vp s1. simpl.
        destruct v; reflexivity.
      - (* IVal *) destruct l; reflexivity.
      - (* ICast *)
        apply map_pop; intros v vp s1. simpl.
        rewrite erase_map_v.
        eapply map_out_bind; [apply map_out_pout_of|]. intros w _.
        rewrite ppush_next_map. unfold map_entries at 1. rewrite map_cons. unfold map_e at 1. cbn [fst snd].
        now rewrite map_v_inj.
      - (* ISym *) reflexivity.
      - (* IDeRef *)
        pose proof (p_get_binding_map st s) as Hb.
        destruct (p_get_binding fo envv envpos st s) as [[v vp]|];
          destruct (p_get_binding fo envv envpos' (map_st st) s) as [[v' vp']|]; simpl in Hb; try discriminate.
        * inversion Hb as [Hv]. reflexivity.
        * reflexivity.
      - (* IInitTuple *) reflexivity.
      - (* IField *)
        apply map_pop; intros v vp s1. simpl.
        apply map_pop; intros n np s2. simpl.
        destruct n; simpl; try reflexivity;
          (* a symbol or a string names the field *)
          (apply map_pop; intros t tp s3; simpl; destruct t; simpl; try reflexivity; eapply map_out_bind;
           [apply p_merge_field_map|]; intros flds' _; reflexivity).
      - (* IInitList *) reflexivity.
      - (* IElement *)
        apply map_pop; intros v vp s1. simpl.
        apply map_pop; intros l lp s2. simpl.
        destruct l; simpl; try reflexivity.
        unfold ppush_next, pnext, pwith_stk, pwith_pc, map_st. simpl. unfold map_e at 1. simpl.
        now rewrite map_app.
      - (* ICp *) apply p_op_copy_map.
      - (* IBang *)
        apply map_pop; intros v vp s1. simpl.
        destruct v; reflexivity.
      - (* IJump *) apply pjump_map.
      - (* IJumpIfTrue *)
        apply map_pop; intros v vp s1. simpl.
        destruct v; simpl; try reflexivity.
        destruct v; [apply (pjump_map (pwith_stk fo st s1))|reflexivity].
      - (* IJumpIfFalse *)
        apply map_pop; intros v vp s1. simpl.
        destruct v; simpl; try reflexivity.
        destruct v; [reflexivity|apply (pjump_map (pwith_stk fo st s1))].
      - (* ISelectJump *)
        apply map_pop; intros fv fp s1. simpl.
        apply map_pop; intros se sp s2. simpl.
        rewrite !erase_map_v.
        destruct (select_matches fo (erase_v fv) (erase_v se)); [reflexivity|].
        apply (pjump_map (pwith_stk fo st ((se, sp) :: s2))).
      - (* IAnd *)
        apply map_pop; intros v vp s1. simpl.
        destruct v; simpl; try reflexivity.
        destruct v; [reflexivity|apply (pjump_map (pwith_stk fo st ((QBool false, vp) :: s1)))].
      - (* IOr *)
        apply map_pop; intros v vp s1. simpl.
        destruct v; simpl; try reflexivity.
        destruct v; [apply (pjump_map (pwith_stk fo st ((QBool true, vp) :: s1)))|reflexivity].
      - (* IExist *)
        apply map_pop; intros r rp s1. simpl.
        apply map_pop; intros l lp s2. simpl.
        eapply map_out_bind; [apply p_exist_map|]. intros v _. reflexivity.
      - (* INoop *) reflexivity.
      - (* IInitThunk *) apply (pjump_map (pwith_stk fo st ((QThunk (ppc st), p) :: pstk st))).
      - (* IModule *)
        apply map_pop; intros m mp0 s1. simpl.
        destruct m; simpl; try reflexivity.
        + apply (pjump_map (pwith_stk fo st ((QMod (ppc st) None fs, p) :: s1))).
        + apply map_pop; intros t tp s2. simpl.
          destruct t; simpl; try reflexivity.
          apply (pjump_map (pwith_stk fo st ((QMod (ppc st) (Some idx) fs, p) :: s2))).
      - (* IFunc *)
        apply map_pop; intros l lp s1. simpl.
        destruct l; simpl; try reflexivity.
        eapply map_out_bind with (h := fun x : list bytes => x).
        + induction l as [|[v vp] l IH]; simpl; [reflexivity|].
          destruct v; simpl; try reflexivity.
          eapply map_out_bind; [exact IH|]. intros r _. reflexivity.
        + intros names _. apply (pjump_map (pwith_stk fo st ((QFunc (ppc st) (rev names) (psyms st), p) :: s1))).
      - (* IReturn *) reflexivity.
      - (* IFCall *) apply p_op_fcall_map.
      - (* ITyp *)
        apply map_pop; intros v vp s1. simpl. rewrite erase_map_v. reflexivity.
      - (* IRuntime *) apply p_op_runtime_map.
      - (* IRender *)
        apply map_pop; intros v vp s1. simpl. rewrite erase_map_v.
        destruct (wrender (erase_v v)); reflexivity.
      - (* IPushSelf *)
        apply map_pop; intros v vp s1. reflexivity.
      - (* IPopSelf *)
        unfold map_st; simpl. f_equal. f_equal. destruct (pselfs st); reflexivity.
      - (* ITranslatorPanic *) reflexivity.
    Qed.
  End Nested.

  Theorem pvm_run_map : forall fuel st,
    map_out map_st (pvm_run fo PC strict_ envv envpos fuel st)
    = pvm_run fo (mp f PC) strict_ envv envpos' fuel (map_st st).
  Proof.
    intros fuel. induction fuel as [|n IH]; intros st; [reflexivity|]. rewrite !pvm_run_S.
    unfold mp at 1. rewrite nth_error_map. change (ppc (map_st st)) with (ppc st). unfold PTranslate.pop.
    destruct (nth_error _ _) as [[i p]|]; [|reflexivity]. simpl. destruct (return_dec i); [reflexivity|].
    eapply map_out_bind; [apply pexec_instr_map; exact IH|]. intros st' _. apply IH.
  Qed.
End MapV.

Arguments map_v {fo}. Arguments map_e {fo}. Arguments map_st {fo}. Arguments map_syms {fo}. Arguments map_entries {fo}.
Arguments map_flds {fo}.
