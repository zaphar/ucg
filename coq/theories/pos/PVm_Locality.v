(* Provenance in its finer form (which errors can carry the dummy position) and locality, from the one-step invariant of
   PVm_Inv.v.  For provenance every frame is treated alike (U = the positions of the ops of the code).  For locality a frame
   runs inside the index range [lo, hi) of one statement and X = the positions of that statement: a frame whose code ends
   in a Return inside the range (function or module body, NewScope) reports errors local to the range, and so does the frame
   that executes the statement at depth 0, as long as it has not left the range.
   The side condition [scoped] is a decidable property of the CODE (scopedb; PVm_Scoped.v proves it for every translated
   program).  Modules with an out-expression need no exception (/repo commit 5138c88: the result stands at the position of
   the instantiation, which is also listed as VIA): the two module examples at the end, next to the one _refuted lemma. *)
From Ucg Require Import pos.PVm_Run pos.PVm_Lemmas pos.PVm_Inv.

(* the frame that executes a statement at depth 0: run until the instruction pointer reaches [hi] *)
Section Until.
  Variable fo : float_ops.
  Variable PC : pops.
  Variable strict_ : bool.
  Variable envv : list (bytes * bytes).
  Variable envpos : pos.
  Variable hi : nat.
  Notation runf := (pvm_run fo PC strict_ envv envpos).

  Fixpoint pvm_run_until (fuel : nat) (st : pstate fo) : pout (pstate fo) :=
    match fuel with
    | O => PFuel
    | S f =>
      if Nat.eqb (ppc st) hi then POk st
      else match nth_error PC (ppc st) with
           | None => POk st
           | Some (IReturn, _) => POk st
           | Some (i, p) => pdo st' <- pexec_instr fo PC strict_ envv envpos (runf f) i p st; pvm_run_until f st'
           end
    end.

  Lemma pvm_run_until_S : forall f st,
    pvm_run_until (S f) st =
    if Nat.eqb (ppc st) hi then POk st
    else match nth_error PC (ppc st) with
         | Some (i, p) =>
           if return_dec i then POk st
           else pdo st' <- pexec_instr fo PC strict_ envv envpos (runf f) i p st; pvm_run_until f st'
         | None => POk st
         end.
  Proof.
    intros f st. simpl. destruct (Nat.eqb (ppc st) hi); [reflexivity|].
    destruct (nth_error PC (ppc st)) as [[i p]|]; [|reflexivity]. destruct i; reflexivity.
  Qed.

  (* the run of the frame is the run until [hi], continued from there *)
  Lemma run_splits_at : forall fuel st e q via,
    runf fuel st = PErr e q via ->
    pvm_run_until fuel st = PErr e q via
    \/ exists st' fuel', pvm_run_until fuel st = POk st' /\ ppc st' = hi /\ runf fuel' st' = PErr e q via.
  Proof.
    intros fuel. induction fuel as [|f IH]; intros st e q via H; [discriminate|]. rewrite pvm_run_until_S.
    destruct (Nat.eqb_spec (ppc st) hi) as [Eh|_].
    { right. exists st, (S f). split; [reflexivity|]. split; [exact Eh|exact H]. }
    rewrite pvm_run_S in H. destruct (nth_error PC (ppc st)) as [[i p]|]; [|discriminate].
    destruct (return_dec i); [discriminate|].
    destruct (pexec_instr fo PC strict_ envv envpos (runf f) i p st) as [st1|e1 q1 via1| | |]; simpl in *;
      try discriminate; [exact (IH st1 e q via H)|left; exact H].
  Qed.
End Until.

Section Uniform.
  Variable fo : float_ops.
  Variable PC : pops.
  Variable strict_ : bool.
  Variable envv : list (bytes * bytes).
  Variable envpos : pos.

  Definition Ucode (q : pos) : Prop := In q (map snd PC).
  Definition Ncode (q : pos) : Prop := In q (map snd PC) \/ (q = envpos /\ envv <> []).
  Lemma Ucode_Ncode : forall q, Ucode q -> Ncode q.
  Proof. intros q H. left. exact H. Qed.
  Lemma Ncode_env : envv <> [] -> Ncode envpos.
  Proof. intros H. right. split; [reflexivity|exact H]. Qed.
  Lemma Ucode_op : forall i x p, nth_error PC i = Some (x, p) -> Ucode p.
  Proof. intros i x p E. apply nth_error_In in E. exact (in_map snd _ _ E). Qed.

  Notation stokU := (stok fo Ncode Ucode).
  Notation outU := (out_ok Ucode Ncode Ucode).

  Theorem pvm_run_inv : forall fuel st,
    stokU st -> outU stokU (pvm_run fo PC strict_ envv envpos fuel st).
  Proof. exact (pvm_run_ok fo Ucode Ncode Ucode_Ncode PC strict_ envv envpos Ncode_env Ucode_op). Qed.

  Theorem until_inv : forall hi fuel st,
    stokU st -> outU stokU (pvm_run_until fo PC strict_ envv envpos hi fuel st).
  Proof.
    intros hi fuel. induction fuel as [|f IH]; intros st Hst; [exact I|]. rewrite pvm_run_until_S.
    destruct (Nat.eqb (ppc st) hi); [exact Hst|].
    destruct (nth_error PC (ppc st)) as [[i p]|] eqn:E; [|exact Hst]. destruct (return_dec i); [exact Hst|].
    eapply out_ok_bind; [|intros st' _ Hst'; exact (IH st' Hst')].
    exact (pvm_step_ok fo Ucode Ncode Ucode_Ncode PC strict_ envv envpos Ncode_env Ucode_op _ (pvm_run_inv f) i p st E Hst).
  Qed.
End Uniform.

(* the invariant the run of a whole program keeps: every position in the final bindings (top level and inside the
   values) is the position of an op of the program, or -- inside values only -- the dummy of the `env` tuple *)
Theorem pvm_state_positions_from_code : forall fo ep fuel envv strict_ code t,
  pvm_prog_at fo ep fuel envv strict_ code = POk t ->
  Forall (fun kv => vok fo (Ncode code envv ep) (fst (snd kv)) /\ Ncode code envv ep (snd (snd kv))) t.
Proof.
  intros fo ep fuel envv strict_ code t H.
  pose proof (pvm_prog_at_ok fo (Ucode code) (Ncode code envv ep) ep fuel envv strict_ code
                             (Ucode_Ncode code envv ep) (Ncode_env code envv ep) (fun x Hx => Hx)) as Hok.
  rewrite H in Hok. exact Hok.
Qed.

(* which errors can carry the dummy: only those that read a position stored INSIDE a value *)
Theorem pvm_error_positions_by_kind : forall fo ep fuel envv strict_ code e q via,
  pvm_prog_at fo ep fuel envv strict_ code = PErr e q via ->
  (In q (map snd code) \/ ((e = KReservedArg \/ e = KFieldType) /\ q = ep /\ envv <> []))
  /\ Forall (fun v => In v (map snd code)) via.
Proof.
  intros fo ep fuel envv strict_ code e q via H.
  pose proof (pvm_prog_at_ok fo (Ucode code) (Ncode code envv ep) ep fuel envv strict_ code
                             (Ucode_Ncode code envv ep) (Ncode_env code envv ep) (fun x Hx => Hx)) as Hok.
  rewrite H in Hok. destruct (err_ok_parts _ _ _ _ _ _ (fun x Hx => Hx) Hok) as [Hq Hv].
  split; [|exact Hv].
  destruct Hq as [Hu|[[Hk [Hn|Hn]]|[_ Hu]]]; [left; exact Hu|left; exact Hn|right; split; [exact Hk|exact Hn]|left; exact Hu].
Qed.

(* the implementation (dummy 0:0; no op of a parsed program is at line 0): a reported 0:0 means an error of kind
   KReservedArg (a parameter of a callback that is a reserved word, bound to a field of `env`) or KFieldType (a field
   of a tuple that came out of `env` used as an override); no VIA entry is ever 0:0 *)
Theorem pvm_dummy_only_in_nested_kinds : forall fo fuel envv strict_ code e q via,
  ~ In pos0 (map snd code) ->
  pvm_prog fo fuel envv strict_ code = PErr e q via ->
  (q = pos0 -> (e = KReservedArg \/ e = KFieldType) /\ envv <> []) /\ ~ In pos0 via.
Proof.
  intros fo fuel envv strict_ code e q via Hno H. rewrite pvm_prog_is_at_pos0 in H.
  destruct (pvm_error_positions_by_kind fo pos0 fuel envv strict_ code e q via H) as [Hq Hv]. split.
  - intros Heq. subst q. destruct Hq as [Hin|[Hk [_ He]]]; [contradiction|split; assumption].
  - intros Hin. exact (Hno (proj1 (Forall_forall _ _) Hv pos0 Hin)).
Qed.

Definition jump_of (i : instr) : option nat :=
  match i with
  | IJump j | IJumpIfTrue j | IJumpIfFalse j | ISelectJump j | IAnd j | IOr j
  | IInitThunk j | IModule j | IFunc j | INewScope j => Some j
  | _ => None
  end.
(* the ops whose operand is the length of a body that a nested frame runs and that ends in a Return *)
Definition frame_of (i : instr) : option nat :=
  match i with IModule j | IFunc j | INewScope j => Some j | _ => None end.

Section PcStep.
  Variable fo : float_ops.
  Variable PC : pops.
  Variable strict_ : bool.
  Variable envv : list (bytes * bytes).
  Variable envpos : pos.
  Variable run : pstate fo -> pout (pstate fo).

  Definition pc_ok (i : instr) (st st' : pstate fo) : Prop :=
    ppc st' = S (ppc st) \/ exists j, jump_of i = Some j /\ ppc st' = S (ppc st + j).

  Definition pc_out (i : instr) (st : pstate fo) (r : pout (pstate fo)) : Prop :=
    match r with POk st' => pc_ok i st st' | _ => True end.

  Lemma pc_out_bind : forall (A : Type) i st (r : pout A) k, (forall a, pc_out i st (k a)) -> pc_out i st (pbind r k).
  Proof. intros A i st r k H. destruct r; simpl; try exact I. apply H. Qed.

  (* Every clause of the step function is a chain of binds and case distinctions that ends in an error, in [ppush_next],
     in [pjump] with the operand of the op, or in a state written out with the next instruction pointer: walk down the
     chain, whatever the bound values are, and look at the end. *)
  Ltac pc_walk :=
    repeat (cbv beta iota;
            first [ apply pc_out_bind; intros
                  | match goal with
                    | |- pc_out _ _ (match ?x with _ => _ end) => destruct x
                    | |- pc_out _ _ (if ?c then _ else _) => destruct c
                    end ]);
    unfold pc_out, pc_ok, ppush_next, pjump;
    repeat match goal with |- context [if ?c then _ else _] => destruct c end;
    first [ exact I | left; reflexivity | right; eexists; split; reflexivity ].

  Lemma pc_step : forall i p st st',
    i <> IReturn -> pexec_instr fo PC strict_ envv envpos run i p st = POk st' -> pc_ok i st st'.
  Proof.
    intros i p st st' Hnr H.
    assert (Hout : pc_out i st (pexec_instr fo PC strict_ envv envpos run i p st)); [|rewrite H in Hout; exact Hout].
    clear H. unfold pexec_instr.
    destruct i; try (contradiction Hnr; reflexivity);
      unfold p_op_fcall, p_op_new_scope, p_op_copy, p_op_runtime, p_hook_map, p_hook_filter, p_hook_reduce; pc_walk.
  Qed.
End PcStep.

Section Region.
  Variable fo : float_ops.
  Variable PC : pops.
  Variable strict_ : bool.
  Variable envv : list (bytes * bytes).
  Variable envpos : pos.
  Variables lo hi : nat.
  Variable Rs : list pos.                 (* the positions of the statement *)

  (* the ops of the range carry positions of the statement *)
  Hypothesis Hops : forall i x p, lo <= i < hi -> nth_error PC i = Some (x, p) -> In p Rs.
  (* no op of the range jumps out of the range; a body that a nested frame runs ends in a Return and no op of the body
     jumps past that Return *)
  Definition scoped : Prop :=
    hi <= List.length PC
    /\ (forall i x p j, lo <= i < hi -> nth_error PC i = Some (x, p) -> jump_of x = Some j -> S (i + j) <= hi)
    /\ (forall i0 x0 p0 j0, lo <= i0 < hi -> nth_error PC i0 = Some (x0, p0) -> frame_of x0 = Some j0 ->
          (exists p', nth_error PC (i0 + j0) = Some (IReturn, p'))
          /\ forall i x p j, i0 < i < i0 + j0 -> nth_error PC i = Some (x, p) -> jump_of x = Some j -> S (i + j) <= i0 + j0).
  Hypothesis Hscoped : scoped.

  Definition Xs (q : pos) : Prop := In q Rs /\ Ucode PC q.
  Notation U := (Ucode PC).
  Notation Nc := (Ncode PC envv envpos).
  Notation stokX := (stok fo Nc Xs).
  Notation stokU := (stok fo Nc U).
  Notation outX := (out_ok U Nc Xs).
  Notation runf := (pvm_run fo PC strict_ envv envpos).

  Lemma Xs_U : forall q, Xs q -> U q.
  Proof. intros q [_ H]. exact H. Qed.

  Lemma op_in_Xs : forall i x p, lo <= i < hi -> nth_error PC i = Some (x, p) -> Xs p.
  Proof. intros i x p Hi E. split; [exact (Hops i x p Hi E)|exact (Ucode_op PC i x p E)]. Qed.

  (* one step of a frame of the range, given that frames started by NewScope ops of the range are local *)
  Lemma region_step : forall f i p st,
    lo <= ppc st < hi -> nth_error PC (ppc st) = Some (i, p) -> stokX st ->
    (forall j, i = INewScope j ->
               outX stokX (runf f {| ppc := S (ppc st); pstk := []; psyms := psyms st; pselfs := pselfs st |})) ->
    outX stokX (pexec_instr fo PC strict_ envv envpos (runf f) i p st).
  Proof.
    intros f i p st Hpc E Hst Hscope.
    exact (pexec_instr_ok fo U Nc (Ucode_Ncode PC envv envpos) Xs Xs_U
                          PC strict_ envv envpos (Ncode_env PC envv envpos) (runf f) (pvm_run_inv fo PC strict_ envv envpos f) i p st Hst
                          (op_in_Xs _ _ _ Hpc E) Hscope).
  Qed.

  (* a frame whose code is [a, b] with a Return at b, inside the range *)
  Definition closed (a b : nat) : Prop :=
    lo <= a /\ b < hi
    /\ (exists p', nth_error PC b = Some (IReturn, p'))
    /\ forall i x p j, a <= i < b -> nth_error PC i = Some (x, p) -> jump_of x = Some j -> S (i + j) <= b.

  Lemma closed_sub : forall i0 x0 p0 j0,
    lo <= i0 < hi -> nth_error PC i0 = Some (x0, p0) -> frame_of x0 = Some j0 -> closed (S i0) (i0 + j0) /\ S i0 <= i0 + j0.
  Proof.
    intros i0 x0 p0 j0 Hi E Hf. destruct Hscoped as [_ [H1 H2]].
    destruct (H2 i0 x0 p0 j0 Hi E Hf) as [[p' Hret] Hin].
    assert (Hj : jump_of x0 = Some j0) by (destruct x0; simpl in Hf; try discriminate; exact Hf).
    pose proof (H1 i0 x0 p0 j0 Hi E Hj) as Hle.
    assert (Hpos : S i0 <= i0 + j0).
    { destruct j0 as [|j0]; [|lia]. rewrite Nat.add_0_r in Hret. rewrite E in Hret. inversion Hret; subst.
      simpl in Hf. discriminate. }
    split; [|exact Hpos]. split; [lia|]. split; [lia|]. split; [exists p'; exact Hret|].
    intros i x p j Hi' E' Hj'. apply (Hin i x p j); [lia|exact E'|exact Hj'].
  Qed.

  (* the frame a NewScope op of the range starts *)
  Lemma new_scope_closed : forall st j p,
    lo <= ppc st < hi -> nth_error PC (ppc st) = Some (INewScope j, p) -> stokX st ->
    closed (S (ppc st)) (ppc st + j) /\ S (ppc st) <= ppc st + j
    /\ stokX {| ppc := S (ppc st); pstk := []; psyms := psyms st; pselfs := pselfs st |}.
  Proof.
    intros st j p Hin E [_ [Hb Hf]]. destruct (closed_sub (ppc st) (INewScope j) p j Hin E eq_refl) as [Hcl Hle].
    split; [exact Hcl|]. split; [exact Hle|]. split; [constructor|split; assumption].
  Qed.

  Theorem closed_frame_local : forall fuel a b st,
    closed a b -> a <= ppc st <= b -> stokX st -> outX stokX (runf fuel st).
  Proof.
    intros fuel. induction fuel as [|f IH]; intros a b st Hcl Hpc Hst; [exact I|]. rewrite pvm_run_S.
    destruct (nth_error PC (ppc st)) as [[i p]|] eqn:E; [|exact Hst]. destruct (return_dec i) as [_|Hi]; [exact Hst|].
    pose proof Hcl as [Hlo [Hhi [[p' Hret] Hj]]].
    assert (Hne : ppc st <> b) by (intros Heq; rewrite Heq, Hret in E; inversion E; exact (Hi (eq_sym H0))).
    assert (Hin : lo <= ppc st < hi) by lia.
    eapply out_ok_bind.
    - apply region_step; [exact Hin|exact E|exact Hst|]. intros j ->.
      destruct (new_scope_closed st j p Hin E Hst) as [Hcl' [Hle Hst0]].
      apply (IH (S (ppc st)) (ppc st + j)); [exact Hcl'|simpl; lia|exact Hst0].
    - intros st' Hex Hst'. apply (IH a b); [exact Hcl| |exact Hst'].
      destruct (pc_step fo PC strict_ envv envpos (runf f) i p st st' Hi Hex) as [Hn|[j' [Hj' Hn]]]; [lia|].
      pose proof (Hj (ppc st) i p j' ltac:(lia) E Hj'). lia.
  Qed.

  Notation pvm_run_until := (pvm_run_until fo PC strict_ envv envpos hi).

  Theorem until_local : forall fuel st,
    lo <= ppc st <= hi -> stokX st ->
    outX (fun st' => stokX st' /\ lo <= ppc st' <= hi) (pvm_run_until fuel st).
  Proof.
    intros fuel. induction fuel as [|f IH]; intros st Hpc Hst; [exact I|]. rewrite pvm_run_until_S.
    destruct (Nat.eqb_spec (ppc st) hi) as [_|Hne]; [split; assumption|].
    destruct (nth_error PC (ppc st)) as [[i p]|] eqn:E; [|split; assumption].
    destruct (return_dec i) as [_|Hi]; [split; assumption|].
    assert (Hin : lo <= ppc st < hi) by lia.
    eapply out_ok_bind.
    - apply region_step; [exact Hin|exact E|exact Hst|]. intros j ->.
      destruct (new_scope_closed st j p Hin E Hst) as [Hcl' [Hle Hst0]].
      apply (closed_frame_local f (S (ppc st)) (ppc st + j)); [exact Hcl'|simpl; lia|exact Hst0].
    - intros st' Hex Hst'. apply IH; [|exact Hst'].
      destruct (pc_step fo PC strict_ envv envpos (runf f) i p st st' Hi Hex) as [Hn|[j' [Hj' Hn]]]; [lia|].
      pose proof (proj1 (proj2 Hscoped) (ppc st) i p j' Hin E Hj'). lia.
  Qed.

  (* locality of the statement executing at depth 0 *)
  Theorem pvm_locality : forall fuel st e q via,
    lo <= ppc st <= hi -> stokX st ->
    runf fuel st = PErr e q via ->
    err_ok U Nc Xs e q via
    \/ exists st' fuel', pvm_run_until fuel st = POk st' /\ ppc st' = hi /\ stokX st' /\ runf fuel' st' = PErr e q via.
  Proof.
    intros fuel st e q via Hpc Hst H. pose proof (until_local fuel st Hpc Hst) as Hloc.
    destruct (run_splits_at fo PC strict_ envv envpos hi fuel st e q via H) as [Hu|[st' [fuel' [Hu [Hpc' Hr]]]]].
    - left. rewrite Hu in Hloc. exact Hloc.
    - right. exists st', fuel'. rewrite Hu in Hloc. simpl in Hloc. split; [exact Hu|]. split; [exact Hpc'|].
      split; [exact (proj1 Hloc)|exact Hr].
  Qed.
  (* a function DEFINED in the range: the frame of any call of it is local to the range (the error it hands to its
     caller has its primary position in the range and no VIA entry, or its outermost VIA entry in the range); the
     caller then appends the call site *)
  Theorem function_body_local : forall f ptr j pf bs snap s,
    lo <= ptr < hi -> nth_error PC ptr = Some (IFunc j, pf) ->
    Forall (eok fo Nc Nc) s -> Forall (bok fo Nc) snap ->
    outX (fun x : pentry fo * list (pentry fo) => eok fo Nc Xs (fst x) /\ snd x = skipn (List.length bs) s)
         (p_fcall_impl fo (runf f) ptr bs snap s).
  Proof.
    intros f ptr j pf bs snap s Hptr E Hs Hsnap.
    destruct (closed_sub ptr (IFunc j) pf j Hptr E eq_refl) as [Hcl Hle].
    apply (p_fcall_impl_ok fo U Nc Xs Xs (runf f) ptr bs snap s Hs Hsnap). intros t Ht.
    apply (closed_frame_local f (S ptr) (ptr + j)); [exact Hcl|simpl; lia|].
    split; [constructor|split; [exact Ht|constructor]].
  Qed.
End Region.

(* the side condition as an executable check *)
Definition is_return (c : pops) (i : nat) : bool :=
  match nth_error c i with Some (IReturn, _) => true | _ => false end.
Definition jump_within (c : pops) (bound i : nat) : bool :=
  match nth_error c i with
  | Some (x, _) => match jump_of x with Some j => Nat.leb (S (i + j)) bound | None => true end
  | None => true
  end.
Definition frame_okb (c : pops) (i0 : nat) : bool :=
  match nth_error c i0 with
  | Some (x0, _) =>
    match frame_of x0 with
    | Some j0 => is_return c (i0 + j0) && forallb (jump_within c (i0 + j0)) (seq (S i0) (j0 - 1))
    | None => true
    end
  | None => true
  end.
Definition scopedb (c : pops) (lo hi : nat) : bool :=
  Nat.leb hi (List.length c) && forallb (fun i => jump_within c hi i && frame_okb c i) (seq lo (hi - lo)).

Lemma scopedb_sound : forall c lo hi, scopedb c lo hi = true -> scoped c lo hi.
Proof.
  intros c lo hi H. unfold scopedb in H. apply andb_true_iff in H. destruct H as [Hlen Hall].
  apply Nat.leb_le in Hlen. pose proof (proj1 (forallb_forall _ _) Hall) as Hi.
  assert (Hrange : forall i, lo <= i < hi -> jump_within c hi i = true /\ frame_okb c i = true).
  { intros i Hr. apply andb_true_iff. apply Hi. apply in_seq. lia. }
  split; [exact Hlen|]. split.
  - intros i x p j Hr E Hj. destruct (Hrange i Hr) as [Hjw _]. unfold jump_within in Hjw. rewrite E, Hj in Hjw.
    apply Nat.leb_le in Hjw. exact Hjw.
  - intros i0 x0 p0 j0 Hr E Hf. destruct (Hrange i0 Hr) as [_ Hfo]. unfold frame_okb in Hfo. rewrite E, Hf in Hfo.
    apply andb_true_iff in Hfo. destruct Hfo as [Hret Hin]. split.
    + unfold is_return in Hret. destruct (nth_error c (i0 + j0)) as [[x' p']|]; [|discriminate].
      destruct x'; try discriminate. exists p'. reflexivity.
    + intros i x p j Hr' E' Hj'. assert (Hseq : In i (seq (S i0) (j0 - 1))) by (apply in_seq; lia).
      pose proof (proj1 (forallb_forall _ _) Hin i Hseq) as Hjw. unfold jump_within in Hjw. rewrite E', Hj' in Hjw.
      apply Nat.leb_le in Hjw. exact Hjw.
Qed.

(* what "local to statement s" says about an error *)
Definition stmt_err (s : pstmt) (e : ekind) (q : pos) (via : list pos) : Prop :=
  match via with
  | [] => In q (positions_of_stmt s)
          \/ e = KReservedArg \/ e = KFieldType      (* a position stored inside a value *)
          \/ e = KMapTuple \/ e = KMapStr            (* the position of a callback's result *)
  | _ :: _ => In (last via q) (positions_of_stmt s)  (* the outermost call site *)
  end.

(* the ops of statement s in the code of the program carry positions of s *)
Lemma stmt_ops_positions : forall (p1 p2 : pprog) (s : pstmt) i x p,
  List.length (ptranslate p1) <= i < List.length (ptranslate p1) + List.length (ptranslate_stmt s) ->
  nth_error (ptranslate (p1 ++ [s] ++ p2)) i = Some (x, p) -> In p (positions_of_stmt s).
Proof.
  intros p1 p2 s i x p Hi E. apply (ptranslate_nth_stmt p1 s p2 i _ Hi), nth_error_In in E.
  exact (proj1 (Forall_forall _ _) (ptranslate_positions_from_statement s) (x, p) E).
Qed.

Lemma err_ok_stmt_err : forall (U N : pos -> Prop) code s e q via,
  err_ok U N (Xs code (positions_of_stmt s)) e q via -> stmt_err s e q via.
Proof.
  intros U N code s e q via H. unfold stmt_err. destruct via as [|v via]; simpl in H.
  - destruct H as [[Hin _]|[[[Hk|Hk] _]|[[Hk|Hk] _]]]; [left; exact Hin|right; left; exact Hk|right; right; left; exact Hk
                                                        |right; right; right; left; exact Hk|right; right; right; right; exact Hk].
  - destruct H as [_ [_ [Hin _]]]. exact Hin.
Qed.

Theorem pvm_locality_translated_prop : forall fo fuel envv strict_ (p1 p2 : pprog) (s : pstmt) e q via,
  let code := ptranslate (p1 ++ [s] ++ p2) in
  let lo := List.length (ptranslate p1) in
  let hi := lo + List.length (ptranslate_stmt s) in
  scoped code lo hi ->
  pvm_prog fo fuel envv strict_ code = PErr e q via ->
  (* the error surfaced before the run reached s *)
  pvm_run_until fo code strict_ envv pos0 lo fuel (pinit_state fo) = PErr e q via
  \/ exists st0 fuel0,
       (* the run reached the first op of s in state st0 *)
       pvm_run_until fo code strict_ envv pos0 lo fuel (pinit_state fo) = POk st0 /\ ppc st0 = lo /\
       pvm_run fo code strict_ envv pos0 fuel0 st0 = PErr e q via /\
       (pstk st0 = [] ->
          (* the error is local to s *)
          stmt_err s e q via
          \/ (* or s ran to its end and the error surfaced in a later statement *)
             exists st1 fuel1, pvm_run_until fo code strict_ envv pos0 hi fuel0 st0 = POk st1 /\ ppc st1 = hi
                               /\ pvm_run fo code strict_ envv pos0 fuel1 st1 = PErr e q via).
Proof.
  intros fo fuel envv strict_ p1 p2 s e q via code lo hi Hscoped Hrun.
  unfold pvm_prog in Hrun.
  destruct (pvm_run fo code strict_ envv pos0 fuel (pinit_state fo)) as [st|e' q' via'| | |] eqn:Er; simpl in Hrun; try discriminate.
  inversion Hrun; subst e' q' via'. clear Hrun.
  destruct (run_splits_at fo code strict_ envv pos0 lo fuel (pinit_state fo) e q via Er) as [Hb|[st0 [fuel0 [Hu [Hpc Hr]]]]];
    [left; exact Hb|right].
  exists st0, fuel0. split; [exact Hu|]. split; [exact Hpc|]. split; [exact Hr|]. intros Hempty.
  assert (Hst0 : stok fo (Ncode code envv pos0) (Xs code (positions_of_stmt s)) st0).
  { pose proof (until_inv fo code strict_ envv pos0 lo fuel (pinit_state fo) (pinit_ok fo (Ucode code) (Ncode code envv pos0))) as Hinv.
    rewrite Hu in Hinv. simpl in Hinv. destruct Hinv as [_ [Hb Hf]]. split; [rewrite Hempty; constructor|split; assumption]. }
  assert (Hpc0 : lo <= ppc st0 <= hi) by (unfold hi; lia).
  destruct (pvm_locality fo code strict_ envv pos0 lo hi (positions_of_stmt s) (stmt_ops_positions p1 p2 s) Hscoped
                         fuel0 st0 e q via Hpc0 Hst0 Hr) as [Hloc|[st1 [fuel1 [Hu1 [Hpc1 [_ Hr1]]]]]].
  - left. exact (err_ok_stmt_err _ _ _ _ _ _ _ Hloc).
  - right. exists st1, fuel1. split; [exact Hu1|]. split; [exact Hpc1|exact Hr1].
Qed.

(* the same with the side conditions as executable checks *)
Theorem pvm_locality_translated : forall fo fuel envv strict_ (p1 p2 : pprog) (s : pstmt) e q via,
  let code := ptranslate (p1 ++ [s] ++ p2) in
  let lo := List.length (ptranslate p1) in
  let hi := lo + List.length (ptranslate_stmt s) in
  scopedb code lo hi = true ->
  pvm_prog fo fuel envv strict_ code = PErr e q via ->
  (* the error surfaced before the run reached s *)
  pvm_run_until fo code strict_ envv pos0 lo fuel (pinit_state fo) = PErr e q via
  \/ exists st0 fuel0,
       (* the run reached the first op of s in state st0 *)
       pvm_run_until fo code strict_ envv pos0 lo fuel (pinit_state fo) = POk st0 /\ ppc st0 = lo /\
       pvm_run fo code strict_ envv pos0 fuel0 st0 = PErr e q via /\
       (pstk st0 = [] ->
          (* the error is local to s *)
          stmt_err s e q via
          \/ (* or s ran to its end and the error surfaced in a later statement *)
             exists st1 fuel1, pvm_run_until fo code strict_ envv pos0 hi fuel0 st0 = POk st1 /\ ppc st1 = hi
                               /\ pvm_run fo code strict_ envv pos0 fuel1 st1 = PErr e q via).
Proof.
  intros fo fuel envv strict_ p1 p2 s e q via code lo hi Hsc.
  exact (pvm_locality_translated_prop fo fuel envv strict_ p1 p2 s e q via (scopedb_sound code lo hi Hsc)).
Qed.


(* the second half of locality: a function DEFINED by statement d (its Func op lies in the code of d).  Whatever calls it, the error
   its frame hands to the caller is local to d: primary position in d and no VIA entry, or the outermost VIA entry in d (the
   function called something else); the caller (op_fcall / map / filter / reduce) then appends ITS call site, which by
   pvm_locality_translated is what the diagnostic lists last.  [eok]/[bok] are the state invariant of pvm_run_inv. *)
Theorem function_body_local_translated_prop : forall fo envv strict_ (p1 p2 : pprog) (d : pstmt) f ptr j pf bs snap s e q via,
  let code := ptranslate (p1 ++ [d] ++ p2) in
  let lo := List.length (ptranslate p1) in
  let hi := lo + List.length (ptranslate_stmt d) in
  scoped code lo hi ->
  lo <= ptr < hi -> nth_error code ptr = Some (IFunc j, pf) ->
  Forall (eok fo (Ncode code envv pos0) (Ncode code envv pos0)) s -> Forall (bok fo (Ncode code envv pos0)) snap ->
  p_fcall_impl fo (pvm_run fo code strict_ envv pos0 f) ptr bs snap s = PErr e q via ->
  stmt_err d e q via.
Proof.
  intros fo envv strict_ p1 p2 d f ptr j pf bs snap s e q via code lo hi Hscoped Hptr E Hs Hsnap Hrun.
  pose proof (function_body_local fo code strict_ envv pos0 lo hi (positions_of_stmt d) (stmt_ops_positions p1 p2 d) Hscoped
                                  f ptr j pf bs snap s Hptr E Hs Hsnap) as Hloc.
  rewrite Hrun in Hloc. exact (err_ok_stmt_err _ _ _ _ _ _ _ Hloc).
Qed.

Theorem function_body_local_translated : forall fo envv strict_ (p1 p2 : pprog) (d : pstmt) f ptr j pf bs snap s e q via,
  let code := ptranslate (p1 ++ [d] ++ p2) in
  let lo := List.length (ptranslate p1) in
  let hi := lo + List.length (ptranslate_stmt d) in
  scopedb code lo hi = true ->
  lo <= ptr < hi -> nth_error code ptr = Some (IFunc j, pf) ->
  Forall (eok fo (Ncode code envv pos0) (Ncode code envv pos0)) s -> Forall (bok fo (Ncode code envv pos0)) snap ->
  p_fcall_impl fo (pvm_run fo code strict_ envv pos0 f) ptr bs snap s = PErr e q via ->
  stmt_err d e q via.
Proof.
  intros fo envv strict_ p1 p2 d f ptr j pf bs snap s e q via code lo hi Hsc.
  exact (function_body_local_translated_prop fo envv strict_ p1 p2 d f ptr j pf bs snap s e q via
                                             (scopedb_sound code lo hi Hsc)).
Qed.

(* Not proved (checked by the driver on every compared program: `MSIDE scoped=1 clean=1`):
   - that the executable check [scopedb] answers true on every translated program ([scoped] itself does hold there:
     PVm_Scoped.ptranslate_scoped);
   - that the value stack is empty when the run reaches the first op of a top-level statement (every statement leaves
     the stack as it found it, a compile-correctness fact about translate, cf. vm/Compile_Correct.v); the locality
     theorems therefore assume [pstk st0 = []];
   - locality of a MODULE body / out-expression as a callee frame: closed_frame_local applies with
     Rs := (position of the calling Cp op) :: positions_of_stmt d, because op_copy starts the module VM with two entries
     pushed at the caller's Cp position. *)

(* what is false without the side conditions / exceptions: witnesses (the real translator's ops of the quoted programs;
   the implementation reports exactly these positions) *)
Local Open Scope string_scope.
(* let m = module{} => (v) {    let v = "s";  };  let ok = 1;  let r = 1 + m{}; *)
Definition wit_modres_code : pops :=
  [ (ISym (b "m"), (1, 5)%N);
    (IInitTuple, (1, 9)%N);
    (IInitThunk 2, (1, 22)%N);
    (IDeRef (b "v"), (1, 22)%N);
    (IReturn, (1, 22)%N);
    (IModule 5, (1, 9)%N);
    (IBind, (1, 9)%N);
    (ISym (b "v"), (2, 7)%N);
    (IVal (LStr (b "s")), (2, 11)%N);
    (IBind, (2, 7)%N);
    (IReturn, (1, 9)%N);
    (IBind, (1, 5)%N);
    (ISym (b "ok"), (4, 5)%N);
    (IVal (LInt (1)), (4, 10)%N);
    (IBind, (4, 5)%N);
    (ISym (b "r"), (5, 5)%N);
    (IDeRef (b "m"), (5, 13)%N);
    (IPushSelf, (5, 13)%N);
    (IInitTuple, (5, 13)%N);
    (ICp, (5, 13)%N);
    (IPopSelf, (5, 13)%N);
    (IVal (LInt (1)), (5, 9)%N);
    (IAdd, (5, 9)%N);
    (IBind, (5, 5)%N) ].
(* let m = module{a = 1} => (v + "x") {    let v = mod.a;  };  let ok = 1;  let r = m{}; *)
Definition wit_modout_code : pops :=
  [ (ISym (b "m"), (1, 5)%N);
    (IInitTuple, (1, 9)%N);
    (ISym (b "a"), (1, 16)%N);
    (IVal (LInt (1)), (1, 20)%N);
    (IField, (1, 16)%N);
    (IInitThunk 4, (1, 27)%N);
    (IVal (LStr (b "x")), (1, 31)%N);
    (IDeRef (b "v"), (1, 27)%N);
    (IAdd, (1, 27)%N);
    (IReturn, (1, 27)%N);
    (IModule 7, (1, 9)%N);
    (IBind, (1, 9)%N);
    (ISym (b "v"), (2, 7)%N);
    (IDeRef (b "mod"), (2, 11)%N);
    (IVal (LStr (b "a")), (2, 15)%N);
    (IIndex, (2, 11)%N);
    (IBind, (2, 7)%N);
    (IReturn, (1, 9)%N);
    (IBind, (1, 5)%N);
    (ISym (b "ok"), (4, 5)%N);
    (IVal (LInt (1)), (4, 10)%N);
    (IBind, (4, 5)%N);
    (ISym (b "r"), (5, 5)%N);
    (IDeRef (b "m"), (5, 9)%N);
    (IPushSelf, (5, 9)%N);
    (IInitTuple, (5, 9)%N);
    (ICp, (5, 9)%N);
    (IPopSelf, (5, 9)%N);
    (IBind, (5, 5)%N) ].
(* let f = func (c) => 1;  let ok = 2;  let x = map(f, "ab"); *)
Definition wit_mapstr_code : pops :=
  [ (ISym (b "f"), (1, 5)%N);
    (IInitList, (1, 9)%N);
    (ISym (b "c"), (1, 15)%N);
    (IElement, (1, 15)%N);
    (IFunc 2, (1, 9)%N);
    (IVal (LInt (1)), (1, 21)%N);
    (IReturn, (1, 9)%N);
    (IBind, (1, 5)%N);
    (ISym (b "ok"), (2, 5)%N);
    (IVal (LInt (2)), (2, 10)%N);
    (IBind, (2, 5)%N);
    (ISym (b "x"), (3, 5)%N);
    (IDeRef (b "f"), (3, 13)%N);
    (IVal (LStr (b "ab")), (3, 16)%N);
    (IRuntime HMap, (3, 9)%N);
    (IBind, (3, 5)%N) ].

Local Close Scope string_scope.

(* the frame of the statement with ops [lo, hi) starts with an empty stack, and before it leaves the range it reports an
   error without VIA entry whose primary position is not the position of any op of the range *)
Definition escapes_statement (fo : float_ops) (code : pops) (lo hi : nat) (e : ekind) (q : pos) : Prop :=
  exists st0,
    pvm_run_until fo code true [] pos0 lo 100 (pinit_state fo) = POk st0 /\ ppc st0 = lo /\ pstk st0 = []
    /\ pvm_run_until fo code true [] pos0 hi 100 st0 = PErr e q []
    /\ pvm_prog fo 100 [] true code = PErr e q []
    /\ ~ In q (map snd (firstn (hi - lo) (skipn lo code))).

Ltac escapes_by_computation :=
  intros fo; eexists; split; [vm_compute; reflexivity|]; split; [reflexivity|]; split; [reflexivity|];
  split; [vm_compute; reflexivity|]; split; [vm_compute; reflexivity|];
  vm_compute; intros Hin; repeat (destruct Hin as [Hin|Hin]; [discriminate Hin|]); exact Hin.

(* the positive counterpart: before leaving the range the frame reports an error whose primary position (no VIA entry) or
   outermost VIA entry is the position of an op of the range *)
Definition local_to_statement (fo : float_ops) (code : pops) (lo hi : nat) (e : ekind) (q : pos) (via : list pos) : Prop :=
  exists st0,
    pvm_run_until fo code true [] pos0 lo 100 (pinit_state fo) = POk st0 /\ ppc st0 = lo /\ pstk st0 = []
    /\ pvm_run_until fo code true [] pos0 hi 100 st0 = PErr e q via
    /\ pvm_prog fo 100 [] true code = PErr e q via
    /\ In (last via q) (map snd (firstn (hi - lo) (skipn lo code))).

Ltac local_by_computation :=
  intros fo; eexists; split; [vm_compute; reflexivity|]; split; [reflexivity|]; split; [reflexivity|];
  split; [vm_compute; reflexivity|]; split; [vm_compute; reflexivity|]; vm_compute; tauto.

(* the RESULT of a module with an out-expression stands at the position of the instantiation (/repo commit 5138c88), not of
   the out-expression: `1 + m{}` with a string result is reported at 5:13, in statement 3 *)
Lemma locality_module_result_example : forall fo, local_to_statement fo wit_modres_code 15 24 KArith (5, 13)%N [].
Proof. local_by_computation. Qed.

(* an error raised INSIDE the out-expression of a module lists the instantiation `m{}` (5:9, statement 3) as VIA
   (/repo commit 5138c88); the primary position stays in the out-expression *)
Lemma locality_module_out_expression_example : forall fo,
  local_to_statement fo wit_modout_code 22 29 KArith (1, 31)%N [(5, 9)%N].
Proof. local_by_computation. Qed.

(* "Map functions over string should return strings" (and the two errors about the result of a callback over a
   tuple) carry the position of the callback's RESULT, which lies in the function definition, without VIA; hence the
   exception for KMapTuple / KMapStr in stmt_err *)
Lemma locality_map_result_refuted : forall fo, escapes_statement fo wit_mapstr_code 11 16 KMapStr (1, 21)%N.
Proof. escapes_by_computation. Qed.
