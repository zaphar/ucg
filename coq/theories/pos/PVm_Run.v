(* One iteration of the dispatch loop of pos/PVm.v: it stops at the end of the code and at a Return, and otherwise
   executes the op under the instruction pointer. *)
From Ucg Require Export pos.PVm.

Lemma return_dec : forall i : instr, {i = IReturn} + {i <> IReturn}.
Proof. intros i. destruct i; (left; reflexivity) || (right; discriminate). Defined.

Section Run.
  Variable fo : float_ops.
  Variable PC : pops.
  Variable strict_ : bool.
  Variable envv : list (bytes * bytes).
  Variable envpos : pos.
  Notation run := (pvm_run fo PC strict_ envv envpos).

  Lemma pvm_run_S : forall f st,
    run (S f) st = match nth_error PC (ppc st) with
                   | Some (i, p) =>
                     if return_dec i then POk st
                     else pdo st' <- pexec_instr fo PC strict_ envv envpos (run f) i p st; run f st'
                   | None => POk st
                   end.
  Proof. intros f st. simpl. destruct (nth_error PC (ppc st)) as [[i p]|]; [|reflexivity]. destruct i; reflexivity. Qed.
End Run.
