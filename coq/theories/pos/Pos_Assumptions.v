(* Print Assumptions for every headline theorem of theories/pos: each must answer
   "Closed under the global context". *)
From Ucg Require Import pos.PAst pos.PAst_Ind pos.PTranslate pos.PTranslate_Lemmas pos.PTemplate pos.PTemplate_Lemmas.

(* erasure *)
Print Assumptions ptranslate_erase.
Print Assumptions ptranslate_stmt_erase.
Print Assumptions ptranslate_expr_erase.
Print Assumptions ptranslate_length.
(* provenance *)
Print Assumptions ptranslate_positions_from_statement.
Print Assumptions ptranslate_expr_positions.
Print Assumptions ptranslate_positions_src_or_template.
Print Assumptions ptranslate_positions_program.
(* line spans *)
Print Assumptions ops_point_into_their_statement.
Print Assumptions ops_point_into_their_statement_src.
Print Assumptions ops_point_into_their_statement_no_templates.
Print Assumptions src_span_is_stmt_span.
(* statement by statement *)
Print Assumptions ptranslate_app.
Print Assumptions ptranslate_cons.
(* renaming, shift *)
Print Assumptions ptranslate_map_pos.
Print Assumptions ptranslate_stmt_map_pos.
Print Assumptions ptranslate_expr_map_pos.
Print Assumptions ptranslate_map_pos_uniform.
Print Assumptions ptranslate_shift.
Print Assumptions ptranslate_shift_lines.
Print Assumptions ptranslate_shift_ops.
Print Assumptions erase_map_pos_stmt.
(* function and module bodies *)
Print Assumptions func_body_ops_carry_positions_of_the_defining_statement.
Print Assumptions module_body_ops_carry_positions_of_the_defining_statement.
(* the template scanner *)
Print Assumptions tpl_scan_lines.
Print Assumptions tpl_scan_starts_exact.
Print Assumptions place_line_exact.
Print Assumptions place_first_line_exact.
Print Assumptions place_columns_on_continuation_lines_refuted.
Print Assumptions placed_template_nodes_lie_in_the_string.
Print Assumptions template_nodes_covered.
(* examples *)
Print Assumptions example_scan.
Print Assumptions example_ops.
Print Assumptions example_placed.
Print Assumptions example_ops_on_line_4.
Print Assumptions example_scan_two_lines.
