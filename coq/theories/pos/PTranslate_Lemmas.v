(* The positioned translator [ptr] against the translator [tr] of vm/Translate.v and against the positions of its input:
   forgetting the positions of the ops gives the ops of [tr] (erasure); every op carries a position that stands in the tree
   it was emitted for (provenance); renaming the positions of the tree renames the positions of the ops and changes nothing
   else (renaming).  Each of the three is one induction over the positioned AST (PAst_Ind.pexpr_mutind) with one lemma per
   combinator of PTranslate.v; for a binary node they go through the equations at the start, which say once what the
   translator looks at.  The statements about statements, programs, line spans, shifts and function bodies follow. *)
From Ucg Require Import pos.PAst pos.PAst_Ind pos.PTranslate.

#[local] Arguments pfields : simpl never.
#[local] Arguments pelems : simpl never.
#[local] Arguments pargs : simpl never.
#[local] Arguments parms : simpl never.
#[local] Arguments ppart_codes : simpl never.
#[local] Arguments pcopy_code : simpl never.
#[local] Arguments pjoin_parts : simpl never.
#[local] Arguments field_positions : simpl never.
#[local] Arguments opt_positions : simpl never.

(* a hypothesis about the positions of all elements, handed out to the elements one by one *)
Lemma Forall_by_parts : forall (A B : Type) (K : B -> Prop) (P : A -> Prop) (parts : A -> list B) (l : list A),
  Forall (fun a => Forall K (parts a) -> P a) l -> Forall K (flat_map parts l) -> Forall P l.
Proof.
  intros A B K P parts l H. induction H as [|a l Ha Hl IH]; intros HK; simpl in *; [constructor|].
  apply Forall_app in HK. destruct HK. constructor; [apply Ha | apply IH]; assumption.
Qed.

Lemma incl_cons_l : forall (A : Type) (a : A) (c l : list A), incl (a :: c) l -> In a l.
Proof. intros A a c l H. apply H. now left. Qed.

(* The clauses of [ptr] for a binary node, one equation per form of the node.  The translator looks at the
   operator, for IN at the left operand, for DOT at the right operand and at the selector inside it. *)

(* the ops [is], all at position [p] *)
Definition at_pos (p : pos) (is : list instr) : pops := map (fun i => (i, p)) is.
#[local] Arguments at_pos : simpl never.

(* the operators whose code is: right operand, left operand, fixed ops at the position of the node *)
Definition plain_ops (o : op) : option (list instr) :=
  match o with
  | Add => Some [IAdd] | Sub => Some [ISub] | Mul => Some [IMul] | Div => Some [IDiv] | Mod => Some [IMod]
  | Equal => Some [IEqual] | GT => Some [IGt] | LT => Some [ILt] | GTEqual => Some [IGtEq] | LTEqual => Some [ILtEq]
  | NotEqual => Some [IEqual; INot] | REMatch => Some [IRuntime HRegex] | NotREMatch => Some [IRuntime HRegex; INot]
  | IS => Some [ITyp; IEqual]
  | AND | OR | IN | DOT => None
  end.

Lemma ptr_plain : forall p o l r is, plain_ops o = Some is -> ptr (PEBin p o l r) = ptr r ++ ptr l ++ at_pos p is.
Proof. intros p o l r is H. destruct o; inversion H; reflexivity. Qed.

Lemma tr_plain : forall o l r is, plain_ops o = Some is -> tr (EBin o l r) = tr r ++ tr l ++ is.
Proof. intros o l r is H. destruct o; inversion H; reflexivity. Qed.

Lemma not_plain : forall o, plain_ops o = None -> o = AND \/ o = OR \/ o = IN \/ o = DOT.
Proof. intros o H. destruct o; try discriminate H; tauto. Qed.

Definition is_psym (e : pexpr) : bool := match e with PESym _ _ => true | _ => false end.

Lemma is_psym_true : forall e, is_psym e = true -> exists p x, e = PESym p x.
Proof. intros e H. destruct e; try discriminate H. eauto. Qed.

Lemma ptr_in : forall p l r, is_psym l = false -> ptr (PEBin p IN l r) = ptr r ++ ptr l ++ [(IExist, p)].
Proof. intros p l r H. cbn [ptr]. destruct l; try discriminate H; reflexivity. Qed.

Lemma tr_in_erase : forall l r, is_psym l = false -> tr (EBin IN (erase l) r) = tr r ++ tr (erase l) ++ [IExist].
Proof. intros l r H. cbn [tr]. destruct l; try discriminate H; reflexivity. Qed.

(* the right operands of DOT that are translated like any expression *)
Definition pdot_general (r : pexpr) : bool :=
  match r with PESym _ _ | PECopy _ _ _ | PECall _ _ _ => false | _ => true end.

Lemma pdot_special : forall r, pdot_general r = false ->
  (exists p k, r = PESym p k) \/ (exists p sel fs, r = PECopy p sel fs) \/ (exists p fn args, r = PECall p fn args).
Proof. intros r H. destruct r; try discriminate H; eauto 6. Qed.

Lemma ptr_dot_general : forall p l r, pdot_general r = true -> ptr (PEBin p DOT l r) = ptr l ++ ptr r ++ [(IIndex, p)].
Proof. intros p l r H. cbn [ptr]. destruct r; try discriminate H; reflexivity. Qed.

Lemma tr_dot_general : forall l r, pdot_general r = true -> tr (EBin DOT l (erase r)) = tr l ++ tr (erase r) ++ [IIndex].
Proof. intros l r H. cbn [tr]. destruct r; try discriminate H; reflexivity. Qed.

(* the selector of `l.sel{...}` and `l.sel(...)`: a name, a string or an integer, emitted as a literal *)
Definition psel (e : pexpr) : option lit :=
  match e with PESym _ k | PEStr _ k => Some (LStr k) | PEInt _ k => Some (LInt k) | _ => None end.

Lemma ptr_dot_copy : forall p l cp sel fs,
  ptr (PEBin p DOT l (PECopy cp sel fs)) =
  match psel sel with
  | Some v => ptr l ++ (IVal v, pos_of sel) :: (IIndex, cp) :: pcopy_code cp (pfields ptr fs)
  | None => [(ITranslatorPanic, p)]
  end.
Proof. intros p l cp sel fs. destruct sel; reflexivity. Qed.

Lemma tr_dot_copy_erase : forall l sel fs,
  tr (EBin DOT l (ECopy (erase sel) fs)) =
  match psel sel with
  | Some v => tr l ++ IVal v :: IIndex :: copy_code (tr_fields fs)
  | None => [ITranslatorPanic]
  end.
Proof. intros l sel fs. destruct sel; reflexivity. Qed.

Lemma ptr_dot_call : forall p l cp fn args,
  ptr (PEBin p DOT l (PECall cp fn args)) =
  match psel fn with
  | Some v => (pargs ptr args ++ (IVal (LInt (Z.of_nat (List.length args))), cp) :: ptr l)
                ++ [(IVal v, pos_of fn); (IIndex, p); (IFCall, pos_of fn)]
  | None => [(ITranslatorPanic, p)]
  end.
Proof. intros p l cp fn args. destruct fn; reflexivity. Qed.

Lemma tr_dot_call_erase : forall l fn args,
  tr (EBin DOT l (ECall (erase fn) args)) =
  match psel fn with
  | Some v => (cat_map tr args ++ IVal (LInt (Z.of_nat (List.length args))) :: tr l) ++ [IVal v; IIndex; IFCall]
  | None => [ITranslatorPanic]
  end.
Proof. intros l fn args. destruct fn; reflexivity. Qed.

(* erasure: the positioned translator emits the ops of vm/Translate.v *)

Definition er (c : pops) : ops := map fst c.

#[local] Arguments er : simpl never.

Lemma er_nil : er [] = [].
Proof. reflexivity. Qed.
Lemma er_app : forall a c, er (a ++ c) = er a ++ er c.
Proof. intros; apply map_app. Qed.
Lemma er_cons : forall i p c, er ((i, p) :: c) = i :: er c.
Proof. reflexivity. Qed.
Lemma er_length : forall c, List.length (er c) = List.length c.
Proof. intros; apply map_length. Qed.

Lemma er_at_pos : forall p is, er (at_pos p is) = is.
Proof. intros p is. unfold er, at_pos. rewrite map_map. apply map_id. Qed.

(* code emitted element by element *)
Lemma er_cat_map : forall (A B : Type) (h : A -> pops) (h' : B -> ops) (m : A -> B) (l : list A),
  Forall (fun a => er (h a) = h' (m a)) l -> er (flat_map h l) = cat_map h' (map m l).
Proof. intros A B h h' m l H. induction H as [|a l Ha Hl IH]; simpl; [reflexivity|]. now rewrite er_app, Ha, IH. Qed.

Definition PA (e : pexpr) : Prop := er (ptr e) = tr (erase e).
Definition RA (t : ptpart) : Prop := match t with PPExpr pe => PA pe | _ => True end.
Definition QA (s : pstmt) : Prop := er (ptr_stmt s) = tr_stmt (erase_stmt s).

Lemma PA_length : forall e, PA e -> List.length (ptr e) = List.length (tr (erase e)).
Proof. intros e H. rewrite <- H. symmetry. apply er_length. Qed.

Lemma er_pfields : forall fs, Pfields PA fs -> er (pfields ptr fs) = tr_fields (erase_fields fs).
Proof.
  intros fs H. unfold pfields, tr_fields, erase_fields. apply er_cat_map. eapply Forall_impl; [|exact H].
  intros [[kp k] e] He. simpl in *. rewrite er_cons, er_app. unfold PA in He. now rewrite He.
Qed.

Lemma er_pelems : forall es, Forall PA es ->
  er (pelems ptr es) = cat_map (fun e => tr e ++ [IElement]) (map erase es).
Proof.
  intros es H. unfold pelems. apply er_cat_map. eapply Forall_impl; [|exact H].
  intros e He. rewrite er_app. unfold PA in He. now rewrite He.
Qed.

Lemma er_pargs : forall es, Forall PA es -> er (pargs ptr es) = cat_map tr (map erase es).
Proof.
  intros es H. unfold pargs. apply er_cat_map. exact H.
Qed.

Lemma er_pcopy_code : forall p c, er (pcopy_code p c) = copy_code (er c).
Proof. intros. unfold pcopy_code, copy_code. now rewrite !er_cons, er_app. Qed.

Definition er_arm (a : pos * bytes * pops * pos) : bytes * ops :=
  let '(_, k, c, _) := a in (k, er c).

Lemma er_psel_arms : forall p arms d, er (psel_arms p arms d) = sel_arms (map er_arm arms) (er d).
Proof.
  intros p arms d. induction arms as [|[[[kp k] c] ep] arms IH]; simpl; [reflexivity|].
  rewrite er_cons, er_cons, er_app, er_cons, IH. rewrite !er_length.
  rewrite <- IH, er_length. reflexivity.
Qed.

Lemma er_parms : forall arms, Pfields PA arms ->
  map er_arm (parms ptr arms) = map (fun kv => let '(k, e) := kv in (k, tr e)) (erase_fields arms).
Proof.
  intros arms H. unfold parms, erase_fields. rewrite !map_map. apply map_ext_Forall.
  eapply Forall_impl; [|exact H]. intros [[kp k] e] He. simpl in *. unfold PA in He. now rewrite He.
Qed.

Lemma er_pjoin_parts : forall pe pa codes, er (pjoin_parts pe pa codes) = join_parts (map er codes).
Proof.
  intros pe pa [|c cs]; simpl; [reflexivity|]. unfold pjoin_parts. rewrite er_app. f_equal.
  apply er_cat_map. apply Forall_forall. intros x _. now rewrite er_app.
Qed.

Lemma er_plist_parts : forall p parts args,
  map er (plist_parts p parts args) = list_parts (map erase_part parts) (map er args).
Proof.
  intros p parts. induction parts as [|t ps IH]; intros args; simpl; [reflexivity|].
  destruct t as [s| |pe]; simpl.
  - now rewrite IH.
  - destruct args as [|a args']; simpl.
    + now rewrite (IH []).
    + now rewrite er_app, IH.
  - now rewrite IH.
Qed.

Lemma pcount_holes_erase : forall parts, count_holes (map erase_part parts) = pcount_holes parts.
Proof.
  unfold count_holes, pcount_holes. induction parts as [|t ps IH]; simpl; [reflexivity|].
  destruct t; simpl; now rewrite ?IH.
Qed.

Lemma er_ppart_codes : forall p parts, Forall RA parts ->
  map er (ppart_codes ptr p parts) =
  map (fun t => match t with PStr s => [IVal (LStr s)] | PHole => [ITranslatorPanic] | PExpr pe => tr pe ++ [IRender] end)
      (map erase_part parts).
Proof.
  intros p parts H. unfold ppart_codes. rewrite !map_map. apply map_ext_Forall.
  eapply Forall_impl; [|exact H]. intros [s| |pe] Ht; simpl in *; try reflexivity.
  rewrite er_app. unfold PA in Ht. now rewrite Ht.
Qed.

Ltac er_norm := repeat (rewrite er_app || rewrite er_cons || rewrite er_nil).

(* rewrite with every induction hypothesis  er (ptr x) = tr (erase x)  after turning the code lengths around *)
Ltac use_IH :=
  repeat match goal with
         | H : er (ptr ?x) = tr (erase ?x) |- _ =>
           rewrite ?(PA_length x H); rewrite ?H; clear H
         end.
(* a clause that is written out: unfold it, push [er] through, use the induction hypotheses *)
Ltac solveA := simpl; er_norm; rewrite ?map_length; use_IH; reflexivity.

Lemma ptr_erase_all : (forall e, PA e) /\ (forall t, RA t) /\ (forall s, QA s).
Proof.
  (* literals, and the nodes and statements whose code is written out in the clause *)
  apply pexpr_mutind; unfold PA, QA; try (intros; plain_node; solveA; fail).
  - (* tuple *) intros p fs IHfs. simpl. er_norm. rewrite (er_pfields fs IHfs). reflexivity.
  - (* list *) intros p es IHes. simpl. er_norm. rewrite (er_pelems es IHes). reflexivity.
  - (* binary *)
    intros p o l r IHl IHr IHdeep. cbn [erase].
    destruct (plain_ops o) as [is|] eqn:Eo.
    { rewrite (ptr_plain _ _ _ _ _ Eo), (tr_plain _ _ _ _ Eo). er_norm. now rewrite IHl, IHr, er_at_pos. }
    destruct (not_plain o Eo) as [->|[->|[->| ->]]].
    + solveA.
    + solveA.
    + (* IN *)
      destruct (is_psym l) eqn:El.
      * destruct (is_psym_true l El) as (lp & x & ->). solveA.
      * rewrite (ptr_in _ _ _ El), (tr_in_erase _ _ El). er_norm. now rewrite IHl, IHr.
    + (* DOT *)
      destruct (pdot_general r) eqn:Er.
      { rewrite (ptr_dot_general _ _ _ Er), (tr_dot_general _ _ Er). er_norm. now rewrite IHl, IHr. }
      destruct (pdot_special r Er) as [(sp & k & ->)|[(cp & sel & fs & ->)|(cp & fn & args & ->)]].
      * solveA.
      * destruct IHdeep as [_ IHfs]. rewrite ptr_dot_copy. cbn [erase]. rewrite tr_dot_copy_erase.
        destruct (psel sel); [|reflexivity].
        er_norm. rewrite er_pcopy_code, (er_pfields fs IHfs), IHl. reflexivity.
      * destruct IHdeep as [_ IHargs]. rewrite ptr_dot_call. cbn [erase]. rewrite tr_dot_call_erase.
        destruct (psel fn); [|reflexivity].
        er_norm. rewrite (er_pargs args IHargs), IHl, map_length. reflexivity.
  - (* copy *) intros p t fs IHt IHfs. simpl. er_norm. rewrite er_pcopy_code, (er_pfields fs IHfs), IHt. reflexivity.
  - (* range *) intros p st stp en IHst IHstp IHen. destruct stp as [s|]; simpl in IHstp; solveA.
  - (* format, list form *)
    intros p parts args IHparts IHargs. simpl. rewrite pcount_holes_erase, map_length.
    destruct (negb (Nat.eqb (pcount_holes parts) (List.length args))); [reflexivity|].
    destruct parts as [|t parts']; [reflexivity|].
    set (ps := t :: parts'). change (map erase_part ps) with (erase_part t :: map erase_part parts').
    cbv iota. unfold ps; clear ps. rewrite er_pjoin_parts, er_plist_parts.
    change (erase_part t :: map erase_part parts') with (map erase_part (t :: parts')).
    rewrite !map_rev. f_equal. f_equal. f_equal. rewrite !map_map. apply map_ext_Forall. exact IHargs.
  - (* format, single form *)
    intros p tpl parts arg IHparts IHarg. simpl. er_norm.
    rewrite <- (er_length (ptr arg ++ _)). er_norm.
    rewrite er_pjoin_parts, map_rev, (er_ppart_codes p parts IHparts), IHarg. reflexivity.
  - (* call *)
    intros p fn args IHfn IHargs. simpl. er_norm. rewrite (er_pargs args IHargs), map_length. use_IH. reflexivity.
  - (* func *)
    intros p ps body IHbody. simpl. er_norm. use_IH. f_equal. f_equal.
    apply er_cat_map. apply Forall_forall. reflexivity.
  - (* select *)
    intros p ve dflt arms IHve IHdflt IHarms. simpl. er_norm. rewrite er_psel_arms, (er_parms arms IHarms).
    destruct dflt as [de|]; simpl in IHdflt; use_IH; reflexivity.
  - (* module *)
    intros p ps out body IHps IHout IHbody. simpl. er_norm. rewrite (er_pfields ps IHps).
    assert (Hbody : er (flat_map ptr_stmt body) = cat_map tr_stmt (map erase_stmt body)).
    { apply er_cat_map. exact IHbody. }
    rewrite !app_length. simpl. rewrite <- (er_length (flat_map ptr_stmt body)), Hbody.
    destruct out as [oe|]; simpl in IHout; er_norm; use_IH; rewrite ?app_length; reflexivity.
  - (* template expression *) intros e IHe. exact IHe.
Qed.

Theorem ptranslate_expr_erase : forall e, map fst (ptranslate_expr e) = tr (erase e).
Proof. exact (proj1 ptr_erase_all). Qed.

Theorem ptranslate_stmt_erase : forall s, map fst (ptranslate_stmt s) = tr_stmt (erase_stmt s).
Proof. exact (proj2 (proj2 ptr_erase_all)). Qed.

Theorem ptranslate_erase : forall p, map fst (ptranslate p) = translate (map erase_stmt p).
Proof.
  intros p. apply er_cat_map. apply Forall_forall. intros s _. apply ptranslate_stmt_erase.
Qed.

Corollary ptranslate_length : forall p, List.length (ptranslate p) = List.length (translate (map erase_stmt p)).
Proof. intros p. rewrite <- ptranslate_erase. symmetry. apply map_length. Qed.

(* provenance: every op carries a position of a node of the expression / statement it was emitted for, or a
   template-relative position of one of its `@{...}` expressions.  Stated for an arbitrary property [K] of
   positions: what holds of every position in the tree holds of the position of every op. *)

Definition carries (K : pos -> Prop) (c : pops) : Prop := Forall (fun x => K (snd x)) c.

Lemma pos_of_in : forall e, In (pos_of e) (src_positions_of e).
Proof. destruct e; simpl; auto. Qed.

Lemma K_pos_of : forall (K : pos -> Prop) e, Forall K (src_positions_of e) -> K (pos_of e).
Proof. intros K e H. exact (proj1 (Forall_forall _ _) H _ (pos_of_in e)). Qed.

Lemma carries_at_pos : forall (K : pos -> Prop) p is, K p -> carries K (at_pos p is).
Proof. intros K p is H. apply Forall_map. apply Forall_forall. intros i _. exact H. Qed.

Definition PB (e : pexpr) : Prop :=
  forall K, Forall K (src_positions_of e) -> Forall K (tpl_positions_of e) -> carries K (ptr e).
Definition RB (t : ptpart) : Prop := match t with PPExpr pe => PB pe | _ => True end.
Definition QB (s : pstmt) : Prop :=
  forall K, Forall K (src_positions_of_stmt s) -> Forall K (tpl_positions_of_stmt s) -> carries K (ptr_stmt s).

Local Notation tplf := (fun fl : pos * bytes * pexpr => tpl_positions_of (snd fl)).

(* [Forall K] over the positions of a node: [K] of its own positions, [Forall K] over those of each part *)
Ltac split_pos :=
  repeat match goal with
         | H : Forall _ (_ :: _) |- _ => apply Forall_cons_iff in H; destruct H
         | H : Forall _ (_ ++ _) |- _ => apply Forall_app in H; destruct H
         end.

(* [carries K] of a piece of code written out: the parts by their hypotheses, a single op by [K] of its position *)
Ltac carry_step :=
  match goal with
  | |- Forall _ (_ ++ _) => apply Forall_app; split
  | |- Forall _ (_ :: _) => apply Forall_cons; [cbn [snd]; first [assumption | apply K_pos_of; assumption]|]
  | |- Forall _ [] => apply Forall_nil
  | |- Forall _ (at_pos _ _) => apply carries_at_pos; assumption
  | |- Forall _ (pcopy_code _ _) => unfold pcopy_code
  | IH : PB ?x |- Forall _ (ptr ?x) => apply IH; assumption
  end.
Ltac carry := unfold carries; repeat carry_step.

Lemma carries_flat_map : forall (A : Type) (K : pos -> Prop) (h : A -> pops) (sp tp : A -> list pos) (l : list A),
  Forall (fun a => Forall K (sp a) -> Forall K (tp a) -> carries K (h a)) l ->
  Forall K (flat_map sp l) -> Forall K (flat_map tp l) -> carries K (flat_map h l).
Proof.
  intros A K h sp tp l H HS HT. apply Forall_flat_map.
  exact (Forall_by_parts _ _ K _ tp l (Forall_by_parts _ _ K _ sp l H HS) HT).
Qed.

Lemma carries_pfields : forall K fs, Pfields PB fs ->
  Forall K (field_positions src_positions_of fs) -> Forall K (flat_map tplf fs) -> carries K (pfields ptr fs).
Proof.
  intros K fs H. unfold pfields, field_positions. apply carries_flat_map.
  eapply Forall_impl; [|exact H]. intros [[kp k] e] He HS HT. simpl in *. split_pos. carry.
Qed.

Lemma carries_pelems : forall K es, Forall PB es ->
  Forall K (flat_map src_positions_of es) -> Forall K (flat_map tpl_positions_of es) -> carries K (pelems ptr es).
Proof.
  intros K es H. unfold pelems. apply carries_flat_map.
  eapply Forall_impl; [|exact H]. intros e He HS HT. carry.
Qed.

Lemma carries_pargs : forall K es, Forall PB es ->
  Forall K (flat_map src_positions_of es) -> Forall K (flat_map tpl_positions_of es) -> carries K (pargs ptr es).
Proof.
  intros K es H. unfold pargs. apply carries_flat_map.
  eapply Forall_impl; [|exact H]. intros e He HS HT. carry.
Qed.

Definition arm_ok (K : pos -> Prop) (a : pos * bytes * pops * pos) : Prop :=
  let '(kp, _, c, ep) := a in K kp /\ carries K c /\ K ep.

Lemma carries_psel_arms : forall (K : pos -> Prop) p arms d,
  K p -> Forall (arm_ok K) arms -> carries K d -> carries K (psel_arms p arms d).
Proof.
  intros K p arms d Hp Harms Hd. induction Harms as [|[[[kp k] c] ep] arms Ha Harms IH]; simpl.
  - carry. exact Hd.
  - destruct Ha as [Hkp [Hc Hep]]. carry; assumption.
Qed.

Lemma arm_ok_parms : forall K arms, Pfields PB arms ->
  Forall K (field_positions src_positions_of arms) -> Forall K (flat_map tplf arms) ->
  Forall (arm_ok K) (parms ptr arms).
Proof.
  intros K arms H. unfold parms, field_positions. induction H as [|[[kp k] e] fs He Hfs IH]; intros HS HT; simpl in *.
  - constructor.
  - split_pos. constructor; [|apply IH; assumption].
    split; [assumption|]. split; [apply He; assumption | apply K_pos_of; assumption].
Qed.

Lemma carries_pjoin_parts : forall (K : pos -> Prop) pe pa codes,
  K pe -> K pa -> Forall (carries K) codes -> carries K (pjoin_parts pe pa codes).
Proof.
  intros K pe pa codes Hpe Hpa H. unfold pjoin_parts. destruct H as [|c cs Hc Hcs]; [carry|].
  apply Forall_app. split; [exact Hc|]. apply Forall_flat_map.
  eapply Forall_impl; [|exact Hcs]. intros a Ha. apply Forall_app. split; [exact Ha|]. carry.
Qed.

Lemma carries_plist_parts : forall (K : pos -> Prop) p parts args,
  K p -> Forall (carries K) args -> Forall (carries K) (plist_parts p parts args).
Proof.
  intros K p parts. induction parts as [|t ps IH]; intros args Hp Hargs; simpl; [constructor|].
  destruct t as [s| |pe].
  - constructor; [carry | now apply IH].
  - destruct Hargs as [|a args' Ha Hargs'].
    + constructor; [carry | apply IH; [exact Hp | constructor]].
    + constructor; [apply Forall_app; split; [exact Ha | carry] | now apply IH].
  - constructor; [carry | now apply IH].
Qed.

(* the ops of a template expression carry positions of that expression: all of them template positions of the format *)
Lemma carries_ppart_codes : forall (K : pos -> Prop) p parts,
  K p -> Forall RB parts -> Forall K (flat_map tpl_part_positions parts) ->
  Forall (carries K) (ppart_codes ptr p parts).
Proof.
  intros K p parts Hp H. unfold ppart_codes. induction H as [|t ps Ht Hps IH]; intros HT; simpl in *; [constructor|].
  split_pos. constructor; [|apply IH; assumption].
  destruct t as [s| |pe]; simpl in *; [carry|carry|]. split_pos. carry.
Qed.

(* ... and the fields, elements and arguments by the lemmas above *)
Ltac carry_all :=
  unfold carries;
  repeat first
    [ carry_step
    | match goal with
      | IH : Pfields PB ?fs |- Forall _ (pfields ptr ?fs) => apply (carries_pfields _ fs IH); assumption
      | IH : Forall PB ?es |- Forall _ (pelems ptr ?es) => apply (carries_pelems _ es IH); assumption
      | IH : Forall PB ?es |- Forall _ (pargs ptr ?es) => apply (carries_pargs _ es IH); assumption
      end ].
Ltac solveB := let K := fresh "K" in intros K ? ?; simpl in *; split_pos; carry_all.

Lemma ptr_positions_all : (forall e, PB e) /\ (forall t, RB t) /\ (forall s, QB s).
Proof.
  (* literals, and the nodes and statements whose code is written out in the clause *)
  apply pexpr_mutind; try (intros; solveB; fail).
  - (* binary *)
    intros p o l r IHl IHr IHdeep K HS HT. simpl in HS, HT. split_pos.
    destruct (plain_ops o) as [is|] eqn:Eo.
    { rewrite (ptr_plain _ _ _ _ _ Eo). carry. }
    destruct (not_plain o Eo) as [->|[->|[->| ->]]].
    + simpl. carry.
    + simpl. carry.
    + (* IN *)
      destruct (is_psym l) eqn:El.
      * destruct (is_psym_true l El) as (lp & x & ->). simpl in *. split_pos. carry.
      * rewrite (ptr_in _ _ _ El). carry.
    + (* DOT *)
      destruct (pdot_general r) eqn:Er.
      { rewrite (ptr_dot_general _ _ _ Er). carry. }
      destruct (pdot_special r Er) as [(sp & k & ->)|[(cp & sel & fs & ->)|(cp & fn & args & ->)]].
      * simpl in *. split_pos. carry.
      * destruct IHdeep as [_ IHfs]. rewrite ptr_dot_copy. simpl in *. split_pos. destruct (psel sel); carry_all.
      * destruct IHdeep as [_ IHargs]. rewrite ptr_dot_call. simpl in *. split_pos. destruct (psel fn); carry_all.
  - (* range *)
    intros p st stp en IHst IHstp IHen. destruct stp as [s|]; unfold opt_positions; simpl in IHstp; solveB.
  - (* format, list form *)
    intros p parts args IHparts IHargs K HS HT. simpl in *. split_pos.
    destruct (negb (Nat.eqb (pcount_holes parts) (List.length args))); [carry|].
    destruct parts as [|t parts']; [carry|].
    apply carries_pjoin_parts; [assumption | assumption |].
    apply carries_plist_parts; [assumption|].
    apply Forall_rev. apply Forall_map.
    apply (Forall_by_parts _ _ K _ tpl_positions_of args); [|assumption].
    apply (Forall_by_parts _ _ K _ src_positions_of args); [|assumption].
    eapply Forall_impl; [|exact IHargs]. intros a Ha. exact (Ha K).
  - (* format, single form *)
    intros p tpl parts arg IHparts IHarg. solveB.
    apply carries_pjoin_parts; [assumption | apply K_pos_of; assumption |].
    apply Forall_rev. apply carries_ppart_codes; assumption.
  - (* func *)
    intros p ps body IHbody. solveB.
    apply Forall_flat_map. apply Forall_forall. intros q Hq.
    assert (Hpp : K (fst q)) by (apply (proj1 (Forall_forall K (map fst ps))); [assumption | now apply in_map]).
    carry.
  - (* select *)
    intros p ve dflt arms IHve IHdflt IHarms. destruct dflt as [de|]; unfold opt_positions; simpl in IHdflt; solveB;
      (apply carries_psel_arms; [assumption | apply (arm_ok_parms _ arms IHarms); assumption | carry]).
  - (* module *)
    intros p ps out body IHps IHout IHbody. destruct out as [oe|]; unfold opt_positions; simpl in IHout; solveB;
      (apply (carries_flat_map _ _ ptr_stmt src_positions_of_stmt tpl_positions_of_stmt); [|assumption|assumption];
       eapply Forall_impl; [|exact IHbody]; intros s Hs; apply Hs).
  - intros s. exact I.
  - exact I.
Qed.

Lemma Forall_In_self : forall (A : Type) (l l' : list A), incl l l' -> Forall (fun q => In q l') l.
Proof. intros A l l' H. apply Forall_forall. exact H. Qed.

Theorem ptranslate_expr_positions : forall e,
  Forall (fun x => In (snd x) (positions_of e)) (ptranslate_expr e).
Proof.
  intros e. apply (proj1 ptr_positions_all e (fun q => In q (positions_of e))); apply Forall_In_self.
  - apply incl_appl, incl_refl.
  - apply incl_appr, incl_refl.
Qed.

(* every op of a statement carries the position of a node / token of THAT statement *)
Theorem ptranslate_positions_from_statement : forall s,
  Forall (fun x => In (snd x) (positions_of_stmt s)) (ptranslate_stmt s).
Proof.
  intros s. apply (proj2 (proj2 ptr_positions_all) s (fun q => In q (positions_of_stmt s))); apply Forall_In_self.
  - apply incl_appl, incl_refl.
  - apply incl_appr, incl_refl.
Qed.

(* finer: a position of a node of the file's parser, or of a node the template parser made for one of the
   `@{...}` expressions of the statement *)
Theorem ptranslate_positions_src_or_template : forall s,
  Forall (fun x => In (snd x) (src_positions_of_stmt s) \/ In (snd x) (tpl_positions_of_stmt s)) (ptranslate_stmt s).
Proof.
  intros s.
  apply (proj2 (proj2 ptr_positions_all) s (fun q => In q (src_positions_of_stmt s) \/ In q (tpl_positions_of_stmt s)));
    apply Forall_forall; intros q Hq; [left | right]; exact Hq.
Qed.

Theorem ptranslate_app : forall p1 p2, ptranslate (p1 ++ p2) = ptranslate p1 ++ ptranslate p2.
Proof. intros. apply flat_map_app. Qed.

Corollary ptranslate_cons : forall s p, ptranslate (s :: p) = ptranslate_stmt s ++ ptranslate p.
Proof. reflexivity. Qed.

(* the ops of one statement inside the ops of the program *)
Lemma ptranslate_around : forall p1 s p2,
  ptranslate (p1 ++ [s] ++ p2) = ptranslate p1 ++ ptranslate_stmt s ++ ptranslate p2.
Proof. intros p1 s p2. rewrite !ptranslate_app. simpl. now rewrite app_nil_r. Qed.

Lemma ptranslate_nth_stmt : forall p1 s p2 i x,
  List.length (ptranslate p1) <= i < List.length (ptranslate p1) + List.length (ptranslate_stmt s) ->
  nth_error (ptranslate (p1 ++ [s] ++ p2)) i = Some x ->
  nth_error (ptranslate_stmt s) (i - List.length (ptranslate p1)) = Some x.
Proof.
  intros p1 s p2 i x [Hlo Hhi] E. rewrite ptranslate_around, nth_error_app2 in E by exact Hlo.
  rewrite nth_error_app1 in E by lia. exact E.
Qed.

(* the op list of a program is the concatenation of the op lists of its statements, and every op of it
   carries a position of the statement it belongs to *)
Theorem ptranslate_positions_program : forall p,
  Forall (fun x => exists s, In s p /\ In x (ptranslate_stmt s) /\ In (snd x) (positions_of_stmt s)) (ptranslate p).
Proof.
  intros p. apply Forall_forall. intros x Hx. unfold ptranslate in Hx. apply in_flat_map in Hx.
  destruct Hx as [s [Hs Hxs]]. exists s. split; [exact Hs|]. split; [exact Hxs|].
  exact (proj1 (Forall_forall _ _) (ptranslate_positions_from_statement s) x Hxs).
Qed.

Theorem ops_point_into_their_statement : forall s lo hi, stmt_in_span s lo hi ->
  Forall (fun x => (lo <= line (snd x) <= hi)%N) (ptranslate_stmt s).
Proof.
  intros s lo hi Hspan. eapply Forall_impl; [|apply (ptranslate_positions_from_statement s)].
  intros x H. exact (proj1 (Forall_forall _ _) Hspan (snd x) H).
Qed.

(* renaming: renaming the positions of the AST renames the positions of the ops, and nothing else *)

Definition mp (f : pos -> pos) (c : pops) : pops := map (fun x => (fst x, f (snd x))) c.
#[local] Arguments mp : simpl never.

Lemma mp_nil : forall f, mp f [] = [].
Proof. reflexivity. Qed.
Lemma mp_app : forall f a c, mp f (a ++ c) = mp f a ++ mp f c.
Proof. intros; apply map_app. Qed.
Lemma mp_cons : forall f i p c, mp f ((i, p) :: c) = (i, f p) :: mp f c.
Proof. reflexivity. Qed.
Lemma mp_length : forall f c, List.length (mp f c) = List.length c.
Proof. intros; apply map_length. Qed.
Lemma mp_flat_map : forall (A B : Type) f (h : A -> pops) (h' : B -> pops) (m : A -> B) (l : list A),
  Forall (fun a => h' (m a) = mp f (h a)) l -> flat_map h' (map m l) = mp f (flat_map h l).
Proof. intros A B f h h' m l H. induction H as [|a l Ha Hl IH]; simpl; [reflexivity|]. now rewrite mp_app, Ha, IH. Qed.

Lemma pos_of_map_pos : forall f g e, pos_of (map_pos f g e) = f (pos_of e).
Proof. destruct e; reflexivity. Qed.

Lemma mp_at_pos : forall f p is, mp f (at_pos p is) = at_pos (f p) is.
Proof. intros f p is. unfold mp, at_pos. rewrite map_map. reflexivity. Qed.

Lemma mp_ext_carries : forall f g c, carries (fun q => g q = f q) c -> mp g c = mp f c.
Proof.
  intros f g c H. unfold mp. apply map_ext_Forall. eapply Forall_impl; [|exact H].
  intros [i q] Hq. simpl in *. now rewrite Hq.
Qed.

(* what the translator looks at in an operand of IN or DOT does not depend on positions *)
Lemma is_psym_map_pos : forall f g e, is_psym (map_pos f g e) = is_psym e.
Proof. destruct e; reflexivity. Qed.
Lemma pdot_general_map_pos : forall f g e, pdot_general (map_pos f g e) = pdot_general e.
Proof. destruct e; reflexivity. Qed.
Lemma psel_map_pos : forall f g e, psel (map_pos f g e) = psel e.
Proof. destruct e; reflexivity. Qed.

(* [g] and [f] agree on the positions inside the `@{...}` expressions of the node *)
Definition PE (e : pexpr) : Prop :=
  forall f g, Forall (fun q => g q = f q) (tpl_positions_of e) -> ptr (map_pos f g e) = mp f (ptr e).
Definition RE (t : ptpart) : Prop := match t with PPExpr pe => PE pe | _ => True end.
Definition QE (s : pstmt) : Prop :=
  forall f g, Forall (fun q => g q = f q) (tpl_positions_of_stmt s) ->
              ptr_stmt (map_pos_stmt f g s) = mp f (ptr_stmt s).

Lemma mp_flat_map_ext : forall (A : Type) f g (h : A -> pops) (m : A -> A) (tp : A -> list pos) (l : list A),
  Forall (fun a => Forall (fun q : pos => g q = f q) (tp a) -> h (m a) = mp f (h a)) l ->
  Forall (fun q => g q = f q) (flat_map tp l) -> flat_map h (map m l) = mp f (flat_map h l).
Proof. intros A f g h m tp l H Hg. apply mp_flat_map. exact (Forall_by_parts _ _ _ _ tp l H Hg). Qed.

Lemma mp_pfields : forall f g fs, Pfields PE fs -> Forall (fun q => g q = f q) (flat_map tplf fs) ->
  pfields ptr (map_pos_fields f g fs) = mp f (pfields ptr fs).
Proof.
  intros f g fs H. unfold pfields, map_pos_fields. apply mp_flat_map_ext.
  eapply Forall_impl; [|exact H]. intros [[kp k] e] He Hg. simpl in *.
  now rewrite (He f g Hg), mp_cons, mp_app.
Qed.

Lemma mp_pelems : forall f g es, Forall PE es -> Forall (fun q => g q = f q) (flat_map tpl_positions_of es) ->
  pelems ptr (map (map_pos f g) es) = mp f (pelems ptr es).
Proof.
  intros f g es H. unfold pelems. apply mp_flat_map_ext.
  eapply Forall_impl; [|exact H]. intros e He Hg. now rewrite (He f g Hg), pos_of_map_pos, mp_app.
Qed.

Lemma mp_pargs : forall f g es, Forall PE es -> Forall (fun q => g q = f q) (flat_map tpl_positions_of es) ->
  pargs ptr (map (map_pos f g) es) = mp f (pargs ptr es).
Proof.
  intros f g es H. unfold pargs. apply mp_flat_map_ext.
  eapply Forall_impl; [|exact H]. intros e He Hg. exact (He f g Hg).
Qed.

Lemma mp_pcopy_code : forall f p c, pcopy_code (f p) (mp f c) = mp f (pcopy_code p c).
Proof. intros. unfold pcopy_code. now rewrite !mp_cons, mp_app. Qed.

Definition mp_arm (f : pos -> pos) (a : pos * bytes * pops * pos) : pos * bytes * pops * pos :=
  let '(kp, k, c, ep) := a in (f kp, k, mp f c, f ep).

Lemma mp_psel_arms : forall f p arms d,
  psel_arms (f p) (map (mp_arm f) arms) (mp f d) = mp f (psel_arms p arms d).
Proof.
  intros f p arms d. induction arms as [|[[[kp k] c] ep] arms IH]; simpl.
  - now rewrite mp_cons.
  - rewrite !mp_cons, mp_app, mp_cons, IH, !mp_length. reflexivity.
Qed.

Lemma mp_parms : forall f g arms, Pfields PE arms -> Forall (fun q => g q = f q) (flat_map tplf arms) ->
  parms ptr (map_pos_fields f g arms) = map (mp_arm f) (parms ptr arms).
Proof.
  intros f g arms H. unfold parms, map_pos_fields. induction H as [|[[kp k] e] fs He Hfs IH]; intros Hg; simpl in *.
  - reflexivity.
  - split_pos. now rewrite pos_of_map_pos, (He f g), IH.
Qed.

Lemma mp_pjoin_parts : forall f pe pa codes,
  pjoin_parts (f pe) (f pa) (map (mp f) codes) = mp f (pjoin_parts pe pa codes).
Proof.
  intros f pe pa [|c cs]; unfold pjoin_parts; simpl; [reflexivity|].
  rewrite mp_app. f_equal. apply mp_flat_map. apply Forall_forall. intros a _. now rewrite mp_app.
Qed.

Lemma mp_plist_parts : forall f g p parts args,
  plist_parts (f p) (map (map_pos_part g) parts) (map (mp f) args) = map (mp f) (plist_parts p parts args).
Proof.
  intros f g p parts. induction parts as [|t ps IH]; intros args; simpl; [reflexivity|].
  destruct t as [s| |pe]; simpl.
  - now rewrite IH.
  - destruct args as [|a args']; simpl.
    + now rewrite <- (IH []).
    + now rewrite IH, mp_app.
  - now rewrite IH.
Qed.

Lemma pcount_holes_map_pos : forall g parts, pcount_holes (map (map_pos_part g) parts) = pcount_holes parts.
Proof.
  unfold pcount_holes. induction parts as [|t ps IH]; simpl; [reflexivity|].
  destruct t; simpl; now rewrite ?IH.
Qed.

(* a template expression is renamed by [g] throughout; by provenance ([ptr_positions_all]) its ops carry positions of the expression, on all of
   which [g] agrees with [f] *)
Lemma mp_ppart_codes : forall f g p parts, Forall RE parts ->
  Forall (fun q => g q = f q) (flat_map tpl_part_positions parts) ->
  ppart_codes ptr (f p) (map (map_pos_part g) parts) = map (mp f) (ppart_codes ptr p parts).
Proof.
  intros f g p parts H. unfold ppart_codes. induction H as [|t ps Ht Hps IH]; intros Hg; simpl in *; [reflexivity|].
  split_pos. rewrite IH by assumption. f_equal.
  destruct t as [s| |pe]; simpl in *; try reflexivity. split_pos.
  rewrite mp_app, (Ht g g) by (apply Forall_forall; reflexivity). f_equal.
  apply mp_ext_carries. apply (proj1 ptr_positions_all pe); assumption.
Qed.

Ltac mp_norm := repeat (rewrite mp_app || rewrite mp_cons || rewrite mp_nil).
Ltac useE :=
  repeat match goal with
         | IH : PE ?x |- context [ptr (map_pos ?f ?g ?x)] => rewrite (IH f g) by assumption
         end.
(* a clause that is written out: split the hypothesis on the template positions, unfold the clause on both sides, use
   the induction hypotheses, push [mp] through *)
Ltac solveE :=
  let Hg := fresh "Hg" in
  intros ? ? Hg; simpl in Hg; split_pos; simpl; rewrite ?pos_of_map_pos, ?map_length; useE; rewrite ?mp_length; mp_norm;
  reflexivity.

Lemma ptr_map_pos_all : (forall e, PE e) /\ (forall t, RE t) /\ (forall s, QE s).
Proof.
  (* literals, and the nodes and statements whose code is written out in the clause *)
  apply pexpr_mutind; try (intros; plain_node; solveE; fail).
  - (* tuple *)
    intros p fs IHfs f g Hg. simpl in *. fold (map_pos_fields f g fs). rewrite (mp_pfields f g fs IHfs Hg). reflexivity.
  - (* list *)
    intros p es IHes f g Hg. simpl in *. rewrite (mp_pelems f g es IHes Hg). reflexivity.
  - (* binary *)
    intros p o l r IHl IHr IHdeep f g Hg. simpl in Hg. split_pos. cbn [map_pos].
    destruct (plain_ops o) as [is|] eqn:Eo.
    { rewrite !(ptr_plain _ _ _ _ _ Eo). useE. now rewrite !mp_app, mp_at_pos. }
    destruct (not_plain o Eo) as [->|[->|[->| ->]]].
    + simpl. useE. now rewrite mp_length, mp_app, mp_cons.
    + simpl. useE. now rewrite mp_length, mp_app, mp_cons.
    + (* IN *)
      destruct (is_psym l) eqn:El.
      * destruct (is_psym_true l El) as (lp & x & ->). simpl. rewrite pos_of_map_pos. useE. mp_norm. reflexivity.
      * rewrite !ptr_in by (rewrite ?is_psym_map_pos; exact El). useE. mp_norm. reflexivity.
    + (* DOT *)
      destruct (pdot_general r) eqn:Er.
      { rewrite !ptr_dot_general by (rewrite ?pdot_general_map_pos; exact Er). useE. mp_norm. reflexivity. }
      destruct (pdot_special r Er) as [(sp & k & ->)|[(cp & sel & fs & ->)|(cp & fn & args & ->)]].
      * simpl. useE. mp_norm. reflexivity.
      * destruct IHdeep as [_ IHfs]. simpl in * |-. split_pos. cbn [map_pos]. fold (map_pos_fields f g fs).
        rewrite !ptr_dot_copy, psel_map_pos, pos_of_map_pos, (mp_pfields f g fs IHfs) by assumption.
        destruct (psel sel); [|reflexivity]. useE. mp_norm. now rewrite mp_pcopy_code.
      * destruct IHdeep as [_ IHargs]. simpl in * |-. split_pos. cbn [map_pos].
        rewrite !ptr_dot_call, psel_map_pos, pos_of_map_pos, map_length, (mp_pargs f g args IHargs) by assumption.
        destruct (psel fn); [|reflexivity]. useE. mp_norm. reflexivity.
  - (* copy *)
    intros p t fs IHt IHfs f g Hg. simpl in *. split_pos. fold (map_pos_fields f g fs).
    rewrite (mp_pfields f g fs IHfs) by assumption. useE. mp_norm. rewrite mp_pcopy_code. reflexivity.
  - (* range *)
    intros p st stp en IHst IHstp IHen. destruct stp as [s|]; unfold opt_positions; simpl in IHstp; solveE.
  - (* format, list form *)
    intros p parts args IHparts IHargs f g Hg. simpl in Hg. simpl.
    fold (map_pos_part g). rewrite pcount_holes_map_pos, map_length.
    destruct (negb (Nat.eqb (pcount_holes parts) (List.length args))); [reflexivity|].
    destruct parts as [|t parts']; [reflexivity|].
    change (map (map_pos_part g) (t :: parts')) with (map_pos_part g t :: map (map_pos_part g) parts').
    cbv iota.
    change (map_pos_part g t :: map (map_pos_part g) parts') with (map (map_pos_part g) (t :: parts')).
    rewrite <- mp_pjoin_parts, <- (mp_plist_parts f g), !map_rev. f_equal. f_equal. f_equal.
    rewrite !map_map. apply map_ext_Forall.
    apply (Forall_by_parts _ _ (fun q => g q = f q) _ tpl_positions_of args); [|exact Hg].
    eapply Forall_impl; [|exact IHargs]. intros a Ha. exact (Ha f g).
  - (* format, single form *)
    intros p tpl parts arg IHparts IHarg f g Hg. simpl in Hg. split_pos. simpl. fold (map_pos_part g).
    rewrite pos_of_map_pos. rewrite (mp_ppart_codes f g p parts IHparts) by assumption.
    rewrite <- map_rev, mp_pjoin_parts. useE.
    rewrite !app_length. simpl. rewrite !app_length, !mp_length. mp_norm. reflexivity.
  - (* call *)
    intros p fn args IHfn IHargs f g Hg. simpl in Hg. split_pos. simpl.
    rewrite (mp_pargs f g args IHargs) by assumption. rewrite pos_of_map_pos, map_length. useE. mp_norm. reflexivity.
  - (* func *)
    intros p ps body IHbody f g Hg. simpl in Hg. simpl. useE. rewrite mp_length. mp_norm.
    f_equal. f_equal. apply mp_flat_map. apply Forall_forall. reflexivity.
  - (* select *)
    intros p ve dflt arms IHve IHdflt IHarms f g Hg.
    destruct dflt as [de|]; unfold opt_positions in Hg; simpl in IHdflt, Hg; split_pos; simpl; fold (map_pos_fields f g arms);
      rewrite (mp_parms f g arms IHarms) by assumption; rewrite ?pos_of_map_pos; mp_norm; rewrite <- mp_psel_arms; useE;
      reflexivity.
  - (* module *)
    intros p ps out body IHps IHout IHbody f g Hg.
    assert (Hbody : Forall (fun q => g q = f q) (flat_map tpl_positions_of_stmt body) ->
                    flat_map ptr_stmt (map (map_pos_stmt f g) body) = mp f (flat_map ptr_stmt body)).
    { apply mp_flat_map_ext. eapply Forall_impl; [|exact IHbody]. intros s Hs. apply Hs. }
    destruct out as [oe|]; unfold opt_positions in Hg; simpl in IHout, Hg |- *; split_pos; fold (map_pos_fields f g ps);
      rewrite (mp_pfields f g ps IHps), Hbody, ?pos_of_map_pos by assumption; useE;
      rewrite !app_length, !mp_length; mp_norm; reflexivity.
  - intros s. exact I.
  - exact I.
Qed.

Theorem ptranslate_expr_map_pos : forall f g e,
  (forall q, In q (tpl_positions_of e) -> g q = f q) ->
  ptranslate_expr (map_pos f g e) = map (fun x => (fst x, f (snd x))) (ptranslate_expr e).
Proof. intros f g e Hg. apply (proj1 ptr_map_pos_all e f g). apply Forall_forall. exact Hg. Qed.

Theorem ptranslate_stmt_map_pos : forall f g s,
  (forall q, In q (tpl_positions_of_stmt s) -> g q = f q) ->
  ptranslate_stmt (map_pos_stmt f g s) = map (fun x => (fst x, f (snd x))) (ptranslate_stmt s).
Proof. intros f g s Hg. apply (proj2 (proj2 ptr_map_pos_all) s f g). apply Forall_forall. exact Hg. Qed.

(* general form: [f] on the positions of the file, [g] on the template-relative positions *)
Theorem ptranslate_map_pos : forall f g p,
  (forall q, In q (flat_map tpl_positions_of_stmt p) -> g q = f q) ->
  ptranslate (map (map_pos_stmt f g) p) = map (fun x => (fst x, f (snd x))) (ptranslate p).
Proof.
  intros f g p Hg. unfold ptranslate. apply (mp_flat_map_ext _ f g ptr_stmt _ tpl_positions_of_stmt).
  - apply Forall_forall. intros s _. exact (proj2 (proj2 ptr_map_pos_all) s f g).
  - apply Forall_forall. exact Hg.
Qed.

Corollary ptranslate_map_pos_uniform : forall f p,
  ptranslate (map (map_pos_stmt f f) p) = map (fun x => (fst x, f (snd x))) (ptranslate p).
Proof. intros f p. apply ptranslate_map_pos. reflexivity. Qed.

(* k more lines in front of a program move the position of every op down by exactly k lines, keep every
   column and change nothing else *)
Theorem ptranslate_shift : forall k p,
  ptranslate (map (shift_stmt k) p) = map (fun x => (fst x, shift_pos k (snd x))) (ptranslate p).
Proof. intros k p. unfold shift_stmt. apply ptranslate_map_pos_uniform. Qed.

Corollary ptranslate_shift_lines : forall k p,
  map (fun x => line (snd x)) (ptranslate (map (shift_stmt k) p)) = map (fun x => (line (snd x) + k)%N) (ptranslate p)
  /\ map (fun x => col (snd x)) (ptranslate (map (shift_stmt k) p)) = map (fun x => col (snd x)) (ptranslate p)
  /\ map fst (ptranslate (map (shift_stmt k) p)) = map fst (ptranslate p).
Proof. intros k p. rewrite ptranslate_shift, !map_map. repeat split. Qed.

(* erasing forgets any renaming of positions *)
Definition PM (e : pexpr) : Prop := forall f g, erase (map_pos f g e) = erase e.
Definition RM (t : ptpart) : Prop := forall g, erase_part (map_pos_part g t) = erase_part t.
Definition QM (s : pstmt) : Prop := forall f g, erase_stmt (map_pos_stmt f g s) = erase_stmt s.

Lemma erase_map_pos_fields : forall f g fs, Pfields PM fs -> erase_fields (map_pos_fields f g fs) = erase_fields fs.
Proof.
  intros f g fs H. unfold erase_fields, map_pos_fields. rewrite map_map. apply map_ext_Forall.
  eapply Forall_impl; [|exact H]. intros [[kp k] e] He. simpl in *. now rewrite (He f g).
Qed.

Lemma erase_map_pos_list : forall f g es, Forall PM es -> map erase (map (map_pos f g) es) = map erase es.
Proof.
  intros f g es H. rewrite map_map. apply map_ext_Forall. eapply Forall_impl; [|exact H].
  intros e He. apply He.
Qed.

Lemma erase_map_pos_parts : forall g parts, Forall RM parts ->
  map erase_part (map (map_pos_part g) parts) = map erase_part parts.
Proof.
  intros g parts H. rewrite map_map. apply map_ext_Forall. eapply Forall_impl; [|exact H].
  intros t Ht. apply Ht.
Qed.

Ltac solveM :=
  intros; simpl;
  repeat match goal with IH : forall f g, erase (map_pos f g ?x) = erase ?x |- _ => rewrite IH; clear IH end;
  reflexivity.

Lemma erase_map_pos_all : (forall e, PM e) /\ (forall t, RM t) /\ (forall s, QM s).
Proof.
  (* literals, and the nodes and statements without lists or options of parts *)
  apply pexpr_mutind; unfold PM, QM; try (solveM; fail).
  - (* tuple *) intros p fs IHfs f g. simpl. f_equal. exact (erase_map_pos_fields f g fs IHfs).
  - (* list *) intros p es IHes f g. simpl. f_equal. exact (erase_map_pos_list f g es IHes).
  - (* copy *) intros p t fs IHt IHfs f g. simpl. rewrite IHt. f_equal. exact (erase_map_pos_fields f g fs IHfs).
  - (* range *)
    intros p st stp en IHst IHstp IHen f g. simpl. rewrite IHst, IHen.
    destruct stp as [s|]; simpl in *; now rewrite ?IHstp.
  - (* format, list form *)
    intros p parts args IHparts IHargs f g. simpl. f_equal.
    + exact (erase_map_pos_parts g parts IHparts).
    + exact (erase_map_pos_list f g args IHargs).
  - (* format, single form *)
    intros p tpl parts arg IHparts IHarg f g. simpl. rewrite IHarg. f_equal. exact (erase_map_pos_parts g parts IHparts).
  - (* call *) intros p fn args IHfn IHargs f g. simpl. rewrite IHfn. f_equal. exact (erase_map_pos_list f g args IHargs).
  - (* func *) intros p ps body IHbody f g. simpl. rewrite IHbody, map_map. reflexivity.
  - (* select *)
    intros p ve dflt arms IHve IHdflt IHarms f g. simpl. rewrite IHve. f_equal.
    + destruct dflt as [de|]; simpl in *; now rewrite ?IHdflt.
    + exact (erase_map_pos_fields f g arms IHarms).
  - (* module *)
    intros p ps out body IHps IHout IHbody f g. simpl. f_equal.
    + exact (erase_map_pos_fields f g ps IHps).
    + destruct out as [oe|]; simpl in *; now rewrite ?IHout.
    + rewrite map_map. apply map_ext_Forall. eapply Forall_impl; [|exact IHbody]. intros s Hs. apply Hs.
  - intros s g. reflexivity.
  - intros g. reflexivity.
  - (* template expression *) intros e IHe g. simpl. now rewrite IHe.
Qed.

Theorem erase_map_pos_stmt : forall f g s, erase_stmt (map_pos_stmt f g s) = erase_stmt s.
Proof. intros f g s. exact (proj2 (proj2 erase_map_pos_all) s f g). Qed.

(* whatever the program contains, moving it down changes no op *)
Corollary ptranslate_shift_ops : forall k p, map fst (ptranslate (map (shift_stmt k) p)) = map fst (ptranslate p).
Proof.
  intros k p. rewrite !ptranslate_erase. f_equal. rewrite map_map. apply map_ext_Forall.
  apply Forall_forall. intros s _. apply erase_map_pos_stmt.
Qed.

(* function and module bodies: the body is translated inline, right after the Func / Module op, and its ops
   carry positions of the DEFINING statement (the primary position of a fault raised while the body runs lies in
   the statement that defines the function; the call site is what the error chain reports as VIA) *)

Corollary func_body_ops_carry_positions_of_the_defining_statement : forall p np name fp ps body,
  let s := PSLet p np name (PEFunc fp ps body) in
  ptranslate_stmt s =
    (ISym name, np) :: (IInitList, fp)
      :: flat_map (fun q => [(ISym (snd q), fst q); (IElement, fst q)]) ps
      ++ (IFunc (S (List.length (ptranslate_expr body))), fp) :: ptranslate_expr body ++ [(IReturn, fp); (IBind, p)]
  /\ Forall (fun x => In (snd x) (positions_of_stmt s)) (ptranslate_expr body)
  /\ (forall lo hi, stmt_in_span s lo hi -> Forall (fun x => (lo <= line (snd x) <= hi)%N) (ptranslate_expr body)).
Proof.
  intros p np name fp ps body s.
  assert (Hbody : Forall (fun x => In (snd x) (positions_of_stmt s)) (ptranslate_expr body)).
  { eapply Forall_impl; [|exact (ptranslate_expr_positions body)].
    intros x Hx. unfold positions_of in Hx. unfold s, positions_of_stmt. simpl.
    rewrite !in_app_iff in *. tauto. }
  split; [|split].
  - unfold s, ptranslate_stmt, ptranslate_expr. simpl. repeat (rewrite <- app_assoc; simpl). reflexivity.
  - exact Hbody.
  - intros lo hi Hspan. eapply Forall_impl; [|exact Hbody].
    intros x Hx. exact (proj1 (Forall_forall _ _) Hspan (snd x) Hx).
Qed.

Corollary module_body_ops_carry_positions_of_the_defining_statement : forall p np name mp0 ps out body,
  let s := PSLet p np name (PEModule mp0 ps out body) in
  (exists pre, ptranslate_stmt s =
     pre ++ (IModule (S (List.length (ptranslate body) + 1)), mp0) :: (IBind, mp0)
         :: ptranslate body ++ [(IReturn, mp0); (IBind, p)])
  /\ Forall (fun x => In (snd x) (positions_of_stmt s)) (ptranslate body)
  /\ (forall lo hi, stmt_in_span s lo hi -> Forall (fun x => (lo <= line (snd x) <= hi)%N) (ptranslate body)).
Proof.
  intros p np name mp0 ps out body s.
  assert (Hbody : Forall (fun x => In (snd x) (positions_of_stmt s)) (ptranslate body)).
  { apply Forall_forall. intros x Hx. unfold ptranslate in Hx. apply in_flat_map in Hx. destruct Hx as [st [Hst Hx]].
    pose proof (proj1 (Forall_forall _ _) (ptranslate_positions_src_or_template st) x Hx) as H.
    unfold s, positions_of_stmt. simpl. rewrite !in_app_iff. destruct H as [H|H].
    - assert (Hin : In (snd x) (flat_map src_positions_of_stmt body)) by (apply in_flat_map; exists st; now split).
      tauto.
    - assert (Hin : In (snd x) (flat_map tpl_positions_of_stmt body)) by (apply in_flat_map; exists st; now split).
      tauto. }
  split; [|split].
  - exists ((ISym name, np) :: (IInitTuple, mp0) :: pfields ptr ps ++
            match out with
            | Some oe => (IInitThunk (S (List.length (ptr oe))), pos_of oe) :: ptr oe ++ [(IReturn, pos_of oe)]
            | None => []
            end).
    unfold s, ptranslate_stmt, ptranslate. simpl. rewrite app_length. simpl.
    repeat (rewrite <- app_assoc; simpl). reflexivity.
  - exact Hbody.
  - intros lo hi Hspan. eapply Forall_impl; [|exact Hbody].
    intros x Hx. exact (proj1 (Forall_forall _ _) Hspan (snd x) Hx).
Qed.
