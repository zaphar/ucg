(* The invariant behind provenance and locality: where the positions in the machine state come from.
   Three classes of positions, X <= U <= N:
     X  positions allowed on the value stack of the frame under consideration (and for the ops it executes),
     U  positions allowed on the value stack of any frame (the positions of the ops of the code),
     N  positions allowed INSIDE values and on bindings / the self stack (U plus the dummy of the `env` tuple).
   (A module's out-expression hands its result back at the position of the instantiation (/repo commit 5138c88), so no
   position of another frame ever reaches a frame's stack.)
   One step of the machine preserves "the state is made of such positions" and an error it raises satisfies
   [err_ok]:  without VIA entries the primary position is in X, except for the kinds that read a position stored
   inside a value (KReservedArg, KFieldType: N) or report a callback's result (KMapTuple, KMapStr: U);  with VIA
   entries the outermost one (the call site in THIS frame) is in X, everything else in U. *)
From Ucg Require Import pos.PVm pos.PVm_Run.

#[local] Arguments p_symbols_to_tuple : simpl never.

(* The section variables come in as they are needed; once the section is closed the notions read
     vok fo N v    eok fo N X e    bok fo N kv    stok fo N X st
     qok U N X e q    err_ok U N X e q via    out_ok U N X P r
   ([N] is the class of positions, not the type of numbers, throughout). *)
Section Inv.
  Variable fo : float_ops.
  Notation pval := (pval fo).
  Notation pentry := (pentry fo).
  Notation pfield := (pfield fo).
  Notation psymtab := (psymtab fo).
  Notation pstate := (pstate fo).

  Variables U N : pos -> Prop.
  Hypothesis HUN : forall q, U q -> N q.

  (* every position inside the value is in N *)
  Fixpoint vok (v : pval) : Prop :=
    match v with
    | QList l =>
      (fix go (l : list (pval * pos)) : Prop :=
         match l with [] => True | e :: l' => (vok (fst e) /\ N (snd e)) /\ go l' end) l
    | QTuple fs =>
      (fix go (l : list (bytes * (pval * (pos * pos)))) : Prop :=
         match l with
         | [] => True
         | kv :: l' => (vok (fst (snd kv)) /\ N (fst (snd (snd kv))) /\ N (snd (snd (snd kv)))) /\ go l'
         end) fs
    | QFunc _ _ snap =>
      (fix go (l : list (bytes * (pval * pos))) : Prop :=
         match l with [] => True | kv :: l' => (vok (fst (snd kv)) /\ N (snd (snd kv))) /\ go l' end) snap
    | QMod _ _ fs =>
      (fix go (l : list (bytes * (pval * (pos * pos)))) : Prop :=
         match l with
         | [] => True
         | kv :: l' => (vok (fst (snd kv)) /\ N (fst (snd (snd kv))) /\ N (snd (snd (snd kv)))) /\ go l'
         end) fs
    | _ => True
    end.

  Definition eok (X : pos -> Prop) (e : pentry) : Prop := vok (fst e) /\ X (snd e).
  Definition fok (kv : pfield) : Prop := vok (fst (snd kv)) /\ N (fst (snd (snd kv))) /\ N (snd (snd (snd kv))).
  Definition bok (kv : bytes * pentry) : Prop := eok N (snd kv).

  (* the conjunctions inside [vok] are [Forall]s *)
  Lemma all_Forall : forall (A : Type) (P : A -> Prop) l,
    (fix go (l : list A) : Prop := match l with [] => True | x :: l' => P x /\ go l' end) l <-> Forall P l.
  Proof.
    intros A P l. induction l as [|x l IH]; [split; intros _; [constructor|exact I]|].
    rewrite Forall_cons_iff, <- IH. reflexivity.
  Qed.
  Lemma vok_list : forall l, vok (QList l) <-> Forall (eok N) l.
  Proof. intros l. exact (all_Forall _ (eok N) l). Qed.
  Lemma vok_tuple : forall fs, vok (QTuple fs) <-> Forall fok fs.
  Proof. intros fs. exact (all_Forall _ fok fs). Qed.
  Lemma vok_mod : forall ptr rp fs, vok (QMod ptr rp fs) <-> Forall fok fs.
  Proof. intros ptr rp fs. exact (all_Forall _ fok fs). Qed.
  Lemma vok_func : forall ptr bs snap, vok (QFunc ptr bs snap) <-> Forall bok snap.
  Proof. intros ptr bs snap. exact (all_Forall _ bok snap). Qed.
  #[local] Opaque vok.
  Lemma vok_scalar : forall v, match v with QList _ | QTuple _ | QFunc _ _ _ | QMod _ _ _ => False | _ => True end -> vok v.
  Proof. Transparent vok. intros v H. destruct v; simpl; try exact I; contradiction. Opaque vok. Qed.
  Lemma vok_inj : forall w : wval fo, vok (inj w).
  Proof. intros w. apply vok_scalar. destruct w; exact I. Qed.

  Definition stok (X : pos -> Prop) (st : pstate) : Prop :=
    Forall (eok X) (pstk st) /\ Forall bok (psyms st) /\ Forall (eok N) (pselfs st).

  Definition nested_kind (e : ekind) : Prop := e = KReservedArg \/ e = KFieldType.
  Definition result_kind (e : ekind) : Prop := e = KMapTuple \/ e = KMapStr.
  Definition qok (X : pos -> Prop) (e : ekind) (q : pos) : Prop :=
    X q \/ (nested_kind e /\ N q) \/ (result_kind e /\ U q).
  Definition err_ok (X : pos -> Prop) (e : ekind) (q : pos) (via : list pos) : Prop :=
    match via with
    | [] => qok X e q
    | _ :: _ => qok U e q /\ Forall U via /\ X (last via q)
    end.
  Definition out_ok (X : pos -> Prop) {A : Type} (P : A -> Prop) (r : pout A) : Prop :=
    match r with POk a => P a | PErr e q via => err_ok X e q via | _ => True end.

  Lemma out_ok_bind : forall (X : pos -> Prop) (A B : Type) (PA : A -> Prop) (PB : B -> Prop) (r : pout A) (k : A -> pout B),
    out_ok X PA r -> (forall a, r = POk a -> PA a -> out_ok X PB (k a)) -> out_ok X PB (pbind r k).
  Proof.
    intros X A B PA PB r k Hr Hk. destruct r as [a|e q via| | |]; simpl; try exact I; [|exact Hr].
    apply Hk; [reflexivity|exact Hr].
  Qed.

  Lemma out_ok_weaken : forall (X : pos -> Prop) (A : Type) (P P' : A -> Prop) (r : pout A),
    (forall a, P a -> P' a) -> out_ok X P r -> out_ok X P' r.
  Proof. intros X A P P' r H Hr. destruct r; simpl in *; try exact I; [apply H; exact Hr|exact Hr]. Qed.

  Lemma qok_mono : forall (X Y : pos -> Prop) e q, (forall p, X p -> Y p) -> qok X e q -> qok Y e q.
  Proof. intros X Y e q H [Hx|Hr]; [left; apply H; exact Hx|right; exact Hr]. Qed.

  Lemma err_ok_mono : forall (X Y : pos -> Prop) e q via, (forall p, X p -> Y p) -> err_ok X e q via -> err_ok Y e q via.
  Proof.
    intros X Y e q via H He. destruct via as [|v via]; simpl in *; [exact (qok_mono X Y e q H He)|].
    destruct He as [Hq [Hv Hl]]. split; [exact Hq|]. split; [exact Hv|]. apply H. exact Hl.
  Qed.

  (* both forms of [err_ok] *)
  Lemma err_ok_parts : forall (X : pos -> Prop) e q via,
    (forall p, X p -> U p) -> err_ok X e q via -> qok U e q /\ Forall U via.
  Proof.
    intros X e q via HXU H. destruct via as [|v via]; simpl in H.
    - split; [exact (qok_mono X U e q HXU H)|constructor].
    - split; [exact (proj1 H)|exact (proj1 (proj2 H))].
  Qed.

  Lemma out_ok_mono : forall (X Y : pos -> Prop) (A : Type) (P : A -> Prop) (r : pout A),
    (forall p, X p -> Y p) -> out_ok X P r -> out_ok Y P r.
  Proof.
    intros X Y A P r H Hr. destruct r as [a|e q via| | |]; simpl in *; try exact I; [exact Hr|].
    exact (err_ok_mono X Y e q via H Hr).
  Qed.

  Lemma err_ok_nonempty : forall (X : pos -> Prop) e q via,
    via <> [] -> qok U e q /\ Forall U via /\ X (last via q) -> err_ok X e q via.
  Proof. intros X e q via Hne H. destruct via as [|v via]; [contradiction|exact H]. Qed.

  (* decorate_call!(fp => result of a callee frame): the call site becomes the outermost VIA entry *)
  Lemma out_ok_decorate : forall (X : pos -> Prop) (A : Type) (P : A -> Prop) fp (r : pout A),
    (forall p, X p -> U p) -> X fp -> out_ok U P r -> out_ok X P (decorate_call fp r).
  Proof.
    intros X A P fp r HXU Hfp Hr. destruct r as [a|e q via| | |]; simpl in *; try exact I; [exact Hr|].
    destruct (err_ok_parts U e q via (fun p H => H) Hr) as [Hq Hv].
    apply err_ok_nonempty; [destruct via; discriminate|].
    split; [exact Hq|]. split.
    - apply Forall_app. split; [exact Hv|constructor; [apply HXU; exact Hfp|constructor]].
    - rewrite last_last. exact Hfp.
  Qed.

  Lemma out_ok_pout_of : forall (X : pos -> Prop) (A : Type) (P : A -> Prop) k p (r : outcome A),
    X p -> (forall a, r = VOk a -> P a) -> out_ok X P (pout_of k p r).
  Proof.
    intros X A P k p r Hp H. destruct r; simpl; try exact I; [apply H; reflexivity|left; exact Hp].
  Qed.

  Variable X : pos -> Prop.
  Hypothesis HXU : forall q, X q -> U q.
  Lemma X_sub_N : forall q, X q -> N q.
  Proof. intros q H. apply HUN, HXU, H. Qed.

  Lemma eok_XN : forall e, eok X e -> eok N e.
  Proof. intros e [Hv Hp]. split; [exact Hv|apply X_sub_N; exact Hp]. Qed.
  Lemma eok_UN : forall e, eok U e -> eok N e.
  Proof. intros e [Hv Hp]. split; [exact Hv|apply HUN; exact Hp]. Qed.
  Lemma eok_XU : forall e, eok X e -> eok U e.
  Proof. intros e [Hv Hp]. split; [exact Hv|apply HXU; exact Hp]. Qed.

  (* a clause that pops: what follows is considered for an arbitrary top entry and rest of the stack *)
  Lemma pop_ok : forall (Y Z : pos -> Prop) (B : Type) (PB : B -> Prop) s (k : pentry * list pentry -> pout B),
    Forall (eok Y) s ->
    (forall e s1, eok Y e -> Forall (eok Y) s1 -> out_ok Z PB (k (e, s1))) ->
    out_ok Z PB (pbind (ppop fo s) k).
  Proof.
    intros Y Z B PB s k Hs Hk. destruct s as [|e s1]; [exact I|]. inversion Hs as [|x y He Hs1]. exact (Hk e s1 He Hs1).
  Qed.

  Lemma psym_get_ok : forall x (t : psymtab) e, Forall bok t -> psym_get x t = Some e -> eok N e.
  Proof.
    intros x t e Ht. induction t as [|[k e0] t IH]; simpl; [discriminate|].
    inversion Ht as [|y z Hb Ht']. destruct (bytes_eqb x k); [intros Heq; inversion Heq; subst; exact Hb|apply IH; exact Ht'].
  Qed.

  Lemma psym_add_ok : forall k (e : pentry) (t : psymtab), eok N e -> Forall bok t -> Forall bok (psym_add k e t).
  Proof.
    intros k e t He Ht. induction t as [|[k' w] t IH]; simpl; [constructor; [exact He|constructor]|].
    inversion Ht as [|y z Hb Ht'].
    destruct (bytes_ltb k k'); [constructor; [exact He|exact Ht]|].
    destruct (bytes_eqb k k'); [constructor; [exact He|exact Ht']|].
    constructor; [exact Hb|apply IH; exact Ht'].
  Qed.

  Variable PC : pops.
  Variable strict_ : bool.
  Variable envv : list (bytes * bytes).
  Variable envpos : pos.
  Hypothesis Henv : envv <> [] -> N envpos.

  Lemma env_tuple_ok : vok (env_tuple_p fo envv envpos).
  Proof.
    unfold env_tuple_p. apply vok_tuple. destruct envv as [|kv l] eqn:E; [constructor|].
    assert (Hn : N envpos) by (apply Henv; discriminate). rewrite <- E. clear E.
    induction envv as [|[k v] t IH]; simpl; constructor; [|exact IH].
    unfold fok. simpl. split; [apply vok_scalar; exact I|split; exact Hn].
  Qed.

  Lemma p_get_binding_ok : forall st name e,
    stok X st -> p_get_binding fo envv envpos st name = Some e -> vok (fst e).
  Proof.
    intros st name e [Hs [Hb Hf]] H. unfold p_get_binding in H.
    destruct (bytes_eqb name (b "self")).
    - destruct (pselfs st) as [|e0 l]; simpl in H; [discriminate|]. inversion H; subst.
      inversion Hf as [|y z He _]. exact (proj1 He).
    - destruct (bytes_eqb name (b "env")).
      + destruct (psym_get name (psyms st)) as [e0|] eqn:E.
        * inversion H; subst. exact (proj1 (psym_get_ok _ _ _ Hb E)).
        * inversion H; subst. simpl. exact env_tuple_ok.
      + exact (proj1 (psym_get_ok _ _ _ Hb H)).
  Qed.

  (* binding_push from op_bind: both positions come from the stack *)
  Lemma p_binding_push_ok : forall t name v sb p np,
    Forall bok t -> vok v -> X p -> X np ->
    out_ok X (Forall bok) (p_binding_push fo KReservedBind t name v sb p np).
  Proof.
    intros t name v sb p np Ht Hv Hp Hnp. unfold p_binding_push.
    destruct (vm_is_reserved name); [left; exact Hnp|].
    destruct (psym_bound name t && sb); [left; exact Hp|].
    simpl. apply psym_add_ok; [split; [exact Hv|apply X_sub_N; exact Hp]|exact Ht].
  Qed.

  (* binding_push from fcall_impl: the position is the argument's, which may come from inside a value *)
  Lemma p_binding_push_arg_ok : forall (Z : pos -> Prop) t name v vp,
    Forall bok t -> vok v -> N vp ->
    out_ok Z (Forall bok) (p_binding_push fo KReservedArg t name v false vp vp).
  Proof.
    intros Z t name v vp Ht Hv Hp. unfold p_binding_push.
    destruct (vm_is_reserved name); [right; left; split; [left; reflexivity|exact Hp]|].
    rewrite andb_false_r. simpl. apply psym_add_ok; [split; assumption|exact Ht].
  Qed.

  Lemma pfld_get_ok : forall k (fs : list pfield) v, Forall fok fs -> pfld_get fo k fs = Some v -> vok v.
  Proof.
    intros k fs v Hfs. induction fs as [|[k' [w pp]] fs IH]; simpl; [discriminate|].
    inversion Hfs as [|y z Hf Hfs']. destruct (bytes_eqb k' k); [intros Hsome; inversion Hsome; subst; exact (proj1 Hf)|apply IH; exact Hfs'].
  Qed.

  Lemma p_index_ok : forall safe l r rp p,
    vok l -> X rp -> X p -> out_ok X (eok X) (p_index fo safe l r rp p).
  Proof.
    intros safe l r rp p Hl Hrp Hp. unfold p_index.
    assert (Hmiss : out_ok X (eok X) (if safe then POk (QEmpty, p) else PErr KIndex p [])).
    { destruct safe; simpl; [split; [apply vok_scalar; exact I|exact Hp]|left; exact Hp]. }
    destruct r; try exact Hmiss.
    - destruct l; try exact Hmiss.
      destruct (Z.ltb z (Z.of_nat (List.length l)) && Z.leb 0 z); [|exact Hmiss].
      destruct (nth_error l (Z.to_nat z)) as [e|] eqn:E; simpl; [|exact I].
      apply nth_error_In in E. apply vok_list in Hl.
      split; [exact (proj1 (proj1 (Forall_forall _ _) Hl e E))|exact Hrp].
    - destruct l; try exact Hmiss.
      destruct (pfld_get fo s fs) as [v|] eqn:E; [|exact Hmiss]. simpl.
      split; [exact (pfld_get_ok _ _ _ (proj1 (vok_tuple fs) Hl) E)|exact Hrp].
  Qed.

  Lemma p_exist_ok : forall l r lp rp, X lp -> X rp -> out_ok X vok (p_exist fo l r lp rp).
  Proof.
    intros l r lp rp Hlp Hrp. unfold p_exist.
    destruct l; try (left; exact Hlp).
    - destruct r; simpl; apply vok_scalar; exact I.
    - eapply out_ok_bind; [apply (out_ok_pout_of X bool (fun _ => True)); [exact Hlp|intros; exact I]|].
      intros a _ _. simpl. apply vok_scalar; exact I.
    - destruct r; try (left; exact Hrp). simpl. apply vok_scalar; exact I.
  Qed.

  Lemma p_range_ok : forall a s z p, X p -> out_ok X vok (p_range fo a s z p).
  Proof.
    intros a s z p Hp. unfold p_range.
    assert (Herr : out_ok X vok (PErr KRange p [])) by (left; exact Hp).
    assert (Hlist : forall n a0 s0 z0, vok (QList (map (fun v : value fo => (match v with VInt _ n1 => QInt n1 | _ => QEmpty end, p))
                                                       (range_from fo n a0 s0 z0)))).
    { intros n a0 s0 z0. apply vok_list. apply Forall_forall. intros e He. apply in_map_iff in He.
      destruct He as [v [Hv _]]. subst e. split; [destruct v; apply vok_scalar; exact I|apply X_sub_N; exact Hp]. }
    destruct a; try exact Herr. destruct s; try exact Herr; (destruct z; try exact Herr).
    - destruct (Z.leb z1 0); [exact Herr|]. simpl. apply Hlist.
    - simpl. apply Hlist.
  Qed.

  Lemma p_merge_field_ok : forall (Z : pos -> Prop) (fs : list pfield) k np v vp,
    Forall fok fs -> vok v -> N np -> N vp -> out_ok Z (Forall fok) (p_merge_field fs k np v vp).
  Proof.
    intros Z fs k np v vp Hfs Hv Hnp Hvp. induction fs as [|[k' [w [np' vp']]] fs IH]; simpl.
    - constructor; [|constructor]. unfold fok. simpl. split; [exact Hv|split; assumption].
    - inversion Hfs as [|y z Hf Hfs']. destruct (bytes_eqb k' k).
      + destruct (pcompatible w v); simpl.
        * constructor; [|exact Hfs']. unfold fok in *. simpl in *. split; [exact Hv|split; [exact (proj1 (proj2 Hf))|exact Hvp]].
        * right; left. split; [right; reflexivity|exact Hvp].
      + eapply out_ok_bind; [apply IH; exact Hfs'|]. intros a _ Ha. simpl. constructor; [exact Hf|exact Ha].
  Qed.

  Lemma p_merge_fields_ok : forall (Z : pos -> Prop) (ov base : list pfield),
    Forall fok base -> Forall fok ov -> out_ok Z (Forall fok) (p_merge_fields base ov).
  Proof.
    intros Z ov. induction ov as [|[k [v [np vp]]] ov IH]; intros base Hb Ho; simpl; [exact Hb|].
    inversion Ho as [|y z Hf Ho']. unfold fok in Hf. simpl in Hf. destruct Hf as [Hv [Hnp Hvp]].
    eapply out_ok_bind; [apply p_merge_field_ok; assumption|]. intros a _ Ha. apply IH; assumption.
  Qed.

  Lemma arith_ok : forall o l r rp, vok l -> vok r -> X rp -> out_ok X vok (p_arith fo o l r rp).
  Proof.
    intros o l r rp Hl Hr Hrp. unfold p_arith.
    assert (Hgen : out_ok X vok (pdo w <- pout_of KArith rp (vm_arith fo o (erase_v l) (erase_v r)); POk (inj w))).
    { eapply out_ok_bind; [apply (out_ok_pout_of X _ (fun _ => True)); [exact Hrp|intros; exact I]|].
      intros a _ _. simpl. apply vok_inj. }
    destruct l; try exact Hgen. destruct r; try exact Hgen.
    destruct o; try (left; exact Hrp). simpl. apply vok_list. apply Forall_app.
    split; [exact (proj1 (vok_list _) Hl)|exact (proj1 (vok_list _) Hr)].
  Qed.

  Lemma Forall_skipn : forall (A : Type) (P : A -> Prop) n (l : list A), Forall P l -> Forall P (skipn n l).
  Proof.
    intros A P n. induction n as [|n IH]; intros l H; [exact H|]. destruct l as [|x l]; [constructor|].
    simpl. apply IH. inversion H; assumption.
  Qed.

  Section Nested.
    Variable run : pstate -> pout pstate.
    (* every frame: positions of the code *)
    Hypothesis HrunU : forall st0, stok U st0 -> out_ok U (stok U) (run st0).

    Lemma p_bind_args_ok : forall (Z : pos -> Prop) names s t,
      Forall (eok N) s -> Forall bok t ->
      out_ok Z (fun x : list pentry * psymtab => fst x = skipn (List.length names) s /\ Forall bok (snd x))
             (p_bind_args fo names s t).
    Proof.
      intros Z names. induction names as [|nm names IH]; intros s t Hs Ht; simpl; [split; [reflexivity|exact Ht]|].
      destruct s as [|[v vp] s']; simpl; [exact I|]. inversion Hs as [|y z [Hv Hp] Hs'].
      eapply out_ok_bind; [apply p_binding_push_arg_ok; assumption|]. intros t' _ Ht'. apply IH; assumption.
    Qed.

    (* a call: the callee's frame may belong to another class [Y] than the caller's *)
    Lemma p_fcall_impl_ok : forall (Y Z : pos -> Prop) (callee : pstate -> pout pstate) ptr bs snap s,
      Forall (eok N) s -> Forall bok snap ->
      (forall t, Forall bok t -> out_ok Z (stok Y) (callee {| ppc := S ptr; pstk := []; psyms := t; pselfs := [] |})) ->
      out_ok Z (fun x : pentry * list pentry => eok Y (fst x) /\ snd x = skipn (List.length bs) s)
             (p_fcall_impl fo callee ptr bs snap s).
    Proof.
      intros Y Z callee ptr bs snap s Hs Hsnap Hcallee. unfold p_fcall_impl.
      eapply out_ok_bind; [apply p_bind_args_ok; assumption|]. intros [s' t] _ [Hs' Ht]. simpl in Hs', Ht. simpl.
      eapply out_ok_bind; [exact (Hcallee t Ht)|]. intros fin _ [Hfs _].
      apply (pop_ok Y Z); [exact Hfs|]. intros e rest He _. simpl. split; [exact He|exact Hs'].
    Qed.

    Lemma callee_ok : forall ptr t, Forall bok t ->
      out_ok U (stok U) (run {| ppc := S ptr; pstk := []; psyms := t; pselfs := [] |}).
    Proof. intros ptr t Ht. apply HrunU. split; [constructor|split; [exact Ht|constructor]]. Qed.

    Lemma pwith_stk_ok : forall (Y : pos -> Prop) st s, stok Y st -> Forall (eok Y) s -> stok Y (pwith_stk fo st s).
    Proof. intros Y st s [_ [Hb Hf]] Hs. split; [exact Hs|split; assumption]. Qed.
    Lemma pnext_ok : forall (Y : pos -> Prop) st, stok Y st -> stok Y (pnext fo st).
    Proof. intros Y st H. exact H. Qed.
    Lemma ppush_next_ok : forall st s, stok X st -> Forall (eok X) s -> out_ok X (stok X) (ppush_next fo st s).
    Proof. intros st s Hst Hs. simpl. exact (pwith_stk_ok X st s Hst Hs). Qed.
    Lemma push1_ok : forall st v p s,
      stok X st -> vok v -> X p -> Forall (eok X) s -> out_ok X (stok X) (ppush_next fo st ((v, p) :: s)).
    Proof. intros st v p s Hst Hv Hp Hs. apply ppush_next_ok; [exact Hst|]. constructor; [split; assumption|exact Hs]. Qed.
    Lemma pjump_ok : forall st j, stok X st -> out_ok X (stok X) (pjump fo PC st j).
    Proof. intros st j H. unfold pjump. destruct (Nat.ltb _ _); simpl; [exact H|exact I]. Qed.

    Lemma p_op_fcall_ok : forall st p, stok X st -> X p -> out_ok X (stok X) (p_op_fcall fo run st p).
    Proof.
      intros st p Hst Hp. unfold p_op_fcall.
      apply (pop_ok X X); [exact (proj1 Hst)|]. intros [f fp] s1 [Hf Hfp] Hs1. simpl in *.
      apply (pop_ok X X); [exact Hs1|]. intros [a ap] s2 _ Hs2. simpl in *.
      destruct f; try (left; exact Hp).
      eapply out_ok_bind with (PA := fun _ : unit => True).
      - destruct a; try exact I. destruct (Z.ltb _ _); [left; exact Hp|]. destruct (Z.ltb _ _); [left; exact Hp|exact I].
      - intros u _ _. eapply out_ok_bind.
        + apply out_ok_decorate; [exact HXU|exact Hfp|]. apply p_fcall_impl_ok; [| |apply callee_ok].
          * eapply Forall_impl; [|exact Hs2]. exact eok_XN.
          * exact (proj1 (vok_func _ _ _) Hf).
        + intros [[v vp] s3] _ [[Hv _] Hs3]. simpl in *. apply ppush_next_ok; [exact Hst|].
          constructor; [split; [exact Hv|exact Hp]|]. subst s3. apply Forall_skipn. exact Hs2.
    Qed.

    Lemma p_symbols_to_tuple_ok : forall t im, Forall bok t -> vok (p_symbols_to_tuple fo t im).
    Proof.
      intros t im Ht. unfold p_symbols_to_tuple. apply vok_tuple. apply Forall_forall. intros kv Hkv.
      apply in_map_iff in Hkv. destruct Hkv as [[k [v p]] [Heq Hin]]. subst kv. apply filter_In in Hin.
      destruct Hin as [Hin _]. pose proof (proj1 (Forall_forall _ _) Ht _ Hin) as [Hv Hp].
      unfold fok. simpl in *. split; [exact Hv|split; exact Hp].
    Qed.

    Lemma p_op_copy_ok : forall st p, stok X st -> X p -> out_ok X (stok X) (p_op_copy fo PC run st p).
    Proof.
      intros st p Hst Hp. unfold p_op_copy.
      apply (pop_ok X X); [exact (proj1 Hst)|]. intros [ov ovp] s1 [Hov Hovp] Hs1. simpl in *.
      apply (pop_ok X X); [exact Hs1|]. intros [tg tgp] s2 [Htg Htgp] Hs2. simpl in *.
      destruct ov; try exact I. apply vok_tuple in Hov.
      destruct tg; try (left; exact Hp).
      - eapply out_ok_bind; [apply p_merge_fields_ok; [exact (proj1 (vok_tuple _) Htg)|exact Hov]|].
        intros flds' _ Hf. apply ppush_next_ok; [exact Hst|]. constructor; [|exact Hs2].
        split; [apply vok_tuple; exact Hf|exact Htgp].
      - pose proof (proj1 (vok_mod _ _ _) Htg) as Hflds.
        eapply out_ok_bind; [apply p_merge_fields_ok; [exact Hflds|exact Hov]|]. intros flds1 _ Hf1.
        eapply out_ok_bind; [apply p_merge_field_ok; [exact Hf1|exact Htg|apply X_sub_N; exact Hp|apply X_sub_N; exact Hovp]|].
        intros flds2 _ Hf2.
        eapply out_ok_bind.
        + apply out_ok_decorate; [exact HXU|exact Hp|]. apply HrunU.
          split; [|split; [constructor|exact (proj2 (proj2 Hst))]]. simpl.
          constructor; [split; [apply vok_tuple; exact Hf2|apply HXU; exact Hp]|].
          constructor; [split; [apply vok_scalar; exact I|apply HXU; exact Hp]|constructor].
        + intros fin _ Hfin. destruct result_ptr as [rp|].
          * destruct (Nat.ltb _ _); [|exact I].
            eapply out_ok_bind; [apply out_ok_decorate; [exact HXU|exact Hp|]; apply HrunU; exact Hfin|].
            intros fin2 _ Hfin2. apply (pop_ok U X); [exact (proj1 Hfin2)|]. intros e rest [Hev Hep] _. simpl in *. apply push1_ok; [exact Hst|exact Hev|exact Hp|exact Hs2].
          * apply ppush_next_ok; [exact Hst|]. constructor; [|exact Hs2].
            split; [apply p_symbols_to_tuple_ok; exact (proj1 (proj2 Hfin))|exact Hp].
    Qed.

    Lemma p_arity_ok_ok : forall bs n fp, X fp ->
      out_ok X (fun _ : unit => List.length bs = n) (p_arity_ok bs n fp).
    Proof.
      intros bs n fp Hfp. unfold p_arity_ok. destruct (Nat.eqb (List.length bs) n) eqn:E; simpl; [|left; exact Hfp].
      apply Nat.eqb_eq. exact E.
    Qed.

    Section Callback.
      Variables (ptr : nat) (bs : list bytes) (snap : psymtab) (hp : pos).
      Hypothesis Hsnap : Forall bok snap.
      Hypothesis Hhp : X hp.

      (* a clause that calls the callback: the callee pops exactly its parameters, so with the right number of arguments
         what follows sees the stack below untouched, and a result that belongs to the callee's frame *)
      Lemma call_ok : forall args s (B : Type) (PB : B -> Prop) (k : pentry * list pentry -> pout B),
        List.length args = List.length bs -> Forall (eok N) args -> Forall (eok X) s ->
        (forall r, eok U r -> out_ok X PB (k (r, s))) ->
        out_ok X PB (pbind (p_call_with fo run ptr bs snap hp args s) k).
      Proof.
        intros args s B PB k Hlen Hargs Hs Hk. unfold p_call_with. eapply out_ok_bind.
        - apply out_ok_decorate; [exact HXU|exact Hhp|]. apply (p_fcall_impl_ok U U); [|exact Hsnap|apply callee_ok].
          apply Forall_app. split; [exact Hargs|]. eapply Forall_impl; [|exact Hs]. exact eok_XN.
        - intros [r s'] _ [Hr Hs']. simpl in *. subst s'.
          rewrite <- Hlen, skipn_app, skipn_all, Nat.sub_diag. exact (Hk r Hr).
      Qed.

      (* the arguments made from a field, from a character of a string at [lp] *)
      Lemma field_args_ok : forall k v np vp (rest : list pentry),
        fok (k, (v, (np, vp))) -> Forall (eok N) rest -> Forall (eok N) ((v, vp) :: (QStr k, np) :: rest).
      Proof.
        intros k v np vp rest [Hv [Hnp Hvp]] Hrest. simpl in *.
        constructor; [split; assumption|]. constructor; [split; [apply vok_scalar; exact I|exact Hnp]|exact Hrest].
      Qed.
      Lemma char_args_ok : forall c lp (rest : list pentry),
        N lp -> Forall (eok N) rest -> Forall (eok N) ((QStr c, lp) :: rest).
      Proof. intros c lp rest Hlp Hrest. constructor; [split; [apply vok_scalar; exact I|exact Hlp]|exact Hrest]. Qed.

      Lemma p_map_list_ok : forall elems s,
        List.length bs = 1 -> Forall (eok N) elems -> Forall (eok X) s ->
        out_ok X (fun x : list pentry * list pentry => Forall (eok N) (fst x) /\ snd x = s)
               (p_map_list fo run ptr bs snap hp elems s).
      Proof.
        intros elems s Hlen. induction elems as [|e rest IH]; intros He Hs; simpl; [split; [constructor|reflexivity]|].
        inversion He as [|y z He0 Hrest].
        apply call_ok; [now rewrite Hlen|constructor; [exact He0|constructor]|exact Hs|]. intros r Hr.
        eapply out_ok_bind; [apply IH; assumption|]. intros [rs s2] _ [Hrs Hs2]. simpl in *.
        split; [constructor; [apply eok_UN; exact Hr|exact Hrs]|exact Hs2].
      Qed.

      Lemma p_map_tuple_ok : forall flds s,
        List.length bs = 2 -> Forall fok flds -> Forall (eok X) s ->
        out_ok X (fun x : list pfield * list pentry => Forall fok (fst x) /\ snd x = s)
               (p_map_tuple fo run ptr bs snap hp flds s).
      Proof.
        intros flds s Hlen. induction flds as [|[k [v [np vp]]] rest IH]; intros Hf Hs; simpl;
          [split; [constructor|reflexivity]|].
        inversion Hf as [|y z Hf0 Hrest].
        apply call_ok; [now rewrite Hlen|apply field_args_ok; [exact Hf0|constructor]|exact Hs|]. intros [r rp] [Hr Hrp].
        simpl in *. destruct r; try (apply IH; assumption).
        assert (Hbad : out_ok X (fun x : list pfield * list pentry => Forall fok (fst x) /\ snd x = s)
                              (PErr KMapTuple rp [])).
        { right; right. split; [left; reflexivity|exact Hrp]. }
        destruct l as [|[n np1] [|[v' vp1] [|x l]]]; try exact Hbad.
        destruct n; try exact Hbad.
        eapply out_ok_bind; [apply IH; assumption|]. intros [rs s2] _ [Hrs Hs2]. simpl in *.
        split; [|exact Hs2]. constructor; [|exact Hrs]. unfold fok. simpl.
        apply vok_list in Hr. inversion Hr as [|y1 z1 _ Hr']. inversion Hr' as [|y2 z2 [Hv' _] _]. simpl in Hv'.
        split; [exact Hv'|split; [exact (proj1 (proj2 Hf0))|apply HUN; exact Hrp]].
      Qed.

      Lemma p_map_str_ok : forall lp chars s,
        List.length bs = 1 -> N lp -> Forall (eok X) s ->
        out_ok X (fun x : bytes * list pentry => snd x = s) (p_map_str fo run ptr bs snap hp lp chars s).
      Proof.
        intros lp chars s Hlen Hlp Hs. induction chars as [|c rest IH]; simpl; [reflexivity|].
        apply call_ok; [now rewrite Hlen|apply char_args_ok; [exact Hlp|constructor]|exact Hs|]. intros [r rp] [Hr Hrp].
        simpl in *. destruct r; try (right; right; split; [right; reflexivity|exact Hrp]).
        eapply out_ok_bind; [exact IH|]. intros [rs s2] _ Hs2. exact Hs2.
      Qed.

      Lemma p_filter_list_ok : forall elems s,
        List.length bs = 1 -> Forall (eok N) elems -> Forall (eok X) s ->
        out_ok X (fun x : list pentry * list pentry => Forall (eok N) (fst x) /\ snd x = s)
               (p_filter_list fo run ptr bs snap hp elems s).
      Proof.
        intros elems s Hlen. induction elems as [|e rest IH]; intros He Hs; simpl; [split; [constructor|reflexivity]|].
        inversion He as [|y z He0 Hrest].
        apply call_ok; [now rewrite Hlen|constructor; [exact He0|constructor]|exact Hs|]. intros r Hr.
        eapply out_ok_bind; [apply IH; assumption|]. intros [rs s2] _ [Hrs Hs2]. simpl in *.
        split; [|exact Hs2]. destruct (pkeeps fo (fst r)); [constructor; assumption|exact Hrs].
      Qed.

      Lemma p_filter_tuple_ok : forall flds s,
        List.length bs = 2 -> Forall fok flds -> Forall (eok X) s ->
        out_ok X (fun x : list pfield * list pentry => Forall fok (fst x) /\ snd x = s)
               (p_filter_tuple fo run ptr bs snap hp flds s).
      Proof.
        intros flds s Hlen. induction flds as [|[k [v [np vp]]] rest IH]; intros Hf Hs; simpl;
          [split; [constructor|reflexivity]|].
        inversion Hf as [|y z Hf0 Hrest].
        apply call_ok; [now rewrite Hlen|apply field_args_ok; [exact Hf0|constructor]|exact Hs|]. intros r Hr.
        eapply out_ok_bind; [apply IH; assumption|]. intros [rs s2] _ [Hrs Hs2]. simpl in *.
        split; [|exact Hs2]. destruct (pkeeps fo (fst r)); [constructor; assumption|exact Hrs].
      Qed.

      Lemma p_filter_str_ok : forall lp chars s,
        List.length bs = 1 -> N lp -> Forall (eok X) s ->
        out_ok X (fun x : bytes * list pentry => snd x = s) (p_filter_str fo run ptr bs snap hp lp chars s).
      Proof.
        intros lp chars s Hlen Hlp Hs. induction chars as [|c rest IH]; simpl; [reflexivity|].
        apply call_ok; [now rewrite Hlen|apply char_args_ok; [exact Hlp|constructor]|exact Hs|]. intros r Hr.
        eapply out_ok_bind; [exact IH|]. intros [rs s2] _ Hs2. exact Hs2.
      Qed.

      Lemma p_reduce_list_ok : forall elems acc s,
        List.length bs = 2 -> Forall (eok N) elems -> eok N acc -> Forall (eok X) s ->
        out_ok X (fun x : pentry * list pentry => eok N (fst x) /\ snd x = s)
               (p_reduce_list fo run ptr bs snap hp elems acc s).
      Proof.
        intros elems acc s Hlen. revert acc. induction elems as [|e rest IH]; intros acc He Hacc Hs; simpl;
          [split; [exact Hacc|reflexivity]|].
        inversion He as [|y z He0 Hrest].
        apply call_ok; [now rewrite Hlen|constructor; [exact He0|constructor; [exact Hacc|constructor]]|exact Hs|].
        intros acc' Hr. apply IH; [exact Hrest|apply eok_UN; exact Hr|exact Hs].
      Qed.

      Lemma p_reduce_tuple_ok : forall flds acc s,
        List.length bs = 3 -> Forall fok flds -> eok N acc -> Forall (eok X) s ->
        out_ok X (fun x : pentry * list pentry => eok N (fst x) /\ snd x = s)
               (p_reduce_tuple fo run ptr bs snap hp flds acc s).
      Proof.
        intros flds acc s Hlen. revert acc. induction flds as [|[k [v [np vp]]] rest IH]; intros acc Hf Hacc Hs; simpl;
          [split; [exact Hacc|reflexivity]|].
        inversion Hf as [|y z Hf0 Hrest].
        apply call_ok; [now rewrite Hlen|apply field_args_ok; [exact Hf0|constructor; [exact Hacc|constructor]]|exact Hs|].
        intros acc' Hr. apply IH; [exact Hrest|apply eok_UN; exact Hr|exact Hs].
      Qed.

      Lemma p_reduce_str_ok : forall lp chars acc s,
        List.length bs = 2 -> N lp -> eok N acc -> Forall (eok X) s ->
        out_ok X (fun x : pentry * list pentry => eok N (fst x) /\ snd x = s)
               (p_reduce_str fo run ptr bs snap hp lp chars acc s).
      Proof.
        intros lp chars acc s Hlen Hlp. revert acc. induction chars as [|c rest IH]; intros acc Hacc Hs; simpl;
          [split; [exact Hacc|reflexivity]|].
        apply call_ok; [now rewrite Hlen|apply char_args_ok; [exact Hlp|constructor; [exact Hacc|constructor]]|exact Hs|].
        intros acc' Hr. apply IH; [apply eok_UN; exact Hr|exact Hs].
      Qed.
    End Callback.

    (* the hooks take their operands off the stack by a pattern *)
    Lemma top2_ok : forall st (B : Type) (PB : B -> Prop) (F : pentry -> pentry -> list pentry -> pout B),
      stok X st ->
      (forall te fe s, eok X te -> eok X fe -> Forall (eok X) s -> out_ok X PB (F te fe s)) ->
      out_ok X PB (match pstk st with te :: fe :: s => F te fe s | _ => PBug end).
    Proof.
      intros st B PB F [Hs _] HF. destruct (pstk st) as [|te [|fe s]]; try exact I.
      inversion Hs as [|y1 z1 Hte Hs1]. inversion Hs1 as [|y2 z2 Hfe Hs2]. exact (HF te fe s Hte Hfe Hs2).
    Qed.

    Lemma p_hook_map_ok : forall st p, stok X st -> X p -> out_ok X (stok X) (p_hook_map fo run st p).
    Proof.
      intros st p Hst Hp. unfold p_hook_map. apply top2_ok; [exact Hst|]. intros [t tp] [f fp] s [Ht Htp] [Hfv Hfp] Hs2.
      simpl in *. destruct f; try (left; exact Hfp). pose proof (proj1 (vok_func _ _ _) Hfv) as Hsnap.
      destruct t; try (left; exact Hp).
      - eapply out_ok_bind; [apply p_arity_ok_ok; exact Hfp|]. intros u _ Hlen.
        eapply out_ok_bind; [apply p_map_str_ok; [exact Hsnap|exact Hp|exact Hlen|apply X_sub_N; exact Htp|exact Hs2]|].
        intros [rs s'] _ Hs'. simpl in Hs'. subst s'. apply push1_ok; [exact Hst|apply vok_scalar; exact I|exact Hp|exact Hs2].
      - eapply out_ok_bind; [apply p_arity_ok_ok; exact Hfp|]. intros u _ Hlen.
        eapply out_ok_bind; [apply p_map_list_ok; [exact Hsnap|exact Hp|exact Hlen|exact (proj1 (vok_list _) Ht)|exact Hs2]|].
        intros [rs s'] _ [Hrs Hs']. simpl in *. subst s'. apply push1_ok; [exact Hst|apply vok_list; exact Hrs|exact Htp|exact Hs2].
      - eapply out_ok_bind; [apply p_arity_ok_ok; exact Hfp|]. intros u _ Hlen.
        eapply out_ok_bind; [apply p_map_tuple_ok; [exact Hsnap|exact Hp|exact Hlen|exact (proj1 (vok_tuple _) Ht)|exact Hs2]|].
        intros [rs s'] _ [Hrs Hs']. simpl in *. subst s'. apply push1_ok; [exact Hst|apply vok_tuple; exact Hrs|exact Hp|exact Hs2].
    Qed.

    Lemma p_hook_filter_ok : forall st p, stok X st -> X p -> out_ok X (stok X) (p_hook_filter fo run st p).
    Proof.
      intros st p Hst Hp. unfold p_hook_filter. apply top2_ok; [exact Hst|]. intros [t tp] [f fp] s [Ht Htp] [Hfv Hfp] Hs2.
      simpl in *. destruct f; try (left; exact Hfp). pose proof (proj1 (vok_func _ _ _) Hfv) as Hsnap.
      destruct t; try (left; exact Hp).
      - eapply out_ok_bind; [apply p_arity_ok_ok; exact Hfp|]. intros u _ Hlen.
        eapply out_ok_bind; [apply p_filter_str_ok; [exact Hsnap|exact Hp|exact Hlen|apply X_sub_N; exact Htp|exact Hs2]|].
        intros [rs s'] _ Hs'. simpl in Hs'. subst s'. apply push1_ok; [exact Hst|apply vok_scalar; exact I|exact Hp|exact Hs2].
      - eapply out_ok_bind; [apply p_arity_ok_ok; exact Hfp|]. intros u _ Hlen.
        eapply out_ok_bind; [apply p_filter_list_ok; [exact Hsnap|exact Hp|exact Hlen|exact (proj1 (vok_list _) Ht)|exact Hs2]|].
        intros [rs s'] _ [Hrs Hs']. simpl in *. subst s'. apply push1_ok; [exact Hst|apply vok_list; exact Hrs|exact Hp|exact Hs2].
      - eapply out_ok_bind; [apply p_arity_ok_ok; exact Hfp|]. intros u _ Hlen.
        eapply out_ok_bind; [apply p_filter_tuple_ok; [exact Hsnap|exact Hp|exact Hlen|exact (proj1 (vok_tuple _) Ht)|exact Hs2]|].
        intros [rs s'] _ [Hrs Hs']. simpl in *. subst s'. apply push1_ok; [exact Hst|apply vok_tuple; exact Hrs|exact Hp|exact Hs2].
    Qed.

    Lemma p_hook_reduce_ok : forall st p, stok X st -> X p -> out_ok X (stok X) (p_hook_reduce fo run st p).
    Proof.
      intros st p Hst Hp. unfold p_hook_reduce. pose proof (proj1 Hst) as Hs.
      destruct (pstk st) as [|[t tp] [|acc [|[f fp] s]]]; try exact I.
      inversion Hs as [|y1 z1 [Ht Htp] Hs1]. inversion Hs1 as [|y2 z2 Hacc Hs2]. inversion Hs2 as [|y3 z3 [Hfv Hfp] Hs3].
      simpl in *. destruct f; try (left; exact Hfp). pose proof (proj1 (vok_func _ _ _) Hfv) as Hsnap.
      destruct t; try (left; exact Hp).
      - eapply out_ok_bind; [apply p_arity_ok_ok; exact Hfp|]. intros u _ Hlen.
        eapply out_ok_bind;
          [apply p_reduce_str_ok; [exact Hsnap|exact Hp|exact Hlen|apply X_sub_N; exact Htp|apply eok_XN; exact Hacc|exact Hs3]|].
        intros [r s'] _ [Hr Hs']. simpl in *. subst s'. apply push1_ok; [exact Hst|exact (proj1 Hr)|exact Hp|exact Hs3].
      - eapply out_ok_bind; [apply p_arity_ok_ok; exact Hfp|]. intros u _ Hlen.
        eapply out_ok_bind;
          [apply p_reduce_list_ok; [exact Hsnap|exact Hp|exact Hlen|exact (proj1 (vok_list _) Ht)|apply eok_XN; exact Hacc|exact Hs3]|].
        intros [r s'] _ [Hr Hs']. simpl in *. subst s'. apply push1_ok; [exact Hst|exact (proj1 Hr)|exact Hp|exact Hs3].
      - eapply out_ok_bind; [apply p_arity_ok_ok; exact Hfp|]. intros u _ Hlen.
        eapply out_ok_bind;
          [apply p_reduce_tuple_ok; [exact Hsnap|exact Hp|exact Hlen|exact (proj1 (vok_tuple _) Ht)|apply eok_XN; exact Hacc|exact Hs3]|].
        intros [r s'] _ [Hr Hs']. simpl in *. subst s'. apply push1_ok; [exact Hst|exact (proj1 Hr)|exact Hp|exact Hs3].
    Qed.

    Lemma p_op_runtime_ok : forall h st p, stok X st -> X p -> out_ok X (stok X) (p_op_runtime fo run h st p).
    Proof.
      intros h st p Hst Hp. destruct h; try exact I.
      - apply p_hook_map_ok; assumption.
      - apply p_hook_filter_ok; assumption.
      - apply p_hook_reduce_ok; assumption.
      - simpl. destruct Hst as [Hs _]. destruct (pstk st) as [|[l lp] s]; [exact I|].
        inversion Hs as [|y1 z1 [_ Hlp] Hs1]. simpl in *.
        destruct l; try (left; exact Hlp). destruct s as [|[r rp] s]; [exact I|].
        inversion Hs1 as [|y2 z2 [_ Hrp] _]. simpl in *. destruct r; try (left; exact Hrp). exact I.
      - simpl. pose proof Hst as [Hs _]. destruct (pstk st) as [|a [|s1 [|z s]]]; try exact I.
        inversion Hs as [|y1 z1 _ Hs1]. inversion Hs1 as [|y2 z2 _ Hs2]. inversion Hs2 as [|y3 z3 _ Hs3].
        eapply out_ok_bind; [apply p_range_ok; exact Hp|]. intros v _ Hv. apply push1_ok; [exact Hst|exact Hv|exact Hp|exact Hs3].
      - simpl. pose proof Hst as [Hs _]. destruct (pstk st) as [|v [|e s]]; try exact I.
        inversion Hs as [|y1 z1 Hv Hs1]. inversion Hs1 as [|y2 z2 _ Hs2].
        destruct (fst e); try exact I. apply ppush_next_ok; [exact Hst|]. constructor; assumption.
    Qed.

    (* one step.  [Hscope]: the nested frame of a NewScope op belongs to this frame's class *)
    Lemma pexec_instr_ok : forall i p st,
      stok X st -> X p ->
      (forall j, i = INewScope j ->
                 out_ok X (stok X) (run {| ppc := S (ppc st); pstk := []; psyms := psyms st; pselfs := pselfs st |})) ->
      out_ok X (stok X) (pexec_instr fo PC strict_ envv envpos run i p st).
    Proof.
      intros i p st Hst Hp Hscope. pose proof Hst as [Hs [Hb Hf]]. unfold pexec_instr.
      (* the clauses that stand for several ops, each once; they are found by the primitive they call *)
      destruct i;
        try (lazymatch goal with |- context [p_index] => idtac end; (* IIndex ISafeIndex *)
             solve [apply (pop_ok X X); [exact Hs|]; intros [r rp] s1 [_ Hrp] Hs1; apply (pop_ok X X); [exact Hs1|];
              intros [l lp] s2 [Hl _] Hs2; simpl in *; eapply out_ok_bind; [apply p_index_ok; assumption|];
              intros e _ He; apply ppush_next_ok; [exact Hst|]; constructor; assumption]);
        try (lazymatch goal with |- context [vm_compare] => idtac end; (* IGt ILt IGtEq ILtEq *)
             solve [apply (pop_ok X X); [exact Hs|]; intros [l lp] s1 _ Hs1; apply (pop_ok X X); [exact Hs1|];
              intros [r rp] s2 _ Hs2; simpl in *; eapply out_ok_bind; [apply (out_ok_pout_of X _ (fun _ => True));
              [exact Hp|intros; exact I]|]; intros w _ _; apply push1_ok;
              [exact Hst|apply vok_inj|exact Hp|exact Hs2]]);
        try (lazymatch goal with |- context [p_arith] => idtac end; (* IAdd ISub IMul IDiv IMod *)
             solve [apply (pop_ok X X); [exact Hs|]; intros [l lp] s1 [Hl _] Hs1; apply (pop_ok X X); [exact Hs1|];
              intros [r rp] s2 [Hr Hrp] Hs2; simpl in *; eapply out_ok_bind; [apply arith_ok; assumption|];
              intros v _ Hv; apply push1_ok; assumption]);
        try (lazymatch goal with |- context [p_binding_push] => idtac end; (* IBind IBindOver *)
             solve [apply (pop_ok X X); [exact Hs|]; intros [v vp] s1 [Hv Hvp] Hs1; apply (pop_ok X X); [exact Hs1|];
              intros [n np] s2 [Hn Hnp] Hs2; simpl in *; destruct n; try exact I; eapply out_ok_bind;
              [apply p_binding_push_ok; assumption|]; intros t _ Ht; simpl; split; [exact Hs2|split; assumption]]).
      - (* IPop *)
        apply (pop_ok X X); [exact Hs|]. intros e s1 _ Hs1. simpl. exact (pwith_stk_ok X st s1 Hst Hs1).
      - (* INewScope *)
        unfold p_op_new_scope. eapply out_ok_bind; [exact (Hscope j eq_refl)|]. intros fin _ Hfin.
        apply (pop_ok X X); [exact (proj1 Hfin)|]. intros e rest He _. simpl in He. simpl.
        apply pjump_ok. apply pwith_stk_ok; [exact Hst|]. constructor; assumption.
      - (* IEqual *)
        apply (pop_ok X X); [exact Hs|]. intros [l lp] s1 _ Hs1. apply (pop_ok X X); [exact Hs1|]. intros [r rp] s2 _ Hs2. simpl in *.
        destruct (pcompatible l r); [|left; exact Hp].
        destruct (weq (erase_v l) (erase_v r)); [|exact I]. apply push1_ok; [exact Hst|apply vok_scalar; exact I|exact Hp|exact Hs2].
      - (* INot *)
        apply (pop_ok X X); [exact Hs|]. intros [v vp] s1 [_ Hvp] Hs1. simpl in *. destruct v; try (left; exact Hvp).
        apply push1_ok; [exact Hst|apply vok_scalar; exact I|exact Hvp|exact Hs1].
      - (* IVal *)
        apply push1_ok; [exact Hst|destruct l; apply vok_scalar; exact I|exact Hp|exact Hs].
      - (* ICast *)
        apply (pop_ok X X); [exact Hs|]. intros [v vp] s1 [_ Hvp] Hs1. simpl in *.
        eapply out_ok_bind; [apply (out_ok_pout_of X _ (fun _ => True)); [exact Hvp|intros; exact I]|]. intros w _ _.
        apply push1_ok; [exact Hst|apply vok_inj|exact Hvp|exact Hs1].
      - (* ISym *)
        apply push1_ok; [exact Hst|apply vok_scalar; exact I|exact Hp|exact Hs].
      - (* IDeRef *)
        destruct (p_get_binding fo envv envpos st s) as [e|] eqn:E; [|left; exact Hp].
        apply push1_ok; [exact Hst|exact (p_get_binding_ok st s e Hst E)|exact Hp|exact Hs].
      - (* IInitTuple *)
        apply push1_ok; [exact Hst|apply vok_tuple; constructor|exact Hp|exact Hs].
      - (* IField *)
        apply (pop_ok X X); [exact Hs|]. intros [v vp] s1 [Hv Hvp] Hs1. apply (pop_ok X X); [exact Hs1|]. intros [n np] s2 [_ Hnp] Hs2. simpl in *.
        destruct n; try exact I;
          (* a symbol or a string names the field *)
          (apply (pop_ok X X); [exact Hs2|]; intros [t tp] s3 [Ht Htp] Hs3; simpl in *; destruct t; try exact I;
           eapply out_ok_bind; [apply p_merge_field_ok; [exact (proj1 (vok_tuple _) Ht)|exact Hv|apply X_sub_N;
           exact Hnp|apply X_sub_N; exact Hvp]|]; intros flds' _ Hf'; apply push1_ok; [exact Hst|apply vok_tuple;
           exact Hf'|exact Htp|exact Hs3]).
      - (* IInitList *)
        apply push1_ok; [exact Hst|apply vok_list; constructor|exact Hp|exact Hs].
      - (* IElement *)
        apply (pop_ok X X); [exact Hs|]. intros ve s1 Hve Hs1. apply (pop_ok X X); [exact Hs1|]. intros [l lp] s2 [Hl Hlp] Hs2. simpl in *.
        destruct l; try exact I. apply ppush_next_ok; [exact Hst|]. constructor; [|exact Hs2]. split; [|exact Hlp].
        apply vok_list. apply Forall_app. split; [exact (proj1 (vok_list _) Hl)|constructor; [apply eok_XN; exact Hve|constructor]].
      - (* ICp *) apply p_op_copy_ok; assumption.
      - (* IBang *)
        apply (pop_ok X X); [exact Hs|]. intros [v vp] s1 [_ Hvp] _. simpl in *. destruct v; try exact I. left. exact Hvp.
      - (* IJump *) apply pjump_ok. exact Hst.
      - (* IJumpIfTrue *)
        apply (pop_ok X X); [exact Hs|]. intros [v vp] s1 [_ Hvp] Hs1. simpl in *. destruct v; try (left; exact Hvp).
        destruct v; [apply pjump_ok|simpl]; exact (pwith_stk_ok X st s1 Hst Hs1).
      - (* IJumpIfFalse *)
        apply (pop_ok X X); [exact Hs|]. intros [v vp] s1 [_ Hvp] Hs1. simpl in *. destruct v; try (left; exact Hvp).
        destruct v; [simpl|apply pjump_ok]; exact (pwith_stk_ok X st s1 Hst Hs1).
      - (* ISelectJump *)
        apply (pop_ok X X); [exact Hs|]. intros fe s1 _ Hs1. apply (pop_ok X X); [exact Hs1|]. intros se s2 Hse Hs2.
        destruct (select_matches fo _ _); [simpl; exact (pwith_stk_ok X st s2 Hst Hs2)|].
        apply pjump_ok. apply pwith_stk_ok; [exact Hst|]. constructor; assumption.
      - (* IAnd *)
        apply (pop_ok X X); [exact Hs|]. intros [v vp] s1 [Hv Hvp] Hs1. simpl in *. destruct v; try (left; exact Hvp).
        destruct v; [simpl; exact (pwith_stk_ok X st s1 Hst Hs1)|].
        apply pjump_ok. apply pwith_stk_ok; [exact Hst|]. constructor; [split; assumption|exact Hs1].
      - (* IOr *)
        apply (pop_ok X X); [exact Hs|]. intros [v vp] s1 [Hv Hvp] Hs1. simpl in *. destruct v; try (left; exact Hvp).
        destruct v; [|simpl; exact (pwith_stk_ok X st s1 Hst Hs1)].
        apply pjump_ok. apply pwith_stk_ok; [exact Hst|]. constructor; [split; assumption|exact Hs1].
      - (* IExist *)
        apply (pop_ok X X); [exact Hs|]. intros [r rp] s1 [_ Hrp] Hs1. apply (pop_ok X X); [exact Hs1|]. intros [l lp] s2 [_ Hlp] Hs2. simpl in *.
        eapply out_ok_bind; [apply p_exist_ok; assumption|]. intros v _ Hv. apply push1_ok; assumption.
      - (* INoop *) exact Hst.
      - (* IInitThunk: a thunk enters the state *)
        apply pjump_ok. apply pwith_stk_ok; [exact Hst|]. constructor; [|exact Hs].
        split; [apply vok_scalar; exact I|exact Hp].
      - (* IModule *)
        apply (pop_ok X X); [exact Hs|]. intros [m mp0] s1 [Hm Hmp] Hs1. simpl in *. destruct m; try (left; exact Hmp).
        + apply pjump_ok. apply pwith_stk_ok; [exact Hst|]. constructor; [|exact Hs1]. split; [|exact Hp].
          apply vok_mod. exact (proj1 (vok_tuple _) Hm).
        + apply (pop_ok X X); [exact Hs1|]. intros [t tp] s2 [Ht Htp] Hs2. simpl in *. destruct t; try (left; exact Htp).
          apply pjump_ok. apply pwith_stk_ok; [exact Hst|]. constructor; [|exact Hs2]. split; [|exact Hp].
          apply vok_mod. exact (proj1 (vok_tuple _) Ht).
      - (* IFunc *)
        apply (pop_ok X X); [exact Hs|]. intros [l lp] s1 [_ Hlp] Hs1. simpl in *. destruct l; try (left; exact Hlp).
        eapply out_ok_bind with (PA := fun _ : list bytes => True).
        + induction l as [|[v vp] l IH]; simpl; [exact I|]. destruct v; try (left; exact Hlp).
          eapply out_ok_bind; [exact IH|]. intros r _ _. exact I.
        + intros names _ _. apply pjump_ok. apply pwith_stk_ok; [exact Hst|]. constructor; [|exact Hs1].
          split; [apply vok_func; exact Hb|exact Hp].
      - (* IReturn *) exact Hst.
      - (* IFCall *) apply p_op_fcall_ok; assumption.
      - (* ITyp *)
        apply (pop_ok X X); [exact Hs|]. intros [v vp] s1 [_ Hvp] Hs1. simpl in *. apply push1_ok; [exact Hst|apply vok_scalar; exact I|exact Hvp|exact Hs1].
      - (* IRuntime *) apply p_op_runtime_ok; assumption.
      - (* IRender *)
        apply (pop_ok X X); [exact Hs|]. intros [v vp] s1 [_ Hvp] Hs1. simpl in *. destruct (wrender (erase_v v)); [|exact I].
        apply push1_ok; [exact Hst|apply vok_scalar; exact I|exact Hvp|exact Hs1].
      - (* IPushSelf *)
        apply (pop_ok X X); [exact Hs|]. intros e s1 He Hs1. simpl. split; [constructor; assumption|split; [exact Hb|]].
        simpl. constructor; [apply eok_XN; exact He|exact Hf].
      - (* IPopSelf *)
        simpl. split; [exact Hs|split; [exact Hb|]]. simpl. destruct (pselfs st) as [|e l]; [constructor|].
        simpl. inversion Hf; assumption.
      - (* ITranslatorPanic *) exact I.
    Qed.
  End Nested.
End Inv.

(* the whole run, every frame alike: [U] holds of the position of every op of the code *)
Section RunOk.
  Variable fo : float_ops.
  Variables U N : pos -> Prop.
  Hypothesis HUN : forall q, U q -> N q.
  Variable PC : pops.
  Variable strict_ : bool.
  Variable envv : list (bytes * bytes).
  Variable envpos : pos.
  Hypothesis Henv : envv <> [] -> N envpos.
  Hypothesis HPC : forall i x p, nth_error PC i = Some (x, p) -> U p.

  Lemma pinit_ok : stok fo N U (pinit_state fo).
  Proof. split; [constructor|split; constructor]. Qed.

  (* one step, nested runs by any run function that keeps the invariant *)
  Lemma pvm_step_ok : forall run, (forall st, stok fo N U st -> out_ok U N U (stok fo N U) (run st)) ->
    forall i p st, nth_error PC (ppc st) = Some (i, p) -> stok fo N U st ->
    out_ok U N U (stok fo N U) (pexec_instr fo PC strict_ envv envpos run i p st).
  Proof.
    intros run Hrun i p st E Hst.
    apply (pexec_instr_ok fo U N HUN U (fun q H => H) PC strict_ envv envpos Henv run Hrun i p st Hst (HPC _ _ _ E)).
    intros j _. apply Hrun. destruct Hst as [_ [Hb Hf]]. split; [constructor|split; assumption].
  Qed.

  Theorem pvm_run_ok : forall fuel st,
    stok fo N U st -> out_ok U N U (stok fo N U) (pvm_run fo PC strict_ envv envpos fuel st).
  Proof.
    intros fuel. induction fuel as [|f IH]; intros st Hst; [exact I|]. rewrite pvm_run_S.
    destruct (nth_error PC (ppc st)) as [[i p]|] eqn:E; [|exact Hst]. destruct (return_dec i) as [_|_]; [exact Hst|].
    eapply out_ok_bind; [exact (pvm_step_ok _ IH i p st E Hst)|]. intros st' _ Hst'. exact (IH st' Hst').
  Qed.
End RunOk.

