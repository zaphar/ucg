(* What the positioned machine (pos/PVm.v) reports for a whole program: moving the program moves the reported positions
   (from naturality, PVm_Map.v); every reported position comes from the program (from the invariant, PVm_Inv.v); which op
   is blamed.  Locality is in PVm_Locality.v. *)
From Ucg Require Export pos.PTranslate_Lemmas pos.PVm pos.PVm_Erase pos.PVm_Map.
From Ucg Require Import pos.PVm_Inv.

(* the whole-program run with the dummy position as a parameter; the implementation's is pos0 *)
Definition pvm_prog_at (fo : float_ops) (ep : pos) (fuel : nat) (envv : list (bytes * bytes)) (strict_ : bool) (c : pops)
  : pout (list (bytes * (pval fo * pos))) :=
  pdo st <- pvm_run fo c strict_ envv ep fuel (pinit_state fo); POk (psyms st).

Lemma pvm_prog_is_at_pos0 : forall fo fuel envv strict_ c,
  pvm_prog fo fuel envv strict_ c = pvm_prog_at fo pos0 fuel envv strict_ c.
Proof. reflexivity. Qed.

(* naturality of a whole run: rename every position of the code by [f] (the dummy by [f] as well, or keep
   any dummy when there are no environment variables): the outcome is renamed by [f], nothing else changes *)
Theorem pvm_prog_at_map : forall fo (f : pos -> pos) ep ep' fuel envv strict_ code,
  env_tuple_p fo envv ep' = env_tuple_p fo envv (f ep) ->
  map_out f (map_syms f) (pvm_prog_at fo ep fuel envv strict_ code)
  = pvm_prog_at fo ep' fuel envv strict_ (mp f code).
Proof.
  intros fo f ep ep' fuel envv strict_ code Henv. unfold pvm_prog_at.
  eapply map_out_bind.
  - apply (pvm_run_map fo f code strict_ envv ep ep' Henv fuel (pinit_state fo)).
  - intros st _. reflexivity.
Qed.

Definition shift_out {A : Type} (k : N) (g : A -> A) (r : pout A) : pout A := map_out (shift_pos k) g r.

(* general form: the program moved down by k lines, run with the dummy moved as well, reports every position
   moved down by k lines *)
Theorem pvm_shift_env : forall fo k ep fuel envv strict_ code,
  pvm_prog_at fo (shift_pos k ep) fuel envv strict_ (mp (shift_pos k) code)
  = shift_out k (map_syms (shift_pos k)) (pvm_prog_at fo ep fuel envv strict_ code).
Proof. intros. symmetry. apply pvm_prog_at_map. reflexivity. Qed.

(* without environment variables the dummy is never seen: the implementation's machine (dummy 0:0) on the moved
   program reports exactly the moved positions *)
Theorem pvm_shift : forall fo k fuel strict_ code,
  pvm_prog fo fuel [] strict_ (mp (shift_pos k) code)
  = shift_out k (map_syms (shift_pos k)) (pvm_prog fo fuel [] strict_ code).
Proof. intros. rewrite !pvm_prog_is_at_pos0. symmetry. apply pvm_prog_at_map. reflexivity. Qed.

(* with PTranslate_Lemmas.ptranslate_shift: k more lines in front of the SOURCE move the error position by exactly k lines
   and keep its column, the VIA entries likewise, the kind of outcome is unchanged *)
Theorem pvm_shift_translated : forall fo k fuel strict_ (p : pprog),
  pvm_prog fo fuel [] strict_ (ptranslate (map (shift_stmt k) p))
  = shift_out k (map_syms (shift_pos k)) (pvm_prog fo fuel [] strict_ (ptranslate p)).
Proof. intros. rewrite ptranslate_shift. apply pvm_shift. Qed.

Corollary pvm_shift_error : forall fo k fuel strict_ (p : pprog) e q via,
  pvm_prog fo fuel [] strict_ (ptranslate p) = PErr e q via ->
  pvm_prog fo fuel [] strict_ (ptranslate (map (shift_stmt k) p))
  = PErr e (fst q + k, snd q)%N (map (fun v => (fst v + k, snd v)%N) via).
Proof. intros fo k fuel strict_ p e q via H. rewrite pvm_shift_translated, H. reflexivity. Qed.

(* with environment variables the dummy position does not move: the statement of pvm_shift is false then.
   Witness: `let f = func (self, b) => 1; let x = map(f, env);` with one variable: the callback's first parameter is a
   reserved word, binding_push reports the position of the ARGUMENT, which is the name position of the field of
   the `env` tuple: 0:0, also when the program is moved down one line.  (On the implementation: same outcome.) *)
Local Open Scope string_scope.
Definition shift_witness_code : pops :=
  [ (ISym (b "f"), (1, 5)); (IInitList, (1, 9)); (ISym (b "self"), (1, 15)); (IElement, (1, 15));
    (ISym (b "b"), (1, 21)); (IElement, (1, 21)); (IFunc 2, (1, 9)); (IVal (LInt 1), (1, 27)); (IReturn, (1, 9));
    (IBind, (1, 5));
    (ISym (b "x"), (2, 5)); (IDeRef (b "f"), (2, 13)); (IDeRef (b "env"), (2, 16)); (IRuntime HMap, (2, 9));
    (IBind, (2, 5)) ]%N.
Definition shift_witness_env : list (bytes * bytes) := [(b "HOME", b "/root")].
Local Close Scope string_scope.

Lemma pvm_shift_env_refuted : forall fo,
  pvm_prog fo 100 shift_witness_env true shift_witness_code = PErr KReservedArg pos0 [(2, 9)%N]
  /\ pvm_prog fo 100 shift_witness_env true (mp (shift_pos 1) shift_witness_code) = PErr KReservedArg pos0 [(3, 9)%N]
  /\ pvm_prog fo 100 shift_witness_env true (mp (shift_pos 1) shift_witness_code)
     <> shift_out 1 (map_syms (shift_pos 1)) (pvm_prog fo 100 shift_witness_env true shift_witness_code).
Proof.
  intros fo. assert (H1 : pvm_prog fo 100 shift_witness_env true shift_witness_code = PErr KReservedArg pos0 [(2, 9)%N])
    by (vm_compute; reflexivity).
  assert (H2 : pvm_prog fo 100 shift_witness_env true (mp (shift_pos 1) shift_witness_code)
               = PErr KReservedArg pos0 [(3, 9)%N]) by (vm_compute; reflexivity).
  split; [exact H1|]. split; [exact H2|]. rewrite H1, H2. unfold shift_out, map_out, shift_pos, pos0. simpl.
  intros Heq. discriminate Heq.
Qed.

(* provenance: every position of the outcome is the position of an op of the program, or -- inside values, and in
   the errors that report a position stored inside a value -- the dummy *)
Theorem pvm_prog_at_ok : forall fo (U N : pos -> Prop) ep fuel envv strict_ code,
  (forall q, U q -> N q) -> (envv <> [] -> N ep) -> (forall x, In x (map snd code) -> U x) ->
  out_ok U N U (Forall (bok fo N)) (pvm_prog_at fo ep fuel envv strict_ code).
Proof.
  intros fo U N ep fuel envv strict_ code HUN Henv Hcode. unfold pvm_prog_at.
  apply out_ok_bind with (PA := stok fo N U); [|intros st _ Hst; exact (proj1 (proj2 Hst))].
  apply (pvm_run_ok fo U N HUN code strict_ envv ep Henv); [|apply pinit_ok].
  intros i x p E. apply Hcode. apply nth_error_In in E. exact (in_map snd _ _ E).
Qed.

Theorem pvm_positions_from_code : forall fo ep fuel envv strict_ code e p via,
  pvm_prog_at fo ep fuel envv strict_ code = PErr e p via ->
  forall q, In q (p :: via) -> In q (map snd code) \/ (q = ep /\ envv <> []).
Proof.
  intros fo ep fuel envv strict_ code e p via Hrun q Hq.
  pose proof (pvm_prog_at_ok fo (fun x => In x (map snd code)) (fun x => In x (map snd code) \/ (x = ep /\ envv <> []))
                             ep fuel envv strict_ code (fun x H => or_introl H)
                             (fun H => or_intror (conj eq_refl H)) (fun x H => H)) as Hok.
  rewrite Hrun in Hok. destruct (err_ok_parts _ _ _ _ _ _ (fun x H => H) Hok) as [Hp Hvia].
  destruct Hq as [<-|Hq]; [|left; exact (proj1 (Forall_forall _ _) Hvia q Hq)].
  destruct Hp as [Hu|[[_ Hn]|[_ Hu]]]; [left; exact Hu|exact Hn|left; exact Hu].
Qed.

(* the implementation's machine on a translated program: primary position and every VIA entry are positions of a
   node (or token) of a statement of the program -- never a made-up position -- except the dummy 0:0, which can
   only appear when there are environment variables (PVm_Locality.pvm_error_positions_by_kind: and only in errors of kind
   KReservedArg / KFieldType) *)
Theorem pvm_positions_from_program : forall fo fuel envv strict_ (prog : pprog) e p via,
  pvm_prog fo fuel envv strict_ (ptranslate prog) = PErr e p via ->
  forall q, In q (p :: via) ->
  (exists s, In s prog /\ In q (positions_of_stmt s)) \/ (q = pos0 /\ envv <> []).
Proof.
  intros fo fuel envv strict_ prog e p via Hrun q Hq. rewrite pvm_prog_is_at_pos0 in Hrun.
  destruct (pvm_positions_from_code fo pos0 fuel envv strict_ (ptranslate prog) e p via Hrun q Hq) as [Hin|Hd];
    [left|right; exact Hd].
  apply in_map_iff in Hin. destruct Hin as [x [Hx Hinx]].
  pose proof (proj1 (Forall_forall _ _) (ptranslate_positions_program prog) x Hinx) as [s [Hs [_ Hpos]]].
  exists s. split; [exact Hs|]. now rewrite <- Hx.
Qed.

Corollary pvm_positions_from_program_no_env : forall fo fuel strict_ (prog : pprog) e p via,
  pvm_prog fo fuel [] strict_ (ptranslate prog) = PErr e p via ->
  forall q, In q (p :: via) -> exists s, In s prog /\ In q (positions_of_stmt s).
Proof.
  intros fo fuel strict_ prog e p via Hrun q Hq.
  destruct (pvm_positions_from_program fo fuel [] strict_ prog e p via Hrun q Hq) as [H|[_ Hne]]; [exact H|].
  now contradiction Hne.
Qed.

(* every reported line lies in the line span of some statement of the program *)
Corollary pvm_error_lines_in_some_statement : forall fo fuel strict_ (prog : pprog) (span : pstmt -> N * N) e p via,
  (forall s, In s prog -> stmt_in_span s (fst (span s)) (snd (span s))) ->
  pvm_prog fo fuel [] strict_ (ptranslate prog) = PErr e p via ->
  forall q, In q (p :: via) -> exists s, In s prog /\ (fst (span s) <= line q <= snd (span s))%N.
Proof.
  intros fo fuel strict_ prog span e p via Hspan Hrun q Hq.
  destruct (pvm_positions_from_program_no_env fo fuel strict_ prog e p via Hrun q Hq) as [s [Hs Hin]].
  exists s. split; [exact Hs|]. exact (proj1 (Forall_forall _ _) (Hspan s Hs) q Hin).
Qed.

(* which op is blamed: run the program with every op labelled by its own INDEX instead of its position; the
   position the real run reports is the position of the op whose index the labelled run reports.  So "the primary
   position lies in statement s" is the statement "the blamed index lies in the index range of s". *)
Fixpoint label_from (n : nat) (c : pops) : pops :=
  match c with
  | [] => []
  | (i, _) :: c' => (i, (N.of_nat n, 0%N)) :: label_from (S n) c'
  end.
Definition index_code (c : pops) : pops := label_from 0 c.
(* the position of the op with index [fst q]; the dummy for an index outside the code *)
Definition pos_at (c : pops) (d : pos) (q : pos) : pos :=
  match nth_error c (N.to_nat (fst q)) with Some x => snd x | None => d end.
Definition index_dummy (c : pops) : pos := (N.of_nat (List.length c), 0%N).

Lemma label_from_back : forall c pre d, mp (pos_at (pre ++ c) d) (label_from (List.length pre) c) = c.
Proof.
  intros c. induction c as [|[i p] c IH]; intros pre d; [reflexivity|].
  simpl. unfold mp. simpl. f_equal.
  - f_equal. unfold pos_at. simpl. rewrite Nat2N.id, nth_error_app2 by apply le_n. now rewrite Nat.sub_diag.
  - specialize (IH (pre ++ [(i, p)]) d). rewrite <- app_assoc, app_length, Nat.add_1_r in IH. exact IH.
Qed.

Lemma index_code_back : forall c d, mp (pos_at c d) (index_code c) = c.
Proof. intros c d. exact (label_from_back c [] d). Qed.

Lemma index_code_ops : forall c, map fst (index_code c) = map fst c.
Proof.
  intros c. unfold index_code. generalize 0. induction c as [|[i p] c IH]; intros n; simpl; [reflexivity|].
  f_equal. apply IH.
Qed.

Lemma pos_at_dummy : forall c d, pos_at c d (index_dummy c) = d.
Proof.
  intros c d. unfold pos_at, index_dummy. simpl. rewrite Nat2N.id.
  destruct (nth_error c (List.length c)) eqn:E; [|reflexivity].
  assert (Hlt : List.length c < List.length c) by (apply nth_error_Some; rewrite E; discriminate).
  exfalso. exact (Nat.lt_irrefl _ Hlt).
Qed.

Theorem pvm_blame_index : forall fo ep fuel envv strict_ code,
  pvm_prog_at fo ep fuel envv strict_ code
  = map_out (pos_at code ep) (map_syms (pos_at code ep))
            (pvm_prog_at fo (index_dummy code) fuel envv strict_ (index_code code)).
Proof.
  intros fo ep fuel envv strict_ code.
  rewrite (pvm_prog_at_map fo (pos_at code ep) (index_dummy code) ep fuel envv strict_ (index_code code)).
  - now rewrite index_code_back.
  - now rewrite pos_at_dummy.
Qed.

(* the statement-level reading: if the labelled run blames an index inside the code of statement s, the reported
   position is the position of a node of s (for the primary position and for every VIA entry) *)
Theorem pvm_blame_in_statement : forall fo fuel envv strict_ (p1 p2 : pprog) (s : pstmt) e qi viai,
  let code := ptranslate (p1 ++ [s] ++ p2) in
  let lo := List.length (ptranslate p1) in
  let hi := lo + List.length (ptranslate_stmt s) in
  pvm_prog_at fo (index_dummy code) fuel envv strict_ (index_code code) = PErr e qi viai ->
  exists q via,
    pvm_prog fo fuel envv strict_ code = PErr e q via
    /\ q = pos_at code pos0 qi /\ via = map (pos_at code pos0) viai
    /\ forall x, In x (qi :: viai) -> lo <= N.to_nat (fst x) < hi -> In (pos_at code pos0 x) (positions_of_stmt s).
Proof.
  intros fo fuel envv strict_ p1 p2 s e qi viai code lo hi Hrun.
  exists (pos_at code pos0 qi), (map (pos_at code pos0) viai).
  split; [|split; [reflexivity|split; [reflexivity|]]].
  - rewrite pvm_prog_is_at_pos0, pvm_blame_index. fold code. rewrite Hrun. reflexivity.
  - intros x _ Hx. unfold pos_at.
    destruct (nth_error code (N.to_nat (fst x))) as [y|] eqn:E.
    + apply (ptranslate_nth_stmt p1 s p2 _ y Hx), nth_error_In in E.
      exact (proj1 (Forall_forall _ _) (ptranslate_positions_from_statement s) y E).
    + apply nth_error_None in E. unfold code in E. rewrite ptranslate_around, !app_length in E. fold lo in E. lia.
Qed.
