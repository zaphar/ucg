(* Induction principle for the nested mutual type pexpr / ptpart / pstmt (sub-expressions sit in lists,
   options and field triples).  For a binary node the principle also hands out the hypotheses for the
   components of a right operand that is a copy or a call (the DOT clauses of the translator look that deep). *)
From Ucg Require Export pos.PAst.

Section PexprInd.
  Variable P : pexpr -> Prop.
  Variable R : ptpart -> Prop.
  Variable Q : pstmt -> Prop.

  Definition Pfields (fs : list (pos * bytes * pexpr)) : Prop := Forall (fun fl => P (snd fl)) fs.
  Definition Popt (o : option pexpr) : Prop := match o with Some e => P e | None => True end.
  Definition Pdeep (e : pexpr) : Prop :=
    match e with
    | PECopy _ sel fs => P sel /\ Pfields fs
    | PECall _ fn args => P fn /\ Forall P args
    | _ => True
    end.

  Hypothesis HNull : forall p, P (PENull p).
  Hypothesis HBool : forall p v, P (PEBool p v).
  Hypothesis HInt : forall p z, P (PEInt p z).
  Hypothesis HFloat : forall p bits, P (PEFloat p bits).
  Hypothesis HStr : forall p s, P (PEStr p s).
  Hypothesis HSym : forall p x, P (PESym p x).
  Hypothesis HTuple : forall p fs, Pfields fs -> P (PETuple p fs).
  Hypothesis HList : forall p es, Forall P es -> P (PEList p es).
  Hypothesis HBin : forall p o l r, P l -> P r -> Pdeep r -> P (PEBin p o l r).
  Hypothesis HNot : forall p e, P e -> P (PENot p e).
  Hypothesis HGroup : forall p e, P e -> P (PEGroup p e).
  Hypothesis HCopy : forall p t fs, P t -> Pfields fs -> P (PECopy p t fs).
  Hypothesis HRange : forall p st stp en, P st -> Popt stp -> P en -> P (PERange p st stp en).
  Hypothesis HFormatL : forall p parts args, Forall R parts -> Forall P args -> P (PEFormatL p parts args).
  Hypothesis HFormatS : forall p tpl parts arg, Forall R parts -> P arg -> P (PEFormatS p tpl parts arg).
  Hypothesis HCall : forall p fn args, P fn -> Forall P args -> P (PECall p fn args).
  Hypothesis HCast : forall p ct e, P e -> P (PECast p ct e).
  Hypothesis HFunc : forall p ps body, P body -> P (PEFunc p ps body).
  Hypothesis HSelect : forall p ve dflt arms, P ve -> Popt dflt -> Pfields arms -> P (PESelect p ve dflt arms).
  Hypothesis HMap : forall p fe te, P fe -> P te -> P (PEMap p fe te).
  Hypothesis HFilter : forall p fe te, P fe -> P te -> P (PEFilter p fe te).
  Hypothesis HReduce : forall p fe ae te, P fe -> P ae -> P te -> P (PEReduce p fe ae te).
  Hypothesis HModule : forall p ps out body, Pfields ps -> Popt out -> Forall Q body -> P (PEModule p ps out body).
  Hypothesis HFail : forall p e, P e -> P (PEFail p e).
  Hypothesis HTrace : forall p e, P e -> P (PETrace p e).
  Hypothesis HImport : forall p pp path, P (PEImport p pp path).
  Hypothesis HInclude : forall p tp typ pp path, P (PEInclude p tp typ pp path).
  Hypothesis HConvert : forall p tp typ e, P e -> P (PEConvert p tp typ e).
  Hypothesis HPStr : forall s, R (PPStr s).
  Hypothesis HPHole : R PPHole.
  Hypothesis HPExpr : forall e, P e -> R (PPExpr e).
  Hypothesis HSLet : forall p np x e, P e -> Q (PSLet p np x e).
  Hypothesis HSExpr : forall e, P e -> Q (PSExpr e).
  Hypothesis HSAssert : forall p e, P e -> Q (PSAssert p e).
  Hypothesis HSOut : forall p tp typ e, P e -> Q (PSOut p tp typ e).

  Fixpoint pexpr_ind' (e : pexpr) : P e :=
    let list_ind := fix go (l : list pexpr) : Forall P l :=
        match l with [] => Forall_nil _ | x :: l' => Forall_cons x (pexpr_ind' x) (go l') end in
    let fields_ind := fix go (l : list (pos * bytes * pexpr)) : Pfields l :=
        match l with
        | [] => Forall_nil _
        | fl :: l' => Forall_cons fl (match fl as fl0 return P (snd fl0) with (_, x) => pexpr_ind' x end) (go l')
        end in
    let opt_ind := fun (o : option pexpr) =>
        match o as o0 return Popt o0 with Some x => pexpr_ind' x | None => I end in
    let parts_ind := fix go (l : list ptpart) : Forall R l :=
        match l with [] => Forall_nil _ | x :: l' => Forall_cons x (ptpart_ind' x) (go l') end in
    let stmts_ind := fix go (l : list pstmt) : Forall Q l :=
        match l with [] => Forall_nil _ | x :: l' => Forall_cons x (pstmt_ind' x) (go l') end in
    match e as e0 return P e0 with
    | PENull p => HNull p
    | PEBool p v => HBool p v
    | PEInt p z => HInt p z
    | PEFloat p bits => HFloat p bits
    | PEStr p s => HStr p s
    | PESym p x => HSym p x
    | PETuple p fs => HTuple p fs (fields_ind fs)
    | PEList p es => HList p es (list_ind es)
    | PEBin p o l r =>
      HBin p o l r (pexpr_ind' l) (pexpr_ind' r)
           (match r as r0 return Pdeep r0 with
            | PECopy _ sel fs => conj (pexpr_ind' sel) (fields_ind fs)
            | PECall _ fn args => conj (pexpr_ind' fn) (list_ind args)
            | _ => I
            end)
    | PENot p e1 => HNot p e1 (pexpr_ind' e1)
    | PEGroup p e1 => HGroup p e1 (pexpr_ind' e1)
    | PECopy p t fs => HCopy p t fs (pexpr_ind' t) (fields_ind fs)
    | PERange p st stp en => HRange p st stp en (pexpr_ind' st) (opt_ind stp) (pexpr_ind' en)
    | PEFormatL p parts args => HFormatL p parts args (parts_ind parts) (list_ind args)
    | PEFormatS p tpl parts arg => HFormatS p tpl parts arg (parts_ind parts) (pexpr_ind' arg)
    | PECall p fn args => HCall p fn args (pexpr_ind' fn) (list_ind args)
    | PECast p ct e1 => HCast p ct e1 (pexpr_ind' e1)
    | PEFunc p ps body => HFunc p ps body (pexpr_ind' body)
    | PESelect p ve dflt arms => HSelect p ve dflt arms (pexpr_ind' ve) (opt_ind dflt) (fields_ind arms)
    | PEMap p fe te => HMap p fe te (pexpr_ind' fe) (pexpr_ind' te)
    | PEFilter p fe te => HFilter p fe te (pexpr_ind' fe) (pexpr_ind' te)
    | PEReduce p fe ae te => HReduce p fe ae te (pexpr_ind' fe) (pexpr_ind' ae) (pexpr_ind' te)
    | PEModule p ps out body => HModule p ps out body (fields_ind ps) (opt_ind out) (stmts_ind body)
    | PEFail p e1 => HFail p e1 (pexpr_ind' e1)
    | PETrace p e1 => HTrace p e1 (pexpr_ind' e1)
    | PEImport p pp path => HImport p pp path
    | PEInclude p tp typ pp path => HInclude p tp typ pp path
    | PEConvert p tp typ e1 => HConvert p tp typ e1 (pexpr_ind' e1)
    end
  with ptpart_ind' (t : ptpart) : R t :=
    match t as t0 return R t0 with
    | PPStr s => HPStr s
    | PPHole => HPHole
    | PPExpr e => HPExpr e (pexpr_ind' e)
    end
  with pstmt_ind' (s : pstmt) : Q s :=
    match s as s0 return Q s0 with
    | PSLet p np x e => HSLet p np x e (pexpr_ind' e)
    | PSExpr e => HSExpr e (pexpr_ind' e)
    | PSAssert p e => HSAssert p e (pexpr_ind' e)
    | PSOut p tp typ e => HSOut p tp typ e (pexpr_ind' e)
    end.

  Theorem pexpr_mutind : (forall e, P e) /\ (forall t, R t) /\ (forall s, Q s).
  Proof. exact (conj pexpr_ind' (conj ptpart_ind' pstmt_ind')). Qed.
End PexprInd.

(* in a case of [pexpr_mutind], after [intros]: the node has its sub-expressions as direct arguments only (no list,
   option or field list of them), so the case has plain induction hypotheses *)
Ltac plain_node :=
  lazymatch goal with
  | _ : Forall _ _ |- _ => fail
  | _ : Pfields _ _ |- _ => fail
  | _ : Popt _ _ |- _ => fail
  | _ : Pdeep _ _ |- _ => fail
  | _ => idtac
  end.
