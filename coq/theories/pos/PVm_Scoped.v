(* The side condition [scoped] of the locality theorems holds for every translated program, hence locality for source programs
   without any condition on the program.  [wfc] says the same of a piece of code on its own and is preserved by every way
   the translator puts code together. *)
From Ucg Require Import pos.PAst_Ind pos.PTranslate_Lemmas pos.PVm pos.PVm_Lemmas pos.PVm_Inv pos.PVm_Locality.

(* [scoped] for a piece of code on its own (indices relative to the piece) *)
Definition wfc (c : pops) : Prop :=
  (forall i x p j, nth_error c i = Some (x, p) -> jump_of x = Some j -> S (i + j) <= List.length c)
  /\ (forall i0 x0 p0 j0, nth_error c i0 = Some (x0, p0) -> frame_of x0 = Some j0 ->
        (exists p', nth_error c (i0 + j0) = Some (IReturn, p'))
        /\ forall i x p j, i0 < i < i0 + j0 -> nth_error c i = Some (x, p) -> jump_of x = Some j -> S (i + j) <= i0 + j0).

Lemma wfc_nil : wfc [].
Proof. split; intros i; destruct i; discriminate. Qed.

Lemma nth_error_lt : forall (A : Type) (l : list A) i x, nth_error l i = Some x -> i < List.length l.
Proof. intros A l i x H. apply nth_error_Some. rewrite H. discriminate. Qed.

Lemma wfc_app : forall a c, wfc a -> wfc c -> wfc (a ++ c).
Proof.
  intros a c [Ha1 Ha2] [Hc1 Hc2]. split.
  - intros i x p j E Hj. rewrite app_length. destruct (Nat.lt_ge_cases i (List.length a)) as [Hlt|Hge].
    + rewrite nth_error_app1 in E by exact Hlt. pose proof (Ha1 i x p j E Hj). lia.
    + rewrite nth_error_app2 in E by exact Hge. pose proof (Hc1 _ x p j E Hj). lia.
  - intros i0 x0 p0 j0 E Hf. destruct (Nat.lt_ge_cases i0 (List.length a)) as [Hlt|Hge].
    + rewrite nth_error_app1 in E by exact Hlt. destruct (Ha2 i0 x0 p0 j0 E Hf) as [[p' Hret] Hin].
      pose proof (nth_error_lt _ _ _ _ Hret) as Hr. split.
      * exists p'. rewrite nth_error_app1 by exact Hr. exact Hret.
      * intros i x p j Hi E' Hj. rewrite nth_error_app1 in E' by lia. exact (Hin i x p j Hi E' Hj).
    + rewrite nth_error_app2 in E by exact Hge. destruct (Hc2 _ x0 p0 j0 E Hf) as [[p' Hret] Hin]. split.
      * exists p'. rewrite nth_error_app2 by lia. replace (i0 + j0 - List.length a) with (i0 - List.length a + j0) by lia.
        exact Hret.
      * intros i x p j Hi E' Hj. rewrite nth_error_app2 in E' by lia.
        pose proof (Hin (i - List.length a) x p j ltac:(lia) E' Hj). lia.
Qed.

Lemma frame_is_jump : forall x j, frame_of x = Some j -> jump_of x = Some j.
Proof. intros x j H. destruct x; simpl in H; try discriminate; exact H. Qed.

Lemma wfc_one : forall x p, jump_of x = None -> wfc [(x, p)].
Proof.
  intros x p Hn. split.
  - intros i y q j E Hj. destruct i as [|i]; [|destruct i; discriminate]. inversion E; subst. rewrite Hn in Hj. discriminate.
  - intros i y q j E Hf. destruct i as [|i]; [|destruct i; discriminate]. inversion E; subst.
    rewrite (frame_is_jump _ _ Hf) in Hn. discriminate.
Qed.

Lemma wfc_cons_plain : forall x p c, jump_of x = None -> wfc c -> wfc ((x, p) :: c).
Proof. intros x p c Hn Hc. exact (wfc_app [(x, p)] c (wfc_one x p Hn) Hc). Qed.

(* a jump over at most the code that follows *)
Lemma wfc_cons_jump : forall x p j c, jump_of x = Some j -> frame_of x = None -> j <= List.length c -> wfc c -> wfc ((x, p) :: c).
Proof.
  intros x p j c Hj Hf Hle [Hc1 Hc2]. split.
  - intros i y q k E Hk. destruct i as [|i]; simpl in *.
    + inversion E; subst. rewrite Hj in Hk. inversion Hk; subst. lia.
    + pose proof (Hc1 i y q k E Hk). lia.
  - intros i0 y q k E Hk. destruct i0 as [|i0]; simpl in E.
    + inversion E; subst. rewrite Hf in Hk. discriminate.
    + destruct (Hc2 i0 y q k E Hk) as [[p' Hret] Hin]. split; [exists p'; exact Hret|].
      intros i z r m Hi E' Hm. destruct i as [|i]; [lia|]. simpl in E'. pose proof (Hin i z r m ltac:(lia) E' Hm). lia.
Qed.

(* a frame op, its body, the Return that ends the body *)
Lemma wfc_frame : forall x p p' inner,
  frame_of x = Some (S (List.length inner)) -> wfc inner -> wfc ((x, p) :: inner ++ [(IReturn, p')]).
Proof.
  intros x p p' inner Hf Hin. pose proof (frame_is_jump _ _ Hf) as Hj.
  assert (Hbody : wfc (inner ++ [(IReturn, p')])) by (apply wfc_app; [exact Hin|apply wfc_one; reflexivity]).
  destruct Hbody as [Hb1 Hb2]. destruct Hin as [Hi1 _]. split.
  - intros i y q k E Hk. simpl. rewrite app_length. simpl. destruct i as [|i]; simpl in E.
    + inversion E; subst. rewrite Hj in Hk. inversion Hk; subst. lia.
    + pose proof (Hb1 i y q k E Hk) as Hle. rewrite app_length in Hle. simpl in Hle. lia.
  - intros i0 y q k E Hk. destruct i0 as [|i0]; simpl in E.
    + inversion E; subst. rewrite Hf in Hk. inversion Hk; subst. split.
      * exists p'. simpl. rewrite nth_error_app2 by apply le_n. rewrite Nat.sub_diag. reflexivity.
      * intros i z r m Hi E' Hm. destruct i as [|i]; [lia|]. simpl in E'.
        rewrite nth_error_app1 in E' by lia. pose proof (Hi1 i z r m E' Hm). lia.
    + destruct (Hb2 i0 y q k E Hk) as [[p'' Hret] Hin']. split; [exists p''; exact Hret|].
      intros i z r m Hi E' Hm. destruct i as [|i]; [lia|]. simpl in E'. pose proof (Hin' i z r m ltac:(lia) E' Hm). lia.
Qed.

Lemma wfc_flat_map : forall (A : Type) (f : A -> pops) (l : list A), Forall (fun a => wfc (f a)) l -> wfc (flat_map f l).
Proof.
  intros A f l H. induction H as [|a l Ha Hl IH]; simpl; [exact wfc_nil|]. apply wfc_app; assumption.
Qed.

Ltac stepW :=
  match goal with
  | |- wfc (_ ++ _) => apply wfc_app
  | |- wfc [] => exact wfc_nil
  | |- wfc ((_, _) :: _) => apply wfc_cons_plain; [reflexivity|]
  | H : wfc ?c |- wfc ?c => exact H
  end.
Ltac solveW := simpl; repeat stepW.

Lemma wfc_pfields : forall fs, Pfields (fun e => wfc (ptr e)) fs -> wfc (pfields ptr fs).
Proof.
  intros fs H. unfold pfields. apply wfc_flat_map. unfold Pfields in H. eapply Forall_impl; [|exact H].
  intros [[kp k] e] He. simpl in He. solveW.
Qed.

Lemma wfc_pelems : forall es, Forall (fun e => wfc (ptr e)) es -> wfc (pelems ptr es).
Proof.
  intros es H. unfold pelems. apply wfc_flat_map. eapply Forall_impl; [|exact H]. intros e He. simpl in He. solveW.
Qed.

Lemma wfc_pargs : forall es, Forall (fun e => wfc (ptr e)) es -> wfc (pargs ptr es).
Proof. intros es H. unfold pargs. apply wfc_flat_map. exact H. Qed.

Lemma wfc_psel_arms : forall p arms d,
  Forall (fun a : pos * bytes * pops * pos => wfc (snd (fst a))) arms -> wfc d -> wfc (psel_arms p arms d).
Proof.
  intros p arms d H Hd. induction H as [|[[[kp k] c] ep] arms Hc Harms IH]; simpl; [solveW|].
  simpl in Hc. apply wfc_cons_plain; [reflexivity|].
  eapply wfc_cons_jump; [reflexivity|reflexivity| |].
  - rewrite app_length. simpl. lia.
  - apply wfc_app; [exact Hc|]. eapply wfc_cons_jump; [reflexivity|reflexivity|apply le_n|exact IH].
Qed.

Lemma wfc_parms : forall arms, Pfields (fun e => wfc (ptr e)) arms ->
  Forall (fun a : pos * bytes * pops * pos => wfc (snd (fst a))) (parms ptr arms).
Proof.
  intros arms H. unfold parms. apply Forall_map. unfold Pfields in H. eapply Forall_impl; [|exact H].
  intros [[kp k] e] He. exact He.
Qed.

Lemma wfc_pjoin_parts : forall pe pa codes, Forall wfc codes -> wfc (pjoin_parts pe pa codes).
Proof.
  intros pe pa codes H. unfold pjoin_parts. destruct H as [|c cs Hc Hcs]; [solveW|].
  apply wfc_app; [exact Hc|]. apply wfc_flat_map. eapply Forall_impl; [|exact Hcs]. intros c' Hc'. solveW.
Qed.

Lemma wfc_plist_parts : forall p parts args, Forall wfc args -> Forall wfc (plist_parts p parts args).
Proof.
  intros p parts. induction parts as [|t parts IH]; intros args Ha; simpl; [constructor|].
  destruct t.
  - constructor; [solveW|apply IH; exact Ha].
  - destruct Ha as [|a args' Ha0 Hargs]; constructor; try solveW; apply IH; [constructor|exact Hargs].
  - constructor; [solveW|apply IH; exact Ha].
Qed.

Lemma wfc_ppart_codes : forall p parts,
  Forall (fun t => match t with PPExpr pe => wfc (ptr pe) | _ => True end) parts -> Forall wfc (ppart_codes ptr p parts).
Proof.
  intros p parts H. unfold ppart_codes. apply Forall_map. eapply Forall_impl; [|exact H].
  intros t Ht. destruct t; solveW.
Qed.

Lemma wfc_at_pos : forall p is, Forall (fun i => jump_of i = None) is -> wfc (at_pos p is).
Proof.
  intros p is H. unfold at_pos. induction H as [|i is Hi His IH]; simpl; [exact wfc_nil|].
  exact (wfc_cons_plain i p _ Hi IH).
Qed.

Lemma plain_ops_no_jump : forall o is, plain_ops o = Some is -> Forall (fun i => jump_of i = None) is.
Proof. intros o is H. destruct o; inversion H; repeat constructor. Qed.

Definition PW (e : pexpr) : Prop := wfc (ptr e).
Definition RW (t : ptpart) : Prop := match t with PPExpr pe => wfc (ptr pe) | _ => True end.
Definition QW (s : pstmt) : Prop := wfc (ptr_stmt s).

Lemma wfc_pcopy_code : forall p flds, wfc flds -> wfc (pcopy_code p flds).
Proof. intros p flds H. unfold pcopy_code. solveW. Qed.

Lemma ptr_wfc_all : (forall e, PW e) /\ (forall t, RW t) /\ (forall s, QW s).
Proof.
  (* literals, and the nodes and statements whose code has no jump *)
  apply pexpr_mutind; unfold PW, QW; try (intros; solveW; fail).
  - (* tuple *) intros p fs IHfs. solveW. exact (wfc_pfields fs IHfs).
  - (* list *) intros p es IHes. solveW. exact (wfc_pelems es IHes).
  - (* binary *)
    intros p o l r IHl IHr IHdeep.
    destruct (plain_ops o) as [is|] eqn:Eo.
    { rewrite (ptr_plain _ _ _ _ _ Eo). solveW. exact (wfc_at_pos p is (plain_ops_no_jump o is Eo)). }
    destruct (not_plain o Eo) as [->|[->|[->| ->]]].
    + (* AND *) simpl. apply wfc_app; [exact IHl|]. eapply wfc_cons_jump; [reflexivity|reflexivity|apply le_n|exact IHr].
    + (* OR *) simpl. apply wfc_app; [exact IHl|]. eapply wfc_cons_jump; [reflexivity|reflexivity|apply le_n|exact IHr].
    + (* IN *)
      destruct (is_psym l) eqn:El; [|rewrite (ptr_in _ _ _ El); solveW].
      destruct (is_psym_true l El) as (lp & x & ->). simpl.
      apply wfc_app; [exact IHr|]. apply wfc_cons_plain; [reflexivity|]. apply wfc_app; [|solveW].
      apply wfc_app; [exact IHr|].
      do 3 (apply wfc_cons_plain; [reflexivity|]).
      eapply wfc_cons_jump; [reflexivity|reflexivity|simpl; lia|].
      apply wfc_cons_plain; [reflexivity|].
      eapply wfc_cons_jump; [reflexivity|reflexivity|simpl; lia|]. solveW.
    + (* DOT *)
      destruct (pdot_general r) eqn:Er; [rewrite (ptr_dot_general _ _ _ Er); solveW|].
      destruct (pdot_special r Er) as [(sp & k & ->)|[(cp & sel & fs & ->)|(cp & fn & args & ->)]].
      * solveW.
      * destruct IHdeep as [_ IHfs]. rewrite ptr_dot_copy. destruct (psel sel); solveW.
        apply wfc_pcopy_code. exact (wfc_pfields fs IHfs).
      * destruct IHdeep as [_ IHargs]. rewrite ptr_dot_call. destruct (psel fn); solveW.
        exact (wfc_pargs args IHargs).
  - (* copy *)
    intros p t fs IHt IHfs. unfold ptr; fold ptr. apply wfc_app; [exact IHt|]. apply wfc_pcopy_code. exact (wfc_pfields fs IHfs).
  - (* range *) intros p st stp en IHst IHstp IHen. destruct stp as [s|]; simpl in IHstp; solveW.
  - (* format, list form *)
    intros p parts args IHparts IHargs. simpl.
    destruct (negb (Nat.eqb (pcount_holes parts) (List.length args))); [solveW|].
    destruct parts as [|t parts']; [solveW|].
    apply wfc_pjoin_parts. apply wfc_plist_parts. apply Forall_rev. apply Forall_map. exact IHargs.
  - (* format, single form *)
    intros p tpl parts arg IHparts IHarg. unfold ptr; fold ptr. cbv zeta.
    set (inner := (ISym (b "item"), pos_of arg) :: ptr arg ++ (IBindOver, pos_of arg)
                    :: pjoin_parts p (pos_of arg) (rev (ppart_codes ptr p parts))).
    assert (Hbody : (ISym (b "item"), pos_of arg) :: ptr arg ++ (IBindOver, pos_of arg)
                      :: pjoin_parts p (pos_of arg) (rev (ppart_codes ptr p parts)) ++ [(IReturn, pos_of arg)]
                    = inner ++ [(IReturn, pos_of arg)]).
    { unfold inner. simpl. rewrite <- app_assoc. reflexivity. }
    rewrite Hbody. apply wfc_frame.
    + rewrite app_length. simpl. rewrite Nat.add_1_r. reflexivity.
    + unfold inner. apply wfc_cons_plain; [reflexivity|]. apply wfc_app; [exact IHarg|].
      apply wfc_cons_plain; [reflexivity|]. apply wfc_pjoin_parts. apply Forall_rev. exact (wfc_ppart_codes p parts IHparts).
  - (* call *) intros p fn args IHfn IHargs. solveW. exact (wfc_pargs args IHargs).
  - (* func *)
    intros p ps body IHbody. unfold ptr; fold ptr. cbv zeta. apply wfc_cons_plain; [reflexivity|].
    apply wfc_app.
    + apply wfc_flat_map. apply Forall_forall. intros q _. solveW.
    + apply wfc_frame; [reflexivity|exact IHbody].
  - (* select *)
    intros p ve dflt arms IHve IHdflt IHarms. unfold ptr; fold ptr. cbv zeta. apply wfc_app; [exact IHve|].
    apply wfc_psel_arms; [exact (wfc_parms arms IHarms)|].
    destruct dflt as [de|]; simpl in IHdflt; solveW.
  - (* module *)
    intros p ps out body IHps IHout IHbody. unfold ptr; fold ptr; fold ptr_stmt. cbv zeta.
    apply wfc_cons_plain; [reflexivity|]. apply wfc_app; [exact (wfc_pfields ps IHps)|]. apply wfc_app.
    + destruct out as [oe|]; [|exact wfc_nil]. simpl in IHout.
      eapply wfc_cons_jump; [reflexivity|reflexivity|rewrite app_length; simpl; lia|]. solveW.
    + set (inner := (IBind, p) :: flat_map ptr_stmt body).
      assert (Hbody : (IBind, p) :: flat_map ptr_stmt body ++ [(IReturn, p)] = inner ++ [(IReturn, p)]) by reflexivity.
      rewrite Hbody. apply wfc_frame.
      * rewrite app_length. simpl. rewrite Nat.add_1_r. reflexivity.
      * unfold inner. apply wfc_cons_plain; [reflexivity|]. apply wfc_flat_map. exact IHbody.
  - intros s. exact I.
  - exact I.
Qed.

Theorem ptranslate_stmt_wfc : forall s, wfc (ptranslate_stmt s).
Proof. exact (proj2 (proj2 ptr_wfc_all)). Qed.

(* a well scoped piece of code is scoped inside any code around it *)
Lemma wfc_scoped : forall pre c post, wfc c -> scoped (pre ++ c ++ post) (List.length pre) (List.length pre + List.length c).
Proof.
  intros pre c post [H1 H2].
  assert (Hnth : forall i, List.length pre <= i < List.length pre + List.length c ->
                           nth_error (pre ++ c ++ post) i = nth_error c (i - List.length pre)).
  { intros i Hi. rewrite nth_error_app2 by lia. rewrite nth_error_app1 by lia. reflexivity. }
  split; [rewrite !app_length; lia|]. split.
  - intros i x p j Hi E Hj. rewrite Hnth in E by exact Hi. pose proof (H1 _ x p j E Hj). lia.
  - intros i0 x0 p0 j0 Hi E Hf. rewrite Hnth in E by exact Hi. destruct (H2 _ x0 p0 j0 E Hf) as [[p' Hret] Hin].
    pose proof (nth_error_lt _ _ _ _ Hret) as Hlt. split.
    + exists p'. rewrite Hnth by lia. replace (i0 + j0 - List.length pre) with (i0 - List.length pre + j0) by lia. exact Hret.
    + intros i x p j Hi' E' Hj. rewrite Hnth in E' by lia.
      pose proof (Hin (i - List.length pre) x p j ltac:(lia) E' Hj). lia.
Qed.

Theorem ptranslate_scoped : forall (p1 p2 : pprog) (s : pstmt),
  let code := ptranslate (p1 ++ [s] ++ p2) in
  let lo := List.length (ptranslate p1) in
  scoped code lo (lo + List.length (ptranslate_stmt s)).
Proof.
  intros p1 p2 s code lo. unfold code. rewrite ptranslate_around. apply wfc_scoped. apply ptranslate_stmt_wfc.
Qed.

(* locality for source programs: no side condition on the program (modules with an out-expression included:
   PVm_Locality.locality_module_*_example) *)
Theorem pvm_locality_program : forall fo fuel envv strict_ (p1 p2 : pprog) (s : pstmt) e q via,
  let code := ptranslate (p1 ++ [s] ++ p2) in
  let lo := List.length (ptranslate p1) in
  let hi := lo + List.length (ptranslate_stmt s) in
  pvm_prog fo fuel envv strict_ code = PErr e q via ->
  (* the error surfaced before the run reached s *)
  pvm_run_until fo code strict_ envv pos0 lo fuel (pinit_state fo) = PErr e q via
  \/ exists st0 fuel0,
       (* the run reached the first op of s in state st0 *)
       pvm_run_until fo code strict_ envv pos0 lo fuel (pinit_state fo) = POk st0 /\ ppc st0 = lo /\
       pvm_run fo code strict_ envv pos0 fuel0 st0 = PErr e q via /\
       (pstk st0 = [] ->
          (* the error is local to s: primary position a node of s and no VIA entry, or the outermost VIA entry a node of s *)
          stmt_err s e q via
          \/ (* or s ran to its end and the error surfaced in a later statement *)
             exists st1 fuel1, pvm_run_until fo code strict_ envv pos0 hi fuel0 st0 = POk st1 /\ ppc st1 = hi
                               /\ pvm_run fo code strict_ envv pos0 fuel1 st1 = PErr e q via).
Proof.
  intros fo fuel envv strict_ p1 p2 s e q via code lo hi.
  exact (pvm_locality_translated_prop fo fuel envv strict_ p1 p2 s e q via (ptranslate_scoped p1 p2 s)).
Qed.

(* a function defined by statement d: the error the frame of any call of it hands to its caller is local to d *)
Theorem function_body_local_program : forall fo envv strict_ (p1 p2 : pprog) (d : pstmt) f ptr j pf bs snap s e q via,
  let code := ptranslate (p1 ++ [d] ++ p2) in
  let lo := List.length (ptranslate p1) in
  let hi := lo + List.length (ptranslate_stmt d) in
  lo <= ptr < hi -> nth_error code ptr = Some (IFunc j, pf) ->
  Forall (eok fo (Ncode code envv pos0) (Ncode code envv pos0)) s -> Forall (bok fo (Ncode code envv pos0)) snap ->
  p_fcall_impl fo (pvm_run fo code strict_ envv pos0 f) ptr bs snap s = PErr e q via ->
  stmt_err d e q via.
Proof.
  intros fo envv strict_ p1 p2 d f ptr j pf bs snap s e q via code lo hi.
  exact (function_body_local_translated_prop fo envv strict_ p1 p2 d f ptr j pf bs snap s e q via
                                             (ptranslate_scoped p1 p2 d)).
Qed.
