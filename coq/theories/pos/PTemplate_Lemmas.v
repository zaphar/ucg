(* Theorems about the template scanner model (pos/PTemplate.v) and what they give for the span of a statement. *)
From Ucg Require Import pos.PAst pos.PAst_Ind pos.PTranslate pos.PTranslate_Lemmas pos.PTemplate.

Local Open Scope N_scope.

Lemma count_lf_app : forall a c, count_lf (a ++ c) = count_lf a + count_lf c.
Proof. induction a as [|x a IH]; intros c; cbn [app count_lf]; [reflexivity|]. rewrite IH. lia. Qed.

Lemma adv_consumed_line : forall s st, fst (adv_consumed st s) = fst st + count_lf s.
Proof.
  induction s as [|c s IH]; intros st; cbn [adv_consumed count_lf]; [lia|]. rewrite IH.
  destruct (is_lf c); cbn [fst snd]; [lia|]. destruct (is_cont c); cbn [fst snd]; lia.
Qed.

Lemma adv_file_line : forall s st, fst (adv_file st s) = fst st + count_lf s.
Proof.
  induction s as [|c s IH]; intros st; cbn [adv_file count_lf]; [lia|]. rewrite IH. destruct (is_lf c); cbn [fst snd]; lia.
Qed.

(* consume_expr splits the rest of the template into what it consumed and what is left; the text it returns
   has no more line feeds than what it consumed *)
Lemma consume_spec : forall s n t r, consume n s = (t, r) ->
  exists pre, s = pre ++ r /\ count_lf t <= count_lf pre.
Proof.
  induction s as [|c s IH]; intros n t r H; simpl in H.
  - inversion H; subst. exists []. split; [reflexivity | simpl; lia].
  - destruct (is_lbrace c && Z.eqb (if is_lbrace c then (n + 1)%Z else n) 1)%bool.
    + apply IH in H. destruct H as [pre [Hs Hlf]]. exists (c :: pre). split; [now rewrite Hs|]. simpl. lia.
    + destruct (Z.eqb (if is_rbrace c then ((if is_lbrace c then (n + 1)%Z else n) - 1)%Z
                       else (if is_lbrace c then (n + 1)%Z else n)) 0).
      * inversion H; subst. exists [c]. split; [reflexivity | simpl; lia].
      * destruct (consume (if is_rbrace c then ((if is_lbrace c then (n + 1)%Z else n) - 1)%Z
                           else (if is_lbrace c then (n + 1)%Z else n)) s) as [t' r'] eqn:Hc.
        inversion H; subst. apply IH in Hc. destruct Hc as [pre [Hs Hlf]].
        exists (c :: pre). split; [now rewrite Hs|]. simpl. lia.
Qed.

Lemma firstn_consumed : forall (pre r : bytes), firstn (List.length (pre ++ r) - List.length r) (pre ++ r) = pre.
Proof.
  intros pre r. rewrite app_length. replace (List.length pre + List.length r - List.length r)%nat with (List.length pre) by lia.
  rewrite firstn_app, Nat.sub_diag, firstn_all. simpl. apply app_nil_r.
Qed.

(* the lines the scanner hands out lie between the first line of the template and its last line *)

Definition start_lines_ok (l0 : N) (n : N) (a : nat * pos * bytes) : Prop :=
  let '(_, st, text) := a in l0 <= fst st /\ fst st + count_lf text <= l0 + n.

(* arithmetic about lines after expressing the line of an advanced position by [count_lf] and splitting on line feeds *)
Ltac lf_lia :=
  unfold start_lines_ok; cbn [fst snd count_lf]; rewrite ?count_lf_app, ?adv_consumed_line; cbn [fst snd count_lf];
  repeat match goal with |- context [if is_lf ?c then _ else _] => destruct (is_lf c) end;
  lia.

Lemma scan_lines : forall fuel idx st esc s,
  Forall (start_lines_ok (fst st) (count_lf s)) (scan fuel idx st esc s).
Proof.
  induction fuel as [|fuel IH]; intros idx st esc s; simpl; [constructor|].
  destruct s as [|c s']; [constructor|].
  assert (Hweak : forall l0 n l1 m l, l0 <= l1 -> l1 + m <= l0 + n ->
            Forall (start_lines_ok l1 m) l -> Forall (start_lines_ok l0 n) l).
  { intros l0 n l1 m l H1 H2 H. eapply Forall_impl; [|exact H]. intros [[i st'] text] [Ha Hb].
    unfold start_lines_ok. lia. }
  destruct (is_at c && negb esc)%bool.
  - destruct (consume 0 s') as [text rest] eqn:Hc.
    destruct (consume_spec _ _ _ _ Hc) as [pre [Hs Hlf]]. subst s'.
    rewrite firstn_consumed. constructor.
    + lf_lia.
    + eapply Hweak; [| |apply IH]; lf_lia.
  - destruct (is_bsl c && negb esc)%bool.
    + eapply Hweak; [| |apply IH]; lf_lia.
    + destruct (is_lf c) eqn:Hlf.
      * eapply Hweak; [| |apply IH]; cbn [fst snd count_lf]; rewrite ?Hlf; lia.
      * eapply Hweak; [| |apply IH]; destruct (is_cont c); cbn [fst snd count_lf]; rewrite ?Hlf; lia.
Qed.

Theorem tpl_scan_lines : forall p tpl,
  Forall (fun a : nat * pos * bytes => let '(_, st, text) := a in
            line p <= line st /\ line st + count_lf text <= line p + count_lf tpl) (tpl_scan p tpl).
Proof.
  intros p tpl. unfold tpl_scan.
  eapply Forall_impl; [|apply scan_lines]. intros [[i st] text] H. exact H.
Qed.

(* the tokenizer's offsets: lines are exact, whatever the text *)
Theorem place_line_exact : forall st pre, 1 <= fst st ->
  fst (place st (adv_file (1, 1) pre)) = fst (adv_file st pre).
Proof. intros st pre H. unfold place. cbn [fst snd]. rewrite !adv_file_line. cbn [fst snd]. lia. Qed.

(* columns are exact on the first line of the brace text *)
Lemma adv_file_no_lf : forall pre st, count_lf pre = 0 -> adv_file st pre = (fst st, snd st + N.of_nat (List.length pre)).
Proof.
  induction pre as [|c pre IH]; intros st H.
  - destruct st as [l c0]. cbn [adv_file fst snd List.length]. f_equal. lia.
  - cbn [count_lf] in H. destruct (is_lf c) eqn:Hc; [lia|]. cbn [adv_file]. rewrite Hc, IH by lia.
    cbn [fst snd List.length]. f_equal. lia.
Qed.

Theorem place_first_line_exact : forall st pre, 1 <= fst st -> 1 <= snd st -> count_lf pre = 0 ->
  place st (adv_file (1, 1) pre) = adv_file st pre.
Proof.
  intros st pre H1 H2 Hlf. rewrite !adv_file_no_lf by exact Hlf. unfold place. cbn [fst snd]. f_equal; lia.
Qed.

(* ... and not on its continuation lines: the column offset is added on every line *)
Theorem place_columns_on_continuation_lines_refuted :
  ~ (forall st pre, 1 <= fst st -> 1 <= snd st -> place st (adv_file (1, 1) pre) = adv_file st pre).
Proof.
  intros H. specialize (H (4, 32) [ascii_of_N 10; " "%char]). vm_compute in H.
  assert (H' : (5, 33) = (5, 2)) by (apply H; intros Hc; discriminate Hc). discriminate H'.
Qed.

(* in a template without backslash and with ASCII characters only, the start the scanner hands out for an
   `@` is the position of that `@` in the file (counting bytes as the file's tokenizer does), two columns on *)

Definition plain_byte (c : ascii) : bool := (negb (is_bsl c) && is_ascii c)%bool.

Lemma ascii_not_cont : forall c, is_ascii c = true -> is_cont c = false.
Proof.
  intros c H. unfold is_ascii, is_cont in *. apply N.ltb_lt in H.
  destruct (N.leb 128 (N_of_ascii c)) eqn:E; [|reflexivity]. apply N.leb_le in E. lia.
Qed.

Lemma adv_consumed_file : forall s st, forallb plain_byte s = true ->
  adv_file (fst st, snd st + 1) s = (fst (adv_consumed st s), snd (adv_consumed st s) + 1).
Proof.
  induction s as [|c s IH]; intros st H; simpl; [reflexivity|].
  simpl in H. apply andb_prop in H. destruct H as [Hc Hs]. unfold plain_byte in Hc. apply andb_prop in Hc.
  destruct Hc as [_ Hascii]. rewrite (ascii_not_cont c Hascii).
  destruct (is_lf c); rewrite <- IH by exact Hs; reflexivity.
Qed.

Lemma adv_file_app : forall a c st, adv_file st (a ++ c) = adv_file (adv_file st a) c.
Proof. induction a as [|x a IH]; intros c st; simpl; [reflexivity|]. apply IH. Qed.

Definition start_exact (st0 : pos) (whole : bytes) (a : nat * pos * bytes) : Prop :=
  let '(i, st, _) := a in
  st = (fst (adv_file st0 (firstn i whole)), snd (adv_file st0 (firstn i whole)) + 2).

Lemma scan_starts_exact : forall fuel st0 pre s,
  forallb plain_byte s = true ->
  Forall (start_exact st0 (pre ++ s)) (scan fuel (List.length pre) (adv_file st0 pre) false s).
Proof.
  induction fuel as [|fuel IH]; intros st0 pre s Hs; simpl; [constructor|].
  destruct s as [|c s']; [constructor|].
  simpl in Hs. apply andb_prop in Hs. destruct Hs as [Hc Hs'].
  assert (Hpre : forall x, pre ++ x :: s' = (pre ++ [x]) ++ s') by (intros x; now rewrite <- app_assoc).
  assert (Hlen : forall x : ascii, S (List.length pre) = List.length (pre ++ [x]))
    by (intros x; rewrite app_length; simpl; lia).
  unfold plain_byte in Hc. apply andb_prop in Hc. destruct Hc as [Hbsl Hascii].
  apply negb_true_iff in Hbsl. rewrite Hbsl. simpl.
  destruct (is_at c) eqn:Hat; simpl.
  - destruct (consume 0 s') as [text rest] eqn:Hcons.
    destruct (consume_spec _ _ _ _ Hcons) as [mid [Hsplit Hlf]]. subst s'.
    assert (Hn : (List.length (mid ++ rest) - List.length rest)%nat = List.length mid) by (rewrite app_length; lia).
    rewrite Hn.
    replace (firstn (List.length mid) (mid ++ rest)) with mid
      by (rewrite firstn_app, firstn_all, Nat.sub_diag; simpl; now rewrite app_nil_r).
    constructor.
    + simpl. rewrite firstn_app, firstn_all, Nat.sub_diag. simpl. rewrite app_nil_r. reflexivity.
    + rewrite forallb_app in Hs'. apply andb_prop in Hs'. destruct Hs' as [Hmid Hrest].
      replace (pre ++ c :: mid ++ rest) with ((pre ++ c :: mid) ++ rest) by (rewrite <- app_assoc; reflexivity).
      replace (List.length pre + 1 + List.length mid)%nat with (List.length (pre ++ c :: mid))
        by (rewrite app_length; simpl; lia).
      replace (fst (adv_consumed (adv_file st0 pre) mid), snd (adv_consumed (adv_file st0 pre) mid) + 1)
        with (adv_file st0 (pre ++ c :: mid)).
      * apply IH. exact Hrest.
      * rewrite adv_file_app. simpl.
        assert (Hnolf : is_lf c = false).
        { unfold is_at, is_lf, is_byte in *. apply N.eqb_eq in Hat. apply N.eqb_neq. lia. }
        rewrite Hnolf. apply adv_consumed_file. exact Hmid.
  - destruct (is_lf c) eqn:Hlfc.
    + rewrite Hpre, (Hlen c).
      replace (fst (adv_file st0 pre) + 1, 1) with (adv_file st0 (pre ++ [c]))
        by (rewrite adv_file_app; simpl; now rewrite Hlfc).
      apply IH. exact Hs'.
    + rewrite (ascii_not_cont c Hascii). rewrite Hpre, (Hlen c).
      replace (fst (adv_file st0 pre), snd (adv_file st0 pre) + 1) with (adv_file st0 (pre ++ [c]))
        by (rewrite adv_file_app; simpl; now rewrite Hlfc).
      apply IH. exact Hs'.
Qed.

Theorem tpl_scan_starts_exact : forall p tpl, forallb plain_byte tpl = true ->
  Forall (fun a : nat * pos * bytes => let '(i, st, _) := a in
            let at_pos := adv_file (line p, col p + 1) (firstn i tpl) in
            st = (line at_pos, col at_pos + 2)) (tpl_scan p tpl).
Proof.
  intros p tpl H. unfold tpl_scan.
  pose proof (scan_starts_exact (S (List.length tpl)) (fst p, snd p + 1) [] tpl H) as Hx. simpl in Hx.
  eapply Forall_impl; [|exact Hx]. intros [[i st] text] Hs. exact Hs.
Qed.

(* well placed template expressions lie on the lines of their template string *)

Lemma in_combine_r_ex : forall (A B : Type) (la : list A) (lb : list B) (y : B),
  List.length la = List.length lb -> In y lb -> exists x, In (x, y) (combine la lb).
Proof.
  intros A B la. induction la as [|a la IH]; intros lb y Hlen Hin.
  - destruct lb; [destruct Hin | discriminate Hlen].
  - destruct lb as [|b0 lb]; [destruct Hin|]. simpl in Hlen. injection Hlen as Hlen.
    destruct Hin as [Heq|Hin].
    + subst. exists a. now left.
    + destruct (IH lb y Hlen Hin) as [x Hx]. exists x. now right.
Qed.

Lemma in_part_exprs : forall parts pe, In (PPExpr pe) parts -> In pe (part_exprs parts).
Proof.
  intros parts pe H. unfold part_exprs. apply in_flat_map. exists (PPExpr pe). split; [exact H | now left].
Qed.

Theorem placed_template_nodes_lie_in_the_string : forall p tpl parts pe q,
  fmt_lines_okb (p, tpl, parts) = true -> In (PPExpr pe) parts -> In q (positions_of pe) ->
  line p <= line q <= line p + count_lf tpl.
Proof.
  intros p tpl parts pe q Hok Hpe Hq. unfold fmt_lines_okb in Hok. apply andb_prop in Hok.
  destruct Hok as [Hlen Hall]. apply Nat.eqb_eq in Hlen.
  destruct (in_combine_r_ex _ _ _ _ pe Hlen (in_part_exprs parts pe Hpe)) as [a Ha].
  pose proof (proj1 (forallb_forall _ _) Hall (a, pe) Ha) as Hone. cbn [fst snd] in Hone.
  pose proof (proj1 (Forall_forall _ _) (tpl_scan_lines p tpl) a (in_combine_l _ _ _ _ Ha)) as Hscan.
  destruct a as [[i st] text]. unfold expr_lines_okb in Hone.
  pose proof (proj1 (forallb_forall _ _) Hone q Hq) as Hq'. apply andb_prop in Hq'. destruct Hq' as [H1 H2].
  apply N.leb_le in H1. apply N.leb_le in H2. unfold line in *. lia.
Qed.

(* every node made by the template parser belongs to an `@{...}` expression of one of the format expressions of
   the file's parser *)
Definition covered (F : list fmt) (q : pos) : Prop :=
  exists p tpl parts pe, In (p, tpl, parts) F /\ In (PPExpr pe) parts /\ In q (positions_of pe).

Lemma covered_incl : forall F F' q, incl F F' -> covered F q -> covered F' q.
Proof.
  intros F F' q Hincl [p [tpl [parts [pe [H1 [H2 H3]]]]]]. exists p, tpl, parts, pe. split; [now apply Hincl | now split].
Qed.

Definition PCov (e : pexpr) : Prop := forall q, In q (tpl_positions_of e) -> covered (formats_of e) q.
Definition QCov (s : pstmt) : Prop := forall q, In q (tpl_positions_of_stmt s) -> covered (formats_of_stmt s) q.

Lemma covered_fields : forall fs q, Pfields PCov fs ->
  In q (flat_map (fun fl : pos * bytes * pexpr => tpl_positions_of (snd fl)) fs) ->
  covered (flat_map (fun fl : pos * bytes * pexpr => formats_of (snd fl)) fs) q.
Proof.
  intros fs q H Hq. apply in_flat_map in Hq. destruct Hq as [fl [Hfl Hq]].
  pose proof (proj1 (Forall_forall _ _) H fl Hfl) as IH. eapply covered_incl; [|exact (IH q Hq)].
  intros f Hf. apply in_flat_map. exists fl. now split.
Qed.

Lemma covered_list : forall es q, Forall PCov es ->
  In q (flat_map tpl_positions_of es) -> covered (flat_map formats_of es) q.
Proof.
  intros es q H Hq. apply in_flat_map in Hq. destruct Hq as [e [He Hq]].
  pose proof (proj1 (Forall_forall _ _) H e He) as IH. eapply covered_incl; [|exact (IH q Hq)].
  intros f Hf. apply in_flat_map. exists e. now split.
Qed.

Lemma covered_opt : forall o q, Popt PCov o ->
  In q (opt_positions tpl_positions_of o) -> covered (match o with Some s => formats_of s | None => [] end) q.
Proof. intros [e|] q H Hq; simpl in *; [exact (H q Hq) | destruct Hq]. Qed.

(* [Hq : In q (a ++ b ++ ...)] : one goal per summand, each closed by the lemma for that summand and an inclusion *)
Ltac split_in H := repeat (apply in_app_or in H; destruct H as [H|H]).
Ltac incl_fmt := let f := fresh "f" in let Hf := fresh "Hf" in intros f Hf; simpl; rewrite ?in_app_iff; tauto.
Ltac cover_with L := eapply covered_incl; [|apply L; eassumption]; incl_fmt.

(* a node without template positions; a node or statement that passes on those of its one part *)
Ltac solveC :=
  intros; simpl in *;
  first [exact I | contradiction | match goal with IH : forall q, _ -> covered _ q |- _ => now apply IH end].

Lemma template_nodes_covered_all : (forall e, PCov e) /\ (forall t : ptpart, True) /\ (forall s, QCov s).
Proof.
  apply pexpr_mutind; unfold PCov, QCov; try (solveC; fail).
  - (* tuple *) intros p fs IHfs q Hq. simpl in *. exact (covered_fields fs q IHfs Hq).
  - (* list *) intros p es IHes q Hq. simpl in *. exact (covered_list es q IHes Hq).
  - (* binary *) intros p o l r IHl IHr _ q Hq. simpl in *. split_in Hq; [cover_with IHl | cover_with IHr].
  - (* copy *)
    intros p t fs IHt IHfs q Hq. simpl in *. split_in Hq; [cover_with IHt | cover_with (covered_fields fs q IHfs)].
  - (* range *)
    intros p st stp en IHst IHstp IHen q Hq. simpl in *.
    split_in Hq; [cover_with IHst | cover_with (covered_opt stp q IHstp) | cover_with IHen].
  - (* format, list form *) intros p parts args _ IHargs q Hq. simpl in *. exact (covered_list args q IHargs Hq).
  - (* format, single form: the template expressions themselves *)
    intros p tpl parts arg _ IHarg q Hq. simpl in *. split_in Hq.
    + apply in_flat_map in Hq. destruct Hq as [t [Ht Hq]]. destruct t as [s| |pe]; try destruct Hq.
      exists p, tpl, parts, pe. split; [now left | split; [exact Ht | exact Hq]].
    + eapply covered_incl; [|exact (IHarg q Hq)]. intros f Hf. now right.
  - (* call *)
    intros p fn args IHfn IHargs q Hq. simpl in *. split_in Hq; [cover_with IHfn | cover_with (covered_list args q IHargs)].
  - (* select *)
    intros p ve dflt arms IHve IHdflt IHarms q Hq. simpl in *.
    split_in Hq; [cover_with IHve | cover_with (covered_opt dflt q IHdflt) | cover_with (covered_fields arms q IHarms)].
  - (* map *) intros p fe te IHf IHt q Hq. simpl in *. split_in Hq; [cover_with IHf | cover_with IHt].
  - (* filter *) intros p fe te IHf IHt q Hq. simpl in *. split_in Hq; [cover_with IHf | cover_with IHt].
  - (* reduce *)
    intros p fe ae te IHf IHa IHt q Hq. simpl in *. split_in Hq; [cover_with IHf | cover_with IHa | cover_with IHt].
  - (* module *)
    intros p ps out body IHps IHout IHbody q Hq. simpl in *. split_in Hq.
    + cover_with (covered_fields ps q IHps).
    + cover_with (covered_opt out q IHout).
    + apply in_flat_map in Hq. destruct Hq as [s [Hs Hq]].
      pose proof (proj1 (Forall_forall _ _) IHbody s Hs) as IHs. eapply covered_incl; [|exact (IHs q Hq)].
      intros f Hf. rewrite !in_app_iff. right. right. apply in_flat_map. exists s. now split.
Qed.

Theorem template_nodes_covered : forall s q, In q (tpl_positions_of_stmt s) ->
  exists p tpl parts pe, In (p, tpl, parts) (formats_of_stmt s) /\ In (PPExpr pe) parts /\ In q (positions_of pe).
Proof. intros s q Hq. exact (proj2 (proj2 template_nodes_covered_all) s q Hq). Qed.

(* the span of the file's own nodes and string tokens is the span of the whole statement *)
Theorem src_span_is_stmt_span : forall s lo hi, tpl_placed_stmt s -> src_in_span s lo hi -> stmt_in_span s lo hi.
Proof.
  intros s lo hi Hplaced [Hsrc Hfmt]. unfold stmt_in_span, positions_of_stmt. apply Forall_app. split; [exact Hsrc|].
  apply Forall_forall. intros q Hq.
  destruct (template_nodes_covered s q Hq) as [p [tpl [parts [pe [Hf [Hpe Hqpe]]]]]].
  pose proof (proj1 (forallb_forall _ _) Hplaced (p, tpl, parts) Hf) as Hok.
  pose proof (placed_template_nodes_lie_in_the_string p tpl parts pe q Hok Hpe Hqpe) as Hline.
  pose proof (proj1 (Forall_forall _ _) Hfmt (p, tpl, parts) Hf) as Hspan. simpl in Hspan. lia.
Qed.

(* no op points outside its statement, with the span of a statement stated on what the parser of the file produced: no op points outside the lines
   of the statement's own nodes and string tokens *)
Theorem ops_point_into_their_statement_src : forall s lo hi, tpl_placed_stmt s -> src_in_span s lo hi ->
  Forall (fun x => lo <= line (snd x) <= hi) (ptranslate_stmt s).
Proof.
  intros s lo hi Hplaced Hspan. apply ops_point_into_their_statement. now apply src_span_is_stmt_span.
Qed.

(* a statement without single-argument format expressions needs nothing about templates *)
Corollary ops_point_into_their_statement_no_templates : forall s lo hi, formats_of_stmt s = [] ->
  Forall (fun p => lo <= line p <= hi) (src_positions_of_stmt s) ->
  Forall (fun x => lo <= line (snd x) <= hi) (ptranslate_stmt s).
Proof.
  intros s lo hi Hnone Hsrc. apply ops_point_into_their_statement_src.
  - unfold tpl_placed_stmt. now rewrite Hnone.
  - split; [exact Hsrc|]. rewrite Hnone. constructor.
Qed.

(* Examples: each is what the real parser, template parser and translator produce for the text *)
Local Open Scope string_scope.

(*  line 1:  let a = 1;
    line 4:  let x = "@{item}" % 1; *)
Definition example_stmt : pstmt :=
  PSLet (4, 5) (4, 5) (b "x")
        (PEFormatS (4, 9) (b "@{item}") [PPStr []; PPExpr (PESym (4, 12) (b "item"))] (PEInt (4, 21) 1%Z)).

Example example_scan : tpl_scan (4, 9) (b "@{item}") = [(0%nat, (4, 12), b "item")].
Proof. reflexivity. Qed.

Example example_ops :
  ptranslate_stmt example_stmt =
  [(ISym (b "x"), (4, 5)); (INewScope 8, (4, 21)); (ISym (b "item"), (4, 21)); (IVal (LInt 1), (4, 21));
   (IBindOver, (4, 21)); (IDeRef (b "item"), (4, 12)); (IRender, (4, 9)); (IVal (LStr []), (4, 9));
   (IAdd, (4, 21)); (IReturn, (4, 21)); (IBind, (4, 5))].
Proof. reflexivity. Qed.

Example example_placed : tpl_placed_stmt example_stmt /\ src_in_span example_stmt 4 4.
Proof.
  split; [reflexivity|]. split.
  - simpl. repeat constructor; unfold line; simpl; lia.
  - simpl. repeat constructor; unfold line; simpl; lia.
Qed.

Example example_ops_on_line_4 : Forall (fun x => 4 <= line (snd x) <= 4) (ptranslate_stmt example_stmt).
Proof. apply ops_point_into_their_statement_src; apply example_placed. Qed.

(*  line 4:  let x = "v=@{item.x + 1} and @{
    line 5:   item.y}" % ...                  the second expression starts on line 4 column 32 and continues on line 5:
    its first node `item` stands at 5:2 in the file, the template parser says 5:33 (place (4,32) (2,2)) *)
Example example_scan_two_lines :
  tpl_scan (4, 9) (b "v=@{item.x + 1} and @{" ++ [ascii_of_N 10] ++ b " item.y}")%list
  = [(2%nat, (4, 14), b "item.x + 1"); (20%nat, (4, 32), ([ascii_of_N 10] ++ b " item.y")%list)].
Proof. reflexivity. Qed.

Example example_continuation_column : place (4, 32) (2, 2) = (5, 33).
Proof. reflexivity. Qed.
