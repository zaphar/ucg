From Ucg Require Import base.Bytes.

Lemma bytes_eqb_spec x y : bytes_eqb x y = true <-> x = y.
Proof.
  revert y; induction x as [|c x IH]; intros [|d y]; cbn.
  - split; reflexivity.
  - split; discriminate.
  - split; discriminate.
  - rewrite andb_true_iff, IH, Ascii.eqb_eq. split.
    + intros [-> ->]; reflexivity.
    + intros H; inversion H; auto.
Qed.

Lemma bytes_eqb_refl x : bytes_eqb x x = true.
Proof. apply bytes_eqb_spec; reflexivity. Qed.

Lemma strip_prefix_app p s : strip_prefix p (p ++ s) = Some s.
Proof. induction p as [|c p IH]; cbn; auto. rewrite Ascii.eqb_refl; exact IH. Qed.

Lemma strip_prefix_some p s r : strip_prefix p s = Some r -> s = p ++ r.
Proof.
  revert s; induction p as [|c p IH]; intros s; cbn.
  - intros H; inversion H; reflexivity.
  - destruct s as [|d s]; [discriminate|].
    destruct (Ascii.eqb c d) eqn:E; [|discriminate].
    apply Ascii.eqb_eq in E; subst d. intros H; rewrite (IH _ H); reflexivity.
Qed.

Lemma bytes_eqb_false x y : bytes_eqb x y = false <-> x <> y.
Proof. rewrite <- bytes_eqb_spec. destruct (bytes_eqb x y); split; congruence. Qed.

Lemma bytes_eqb_sym x y : bytes_eqb x y = bytes_eqb y x.
Proof. apply eq_true_iff_eq. rewrite !bytes_eqb_spec. split; congruence. Qed.

(* a character of a class differs from any character outside it *)
Lemma eqb_class (P : ascii -> bool) c d : P c = true -> P d = false -> Ascii.eqb c d = false.
Proof. intros Hc Hd. destruct (Ascii.eqb_spec c d); [congruence|reflexivity]. Qed.

(* a string of characters of a class holds no given character outside the class *)
Lemma forallb_neq (P : ascii -> bool) d s :
  P d = false -> forallb P s = true -> forallb (fun c => negb (Ascii.eqb c d)) s = true.
Proof.
  intros Hd H. rewrite forallb_forall in *. intros c Hc. rewrite (eqb_class P c d (H c Hc) Hd). reflexivity.
Qed.

Lemma code_lt x : (code x < 256)%N.
Proof. apply N_ascii_bounded. Qed.

Lemma of_code x : ascii_of_N (code x) = x.
Proof. apply ascii_N_embedding. Qed.

Lemma code_of n : (n < 256)%N -> code (ascii_of_N n) = n.
Proof. apply N_ascii_embedding. Qed.

Lemma code_inj c d : code c = code d -> c = d.
Proof. intros H. rewrite <- (of_code c), <- (of_code d), H. reflexivity. Qed.

(* A boolean statement about every byte is decided by evaluating it on the 256 of them, once. *)
Definition all_bool (f : bool -> bool) : bool := f true && f false.

Definition all_byte (P : ascii -> bool) : bool :=
  all_bool (fun a => all_bool (fun b => all_bool (fun c => all_bool (fun d =>
  all_bool (fun e => all_bool (fun f => all_bool (fun g => all_bool (fun h => P (Ascii a b c d e f g h))))))))).

Lemma all_bool_spec f : all_bool f = true -> forall x, f x = true.
Proof. unfold all_bool. intros H x. apply andb_true_iff in H. destruct x; tauto. Qed.

Lemma all_byte_spec P : all_byte P = true -> forall c, P c = true.
Proof.
  intros H [a b c d e f g h].
  apply (all_bool_spec _ (all_bool_spec _ (all_bool_spec _ (all_bool_spec _ (all_bool_spec _ (all_bool_spec _
          (all_bool_spec _ (all_bool_spec _ H a) b) c) d) e) f) g) h).
Qed.

(* the form in which it is used: on the bytes of a class, two tests agree *)
Lemma class_fact (A f g : ascii -> bool) :
  all_byte (fun c => implb (A c) (Bool.eqb (f c) (g c))) = true -> forall c, A c = true -> f c = g c.
Proof.
  intros H c Hc. pose proof (all_byte_spec _ H c) as E. cbn beta in E. rewrite Hc in E. exact (eqb_prop _ _ E).
Qed.
