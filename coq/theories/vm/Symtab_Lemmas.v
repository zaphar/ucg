(* The order on names, sorted association lists, and the two facts the program-level theorem needs:
   the evaluator's export of a scope has the same bindings as the scope, and two sorted tables with
   related lookups are related entry by entry. *)
From Ucg Require Import base.Bytes_Lemmas.
From Ucg Require Export vm.Compile_Rel.

Lemma N_of_ascii_inj a c : N_of_ascii a = N_of_ascii c -> a = c.
Proof. intros H. rewrite <- (ascii_N_embedding a), <- (ascii_N_embedding c), H. reflexivity. Qed.

Lemma bytes_ltb_irrefl x : bytes_ltb x x = false.
Proof. induction x as [|c x IH]; cbn; auto. rewrite N.ltb_irrefl. exact IH. Qed.

Lemma bytes_ltb_trans x : forall y z, bytes_ltb x y = true -> bytes_ltb y z = true -> bytes_ltb x z = true.
Proof.
  induction x as [|c x IH]; intros [|d y] [|e z] H1 H2; cbn in *; try discriminate; auto.
  destruct (N.ltb_spec (N_of_ascii c) (N_of_ascii d)), (N.ltb_spec (N_of_ascii d) (N_of_ascii c)),
           (N.ltb_spec (N_of_ascii d) (N_of_ascii e)), (N.ltb_spec (N_of_ascii e) (N_of_ascii d)),
           (N.ltb_spec (N_of_ascii c) (N_of_ascii e)), (N.ltb_spec (N_of_ascii e) (N_of_ascii c));
    try discriminate; try lia; auto.
  eapply IH; eauto.
Qed.

Lemma bytes_ltb_total x : forall y, bytes_ltb x y = false -> bytes_eqb x y = false -> bytes_ltb y x = true.
Proof.
  induction x as [|c x IH]; intros [|d y] H1 H2; cbn in *; try discriminate; auto.
  destruct (N.ltb_spec (N_of_ascii c) (N_of_ascii d)), (N.ltb_spec (N_of_ascii d) (N_of_ascii c));
    try discriminate; try lia; auto.
  assert (c = d) by (apply N_of_ascii_inj; lia). subst d. rewrite Ascii.eqb_refl in H2. cbn in H2.
  apply IH; auto.
Qed.

Lemma bytes_ltb_neq x y : bytes_ltb x y = true -> bytes_eqb x y = false.
Proof.
  intros H. destruct (bytes_eqb x y) eqn:E; auto. apply bytes_eqb_spec in E; subst.
  rewrite bytes_ltb_irrefl in H. discriminate.
Qed.

Section Sorted.
  Variable V : Type.
  Notation alist := (list (bytes * V)).

  Fixpoint all_gt (k : bytes) (l : alist) : Prop :=
    match l with [] => True | (k', _) :: l' => bytes_ltb k k' = true /\ all_gt k l' end.
  Fixpoint sorted (l : alist) : Prop :=
    match l with [] => True | (k, _) :: l' => all_gt k l' /\ sorted l' end.

  Fixpoint aget (x : bytes) (l : alist) : option V :=
    match l with [] => None | (k, v) :: l' => if bytes_eqb x k then Some v else aget x l' end.

  Lemma all_gt_trans k k' l : bytes_ltb k k' = true -> all_gt k' l -> all_gt k l.
  Proof.
    induction l as [|[k2 v2] l IH]; cbn; auto. intros H [H1 H2]. split; auto.
    eapply bytes_ltb_trans; eauto.
  Qed.

  Lemma all_gt_aget k l : all_gt k l -> aget k l = None.
  Proof.
    induction l as [|[k2 v2] l IH]; cbn; auto. intros [H1 H2].
    rewrite (bytes_ltb_neq _ _ H1). auto.
  Qed.

  (* insertion as done by scope.rs (replace) *)
  Fixpoint ains (k : bytes) (v : V) (l : alist) : alist :=
    match l with
    | [] => [(k, v)]
    | (k', w) :: l' => if bytes_ltb k k' then (k, v) :: l
                       else if bytes_eqb k k' then (k, v) :: l'
                       else (k', w) :: ains k v l'
    end.

  Lemma all_gt_ains k0 k v l : bytes_ltb k0 k = true -> all_gt k0 l -> all_gt k0 (ains k v l).
  Proof.
    induction l as [|[k2 v2] l IH]; cbn; auto. intros H [H1 H2].
    destruct (bytes_ltb k k2); cbn; auto.
    destruct (bytes_eqb k k2); cbn; auto.
  Qed.

  Lemma sorted_ains k v l : sorted l -> sorted (ains k v l).
  Proof.
    induction l as [|[k2 v2] l IH]; cbn; auto. intros [H1 H2].
    destruct (bytes_ltb k k2) eqn:E1; cbn.
    - repeat split; auto. eapply all_gt_trans; eauto.
    - destruct (bytes_eqb k k2) eqn:E2; cbn.
      + apply bytes_eqb_spec in E2; subst. auto.
      + split; auto. apply all_gt_ains; auto; apply bytes_ltb_total; auto;
        rewrite bytes_eqb_sym; exact E2.
  Qed.

  (* insertion as done by export_scope (keep the existing entry) *)
  Fixpoint akeep (k : bytes) (v : V) (l : alist) : alist :=
    match l with
    | [] => [(k, v)]
    | (k', w) :: l' => if bytes_ltb k k' then (k, v) :: l
                       else if bytes_eqb k k' then l
                       else (k', w) :: akeep k v l'
    end.

  Lemma all_gt_akeep k0 k v l : bytes_ltb k0 k = true -> all_gt k0 l -> all_gt k0 (akeep k v l).
  Proof.
    induction l as [|[k2 v2] l IH]; cbn; auto. intros H [H1 H2].
    destruct (bytes_ltb k k2); cbn; auto.
    destruct (bytes_eqb k k2); cbn; auto.
  Qed.

  Lemma sorted_akeep k v l : sorted l -> sorted (akeep k v l).
  Proof.
    induction l as [|[k2 v2] l IH]; cbn; auto. intros [H1 H2].
    destruct (bytes_ltb k k2) eqn:E1; cbn.
    - repeat split; auto. eapply all_gt_trans; eauto.
    - destruct (bytes_eqb k k2) eqn:E2; cbn; auto.
      split; auto. apply all_gt_akeep; auto; apply bytes_ltb_total; auto;
      rewrite bytes_eqb_sym; exact E2.
  Qed.

  Lemma aget_akeep x k v l : sorted l ->
    aget x (akeep k v l) = match aget x l with Some v' => Some v' | None => if bytes_eqb x k then Some v else None end.
  Proof.
    induction l as [|[k2 v2] l IH]; cbn; auto.
    intros [H1 H2]. destruct (bytes_ltb k k2) eqn:E1; cbn.
    - destruct (bytes_eqb x k) eqn:Exk.
      + apply bytes_eqb_spec in Exk; subst x. rewrite (bytes_ltb_neq _ _ E1).
        rewrite (all_gt_aget k l); auto. eapply all_gt_trans; eauto.
      + destruct (bytes_eqb x k2); auto. destruct (aget x l); auto.
    - destruct (bytes_eqb k k2) eqn:E2; cbn.
      + apply bytes_eqb_spec in E2; subst k2. destruct (bytes_eqb x k); auto. destruct (aget x l); auto.
      + destruct (bytes_eqb x k2); auto.
  Qed.
End Sorted.
Arguments all_gt {V}. Arguments sorted {V}. Arguments aget {V}. Arguments ains {V}. Arguments akeep {V}.

Section Export.
  Variable fo : float_ops.
  Variable C : ops.

  (* the model's tables are these association lists, with the same code *)
  Lemma sym_add_ains k (v : wval fo) t : sym_add k v t = ains k v t.
  Proof. reflexivity. Qed.
  Lemma sym_get_aget x (t : symtab fo) : sym_get x t = aget x t.
  Proof. reflexivity. Qed.
  Lemma lookup_aget x (s : scope fo) : lookup fo x s = aget x s.
  Proof. reflexivity. Qed.
  Lemma insert_sorted_akeep k v (l : list (bytes * value fo)) : insert_sorted fo k v l = akeep k v l.
  Proof. reflexivity. Qed.

  Lemma sorted_sym_add k (v : wval fo) t : sorted t -> sorted (sym_add k v t).
  Proof. rewrite sym_add_ains. apply sorted_ains. Qed.

  Lemma export_scope_gen (drop : bool) (s : scope fo) :
    sorted (export_scope fo s drop) /\
    forall x, lookup fo x (export_scope fo s drop) =
              if drop && bytes_eqb x (b "mod") then None else lookup fo x s.
  Proof.
    unfold export_scope.
    assert (H : forall (s : scope fo) acc, sorted acc ->
              sorted (fold_left (fun acc '(k, v) => if drop && bytes_eqb k (b "mod") then acc
                                                    else insert_sorted fo k v acc) s acc) /\
              forall x, aget x (fold_left (fun acc '(k, v) => if drop && bytes_eqb k (b "mod") then acc
                                                              else insert_sorted fo k v acc) s acc) =
                        match aget x acc with
                        | Some v => Some v
                        | None => if drop && bytes_eqb x (b "mod") then None else aget x s
                        end).
    { clear s. induction s as [|[k v] s IH]; intros acc Hacc; cbn [fold_left].
      - split; auto. intros x. cbn. destruct (aget x acc); auto. destruct (drop && _); reflexivity.
      - destruct (drop && bytes_eqb k (b "mod")) eqn:Ed.
        + destruct (IH acc Hacc) as [H1 H2]. split; auto. intros x. rewrite H2.
          destruct (aget x acc); auto. cbn [aget].
          destruct (bytes_eqb x k) eqn:Exk; auto.
          apply bytes_eqb_spec in Exk; subst x. rewrite Ed. reflexivity.
        + rewrite insert_sorted_akeep.
          destruct (IH (akeep k v acc) (sorted_akeep _ k v acc Hacc)) as [H1 H2]. split; auto.
          intros x. rewrite H2, aget_akeep by auto. cbn [aget]. destruct (aget x acc); auto.
          destruct (bytes_eqb x k) eqn:Exk; auto.
          apply bytes_eqb_spec in Exk; subst x. rewrite Ed. reflexivity. }
    destruct (H s [] I) as [H1 H2]. split; auto; intros x; rewrite !lookup_aget; apply H2.
  Qed.

  Lemma export_scope_spec (s : scope fo) :
    sorted (export_scope fo s false) /\ forall x, lookup fo x (export_scope fo s false) = lookup fo x s.
  Proof. apply (export_scope_gen false). Qed.

  Lemma all_gt_filter {V} (g : bytes * V -> bool) k l : all_gt k l -> all_gt k (filter g l).
  Proof.
    induction l as [|[k2 v2] l IH]; cbn; auto. intros [H1 H2].
    destruct (g (k2, v2)); cbn; auto.
  Qed.
  Lemma sorted_filter {V} (g : bytes * V -> bool) l : sorted l -> sorted (filter g l).
  Proof.
    induction l as [|[k2 v2] l IH]; cbn; auto. intros [H1 H2].
    destruct (g (k2, v2)); cbn; auto. split; auto. apply all_gt_filter; auto.
  Qed.
  Lemma aget_filter_key {V} (g : bytes -> bool) x (l : list (bytes * V)) :
    aget x (filter (fun kv => g (fst kv)) l) = if g x then aget x l else None.
  Proof.
    induction l as [|[k2 v2] l IH]; cbn; [destruct (g x); reflexivity|].
    destruct (g k2) eqn:Eg; cbn; rewrite IH.
    - destruct (bytes_eqb x k2) eqn:E; auto. apply bytes_eqb_spec in E; subst. rewrite Eg. reflexivity.
    - destruct (bytes_eqb x k2) eqn:E; auto. apply bytes_eqb_spec in E; subst. rewrite Eg. reflexivity.
  Qed.

  Lemma sorted_lookup_Forall2 (l : list (bytes * value fo)) : forall (l' : symtab fo),
    sorted l -> sorted l' ->
    (forall x, orel (val_rel fo C) (aget x l) (aget x l')) ->
    Forall2 (fld_rel fo C) l l'.
  Proof.
    induction l as [|[k v] l IH]; intros [|[k' w] l'] Hs Hs' Hx.
    - constructor.
    - specialize (Hx k'). cbn in Hx. rewrite bytes_eqb_refl in Hx. inversion Hx.
    - specialize (Hx k). cbn in Hx. rewrite bytes_eqb_refl in Hx. inversion Hx.
    - destruct Hs as [Hg Hs], Hs' as [Hg' Hs'].
      destruct (bytes_ltb k k') eqn:E1.
      { specialize (Hx k). cbn in Hx. rewrite bytes_eqb_refl, (bytes_ltb_neq _ _ E1) in Hx.
        rewrite (all_gt_aget _ k l') in Hx by (eapply all_gt_trans; eauto). inversion Hx. }
      destruct (bytes_eqb k k') eqn:E2.
      2: { assert (E3 : bytes_ltb k' k = true) by (apply bytes_ltb_total; auto).
           specialize (Hx k'). cbn in Hx. rewrite bytes_eqb_refl, (bytes_ltb_neq _ _ E3) in Hx.
           rewrite (all_gt_aget _ k' l) in Hx by (eapply all_gt_trans; eauto). inversion Hx. }
      apply bytes_eqb_spec in E2; subst k'. constructor.
      + pose proof (Hx k) as Hk. cbn in Hk. rewrite bytes_eqb_refl in Hk. inversion Hk; subst.
        split; auto.
      + apply IH; auto. intros x. pose proof (Hx x) as Hxx. cbn in Hxx.
        destruct (bytes_eqb x k) eqn:E.
        * apply bytes_eqb_spec in E; subst x.
          rewrite (all_gt_aget _ k l), (all_gt_aget _ k l'); auto. constructor.
        * exact Hxx.
  Qed.
  (* the result of instantiating a module without an out expression *)
  Lemma module_export_rel (s : scope fo) (t : symtab fo) :
    sorted t -> scope_rel fo C s t ->
    val_rel fo C (VTuple (export_scope fo s true)) (symbols_to_tuple fo t false).
  Proof.
    intros Hso Hs. unfold symbols_to_tuple. apply VR_tuple. destruct (export_scope_gen true s) as [H1 H2].
    assert (Hf : filter (fun '(k, _) => false || negb (bytes_eqb k (b "mod"))) t =
                 filter (fun kv : bytes * wval fo => negb (bytes_eqb (fst kv) (b "mod"))) t).
    { apply filter_ext. intros [k v]. reflexivity. }
    rewrite Hf. apply sorted_lookup_Forall2; auto.
    - apply sorted_filter; auto.
    - intros x. rewrite <- lookup_aget, H2.
      rewrite (aget_filter_key (fun k => negb (bytes_eqb k (b "mod")))). cbn [andb].
      destruct (bytes_eqb x (b "mod")); cbn [negb]; [constructor|].
      rewrite <- sym_get_aget. apply Hs.
  Qed.

End Export.
