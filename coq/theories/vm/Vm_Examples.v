(* Running programs through BOTH the definitional semantics (sem_prog) and the compiled code
   (vm_prog after translate), by vm_compute, with a trivial concrete float instance that is
   defined here only (floats as integers; the arithmetic is a stand-in). *)
From Ucg Require Import vm.Compile_Correct.

Definition toy_floats : float_ops := {|
  F := Z;
  f_of_bits := fun z => z; f_to_bits := fun z => z;
  fadd := Z.add; fsub := Z.sub; fmul := Z.mul; fdiv := fun x y => Z.quot x y;
  feqb := Z.eqb; fltb := Z.ltb; fleb := Z.leb;
  f_of_int := fun z => z; f_to_int := fun z => Some z; f_text := fun z => Some (dec_Z z)
|}.

(* both results, rendered (closures render as <Func>, modules as <Module>) *)
Definition show_sem (r : res (list (bytes * value toy_floats))) : option (list (bytes * option bytes)) :=
  match r with
  | Ok bs => Some (map (fun '(k, v) => (k, match render toy_floats 100 v with Ok t => Some t | _ => None end)) bs)
  | _ => None
  end.
Definition show_vm (r : outcome (list (bytes * wval toy_floats))) : option (list (bytes * option bytes)) :=
  match r with
  | VOk bs => Some (map (fun '(k, w) => (k, wrender w)) bs)
  | _ => None
  end.
Definition agree (p : prog) : bool :=
  match show_sem (sem_prog toy_floats 200 [(b "HOME", b "/root")] true true p),
        show_vm (vm_prog toy_floats 5000 [(b "HOME", b "/root")] true (translate p)) with
  | Some x, Some y =>
    Nat.eqb (List.length x) (List.length y) &&
    forallb (fun '((k1, t1), (k2, t2)) =>
               bytes_eqb k1 k2 && match t1, t2 with Some a, Some c => bytes_eqb a c | _, _ => false end)
            (combine x y)
  | _, _ => false
  end.

Local Open Scope string_scope.

(* the core constructs, copies with self, closures and calls, map / filter / reduce *)
Definition p_frag : prog :=
  [ SLet (b "a") (EBin Add (EInt 1) (EBin Mul (EInt 2) (EInt 3)));
    SLet (b "a2") (EBin Sub (EBin Div (EInt 17) (EInt 5)) (EBin Mod (EInt 17) (EInt 5)));
    SLet (b "fl") (EBin Add (EFloat 3) (ECast CFloat (EInt 4)));
    SLet (b "st") (EBin Add (EStr (b "ab")) (EStr (b "cd")));
    SLet (b "ls") (EBin Add (EList [EInt 1]) (EList [ENull; EBool true]));
    SLet (b "t") (ETuple [(b "x", ESym (b "a")); (b "y", EList [EInt 1; EStr (b "s")]); (b "x", EInt 9)]);
    SLet (b "c") (EBin AND (EBin LT (ESym (b "a")) (EInt 10)) (EBin OR (EBool false) (ENot (EBool false))));
    SLet (b "cmp") (EList [EBin GT (EInt 1) (EInt 2); EBin GTEqual (EInt 2) (EInt 2); EBin LTEqual (EInt 3) (EInt 2)]);
    SLet (b "eq") (EList [EBin Equal (ESym (b "t")) (ESym (b "t")); EBin NotEqual (ESym (b "t")) ENull;
                          EBin Equal (ETuple [(b "p", EInt 1); (b "q", EInt 2)]) (ETuple [(b "q", EInt 2); (b "p", EInt 1)])]);
    SLet (b "d") (EBin DOT (EBin DOT (ESym (b "t")) (ESym (b "y"))) (EInt 1));
    SLet (b "d2") (EBin DOT (ESym (b "t")) (EGroup (EStr (b "x"))));
    SLet (b "e") (ESelect (EBin DOT (ESym (b "t")) (ESym (b "x"))) (Some (EStr (b "dflt"))) [(b "k", EInt 1)]);
    SLet (b "f") (ESelect (EStr (b "k")) None [(b "j", EInt 0); (b "k", EBin IN (ESym (b "x")) (ESym (b "t")))]);
    SLet (b "f2") (ESelect (EBin IN (EInt 3) (EList [EInt 1; EInt 3])) None [(b "true", EStr (b "yes")); (b "false", EStr (b "no"))]);
    SLet (b "f3") (EList [EBin IN (EStr (b "bc")) (EStr (b "abcd")); EBin IN (ESym (b "a")) (EList [EInt 7])]);
    SLet (b "g") (ERange (EInt 1) (Some (EInt 2)) (EInt 7));
    SLet (b "g2") (ERange (EInt 3) None (EInt 5));
    SLet (b "h") (EBin IS (ESym (b "g")) (EStr (b "list")));
    SLet (b "i") (EList [ECast CStr (EInt 42); ECast CInt (EStr (b "-7")); ECast CBool (EStr (b "true")); ECast CStr (EStr (b "q"))]);
    SLet (b "home") (EBin DOT (ESym (b "env")) (ESym (b "HOME")));
    SExpr (ETrace (EGroup (ESym (b "a"))));
    (* milestone 2: copies with self *)
    SLet (b "u") (ECopy (ESym (b "t")) [(b "x", EBin Add (EBin DOT (ESym (b "self")) (ESym (b "x"))) (EInt 1)); (b "z", EStr (b "new"))]);
    SLet (b "nest") (ETuple [(b "inner", ETuple [(b "v", EInt 1)])]);
    SLet (b "u2") (EBin DOT (ESym (b "nest")) (ECopy (ESym (b "inner")) [(b "v", EInt 2); (b "w", EBin DOT (ESym (b "self")) (ESym (b "v")))]));
    (* milestone 3: closures and calls *)
    SLet (b "k") (EInt 10);
    SLet (b "add") (EFunc [b "x"; b "y"] (EBin Add (EBin Add (ESym (b "x")) (ESym (b "y"))) (ESym (b "k"))));
    SLet (b "r") (ECall (ESym (b "add")) [EInt 1; EInt 2]);
    SLet (b "adder") (EFunc [b "n"] (EFunc [b "m"] (EBin Add (ESym (b "n")) (ESym (b "m")))));
    SLet (b "add5") (ECall (ESym (b "adder")) [EInt 5]);
    SLet (b "r3") (ECall (ESym (b "add5")) [EInt 6]);
    SLet (b "ft") (ETuple [(b "f", ESym (b "add")); (b "n", EInt 1)]);
    SLet (b "r2") (EBin DOT (ESym (b "ft")) (ECall (ESym (b "f")) [EInt 5; EInt 6]));
    SLet (b "sel") (EFunc [b "v"] (ESelect (ESym (b "v")) (Some (EInt 0)) [(b "one", EInt 1); (b "two", EInt 2)]));
    SLet (b "r4") (EList [ECall (ESym (b "sel")) [EStr (b "two")]; ECall (ESym (b "sel")) [EStr (b "x")]]);
    (* milestone 4: map / filter / reduce over lists, tuples, strings *)
    SLet (b "m1") (EMap (EFunc [b "x"] (EBin Mul (ESym (b "x")) (ESym (b "x")))) (EList [EInt 1; EInt 2; EInt 3]));
    SLet (b "m2") (EMap (EFunc [b "k"; b "v"] (EList [EBin Add (ESym (b "k")) (EStr (b "_")); ESym (b "v")])) (ESym (b "ft")));
    SLet (b "m3") (EMap (EFunc [b "ch"] (EBin Add (ESym (b "ch")) (EStr (b ".")))) (EStr (b "abc")));
    SLet (b "f1") (EFilter (EFunc [b "x"] (EBin GT (ESym (b "x")) (EInt 1))) (EList [EInt 1; EInt 2; EInt 3]));
    SLet (b "f2b") (EFilter (EFunc [b "k"; b "v"] (EBin IS (ESym (b "v")) (EStr (b "int")))) (ESym (b "ft")));
    SLet (b "f3b") (EFilter (EFunc [b "ch"] (EBin NotEqual (ESym (b "ch")) (EStr (b "b")))) (EStr (b "abc")));
    SLet (b "rd1") (EReduce (EFunc [b "acc"; b "x"] (EBin Add (ESym (b "acc")) (ESym (b "x")))) (EInt 0) (EList [EInt 1; EInt 2; EInt 3]));
    SLet (b "rd2") (EReduce (EFunc [b "acc"; b "k"; b "v"] (EBin Add (ESym (b "acc")) (ESym (b "k")))) (EStr (b "")) (ESym (b "ft")));
    SLet (b "rd3") (EReduce (EFunc [b "acc"; b "c"] (EBin Add (ESym (b "c")) (ESym (b "acc")))) (EStr (b "")) (EStr (b "abc")))
  ].

Example p_frag_in_fragment : in_fragment p_frag = true.
Proof. vm_compute. reflexivity. Qed.
Example p_frag_agrees : agree p_frag = true.
Proof. vm_compute. reflexivity. Qed.

(* errors are errors on both sides: division by zero, a missing field in strict mode, fail, an arity error *)
Definition both_err (p : prog) : bool :=
  match sem_prog toy_floats 200 [] true true p, vm_prog toy_floats 5000 [] true (translate p) with
  | Err, VErr => true
  | _, _ => false
  end.
Example err_div0 : both_err [SLet (b "x") (EBin Div (EInt 1) (EInt 0))] = true.
Proof. vm_compute. reflexivity. Qed.
Example err_overflow : both_err [SLet (b "x") (EBin Add (EInt 9223372036854775807) (EInt 1))] = true.
Proof. vm_compute. reflexivity. Qed.
Example err_field : both_err [SLet (b "x") (EBin DOT (ETuple []) (ESym (b "nope")))] = true.
Proof. vm_compute. reflexivity. Qed.
Example err_fail : both_err [SExpr (EFail (EStr (b "boom")))] = true.
Proof. vm_compute. reflexivity. Qed.
Example err_arity : both_err [SLet (b "f") (EFunc [b "x"] (ESym (b "x"))); SExpr (ECall (ESym (b "f")) [])] = true.
Proof. vm_compute. reflexivity. Qed.
Example err_rebind : both_err [SLet (b "x") (EInt 1); SLet (b "x") (EInt 2)] = true.
Proof. vm_compute. reflexivity. Qed.
Example err_types : both_err [SExpr (EBin Equal (EInt 1) (EStr (b "1")))] = true.
Proof. vm_compute. reflexivity. Qed.
Example err_hof_arity : both_err [SExpr (EMap (EFunc [b "x"; b "y"] (ESym (b "x"))) (EList [EInt 1]))] = true.
Proof. vm_compute. reflexivity. Qed.
Example err_select : both_err [SExpr (ESelect (EStr (b "z")) None [(b "a", EInt 1)])] = true.
Proof. vm_compute. reflexivity. Qed.

(* format strings (both forms) and modules (parameters, out expression, mod.this) *)
Definition modn : expr := EBin DOT (ESym (b "mod")) (ESym (b "n")).
Definition p_more : prog :=
  [ SLet (b "t") (ETuple [(b "f", EInt 1); (b "n", EStr (b "s"))]);
    SLet (b "s0") (EFormatL [] []);
    SLet (b "s1") (EFormatL [PStr (b "a="); PHole; PStr (b " b="); PHole] [EInt 1; EList [EBool true]]);
    SLet (b "s1b") (EFormatL [PHole; PHole; PStr (b "!")] [ESym (b "t"); ENull]);
    SLet (b "s2") (EFormatS [PStr (b "n="); PExpr (EBin DOT (ESym (b "item")) (ESym (b "n"))); PStr (b " f=");
                             PExpr (EBin Add (EBin DOT (ESym (b "item")) (ESym (b "f"))) (EInt 1))] (ESym (b "t")));
    SLet (b "s3") (EFormatS [] (EInt 1));
    SLet (b "md") (EModule [(b "p", EInt 1)] None [SLet (b "q") (EBin Add (EBin DOT (ESym (b "mod")) (ESym (b "p"))) (EInt 1))]);
    SLet (b "mi") (ECopy (ESym (b "md")) [(b "p", EInt 41)]);
    SLet (b "mo") (EModule [(b "p", EInt 1)] (Some (ESym (b "q"))) [SLet (b "q") (EBin Mul (EBin DOT (ESym (b "mod")) (ESym (b "p"))) (EInt 2))]);
    SLet (b "mj") (ECopy (ESym (b "mo")) [(b "p", EInt 21)]);
    (* recursion through mod.this *)
    SLet (b "cnt") (EModule [(b "n", EInt 0)] (Some (ESym (b "r")))
      [SLet (b "r") (ESelect (EBin Equal modn (EInt 0)) None
         [(b "true", EInt 0);
          (b "false", EBin Add (EBin DOT (ESym (b "mod")) (ECopy (ESym (b "this")) [(b "n", EBin Sub modn (EInt 1))])) (EInt 1))])]);
    SLet (b "c3") (ECopy (ESym (b "cnt")) [(b "n", EInt 3)]);
    SLet (b "slf") (ECopy (EModule [] (Some (EBin IS (ESym (b "s")) (EStr (b "module")))) [SLet (b "s") (ESym (b "self"))]) [])
  ].
Example p_more_in_fragment : in_fragment p_more = true.
Proof. vm_compute. reflexivity. Qed.
Example p_more_agrees : agree p_more = true.
Proof. vm_compute. reflexivity. Qed.
Example err_format_count : both_err [SExpr (EFormatL [PHole] [])] = true.
Proof. vm_compute. reflexivity. Qed.
Example err_format_arg : both_err [SExpr (EFormatL [PHole; PHole] [EBin Div (EInt 1) (EInt 0); EInt 2])] = true.
Proof. vm_compute. reflexivity. Qed.
Example err_module_type : both_err [SLet (b "m") (EModule [(b "p", EInt 1)] None []); SExpr (ECopy (ESym (b "m")) [(b "p", EStr (b "x"))])] = true.
Proof. vm_compute. reflexivity. Qed.
