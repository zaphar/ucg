(* Statement level and program level of the compile-correctness proof, and the headline theorems. *)
From Ucg Require Import base.Bytes_Lemmas.
From Ucg Require Export vm.Compile_Lemmas vm.Symtab_Lemmas.

Theorem translate_app p1 p2 : translate (p1 ++ p2) = translate p1 ++ translate p2.
Proof. apply cat_map_app. Qed.

Definition in_fragment (p : prog) : bool := forallb frag_stmt p.

Section Prog.
  Variable fo : float_ops.
  Variable strict_ : bool.
  Variable envv : list (bytes * bytes).

  Definition ctx0 : ctx fo :=
    {| sc := []; self_v := None; envt := envv; strict := strict_; eq_ordered := true |}.

  Lemma code_at_self c : code_at c 0 c.
  Proof. intros k i H. exact H. Qed.

  Lemma prog_sim p F :
    in_fragment p = true ->
    match exec_list fo F ctx0 p with
    | Ok s => exists fv t, vm_prog fo fv envv strict_ (translate p) = VOk t /\
                           scope_rel fo (translate p) s t /\ sorted t
    | Err => exists fv, vm_prog fo fv envv strict_ (translate p) = VErr
    | _ => True
    end.
  Proof.
    intros Hf.
    destruct (sim_main fo (translate p) strict_ envv F) as (_ & _ & Hss).
    assert (Hc : ctx_rel fo (translate p) strict_ envv ctx0 [] []).
    { repeat split. apply scope_rel_nil. constructor. }
    pose proof (Hss p ctx0 [] [] [] Hf Hc 0 (code_at_self _)) as H.
    destruct (exec_list fo F ctx0 p) as [s| | |]; auto.
    - destruct H as (s1 & t & ss1 & (-> & -> & Hs & Hso) & Hr).
      destruct (Hr 1 (VOk (mk fo (0 + List.length (translate p)) [] t []))) as (k & Hk).
      + rewrite run_S. cbn [pc mk Nat.add].
        assert (E : nth_error (translate p) (List.length (translate p)) = None)
          by (apply nth_error_None; lia). rewrite E. reflexivity.
      + discriminate.
      + exists k, t. split; [|split; [auto|apply Hso; exact I]]. unfold vm_prog.
        change (mk fo 0 [] [] []) with (init_state fo) in Hk. rewrite Hk. reflexivity.
    - destruct H as (k & Hk). exists k. unfold vm_prog.
      change (mk fo 0 [] [] []) with (init_state fo) in Hk. rewrite Hk. reflexivity.
  Qed.
End Prog.

Section Headline.
  Variable fo : float_ops.

  (* [bs'] represents [bs]: same names in the same (sorted) order, related values.  The relation on
     values is [val_rel] for the compiled program: primitives equal, lists and tuples related
     pointwise, a semantic closure (params, body, scope) related to a VM closure whose code pointer
     points at  Func j :: tr body ++ [Return]  in the program's code and whose snapshot is related
     to the scope. *)
  Definition represents (p : prog) (bs : list (bytes * value fo)) (bs' : list (bytes * wval fo)) : Prop :=
    Forall2 (fld_rel fo (translate p)) bs bs'.

  Theorem compile_correct_ok p E strict_ fs bs :
    in_fragment p = true ->
    sem_prog fo fs E strict_ true p = Ok bs ->
    exists fv bs', vm_prog fo fv E strict_ (translate p) = VOk bs' /\ represents p bs bs'.
  Proof.
    intros Hf Hsem. unfold sem_prog in Hsem.
    pose proof (prog_sim fo strict_ E p fs Hf) as H. unfold ctx0 in H.
    destruct (exec_list fo fs _ p) as [s| | |]; cbn in Hsem; try discriminate.
    inversion Hsem; subst bs. destruct H as (fv & t & Hvm & Hs & Hso).
    exists fv, t. split; auto.
    destruct (export_scope_spec fo s) as [Hse Hle].
    apply sorted_lookup_Forall2; auto.
    intros x. rewrite <- lookup_aget, <- sym_get_aget, Hle. apply Hs.
  Qed.

  Theorem compile_correct_err p E strict_ fs :
    in_fragment p = true ->
    sem_prog fo fs E strict_ true p = Err ->
    exists fv, vm_prog fo fv E strict_ (translate p) = VErr.
  Proof.
    intros Hf Hsem. unfold sem_prog in Hsem.
    pose proof (prog_sim fo strict_ E p fs Hf) as H. unfold ctx0 in H.
    destruct (exec_list fo fs _ p) as [s| | |]; cbn in Hsem; try discriminate. exact H.
  Qed.

  Lemma vm_prog_mono fv fv' E strict_ c o :
    vm_prog fo fv E strict_ c = o -> o <> VFuel -> fv <= fv' -> vm_prog fo fv' E strict_ c = o.
  Proof.
    unfold vm_prog. intros H Ho Hle.
    destruct (vm_run fo c strict_ E fv (init_state fo)) as [st| | | |] eqn:Er; cbn in H; subst o;
      try (rewrite (run_mono fo c strict_ E _ _ _ _ Er ltac:(discriminate) Hle); reflexivity).
    exfalso; apply Ho; reflexivity.
  Qed.

  (* a translated program of the fragment whose evaluation is defined never drives the VM into
     unreachable!(), a panic, a stack underflow or an invalid jump, whatever the fuel *)
  Theorem translate_no_bug p E strict_ fs :
    in_fragment p = true ->
    (exists bs, sem_prog fo fs E strict_ true p = Ok bs) \/ sem_prog fo fs E strict_ true p = Err ->
    forall fv, vm_prog fo fv E strict_ (translate p) <> VBug.
  Proof.
    intros Hf Hsem fv Hbug.
    assert (Hex : exists fv' o, vm_prog fo fv' E strict_ (translate p) = o /\ o <> VBug /\ o <> VFuel).
    { destruct Hsem as [(bs & Hsem)|Hsem].
      - destruct (compile_correct_ok _ _ _ _ _ Hf Hsem) as (fv' & bs' & H1 & _).
        exists fv', (VOk bs'). repeat split; auto; discriminate.
      - destruct (compile_correct_err _ _ _ _ Hf Hsem) as (fv' & H1).
        exists fv', VErr. repeat split; auto; discriminate. }
    destruct Hex as (fv' & o & H1 & Ho1 & Ho2).
    pose proof (vm_prog_mono _ (Nat.max fv fv') _ _ _ _ Hbug ltac:(discriminate) ltac:(lia)) as H2.
    pose proof (vm_prog_mono _ (Nat.max fv fv') _ _ _ _ H1 Ho2 ltac:(lia)) as H3.
    congruence.
  Qed.
End Headline.

(* which constructs an expression mentions *)
Section Mentions.
  Variable P : expr -> bool.            (* is this node one of the constructs looked for? *)
  Fixpoint mentions (e : expr) : bool :=
    P e ||
    match e with
    | ENull | EBool _ | EInt _ | EFloat _ | EStr _ | ESym _ | EImport _ | EInclude _ _ => false
    | ETuple fs => existsb (fun kv => mentions (snd kv)) fs
    | EList es => existsb mentions es
    | EBin _ l r => mentions l || mentions r
    | ENot e1 | EGroup e1 | ECast _ e1 | EFail e1 | ETrace e1 | EConvert _ e1 => mentions e1
    | ECopy t fs => mentions t || existsb (fun kv => mentions (snd kv)) fs
    | ERange a s z => mentions a || match s with Some s' => mentions s' | None => false end || mentions z
    | EFormatL _ args => existsb mentions args
    | EFormatS ps a => mentions a || existsb (fun p => match p with PExpr pe => mentions pe | _ => false end) ps
    | ECall fn args => mentions fn || existsb mentions args
    | EFunc _ body => mentions body
    | ESelect v d arms =>
      mentions v || match d with Some d' => mentions d' | None => false end
      || existsb (fun kv => mentions (snd kv)) arms
    | EMap a c => mentions a || mentions c
    | EFilter a c => mentions a || mentions c
    | EReduce a c d => mentions a || mentions c || mentions d
    | EModule ps out body =>
      existsb (fun kv => mentions (snd kv)) ps || match out with Some o => mentions o | None => false end
      || existsb (fun s => match s with SLet _ e | SExpr e | SAssert e | SOut _ e => mentions e end) body
    end.
  Definition stmt_mentions (s : stmt) : bool :=
    match s with SLet _ e | SExpr e | SAssert e | SOut _ e => mentions e end.
End Mentions.

Definition is_copy (e : expr) : bool := match e with ECopy _ _ => true | _ => false end.
Definition is_func_or_call (e : expr) : bool := match e with EFunc _ _ | ECall _ _ => true | _ => false end.
Definition is_hof (e : expr) : bool := match e with EMap _ _ | EFilter _ _ | EReduce _ _ _ => true | _ => false end.
Definition is_format (e : expr) : bool := match e with EFormatL _ _ | EFormatS _ _ => true | _ => false end.
Definition is_module (e : expr) : bool := match e with EModule _ _ _ => true | _ => false end.

(* milestone (1): none of copy, func/call, map/filter/reduce, format, module;  (2) + copy;
   (3) + func and calls;  (4) + map/filter/reduce;  (5) + format strings;  (6) + modules = [frag] *)
Definition in_core (p : prog) : bool :=
  in_fragment p && negb (existsb (stmt_mentions (fun e => is_copy e || is_func_or_call e || is_hof e || is_format e || is_module e)) p).
Definition in_copy (p : prog) : bool :=
  in_fragment p && negb (existsb (stmt_mentions (fun e => is_func_or_call e || is_hof e || is_format e || is_module e)) p).
Definition in_func (p : prog) : bool :=
  in_fragment p && negb (existsb (stmt_mentions (fun e => is_hof e || is_format e || is_module e)) p).
Definition in_hof (p : prog) : bool :=
  in_fragment p && negb (existsb (stmt_mentions (fun e => is_format e || is_module e)) p).
Definition in_format (p : prog) : bool :=
  in_fragment p && negb (existsb (stmt_mentions is_module) p).
Definition in_module (p : prog) : bool := in_fragment p.

Section Milestones.
  Variable fo : float_ops.

  Definition compile_correct_for (frag_p : prog -> bool) : Prop :=
    forall p E strict_ fs,
      frag_p p = true ->
      (forall bs, sem_prog fo fs E strict_ true p = Ok bs ->
                  exists fv bs', vm_prog fo fv E strict_ (translate p) = VOk bs' /\ represents fo p bs bs') /\
      (sem_prog fo fs E strict_ true p = Err ->
       exists fv, vm_prog fo fv E strict_ (translate p) = VErr).

  Theorem compile_correct_module : compile_correct_for in_module.
  Proof.
    intros p E strict_ fs Hf. split.
    - intros bs. apply compile_correct_ok; auto.
    - apply compile_correct_err; auto.
  Qed.

  Theorem compile_correct_format : compile_correct_for in_format.
  Proof.
    intros p E strict_ fs Hf. apply andb_true_iff in Hf as [Hf _]. apply compile_correct_module; auto.
  Qed.

  Theorem compile_correct_hof : compile_correct_for in_hof.
  Proof.
    intros p E strict_ fs Hf. apply andb_true_iff in Hf as [Hf _]. apply compile_correct_module; auto.
  Qed.

  Theorem compile_correct_func : compile_correct_for in_func.
  Proof.
    intros p E strict_ fs Hf. apply andb_true_iff in Hf as [Hf _]. apply compile_correct_module; auto.
  Qed.

  Theorem compile_correct_copy : compile_correct_for in_copy.
  Proof.
    intros p E strict_ fs Hf. apply andb_true_iff in Hf as [Hf _]. apply compile_correct_module; auto.
  Qed.

  Theorem compile_correct_core : compile_correct_for in_core.
  Proof.
    intros p E strict_ fs Hf. apply andb_true_iff in Hf as [Hf _]. apply compile_correct_module; auto.
  Qed.

  (* stack discipline, expression level: in any code context, from any stack, the code of an
     expression of the fragment whose evaluation is defined either pushes exactly one value
     (leaving the rest of the stack, the symbol table and the self stack as they were, and the pc
     just behind the expression's code) or stops with an error *)
  Theorem stack_discipline C strict_ E fuel (c : ctx fo) e c1 c2 s t ss :
    frag e = true -> C = c1 ++ tr e ++ c2 ->
    strict fo c = strict_ -> envt fo c = E -> eq_ordered fo c = true ->
    scope_rel fo C (sc fo c) t -> self_rel fo C (self_v fo c) ss ->
    match eval fo fuel c e with
    | Ok V => exists w, val_rel fo C V w /\
                        reaches fo C strict_ E (mk fo (List.length c1) s t ss)
                                (mk fo (List.length c1 + List.length (tr e)) (w :: s) t ss)
    | Err => errs fo C strict_ E (mk fo (List.length c1) s t ss)
    | _ => True
    end.
  Proof.
    intros Hf HC Hst Hen Hord Hs Hself.
    destruct (sim_main fo C strict_ E fuel) as (IH & _ & _).
    assert (Hcode : code_at C (List.length c1) (tr e)).
    { subst C. intros k i Hk. rewrite nth_error_app2 by lia.
      replace (List.length c1 + k - List.length c1) with k by lia.
      rewrite nth_error_app1; auto. apply nth_error_Some. congruence. }
    pose proof (IH e c s t ss Hf ltac:(repeat split; assumption) _ Hcode) as H.
    destruct (eval fo fuel c e); auto.
    destruct H as (s' & t' & ss' & (w & Hw & -> & -> & ->) & Hr). eauto.
  Qed.
End Milestones.

