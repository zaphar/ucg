(* Test vectors for the model translator (vm/Translate.v) against the real one
   (src/build/opcode/translate.rs): each Example holds a program as the real parser's AST, written
   as a Coq term, and the opcode list the real translator produced for it, and states that the
   model produces the same list. *)
From Ucg Require Import vm.Translate.

Definition hexval (c : ascii) : N :=
  let n := N_of_ascii c in
  if N.leb 97 n then n - 87 else n - 48.
Fixpoint hx_go (s : string) : bytes :=
  match s with
  | String a (String c r) => ascii_of_N (hexval a * 16 + hexval c) :: hx_go r
  | _ => []
  end.
Definition hx (s : string) : bytes := hx_go s.

(* let a = 1; let b = a + 2 * 3 - 4 / 2 %% 3; *)
Example tr_hand_1 : translate [SLet (hx "61") (EInt (1)%Z); SLet (hx "62") (EBin Sub (EBin Add (ESym (hx "61")) (EBin Mul (EInt (2)%Z) (EInt (3)%Z))) (EBin Mod (EBin Div (EInt (4)%Z) (EInt (2)%Z)) (EInt (3)%Z)))] = [ISym (hx "61"); IVal (LInt (1)%Z); IBind; ISym (hx "62"); IVal (LInt (3)%Z); IVal (LInt (2)%Z); IVal (LInt (4)%Z); IDiv; IMod; IVal (LInt (3)%Z); IVal (LInt (2)%Z); IMul; IDeRef (hx "61"); IAdd; ISub; IBind].
Proof. reflexivity. Qed.
(* NULL; true; false; 1.5; `s`; foo; [1, 2, [3]]; {a = 1, b = `x`, a = 2}; {}; *)
Example tr_hand_2 : translate [SExpr ENull; SExpr (EBool true); SExpr (EBool false); SExpr (EFloat 4609434218613702656%Z); SExpr (EStr (hx "73")); SExpr (ESym (hx "666f6f")); SExpr (EList [(EInt (1)%Z); (EInt (2)%Z); (EList [(EInt (3)%Z)])]); SExpr (ETuple [((hx "61"), (EInt (1)%Z)); ((hx "62"), (EStr (hx "78"))); ((hx "61"), (EInt (2)%Z))]); SExpr (ETuple [])] = [IVal LEmpty; IPop; IVal (LBool true); IPop; IVal (LBool false); IPop; IVal (LFloat 4609434218613702656%Z); IPop; IVal (LStr (hx "73")); IPop; IDeRef (hx "666f6f"); IPop; IInitList; IVal (LInt (1)%Z); IElement; IVal (LInt (2)%Z); IElement; IInitList; IVal (LInt (3)%Z); IElement; IElement; IPop; IInitTuple; ISym (hx "61"); IVal (LInt (1)%Z); IField; ISym (hx "62"); IVal (LStr (hx "78")); IField; ISym (hx "61"); IVal (LInt (2)%Z); IField; IPop; IInitTuple; IPop].
Proof. reflexivity. Qed.
(* 1 == 2; 1 != 2; 1 < 2; 1 > 2; 1 <= 2; 1 >= 2; *)
Example tr_hand_3 : translate [SExpr (EBin Equal (EInt (1)%Z) (EInt (2)%Z)); SExpr (EBin NotEqual (EInt (1)%Z) (EInt (2)%Z)); SExpr (EBin LT (EInt (1)%Z) (EInt (2)%Z)); SExpr (EBin GT (EInt (1)%Z) (EInt (2)%Z)); SExpr (EBin LTEqual (EInt (1)%Z) (EInt (2)%Z)); SExpr (EBin GTEqual (EInt (1)%Z) (EInt (2)%Z))] = [IVal (LInt (2)%Z); IVal (LInt (1)%Z); IEqual; IPop; IVal (LInt (2)%Z); IVal (LInt (1)%Z); IEqual; INot; IPop; IVal (LInt (2)%Z); IVal (LInt (1)%Z); ILt; IPop; IVal (LInt (2)%Z); IVal (LInt (1)%Z); IGt; IPop; IVal (LInt (2)%Z); IVal (LInt (1)%Z); ILtEq; IPop; IVal (LInt (2)%Z); IVal (LInt (1)%Z); IGtEq; IPop].
Proof. reflexivity. Qed.
(* true && false || true; not true; (1 + 2) * 3; *)
Example tr_hand_4 : translate [SExpr (EBin OR (EBin AND (EBool true) (EBool false)) (EBool true)); SExpr (ENot (EBool true)); SExpr (EBin Mul (EGroup (EBin Add (EInt (1)%Z) (EInt (2)%Z))) (EInt (3)%Z))] = [IVal (LBool true); IAnd 1; IVal (LBool false); IOr 1; IVal (LBool true); IPop; IVal (LBool true); INot; IPop; IVal (LInt (3)%Z); IVal (LInt (2)%Z); IVal (LInt (1)%Z); IAdd; IMul; IPop].
Proof. reflexivity. Qed.
(* `a` ~ `b`; `a` !~ `b`; *)
Example tr_hand_5 : translate [SExpr (EBin REMatch (EStr (hx "61")) (EStr (hx "62"))); SExpr (EBin NotREMatch (EStr (hx "61")) (EStr (hx "62")))] = [IVal (LStr (hx "62")); IVal (LStr (hx "61")); IRuntime HRegex; IPop; IVal (LStr (hx "62")); IVal (LStr (hx "61")); IRuntime HRegex; INot; IPop].
Proof. reflexivity. Qed.
(* 1 is `int`; x in {x = 1}; `x` in {x = 1}; 1 in [1, 2]; `a` in `abc`; foo in bar.baz; *)
Example tr_hand_6 : translate [SExpr (EBin IS (EInt (1)%Z) (EStr (hx "696e74"))); SExpr (EBin IN (ESym (hx "78")) (ETuple [((hx "78"), (EInt (1)%Z))])); SExpr (EBin IN (EStr (hx "78")) (ETuple [((hx "78"), (EInt (1)%Z))])); SExpr (EBin IN (EInt (1)%Z) (EList [(EInt (1)%Z); (EInt (2)%Z)])); SExpr (EBin IN (EStr (hx "61")) (EStr (hx "616263"))); SExpr (EBin IN (ESym (hx "666f6f")) (EBin DOT (ESym (hx "626172")) (ESym (hx "62617a"))))] = [IVal (LStr (hx "696e74")); IVal (LInt (1)%Z); ITyp; IEqual; IPop; IInitTuple; ISym (hx "78"); IVal (LInt (1)%Z); IField; IVal (LStr (hx "7475706c65")); IInitTuple; ISym (hx "78"); IVal (LInt (1)%Z); IField; ITyp; IEqual; ISym (hx "74727565"); ISelectJump 2; IVal (LStr (hx "78")); IJump 2; IPop; IDeRef (hx "78"); IExist; IPop; IInitTuple; ISym (hx "78"); IVal (LInt (1)%Z); IField; IVal (LStr (hx "78")); IExist; IPop; IInitList; IVal (LInt (1)%Z); IElement; IVal (LInt (2)%Z); IElement; IVal (LInt (1)%Z); IExist; IPop; IVal (LStr (hx "616263")); IVal (LStr (hx "61")); IExist; IPop; IDeRef (hx "626172"); IVal (LStr (hx "62617a")); IIndex; IVal (LStr (hx "7475706c65")); IDeRef (hx "626172"); IVal (LStr (hx "62617a")); IIndex; ITyp; IEqual; ISym (hx "74727565"); ISelectJump 2; IVal (LStr (hx "666f6f")); IJump 2; IPop; IDeRef (hx "666f6f"); IExist; IPop].
Proof. reflexivity. Qed.
(* let t = {a = {b = [1, 2]}}; t.a.b.0; t.a.`b`; t.(1 + 2); t.a.b.(0); *)
Example tr_hand_7 : translate [SLet (hx "74") (ETuple [((hx "61"), (ETuple [((hx "62"), (EList [(EInt (1)%Z); (EInt (2)%Z)]))]))]); SExpr (EBin DOT (EBin DOT (EBin DOT (ESym (hx "74")) (ESym (hx "61"))) (ESym (hx "62"))) (EInt (0)%Z)); SExpr (EBin DOT (EBin DOT (ESym (hx "74")) (ESym (hx "61"))) (EStr (hx "62"))); SExpr (EBin DOT (ESym (hx "74")) (EGroup (EBin Add (EInt (1)%Z) (EInt (2)%Z)))); SExpr (EBin DOT (EBin DOT (EBin DOT (ESym (hx "74")) (ESym (hx "61"))) (ESym (hx "62"))) (EGroup (EInt (0)%Z)))] = [ISym (hx "74"); IInitTuple; ISym (hx "61"); IInitTuple; ISym (hx "62"); IInitList; IVal (LInt (1)%Z); IElement; IVal (LInt (2)%Z); IElement; IField; IField; IBind; IDeRef (hx "74"); IVal (LStr (hx "61")); IIndex; IVal (LStr (hx "62")); IIndex; IVal (LInt (0)%Z); IIndex; IPop; IDeRef (hx "74"); IVal (LStr (hx "61")); IIndex; IVal (LStr (hx "62")); IIndex; IPop; IDeRef (hx "74"); IVal (LInt (2)%Z); IVal (LInt (1)%Z); IAdd; IIndex; IPop; IDeRef (hx "74"); IVal (LStr (hx "61")); IIndex; IVal (LStr (hx "62")); IIndex; IVal (LInt (0)%Z); IIndex; IPop].
Proof. reflexivity. Qed.
(* t{a = 1}; t.a{b = self.b + [3]}; t.a.b; *)
Example tr_hand_8 : translate [SExpr (ECopy (ESym (hx "74")) [((hx "61"), (EInt (1)%Z))]); SExpr (EBin DOT (ESym (hx "74")) (ECopy (ESym (hx "61")) [((hx "62"), (EBin Add (EBin DOT (ESym (hx "73656c66")) (ESym (hx "62"))) (EList [(EInt (3)%Z)])))])); SExpr (EBin DOT (EBin DOT (ESym (hx "74")) (ESym (hx "61"))) (ESym (hx "62")))] = [IDeRef (hx "74"); IPushSelf; IInitTuple; ISym (hx "61"); IVal (LInt (1)%Z); IField; ICp; IPopSelf; IPop; IDeRef (hx "74"); IVal (LStr (hx "61")); IIndex; IPushSelf; IInitTuple; ISym (hx "62"); IInitList; IVal (LInt (3)%Z); IElement; IDeRef (hx "73656c66"); IVal (LStr (hx "62")); IIndex; IAdd; IField; ICp; IPopSelf; IPop; IDeRef (hx "74"); IVal (LStr (hx "61")); IIndex; IVal (LStr (hx "62")); IIndex; IPop].
Proof. reflexivity. Qed.
(* t.a.b{c = 1}; *)
Example tr_hand_9 : translate [SExpr (EBin DOT (EBin DOT (ESym (hx "74")) (ESym (hx "61"))) (ECopy (ESym (hx "62")) [((hx "63"), (EInt (1)%Z))]))] = [IDeRef (hx "74"); IVal (LStr (hx "61")); IIndex; IVal (LStr (hx "62")); IIndex; IPushSelf; IInitTuple; ISym (hx "63"); IVal (LInt (1)%Z); IField; ICp; IPopSelf; IPop].
Proof. reflexivity. Qed.
(* let f = func (x, y) => x + y; f(1, 2); f(); t.f(1, 2); *)
Example tr_hand_10 : translate [SLet (hx "66") (EFunc [(hx "78"); (hx "79")] (EBin Add (ESym (hx "78")) (ESym (hx "79")))); SExpr (ECall (ESym (hx "66")) [(EInt (1)%Z); (EInt (2)%Z)]); SExpr (ECall (ESym (hx "66")) []); SExpr (EBin DOT (ESym (hx "74")) (ECall (ESym (hx "66")) [(EInt (1)%Z); (EInt (2)%Z)]))] = [ISym (hx "66"); IInitList; ISym (hx "78"); IElement; ISym (hx "79"); IElement; IFunc 4; IDeRef (hx "79"); IDeRef (hx "78"); IAdd; IReturn; IBind; IVal (LInt (1)%Z); IVal (LInt (2)%Z); IVal (LInt (2)%Z); IDeRef (hx "66"); IFCall; IPop; IVal (LInt (0)%Z); IDeRef (hx "66"); IFCall; IPop; IVal (LInt (1)%Z); IVal (LInt (2)%Z); IVal (LInt (2)%Z); IDeRef (hx "74"); IVal (LStr (hx "66")); IIndex; IFCall; IPop].
Proof. reflexivity. Qed.
(* func () => 1; func (x) => func (y) => x + y; *)
Example tr_hand_11 : translate [SExpr (EFunc [] (EInt (1)%Z)); SExpr (EFunc [(hx "78")] (EFunc [(hx "79")] (EBin Add (ESym (hx "78")) (ESym (hx "79")))))] = [IInitList; IFunc 2; IVal (LInt (1)%Z); IReturn; IPop; IInitList; ISym (hx "78"); IElement; IFunc 9; IInitList; ISym (hx "79"); IElement; IFunc 4; IDeRef (hx "79"); IDeRef (hx "78"); IAdd; IReturn; IReturn; IPop].
Proof. reflexivity. Qed.
(* select (a, 1) => { a = 2, b = 3 }; select (a) => { a = 2 }; select (a, 1) => { true = 2, false = 3, `q q` = 4 }; *)
Example tr_hand_12 : translate [SExpr (ESelect (ESym (hx "61")) (Some (EInt (1)%Z)) [((hx "61"), (EInt (2)%Z)); ((hx "62"), (EInt (3)%Z))]); SExpr (ESelect (ESym (hx "61")) None [((hx "61"), (EInt (2)%Z))]); SExpr (ESelect (ESym (hx "61")) (Some (EInt (1)%Z)) [((hx "74727565"), (EInt (2)%Z)); ((hx "66616c7365"), (EInt (3)%Z)); ((hx "712071"), (EInt (4)%Z))])] = [IDeRef (hx "61"); ISym (hx "61"); ISelectJump 2; IVal (LInt (2)%Z); IJump 6; ISym (hx "62"); ISelectJump 2; IVal (LInt (3)%Z); IJump 2; IPop; IVal (LInt (1)%Z); IPop; IDeRef (hx "61"); ISym (hx "61"); ISelectJump 2; IVal (LInt (2)%Z); IJump 3; IPop; IVal (LStr (hx "556e68616e646c65642073656c65637420636173652077697468206e6f2064656661756c74")); IBang; IPop; IDeRef (hx "61"); ISym (hx "74727565"); ISelectJump 2; IVal (LInt (2)%Z); IJump 10; ISym (hx "66616c7365"); ISelectJump 2; IVal (LInt (3)%Z); IJump 6; ISym (hx "712071"); ISelectJump 2; IVal (LInt (4)%Z); IJump 2; IPop; IVal (LInt (1)%Z); IPop].
Proof. reflexivity. Qed.
(* 1:10; 1:2:10; (a):(b + 1); *)
Example tr_hand_13 : translate [SExpr (ERange (EInt (1)%Z) None (EInt (10)%Z)); SExpr (ERange (EInt (1)%Z) (Some (EInt (2)%Z)) (EInt (10)%Z)); SExpr (ERange (EGroup (ESym (hx "61"))) None (EGroup (EBin Add (ESym (hx "62")) (EInt (1)%Z))))] = [IVal (LInt (10)%Z); IVal LEmpty; IVal (LInt (1)%Z); IRuntime HRange; IPop; IVal (LInt (10)%Z); IVal (LInt (2)%Z); IVal (LInt (1)%Z); IRuntime HRange; IPop; IVal (LInt (1)%Z); IDeRef (hx "62"); IAdd; IVal LEmpty; IDeRef (hx "61"); IRuntime HRange; IPop].
Proof. reflexivity. Qed.
(* int(`1`); float(1); str(1.5); bool(`true`); *)
Example tr_hand_14 : translate [SExpr (ECast CInt (EStr (hx "31"))); SExpr (ECast CFloat (EInt (1)%Z)); SExpr (ECast CStr (EFloat 4609434218613702656%Z)); SExpr (ECast CBool (EStr (hx "74727565")))] = [IVal (LStr (hx "31")); ICast CInt; IPop; IVal (LInt (1)%Z); ICast CFloat; IPop; IVal (LFloat 4609434218613702656%Z); ICast CStr; IPop; IVal (LStr (hx "74727565")); ICast CBool; IPop].
Proof. reflexivity. Qed.
(* fail `oops`; fail `a` + `b`; TRACE 1 + 2; TRACE t.a; *)
Example tr_hand_15 : translate [SExpr (EFail (EStr (hx "6f6f7073"))); SExpr (EFail (EBin Add (EStr (hx "61")) (EStr (hx "62")))); SExpr (ETrace (EBin Add (EInt (1)%Z) (EInt (2)%Z))); SExpr (ETrace (EBin DOT (ESym (hx "74")) (ESym (hx "61"))))] = [IVal (LStr (hx "6f6f7073")); IVal (LStr (hx "55736572446566696e65643a20")); IAdd; IBang; IPop; IVal (LStr (hx "62")); IVal (LStr (hx "61")); IAdd; IVal (LStr (hx "55736572446566696e65643a20")); IAdd; IBang; IPop; IVal (LStr trace_text); IVal (LInt (2)%Z); IVal (LInt (1)%Z); IAdd; IRuntime HTrace; IPop; IVal (LStr trace_text); IDeRef (hx "74"); IVal (LStr (hx "61")); IIndex; IRuntime HTrace; IPop].
Proof. reflexivity. Qed.
(* `@ and @` % (1, 2); `no holes` % (1); `` % (1); `@` % (1, 2); `a@b` % (1); `\@ @` % (x); `@@` % (1, `x` + `y`); *)
Example tr_hand_16 : translate [SExpr (EFormatL [PStr (hx ""); PHole; PStr (hx "20616e6420"); PHole] [(EInt (1)%Z); (EInt (2)%Z)]); SExpr (EFormatL [PStr (hx "6e6f20686f6c6573")] [(EInt (1)%Z)]); SExpr (EFormatL [] [(EInt (1)%Z)]); SExpr (EFormatL [PStr (hx ""); PHole] [(EInt (1)%Z); (EInt (2)%Z)]); SExpr (EFormatL [PStr (hx "61"); PHole; PStr (hx "62")] [(EInt (1)%Z)]); SExpr (EFormatL [PStr (hx ""); PHole; PStr (hx "20"); PHole] [(ESym (hx "78"))]); SExpr (EFormatL [PStr (hx ""); PHole; PStr (hx ""); PHole] [(EInt (1)%Z); (EBin Add (EStr (hx "78")) (EStr (hx "79")))])] = [IVal (LInt (2)%Z); IRender; IVal (LStr (hx "20616e6420")); IAdd; IVal (LInt (1)%Z); IRender; IAdd; IVal (LStr (hx "")); IAdd; IPop; IVal (LStr (hx "466f726d617420737472696e6720686173203020706c616365686f6c6465727320627574203120617267756d656e7473207765726520676976656e")); IBang; IPop; IVal (LStr (hx "466f726d617420737472696e6720686173203020706c616365686f6c6465727320627574203120617267756d656e7473207765726520676976656e")); IBang; IPop; IVal (LStr (hx "466f726d617420737472696e6720686173203120706c616365686f6c6465727320627574203220617267756d656e7473207765726520676976656e")); IBang; IPop; IVal (LStr (hx "62")); IVal (LInt (1)%Z); IRender; IAdd; IVal (LStr (hx "61")); IAdd; IPop; IVal (LStr (hx "466f726d617420737472696e6720686173203220706c616365686f6c6465727320627574203120617267756d656e7473207765726520676976656e")); IBang; IPop; IVal (LStr (hx "79")); IVal (LStr (hx "78")); IAdd; IRender; IVal (LStr (hx "")); IAdd; IVal (LInt (1)%Z); IRender; IAdd; IVal (LStr (hx "")); IAdd; IPop].
Proof. reflexivity. Qed.
(* `@ @ @` % (1, 2); `a@b@c` % (x, y); *)
Example tr_hand_17 : translate [SExpr (EFormatL [PStr (hx ""); PHole; PStr (hx "20"); PHole; PStr (hx "20"); PHole] [(EInt (1)%Z); (EInt (2)%Z)]); SExpr (EFormatL [PStr (hx "61"); PHole; PStr (hx "62"); PHole; PStr (hx "63")] [(ESym (hx "78")); (ESym (hx "79"))])] = [IVal (LStr (hx "466f726d617420737472696e6720686173203320706c616365686f6c6465727320627574203220617267756d656e7473207765726520676976656e")); IBang; IPop; IVal (LStr (hx "63")); IDeRef (hx "79"); IRender; IAdd; IVal (LStr (hx "62")); IAdd; IDeRef (hx "78"); IRender; IAdd; IVal (LStr (hx "61")); IAdd; IPop].
Proof. reflexivity. Qed.
(* `item: @{item.a} and @{item.b + 1}` % {a = 1, b = 2}; `plain` % 1; `` % 1; `@{item}` % 1; `x@{1}y@{2}` % NULL; *)
Example tr_hand_18 : translate [SExpr (EFormatS [PStr (hx "6974656d3a20"); PExpr (EBin DOT (ESym (hx "6974656d")) (ESym (hx "61"))); PStr (hx "20616e6420"); PExpr (EBin Add (EBin DOT (ESym (hx "6974656d")) (ESym (hx "62"))) (EInt (1)%Z))] (ETuple [((hx "61"), (EInt (1)%Z)); ((hx "62"), (EInt (2)%Z))])); SExpr (EFormatS [PStr (hx "706c61696e")] (EInt (1)%Z)); SExpr (EFormatS [] (EInt (1)%Z)); SExpr (EFormatS [PStr (hx ""); PExpr (ESym (hx "6974656d"))] (EInt (1)%Z)); SExpr (EFormatS [PStr (hx "78"); PExpr (EInt (1)%Z); PStr (hx "79"); PExpr (EInt (2)%Z)] ENull)] = [INewScope 25; ISym (hx "6974656d"); IInitTuple; ISym (hx "61"); IVal (LInt (1)%Z); IField; ISym (hx "62"); IVal (LInt (2)%Z); IField; IBindOver; IVal (LInt (1)%Z); IDeRef (hx "6974656d"); IVal (LStr (hx "62")); IIndex; IAdd; IRender; IVal (LStr (hx "20616e6420")); IAdd; IDeRef (hx "6974656d"); IVal (LStr (hx "61")); IIndex; IRender; IAdd; IVal (LStr (hx "6974656d3a20")); IAdd; IReturn; IPop; INewScope 5; ISym (hx "6974656d"); IVal (LInt (1)%Z); IBindOver; IVal (LStr (hx "706c61696e")); IReturn; IPop; INewScope 5; ISym (hx "6974656d"); IVal (LInt (1)%Z); IBindOver; IVal (LStr (hx "")); IReturn; IPop; INewScope 8; ISym (hx "6974656d"); IVal (LInt (1)%Z); IBindOver; IDeRef (hx "6974656d"); IRender; IVal (LStr (hx "")); IAdd; IReturn; IPop; INewScope 13; ISym (hx "6974656d"); IVal LEmpty; IBindOver; IVal (LInt (2)%Z); IRender; IVal (LStr (hx "79")); IAdd; IVal (LInt (1)%Z); IRender; IAdd; IVal (LStr (hx "78")); IAdd; IReturn; IPop].
Proof. reflexivity. Qed.
(* map(f, [1, 2]); filter(func (x) => x > 1, [1, 2]); reduce(func (acc, x) => acc + x, 0, [1, 2, 3]); *)
Example tr_hand_19 : translate [SExpr (EMap (ESym (hx "66")) (EList [(EInt (1)%Z); (EInt (2)%Z)])); SExpr (EFilter (EFunc [(hx "78")] (EBin GT (ESym (hx "78")) (EInt (1)%Z))) (EList [(EInt (1)%Z); (EInt (2)%Z)])); SExpr (EReduce (EFunc [(hx "616363"); (hx "78")] (EBin Add (ESym (hx "616363")) (ESym (hx "78")))) (EInt (0)%Z) (EList [(EInt (1)%Z); (EInt (2)%Z); (EInt (3)%Z)]))] = [IDeRef (hx "66"); IInitList; IVal (LInt (1)%Z); IElement; IVal (LInt (2)%Z); IElement; IRuntime HMap; IPop; IInitList; ISym (hx "78"); IElement; IFunc 4; IVal (LInt (1)%Z); IDeRef (hx "78"); IGt; IReturn; IInitList; IVal (LInt (1)%Z); IElement; IVal (LInt (2)%Z); IElement; IRuntime HFilter; IPop; IInitList; ISym (hx "616363"); IElement; ISym (hx "78"); IElement; IFunc 4; IDeRef (hx "78"); IDeRef (hx "616363"); IAdd; IReturn; IVal (LInt (0)%Z); IInitList; IVal (LInt (1)%Z); IElement; IVal (LInt (2)%Z); IElement; IVal (LInt (3)%Z); IElement; IRuntime HReduce; IPop].
Proof. reflexivity. Qed.
(* let m = module { x = 1, y = 2 } => { let z = mod.x + mod.y; }; m{x = 2}; m{}.z; *)
Example tr_hand_20 : translate [SLet (hx "6d") (EModule [((hx "78"), (EInt (1)%Z)); ((hx "79"), (EInt (2)%Z))] None [SLet (hx "7a") (EBin Add (EBin DOT (ESym (hx "6d6f64")) (ESym (hx "78"))) (EBin DOT (ESym (hx "6d6f64")) (ESym (hx "79"))))]); SExpr (ECopy (ESym (hx "6d")) [((hx "78"), (EInt (2)%Z))]); SExpr (EBin DOT (ECopy (ESym (hx "6d")) []) (ESym (hx "7a")))] = [ISym (hx "6d"); IInitTuple; ISym (hx "78"); IVal (LInt (1)%Z); IField; ISym (hx "79"); IVal (LInt (2)%Z); IField; IModule 11; IBind; ISym (hx "7a"); IDeRef (hx "6d6f64"); IVal (LStr (hx "79")); IIndex; IDeRef (hx "6d6f64"); IVal (LStr (hx "78")); IIndex; IAdd; IBind; IReturn; IBind; IDeRef (hx "6d"); IPushSelf; IInitTuple; ISym (hx "78"); IVal (LInt (2)%Z); IField; ICp; IPopSelf; IPop; IDeRef (hx "6d"); IPushSelf; IInitTuple; ICp; IPopSelf; IVal (LStr (hx "7a")); IIndex; IPop].
Proof. reflexivity. Qed.
(* let m2 = module { x = 1 } => (z) { let z = mod.x + 1; `e`; }; m2{x = 5}; *)
Example tr_hand_21 : translate [SLet (hx "6d32") (EModule [((hx "78"), (EInt (1)%Z))] (Some (ESym (hx "7a"))) [SLet (hx "7a") (EBin Add (EBin DOT (ESym (hx "6d6f64")) (ESym (hx "78"))) (EInt (1)%Z)); SExpr (EStr (hx "65"))]); SExpr (ECopy (ESym (hx "6d32")) [((hx "78"), (EInt (5)%Z))])] = [ISym (hx "6d32"); IInitTuple; ISym (hx "78"); IVal (LInt (1)%Z); IField; IInitThunk 2; IDeRef (hx "7a"); IReturn; IModule 11; IBind; ISym (hx "7a"); IVal (LInt (1)%Z); IDeRef (hx "6d6f64"); IVal (LStr (hx "78")); IIndex; IAdd; IBind; IVal (LStr (hx "65")); IPop; IReturn; IBind; IDeRef (hx "6d32"); IPushSelf; IInitTuple; ISym (hx "78"); IVal (LInt (5)%Z); IField; ICp; IPopSelf; IPop].
Proof. reflexivity. Qed.
(* module {} => { }; module {a = 1} => (a) { let a = mod.a; let n = module {b = mod.a} => (b + 1) { let b = mod.b; }; }; *)
Example tr_hand_22 : translate [SExpr (EModule [] None []); SExpr (EModule [((hx "61"), (EInt (1)%Z))] (Some (ESym (hx "61"))) [SLet (hx "61") (EBin DOT (ESym (hx "6d6f64")) (ESym (hx "61"))); SLet (hx "6e") (EModule [((hx "62"), (EBin DOT (ESym (hx "6d6f64")) (ESym (hx "61"))))] (Some (EBin Add (ESym (hx "62")) (EInt (1)%Z))) [SLet (hx "62") (EBin DOT (ESym (hx "6d6f64")) (ESym (hx "62")))])])] = [IInitTuple; IModule 2; IBind; IReturn; IPop; IInitTuple; ISym (hx "61"); IVal (LInt (1)%Z); IField; IInitThunk 2; IDeRef (hx "61"); IReturn; IModule 28; IBind; ISym (hx "61"); IDeRef (hx "6d6f64"); IVal (LStr (hx "61")); IIndex; IBind; ISym (hx "6e"); IInitTuple; ISym (hx "62"); IDeRef (hx "6d6f64"); IVal (LStr (hx "61")); IIndex; IField; IInitThunk 4; IVal (LInt (1)%Z); IDeRef (hx "62"); IAdd; IReturn; IModule 7; IBind; ISym (hx "62"); IDeRef (hx "6d6f64"); IVal (LStr (hx "62")); IIndex; IBind; IReturn; IBind; IReturn; IPop].
Proof. reflexivity. Qed.
(* import `/abs/foo.ucg`; include str `/abs/foo.txt`; convert json {a = 1}; *)
Example tr_hand_23 : translate [SExpr (EImport (hx "2f6162732f666f6f2e756367")); SExpr (EInclude (hx "737472") (hx "2f6162732f666f6f2e747874")); SExpr (EConvert (hx "6a736f6e") (ETuple [((hx "61"), (EInt (1)%Z))]))] = [IVal (LStr (hx "2f6162732f666f6f2e756367")); IRuntime HImport; IPop; IVal (LStr (hx "737472")); IVal (LStr (hx "2f6162732f666f6f2e747874")); IRuntime HInclude; IPop; IVal (LStr (hx "6a736f6e")); IInitTuple; ISym (hx "61"); IVal (LInt (1)%Z); IField; IRuntime HConvert; IPop].
Proof. reflexivity. Qed.
(* let i = import `std/lists.ucg`; assert { ok = true, desc = `d` }; out json {a = 1}; *)
Example tr_hand_24 : translate [SLet (hx "69") (EImport (hx "7374642f6c697374732e756367")); SAssert (ETuple [((hx "6f6b"), (EBool true)); ((hx "64657363"), (EStr (hx "64")))]); SOut (hx "6a736f6e") (ETuple [((hx "61"), (EInt (1)%Z))])] = [ISym (hx "69"); IVal (LStr (hx "7374642f6c697374732e756367")); IRuntime HImport; IBind; IInitTuple; ISym (hx "6f6b"); IVal (LBool true); IField; ISym (hx "64657363"); IVal (LStr (hx "64")); IField; IRuntime HAssert; IVal (LStr (hx "6a736f6e")); IInitTuple; ISym (hx "61"); IVal (LInt (1)%Z); IField; IRuntime HOut].
Proof. reflexivity. Qed.
(* a.b{c = 1}.d; a.b(c).d; *)
Example tr_hand_25 : translate [SExpr (EBin DOT (EBin DOT (ESym (hx "61")) (ECopy (ESym (hx "62")) [((hx "63"), (EInt (1)%Z))])) (ESym (hx "64"))); SExpr (EBin DOT (EBin DOT (ESym (hx "61")) (ECall (ESym (hx "62")) [(ESym (hx "63"))])) (ESym (hx "64")))] = [IDeRef (hx "61"); IVal (LStr (hx "62")); IIndex; IPushSelf; IInitTuple; ISym (hx "63"); IVal (LInt (1)%Z); IField; ICp; IPopSelf; IVal (LStr (hx "64")); IIndex; IPop; IDeRef (hx "63"); IVal (LInt (1)%Z); IDeRef (hx "61"); IVal (LStr (hx "62")); IIndex; IFCall; IVal (LStr (hx "64")); IIndex; IPop].
Proof. reflexivity. Qed.
(* a.b.c(1); *)
Example tr_hand_26 : translate [SExpr (EBin DOT (EBin DOT (ESym (hx "61")) (ESym (hx "62"))) (ECall (ESym (hx "63")) [(EInt (1)%Z)]))] = [IVal (LInt (1)%Z); IVal (LInt (1)%Z); IDeRef (hx "61"); IVal (LStr (hx "62")); IIndex; IVal (LStr (hx "63")); IIndex; IFCall; IPop].
Proof. reflexivity. Qed.
(* not 1 == 2; 1 + 2 == 3 && 4 < 5; a && b && c; a || b && c; *)
Example tr_hand_27 : translate [SExpr (ENot (EBin Equal (EInt (1)%Z) (EInt (2)%Z))); SExpr (EBin LT (EBin Equal (EBin Add (EInt (1)%Z) (EInt (2)%Z)) (EBin AND (EInt (3)%Z) (EInt (4)%Z))) (EInt (5)%Z)); SExpr (EBin AND (EBin AND (ESym (hx "61")) (ESym (hx "62"))) (ESym (hx "63"))); SExpr (EBin AND (EBin OR (ESym (hx "61")) (ESym (hx "62"))) (ESym (hx "63")))] = [IVal (LInt (2)%Z); IVal (LInt (1)%Z); IEqual; INot; IPop; IVal (LInt (5)%Z); IVal (LInt (3)%Z); IAnd 1; IVal (LInt (4)%Z); IVal (LInt (2)%Z); IVal (LInt (1)%Z); IAdd; IEqual; ILt; IPop; IDeRef (hx "61"); IAnd 1; IDeRef (hx "62"); IAnd 1; IDeRef (hx "63"); IPop; IDeRef (hx "61"); IOr 1; IDeRef (hx "62"); IAnd 1; IDeRef (hx "63"); IPop].
Proof. reflexivity. Qed.
(* x in y in z; (x) in y; x.y in z; x in y.z; *)
Example tr_hand_28 : translate [SExpr (EBin IN (EBin IN (ESym (hx "78")) (ESym (hx "79"))) (ESym (hx "7a"))); SExpr (EBin IN (EGroup (ESym (hx "78"))) (ESym (hx "79"))); SExpr (EBin IN (EBin DOT (ESym (hx "78")) (ESym (hx "79"))) (ESym (hx "7a"))); SExpr (EBin IN (ESym (hx "78")) (EBin DOT (ESym (hx "79")) (ESym (hx "7a"))))] = [IDeRef (hx "7a"); IDeRef (hx "79"); IVal (LStr (hx "7475706c65")); IDeRef (hx "79"); ITyp; IEqual; ISym (hx "74727565"); ISelectJump 2; IVal (LStr (hx "78")); IJump 2; IPop; IDeRef (hx "78"); IExist; IExist; IPop; IDeRef (hx "79"); IDeRef (hx "78"); IExist; IPop; IDeRef (hx "7a"); IDeRef (hx "78"); IVal (LStr (hx "79")); IIndex; IExist; IPop; IDeRef (hx "79"); IVal (LStr (hx "7a")); IIndex; IVal (LStr (hx "7475706c65")); IDeRef (hx "79"); IVal (LStr (hx "7a")); IIndex; ITyp; IEqual; ISym (hx "74727565"); ISelectJump 2; IVal (LStr (hx "78")); IJump 2; IPop; IDeRef (hx "78"); IExist; IPop].
Proof. reflexivity. Qed.
(* {a = {b = {c = func (q) => select (q, NULL) => { `k` = [q, {r = q}] }}}}; *)
Example tr_hand_29 : translate [SExpr (ETuple [((hx "61"), (ETuple [((hx "62"), (ETuple [((hx "63"), (EFunc [(hx "71")] (ESelect (ESym (hx "71")) (Some ENull) [((hx "6b"), (EList [(ESym (hx "71")); (ETuple [((hx "72"), (ESym (hx "71")))])]))])))]))]))])] = [IInitTuple; ISym (hx "61"); IInitTuple; ISym (hx "62"); IInitTuple; ISym (hx "63"); IInitList; ISym (hx "71"); IElement; IFunc 15; IDeRef (hx "71"); ISym (hx "6b"); ISelectJump 9; IInitList; IDeRef (hx "71"); IElement; IInitTuple; ISym (hx "72"); IDeRef (hx "71"); IField; IElement; IJump 2; IPop; IVal LEmpty; IReturn; IField; IField; IField; IPop].
Proof. reflexivity. Qed.
(* f(g(1), h(2, k(3))); *)
Example tr_hand_30 : translate [SExpr (ECall (ESym (hx "66")) [(ECall (ESym (hx "67")) [(EInt (1)%Z)]); (ECall (ESym (hx "68")) [(EInt (2)%Z); (ECall (ESym (hx "6b")) [(EInt (3)%Z)])])])] = [IVal (LInt (1)%Z); IVal (LInt (1)%Z); IDeRef (hx "67"); IFCall; IVal (LInt (2)%Z); IVal (LInt (3)%Z); IVal (LInt (1)%Z); IDeRef (hx "6b"); IFCall; IVal (LInt (2)%Z); IDeRef (hx "68"); IFCall; IVal (LInt (2)%Z); IDeRef (hx "66"); IFCall; IPop].
Proof. reflexivity. Qed.
(* `x@{item.f(1)}y@{select (item.a, 1) => {b = 2}}` % t; *)
Example tr_hand_31 : translate [SExpr (EFormatS [PStr (hx "78"); PExpr (EBin DOT (ESym (hx "6974656d")) (ECall (ESym (hx "66")) [(EInt (1)%Z)])); PStr (hx "79"); PExpr (ESelect (EBin DOT (ESym (hx "6974656d")) (ESym (hx "61"))) (Some (EInt (1)%Z)) [((hx "62"), (EInt (2)%Z))])] (ESym (hx "74")))] = [INewScope 26; ISym (hx "6974656d"); IDeRef (hx "74"); IBindOver; IDeRef (hx "6974656d"); IVal (LStr (hx "61")); IIndex; ISym (hx "62"); ISelectJump 2; IVal (LInt (2)%Z); IJump 2; IPop; IVal (LInt (1)%Z); IRender; IVal (LStr (hx "79")); IAdd; IVal (LInt (1)%Z); IVal (LInt (1)%Z); IDeRef (hx "6974656d"); IVal (LStr (hx "66")); IIndex; IFCall; IRender; IAdd; IVal (LStr (hx "78")); IAdd; IReturn; IPop].
Proof. reflexivity. Qed.
(* [1, 2].0; {a = 1}.a; (t).a; f(1).a; *)
Example tr_hand_32 : translate [SExpr (EBin DOT (EList [(EInt (1)%Z); (EInt (2)%Z)]) (EInt (0)%Z)); SExpr (EBin DOT (ETuple [((hx "61"), (EInt (1)%Z))]) (ESym (hx "61"))); SExpr (EBin DOT (EGroup (ESym (hx "74"))) (ESym (hx "61"))); SExpr (EBin DOT (ECall (ESym (hx "66")) [(EInt (1)%Z)]) (ESym (hx "61")))] = [IInitList; IVal (LInt (1)%Z); IElement; IVal (LInt (2)%Z); IElement; IVal (LInt (0)%Z); IIndex; IPop; IInitTuple; ISym (hx "61"); IVal (LInt (1)%Z); IField; IVal (LStr (hx "61")); IIndex; IPop; IDeRef (hx "74"); IVal (LStr (hx "61")); IIndex; IPop; IVal (LInt (1)%Z); IVal (LInt (1)%Z); IDeRef (hx "66"); IFCall; IVal (LStr (hx "61")); IIndex; IPop].
Proof. reflexivity. Qed.
(* select (x in t, `no`) => { true = `yes` }; *)
Example tr_hand_33 : translate [SExpr (ESelect (EBin IN (ESym (hx "78")) (ESym (hx "74"))) (Some (EStr (hx "6e6f"))) [((hx "74727565"), (EStr (hx "796573")))])] = [IDeRef (hx "74"); IVal (LStr (hx "7475706c65")); IDeRef (hx "74"); ITyp; IEqual; ISym (hx "74727565"); ISelectJump 2; IVal (LStr (hx "78")); IJump 2; IPop; IDeRef (hx "78"); IExist; ISym (hx "74727565"); ISelectJump 2; IVal (LStr (hx "796573")); IJump 2; IPop; IVal (LStr (hx "6e6f")); IPop].
Proof. reflexivity. Qed.
(* let e = env.HOME; env; self; self.a; *)
Example tr_hand_34 : translate [SLet (hx "65") (EBin DOT (ESym (hx "656e76")) (ESym (hx "484f4d45"))); SExpr (ESym (hx "656e76")); SExpr (ESym (hx "73656c66")); SExpr (EBin DOT (ESym (hx "73656c66")) (ESym (hx "61")))] = [ISym (hx "65"); IDeRef (hx "656e76"); IVal (LStr (hx "484f4d45")); IIndex; IBind; IDeRef (hx "656e76"); IPop; IDeRef (hx "73656c66"); IPop; IDeRef (hx "73656c66"); IVal (LStr (hx "61")); IIndex; IPop].
Proof. reflexivity. Qed.
(* func (a) => a{b = 1}; func (a) => a.b{c = self.c}; *)
Example tr_hand_35 : translate [SExpr (EFunc [(hx "61")] (ECopy (ESym (hx "61")) [((hx "62"), (EInt (1)%Z))])); SExpr (EFunc [(hx "61")] (EBin DOT (ESym (hx "61")) (ECopy (ESym (hx "62")) [((hx "63"), (EBin DOT (ESym (hx "73656c66")) (ESym (hx "63"))))])))] = [IInitList; ISym (hx "61"); IElement; IFunc 9; IDeRef (hx "61"); IPushSelf; IInitTuple; ISym (hx "62"); IVal (LInt (1)%Z); IField; ICp; IPopSelf; IReturn; IPop; IInitList; ISym (hx "61"); IElement; IFunc 13; IDeRef (hx "61"); IVal (LStr (hx "62")); IIndex; IPushSelf; IInitTuple; ISym (hx "63"); IDeRef (hx "73656c66"); IVal (LStr (hx "63")); IIndex; IField; ICp; IPopSelf; IReturn; IPop].
Proof. reflexivity. Qed.
(* 1 + 2 + 3; 1 - 2 - 3; 1 * 2 + 3 * 4; 1 + 2 * 3 + 4; *)
Example tr_hand_36 : translate [SExpr (EBin Add (EBin Add (EInt (1)%Z) (EInt (2)%Z)) (EInt (3)%Z)); SExpr (EBin Sub (EBin Sub (EInt (1)%Z) (EInt (2)%Z)) (EInt (3)%Z)); SExpr (EBin Add (EBin Mul (EInt (1)%Z) (EInt (2)%Z)) (EBin Mul (EInt (3)%Z) (EInt (4)%Z))); SExpr (EBin Add (EBin Add (EInt (1)%Z) (EBin Mul (EInt (2)%Z) (EInt (3)%Z))) (EInt (4)%Z))] = [IVal (LInt (3)%Z); IVal (LInt (2)%Z); IVal (LInt (1)%Z); IAdd; IAdd; IPop; IVal (LInt (3)%Z); IVal (LInt (2)%Z); IVal (LInt (1)%Z); ISub; ISub; IPop; IVal (LInt (4)%Z); IVal (LInt (3)%Z); IMul; IVal (LInt (2)%Z); IVal (LInt (1)%Z); IMul; IAdd; IPop; IVal (LInt (4)%Z); IVal (LInt (3)%Z); IVal (LInt (2)%Z); IMul; IVal (LInt (1)%Z); IAdd; IAdd; IPop].
Proof. reflexivity. Qed.
(* t.0; t.a.0.b.1; *)
Example tr_hand_37 : translate [SExpr (EBin DOT (ESym (hx "74")) (EInt (0)%Z)); SExpr (EBin DOT (EBin DOT (EBin DOT (EBin DOT (ESym (hx "74")) (ESym (hx "61"))) (EInt (0)%Z)) (ESym (hx "62"))) (EInt (1)%Z))] = [IDeRef (hx "74"); IVal (LInt (0)%Z); IIndex; IPop; IDeRef (hx "74"); IVal (LStr (hx "61")); IIndex; IVal (LInt (0)%Z); IIndex; IVal (LStr (hx "62")); IIndex; IVal (LInt (1)%Z); IIndex; IPop].
Proof. reflexivity. Qed.
(* let d = 9223372036854775806; let lst = {k1 = [map(func (val) => `@`, [0.25, 0.25]) + []] . 0, name = {c = `` + `é` + (`line break` + `é`), port = 12}, x = (0.125 - 0.5) * {a = select (true, 2.0) => {`true` = 0.25}, other = 3} . a}; let k = 4 + (d + 3) - 0; let n = map(func (m) => lst . x, reduce(func (n, bar) => n, map(func (foo) => `tuple`, [9]), (map(func (tpl) => `tuple`, [1024.0, 3.75]) + [[`line break`, ``], [`日本`], []] . 0))); let v = (TRACE d) <= (select (str({a = `bar`, other = 8} . a), 1) => {bar = (TRACE 17) / 2}); let b = map(func (it) => d - d, [filter(func (cfg) => 0.25 in n, str(v))]);  *)
Example tr_gen_1 : translate [SLet (hx "64") (EInt (9223372036854775806)%Z); SLet (hx "6c7374") (ETuple [((hx "6b31"), (EBin DOT (EList [(EBin Add (EMap (EFunc [(hx "76616c")] (EStr (hx "40"))) (EList [(EFloat 4598175219545276416%Z); (EFloat 4598175219545276416%Z)])) (EList []))]) (EInt (0)%Z))); ((hx "6e616d65"), (ETuple [((hx "63"), (EBin Add (EBin Add (EStr (hx "")) (EStr (hx "c3a9"))) (EGroup (EBin Add (EStr (hx "6c696e6520627265616b")) (EStr (hx "c3a9")))))); ((hx "706f7274"), (EInt (12)%Z))])); ((hx "78"), (EBin Mul (EGroup (EBin Sub (EFloat 4593671619917905920%Z) (EFloat 4602678819172646912%Z))) (EBin DOT (ETuple [((hx "61"), (ESelect (EBool true) (Some (EFloat 4611686018427387904%Z)) [((hx "74727565"), (EFloat 4598175219545276416%Z))])); ((hx "6f74686572"), (EInt (3)%Z))]) (ESym (hx "61")))))]); SLet (hx "6b") (EBin Sub (EBin Add (EInt (4)%Z) (EGroup (EBin Add (ESym (hx "64")) (EInt (3)%Z)))) (EInt (0)%Z)); SLet (hx "6e") (EMap (EFunc [(hx "6d")] (EBin DOT (ESym (hx "6c7374")) (ESym (hx "78")))) (EReduce (EFunc [(hx "6e"); (hx "626172")] (ESym (hx "6e"))) (EMap (EFunc [(hx "666f6f")] (EStr (hx "7475706c65"))) (EList [(EInt (9)%Z)])) (EGroup (EBin Add (EMap (EFunc [(hx "74706c")] (EStr (hx "7475706c65"))) (EList [(EFloat 4652218415073722368%Z); (EFloat 4615626668101337088%Z)])) (EBin DOT (EList [(EList [(EStr (hx "6c696e6520627265616b")); (EStr (hx ""))]); (EList [(EStr (hx "e697a5e69cac"))]); (EList [])]) (EInt (0)%Z)))))); SLet (hx "76") (EBin LTEqual (EGroup (ETrace (ESym (hx "64")))) (EGroup (ESelect (ECast CStr (EBin DOT (ETuple [((hx "61"), (EStr (hx "626172"))); ((hx "6f74686572"), (EInt (8)%Z))]) (ESym (hx "61")))) (Some (EInt (1)%Z)) [((hx "626172"), (EBin Div (EGroup (ETrace (EInt (17)%Z))) (EInt (2)%Z)))]))); SLet (hx "62") (EMap (EFunc [(hx "6974")] (EBin Sub (ESym (hx "64")) (ESym (hx "64")))) (EList [(EFilter (EFunc [(hx "636667")] (EBin IN (EFloat 4598175219545276416%Z) (ESym (hx "6e")))) (ECast CStr (ESym (hx "76"))))]))] = [ISym (hx "64"); IVal (LInt (9223372036854775806)%Z); IBind; ISym (hx "6c7374"); IInitTuple; ISym (hx "6b31"); IInitList; IInitList; IInitList; ISym (hx "76616c"); IElement; IFunc 2; IVal (LStr (hx "40")); IReturn; IInitList; IVal (LFloat 4598175219545276416%Z); IElement; IVal (LFloat 4598175219545276416%Z); IElement; IRuntime HMap; IAdd; IElement; IVal (LInt (0)%Z); IIndex; IField; ISym (hx "6e616d65"); IInitTuple; ISym (hx "63"); IVal (LStr (hx "c3a9")); IVal (LStr (hx "6c696e6520627265616b")); IAdd; IVal (LStr (hx "c3a9")); IVal (LStr (hx "")); IAdd; IAdd; IField; ISym (hx "706f7274"); IVal (LInt (12)%Z); IField; IField; ISym (hx "78"); IInitTuple; ISym (hx "61"); IVal (LBool true); ISym (hx "74727565"); ISelectJump 2; IVal (LFloat 4598175219545276416%Z); IJump 2; IPop; IVal (LFloat 4611686018427387904%Z); IField; ISym (hx "6f74686572"); IVal (LInt (3)%Z); IField; IVal (LStr (hx "61")); IIndex; IVal (LFloat 4602678819172646912%Z); IVal (LFloat 4593671619917905920%Z); ISub; IMul; IField; IBind; ISym (hx "6b"); IVal (LInt (0)%Z); IVal (LInt (3)%Z); IDeRef (hx "64"); IAdd; IVal (LInt (4)%Z); IAdd; ISub; IBind; ISym (hx "6e"); IInitList; ISym (hx "6d"); IElement; IFunc 4; IDeRef (hx "6c7374"); IVal (LStr (hx "78")); IIndex; IReturn; IInitList; ISym (hx "6e"); IElement; ISym (hx "626172"); IElement; IFunc 2; IDeRef (hx "6e"); IReturn; IInitList; ISym (hx "666f6f"); IElement; IFunc 2; IVal (LStr (hx "7475706c65")); IReturn; IInitList; IVal (LInt (9)%Z); IElement; IRuntime HMap; IInitList; IInitList; IVal (LStr (hx "6c696e6520627265616b")); IElement; IVal (LStr (hx "")); IElement; IElement; IInitList; IVal (LStr (hx "e697a5e69cac")); IElement; IElement; IInitList; IElement; IVal (LInt (0)%Z); IIndex; IInitList; ISym (hx "74706c"); IElement; IFunc 2; IVal (LStr (hx "7475706c65")); IReturn; IInitList; IVal (LFloat 4652218415073722368%Z); IElement; IVal (LFloat 4615626668101337088%Z); IElement; IRuntime HMap; IAdd; IRuntime HReduce; IRuntime HMap; IBind; ISym (hx "76"); IInitTuple; ISym (hx "61"); IVal (LStr (hx "626172")); IField; ISym (hx "6f74686572"); IVal (LInt (8)%Z); IField; IVal (LStr (hx "61")); IIndex; ICast CStr; ISym (hx "626172"); ISelectJump 6; IVal (LInt (2)%Z); IVal (LStr trace_text); IVal (LInt (17)%Z); IRuntime HTrace; IDiv; IJump 2; IPop; IVal (LInt (1)%Z); IVal (LStr trace_text); IDeRef (hx "64"); IRuntime HTrace; ILtEq; IBind; ISym (hx "62"); IInitList; ISym (hx "6974"); IElement; IFunc 4; IDeRef (hx "64"); IDeRef (hx "64"); ISub; IReturn; IInitList; IInitList; ISym (hx "636667"); IElement; IFunc 4; IDeRef (hx "6e"); IVal (LFloat 4598175219545276416%Z); IExist; IReturn; IDeRef (hx "76"); ICast CStr; IRuntime HFilter; IElement; IRuntime HMap; IBind].
Proof. reflexivity. Qed.
(* let b = [9223372036854775807 + 6, (select (false, 3) => {`true` = 4, `false` = 6}) - (0 + 2)] + ((TRACE [1, 8])); let d = {x = [select (true, 7.0 - 1.5) => {`true` = 1.5, `false` = (TRACE 0.25)}]}; let v = filter(func (t) => NULL, map(func (t) => [0.25, 7.0] . 1, ((select (false, [`b\\s`]) => {`true` = [`line break`, `1`]}) + {a = [`x y`, `tuple`], other = 11} . a))); let k = 0.0 in v; let lst = b . 0; let c = select (k || (not k), `@`) => {`true` = [`\\@@{item}@{item}v=@{item . a}` % {a = 9223372036854775807, name = `true`}] . 0, `false` = ` @:@!` % ({val = {a = lst}, other = 12} . val, {a = 12})};  *)
Example tr_gen_2 : translate [SLet (hx "62") (EBin Add (EList [(EBin Add (EInt (9223372036854775807)%Z) (EInt (6)%Z)); (EBin Sub (EGroup (ESelect (EBool false) (Some (EInt (3)%Z)) [((hx "74727565"), (EInt (4)%Z)); ((hx "66616c7365"), (EInt (6)%Z))])) (EGroup (EBin Add (EInt (0)%Z) (EInt (2)%Z))))]) (EGroup (EGroup (ETrace (EList [(EInt (1)%Z); (EInt (8)%Z)]))))); SLet (hx "64") (ETuple [((hx "78"), (EList [(ESelect (EBool true) (Some (EBin Sub (EFloat 4619567317775286272%Z) (EFloat 4609434218613702656%Z))) [((hx "74727565"), (EFloat 4609434218613702656%Z)); ((hx "66616c7365"), (EGroup (ETrace (EFloat 4598175219545276416%Z))))])]))]); SLet (hx "76") (EFilter (EFunc [(hx "74")] ENull) (EMap (EFunc [(hx "74")] (EBin DOT (EList [(EFloat 4598175219545276416%Z); (EFloat 4619567317775286272%Z)]) (EInt (1)%Z))) (EGroup (EBin Add (EGroup (ESelect (EBool false) (Some (EList [(EStr (hx "625c73"))])) [((hx "74727565"), (EList [(EStr (hx "6c696e6520627265616b")); (EStr (hx "31"))]))])) (EBin DOT (ETuple [((hx "61"), (EList [(EStr (hx "782079")); (EStr (hx "7475706c65"))])); ((hx "6f74686572"), (EInt (11)%Z))]) (ESym (hx "61"))))))); SLet (hx "6b") (EBin IN (EFloat 0%Z) (ESym (hx "76"))); SLet (hx "6c7374") (EBin DOT (ESym (hx "62")) (EInt (0)%Z)); SLet (hx "63") (ESelect (EBin OR (ESym (hx "6b")) (EGroup (ENot (ESym (hx "6b"))))) (Some (EStr (hx "40"))) [((hx "74727565"), (EBin DOT (EList [(EFormatS [PStr (hx "40"); PExpr (ESym (hx "6974656d")); PStr (hx ""); PExpr (ESym (hx "6974656d")); PStr (hx "763d"); PExpr (EBin DOT (ESym (hx "6974656d")) (ESym (hx "61")))] (ETuple [((hx "61"), (EInt (9223372036854775807)%Z)); ((hx "6e616d65"), (EStr (hx "74727565")))]))]) (EInt (0)%Z))); ((hx "66616c7365"), (EFormatL [PStr (hx "20"); PHole; PStr (hx "3a"); PHole; PStr (hx "21")] [(EBin DOT (ETuple [((hx "76616c"), (ETuple [((hx "61"), (ESym (hx "6c7374")))])); ((hx "6f74686572"), (EInt (12)%Z))]) (ESym (hx "76616c"))); (ETuple [((hx "61"), (EInt (12)%Z))])]))])] = [ISym (hx "62"); IVal (LStr trace_text); IInitList; IVal (LInt (1)%Z); IElement; IVal (LInt (8)%Z); IElement; IRuntime HTrace; IInitList; IVal (LInt (6)%Z); IVal (LInt (9223372036854775807)%Z); IAdd; IElement; IVal (LInt (2)%Z); IVal (LInt (0)%Z); IAdd; IVal (LBool false); ISym (hx "74727565"); ISelectJump 2; IVal (LInt (4)%Z); IJump 6; ISym (hx "66616c7365"); ISelectJump 2; IVal (LInt (6)%Z); IJump 2; IPop; IVal (LInt (3)%Z); ISub; IElement; IAdd; IBind; ISym (hx "64"); IInitTuple; ISym (hx "78"); IInitList; IVal (LBool true); ISym (hx "74727565"); ISelectJump 2; IVal (LFloat 4609434218613702656%Z); IJump 10; ISym (hx "66616c7365"); ISelectJump 4; IVal (LStr trace_text); IVal (LFloat 4598175219545276416%Z); IRuntime HTrace; IJump 4; IPop; IVal (LFloat 4609434218613702656%Z); IVal (LFloat 4619567317775286272%Z); ISub; IElement; IField; IBind; ISym (hx "76"); IInitList; ISym (hx "74"); IElement; IFunc 2; IVal LEmpty; IReturn; IInitList; ISym (hx "74"); IElement; IFunc 8; IInitList; IVal (LFloat 4598175219545276416%Z); IElement; IVal (LFloat 4619567317775286272%Z); IElement; IVal (LInt (1)%Z); IIndex; IReturn; IInitTuple; ISym (hx "61"); IInitList; IVal (LStr (hx "782079")); IElement; IVal (LStr (hx "7475706c65")); IElement; IField; ISym (hx "6f74686572"); IVal (LInt (11)%Z); IField; IVal (LStr (hx "61")); IIndex; IVal (LBool false); ISym (hx "74727565"); ISelectJump 6; IInitList; IVal (LStr (hx "6c696e6520627265616b")); IElement; IVal (LStr (hx "31")); IElement; IJump 4; IPop; IInitList; IVal (LStr (hx "625c73")); IElement; IAdd; IRuntime HMap; IRuntime HFilter; IBind; ISym (hx "6b"); IDeRef (hx "76"); IVal (LFloat 0%Z); IExist; IBind; ISym (hx "6c7374"); IDeRef (hx "62"); IVal (LInt (0)%Z); IIndex; IBind; ISym (hx "63"); IDeRef (hx "6b"); IOr 2; IDeRef (hx "6b"); INot; ISym (hx "74727565"); ISelectJump 32; IInitList; INewScope 26; ISym (hx "6974656d"); IInitTuple; ISym (hx "61"); IVal (LInt (9223372036854775807)%Z); IField; ISym (hx "6e616d65"); IVal (LStr (hx "74727565")); IField; IBindOver; IDeRef (hx "6974656d"); IVal (LStr (hx "61")); IIndex; IRender; IVal (LStr (hx "763d")); IAdd; IDeRef (hx "6974656d"); IRender; IAdd; IVal (LStr (hx "")); IAdd; IDeRef (hx "6974656d"); IRender; IAdd; IVal (LStr (hx "40")); IAdd; IReturn; IElement; IVal (LInt (0)%Z); IIndex; IJump 30; ISym (hx "66616c7365"); ISelectJump 26; IVal (LStr (hx "21")); IInitTuple; ISym (hx "61"); IVal (LInt (12)%Z); IField; IRender; IAdd; IVal (LStr (hx "3a")); IAdd; IInitTuple; ISym (hx "76616c"); IInitTuple; ISym (hx "61"); IDeRef (hx "6c7374"); IField; IField; ISym (hx "6f74686572"); IVal (LInt (12)%Z); IField; IVal (LStr (hx "76616c")); IIndex; IRender; IAdd; IVal (LStr (hx "20")); IAdd; IJump 2; IPop; IVal (LStr (hx "40")); IBind].
Proof. reflexivity. Qed.
(* let m = {c = select (not ({val = false, other = 100} . val)) => {`true` = 2, `false` = 19}}; let acc = select (zz in [(TRACE {a = 42, name = `é`})] . 0) => {`true` = 9 %% 2}; let t = module {port = 100, host = true, p = 1} => ((map(func (val) => false, [2]) + [false])) { let b = `a` + `1` + `q\`q`; let foo = 7.0 * 7.0 / 2.0; }; let bar = [filter(func (name) => name, (select (false) => {`true` = [2.0], `false` = [100.0, 7.0]})), [0.25 + 0.5] + [0.25]]; let d = 11; let data = 9223372036854775806;  *)
Example tr_gen_3 : translate [SLet (hx "6d") (ETuple [((hx "63"), (ESelect (ENot (EGroup (EBin DOT (ETuple [((hx "76616c"), (EBool false)); ((hx "6f74686572"), (EInt (100)%Z))]) (ESym (hx "76616c"))))) None [((hx "74727565"), (EInt (2)%Z)); ((hx "66616c7365"), (EInt (19)%Z))]))]); SLet (hx "616363") (ESelect (EBin IN (ESym (hx "7a7a")) (EBin DOT (EList [(EGroup (ETrace (ETuple [((hx "61"), (EInt (42)%Z)); ((hx "6e616d65"), (EStr (hx "c3a9")))])))]) (EInt (0)%Z))) None [((hx "74727565"), (EBin Mod (EInt (9)%Z) (EInt (2)%Z)))]); SLet (hx "74") (EModule [((hx "706f7274"), (EInt (100)%Z)); ((hx "686f7374"), (EBool true)); ((hx "70"), (EInt (1)%Z))] (Some (EGroup (EBin Add (EMap (EFunc [(hx "76616c")] (EBool false)) (EList [(EInt (2)%Z)])) (EList [(EBool false)])))) [SLet (hx "62") (EBin Add (EBin Add (EStr (hx "61")) (EStr (hx "31"))) (EStr (hx "712271"))); SLet (hx "666f6f") (EBin Div (EBin Mul (EFloat 4619567317775286272%Z) (EFloat 4619567317775286272%Z)) (EFloat 4611686018427387904%Z))]); SLet (hx "626172") (EList [(EFilter (EFunc [(hx "6e616d65")] (ESym (hx "6e616d65"))) (EGroup (ESelect (EBool false) None [((hx "74727565"), (EList [(EFloat 4611686018427387904%Z)])); ((hx "66616c7365"), (EList [(EFloat 4636737291354636288%Z); (EFloat 4619567317775286272%Z)]))]))); (EBin Add (EList [(EBin Add (EFloat 4598175219545276416%Z) (EFloat 4602678819172646912%Z))]) (EList [(EFloat 4598175219545276416%Z)]))]); SLet (hx "64") (EInt (11)%Z); SLet (hx "64617461") (EInt (9223372036854775806)%Z)] = [ISym (hx "6d"); IInitTuple; ISym (hx "63"); IInitTuple; ISym (hx "76616c"); IVal (LBool false); IField; ISym (hx "6f74686572"); IVal (LInt (100)%Z); IField; IVal (LStr (hx "76616c")); IIndex; INot; ISym (hx "74727565"); ISelectJump 2; IVal (LInt (2)%Z); IJump 7; ISym (hx "66616c7365"); ISelectJump 2; IVal (LInt (19)%Z); IJump 3; IPop; IVal (LStr (hx "556e68616e646c65642073656c65637420636173652077697468206e6f2064656661756c74")); IBang; IField; IBind; ISym (hx "616363"); IInitList; IVal (LStr trace_text); IInitTuple; ISym (hx "61"); IVal (LInt (42)%Z); IField; ISym (hx "6e616d65"); IVal (LStr (hx "c3a9")); IField; IRuntime HTrace; IElement; IVal (LInt (0)%Z); IIndex; IVal (LStr (hx "7475706c65")); IInitList; IVal (LStr trace_text); IInitTuple; ISym (hx "61"); IVal (LInt (42)%Z); IField; ISym (hx "6e616d65"); IVal (LStr (hx "c3a9")); IField; IRuntime HTrace; IElement; IVal (LInt (0)%Z); IIndex; ITyp; IEqual; ISym (hx "74727565"); ISelectJump 2; IVal (LStr (hx "7a7a")); IJump 2; IPop; IDeRef (hx "7a7a"); IExist; ISym (hx "74727565"); ISelectJump 4; IVal (LInt (2)%Z); IVal (LInt (9)%Z); IMod; IJump 3; IPop; IVal (LStr (hx "556e68616e646c65642073656c65637420636173652077697468206e6f2064656661756c74")); IBang; IBind; ISym (hx "74"); IInitTuple; ISym (hx "706f7274"); IVal (LInt (100)%Z); IField; ISym (hx "686f7374"); IVal (LBool true); IField; ISym (hx "70"); IVal (LInt (1)%Z); IField; IInitThunk 15; IInitList; IVal (LBool false); IElement; IInitList; ISym (hx "76616c"); IElement; IFunc 2; IVal (LBool false); IReturn; IInitList; IVal (LInt (2)%Z); IElement; IRuntime HMap; IAdd; IReturn; IModule 16; IBind; ISym (hx "62"); IVal (LStr (hx "712271")); IVal (LStr (hx "31")); IVal (LStr (hx "61")); IAdd; IAdd; IBind; ISym (hx "666f6f"); IVal (LFloat 4611686018427387904%Z); IVal (LFloat 4619567317775286272%Z); IVal (LFloat 4619567317775286272%Z); IMul; IDiv; IBind; IReturn; IBind; ISym (hx "626172"); IInitList; IInitList; ISym (hx "6e616d65"); IElement; IFunc 2; IDeRef (hx "6e616d65"); IReturn; IVal (LBool false); ISym (hx "74727565"); ISelectJump 4; IInitList; IVal (LFloat 4611686018427387904%Z); IElement; IJump 11; ISym (hx "66616c7365"); ISelectJump 6; IInitList; IVal (LFloat 4636737291354636288%Z); IElement; IVal (LFloat 4619567317775286272%Z); IElement; IJump 3; IPop; IVal (LStr (hx "556e68616e646c65642073656c65637420636173652077697468206e6f2064656661756c74")); IBang; IRuntime HFilter; IElement; IInitList; IVal (LFloat 4598175219545276416%Z); IElement; IInitList; IVal (LFloat 4602678819172646912%Z); IVal (LFloat 4598175219545276416%Z); IAdd; IElement; IAdd; IElement; IBind; ISym (hx "64"); IVal (LInt (11)%Z); IBind; ISym (hx "64617461"); IVal (LInt (9223372036854775806)%Z); IBind].
Proof. reflexivity. Qed.
(* let cfg = ({inner = str(true), host = 10} == reduce(func (foo, it) => [foo] . 0, {inner = `é`, host = 19}, ({val = [], other = 9223372036854775806} . val))) || (filter(func (m) => {val = false, other = 7} . val, (not 100)) == [map(func (c) => 0.125, [`foo`]), ([])] . 0); let n = (TRACE 2.0 * (select (`a` + `é`, 1024.0) => {foo = select (cfg) => {`true` = 100.0, `false` = 2.0}})); let a = {a = {val = `x=@` % (reduce(func (lst, m) => lst, {a = 11}, `tuple`)), other = 17} . val, other = 12} . a; let v = {c = a + (a + ``), inner = reduce(func (data, bar) => `tuple`, a, reduce(func (d, bar, tpl) => [7.0, 1.5], [1024.0, 0.5], {f1 = 7, f2 = 9223372036854775806}))} == {c = `foo`, inner = a}; let b = reduce(func (tpl, t) => tpl, int(`3`), [reduce(func (t, name) => t, select (`foo`, 2) => {foo = 10, a = 1, `x y` = 0}, [7])]); let y2 = module {} => (k) { let k = map(func (data) => data, filter(func (n) => false, [`q\`q`, `line break`])); };  *)
Example tr_gen_4 : translate [SLet (hx "636667") (EBin OR (EGroup (EBin Equal (ETuple [((hx "696e6e6572"), (ECast CStr (EBool true))); ((hx "686f7374"), (EInt (10)%Z))]) (EReduce (EFunc [(hx "666f6f"); (hx "6974")] (EBin DOT (EList [(ESym (hx "666f6f"))]) (EInt (0)%Z))) (ETuple [((hx "696e6e6572"), (EStr (hx "c3a9"))); ((hx "686f7374"), (EInt (19)%Z))]) (EGroup (EBin DOT (ETuple [((hx "76616c"), (EList [])); ((hx "6f74686572"), (EInt (9223372036854775806)%Z))]) (ESym (hx "76616c"))))))) (EGroup (EBin Equal (EFilter (EFunc [(hx "6d")] (EBin DOT (ETuple [((hx "76616c"), (EBool false)); ((hx "6f74686572"), (EInt (7)%Z))]) (ESym (hx "76616c")))) (EGroup (ENot (EInt (100)%Z)))) (EBin DOT (EList [(EMap (EFunc [(hx "63")] (EFloat 4593671619917905920%Z)) (EList [(EStr (hx "666f6f"))])); (EGroup (EList []))]) (EInt (0)%Z))))); SLet (hx "6e") (EGroup (ETrace (EBin Mul (EFloat 4611686018427387904%Z) (EGroup (ESelect (EBin Add (EStr (hx "61")) (EStr (hx "c3a9"))) (Some (EFloat 4652218415073722368%Z)) [((hx "666f6f"), (ESelect (ESym (hx "636667")) None [((hx "74727565"), (EFloat 4636737291354636288%Z)); ((hx "66616c7365"), (EFloat 4611686018427387904%Z))]))]))))); SLet (hx "61") (EBin DOT (ETuple [((hx "61"), (EBin DOT (ETuple [((hx "76616c"), (EFormatL [PStr (hx "783d"); PHole] [(EReduce (EFunc [(hx "6c7374"); (hx "6d")] (ESym (hx "6c7374"))) (ETuple [((hx "61"), (EInt (11)%Z))]) (EStr (hx "7475706c65")))])); ((hx "6f74686572"), (EInt (17)%Z))]) (ESym (hx "76616c")))); ((hx "6f74686572"), (EInt (12)%Z))]) (ESym (hx "61"))); SLet (hx "76") (EBin Equal (ETuple [((hx "63"), (EBin Add (ESym (hx "61")) (EGroup (EBin Add (ESym (hx "61")) (EStr (hx "")))))); ((hx "696e6e6572"), (EReduce (EFunc [(hx "64617461"); (hx "626172")] (EStr (hx "7475706c65"))) (ESym (hx "61")) (EReduce (EFunc [(hx "64"); (hx "626172"); (hx "74706c")] (EList [(EFloat 4619567317775286272%Z); (EFloat 4609434218613702656%Z)])) (EList [(EFloat 4652218415073722368%Z); (EFloat 4602678819172646912%Z)]) (ETuple [((hx "6631"), (EInt (7)%Z)); ((hx "6632"), (EInt (9223372036854775806)%Z))]))))]) (ETuple [((hx "63"), (EStr (hx "666f6f"))); ((hx "696e6e6572"), (ESym (hx "61")))])); SLet (hx "62") (EReduce (EFunc [(hx "74706c"); (hx "74")] (ESym (hx "74706c"))) (ECast CInt (EStr (hx "33"))) (EList [(EReduce (EFunc [(hx "74"); (hx "6e616d65")] (ESym (hx "74"))) (ESelect (EStr (hx "666f6f")) (Some (EInt (2)%Z)) [((hx "666f6f"), (EInt (10)%Z)); ((hx "61"), (EInt (1)%Z)); ((hx "782079"), (EInt (0)%Z))]) (EList [(EInt (7)%Z)]))])); SLet (hx "7932") (EModule [] (Some (ESym (hx "6b"))) [SLet (hx "6b") (EMap (EFunc [(hx "64617461")] (ESym (hx "64617461"))) (EFilter (EFunc [(hx "6e")] (EBool false)) (EList [(EStr (hx "712271")); (EStr (hx "6c696e6520627265616b"))])))])] = [ISym (hx "636667"); IInitList; ISym (hx "666f6f"); IElement; ISym (hx "6974"); IElement; IFunc 6; IInitList; IDeRef (hx "666f6f"); IElement; IVal (LInt (0)%Z); IIndex; IReturn; IInitTuple; ISym (hx "696e6e6572"); IVal (LStr (hx "c3a9")); IField; ISym (hx "686f7374"); IVal (LInt (19)%Z); IField; IInitTuple; ISym (hx "76616c"); IInitList; IField; ISym (hx "6f74686572"); IVal (LInt (9223372036854775806)%Z); IField; IVal (LStr (hx "76616c")); IIndex; IRuntime HReduce; IInitTuple; ISym (hx "696e6e6572"); IVal (LBool true); ICast CStr; IField; ISym (hx "686f7374"); IVal (LInt (10)%Z); IField; IEqual; IOr 34; IInitList; IInitList; ISym (hx "63"); IElement; IFunc 2; IVal (LFloat 4593671619917905920%Z); IReturn; IInitList; IVal (LStr (hx "666f6f")); IElement; IRuntime HMap; IElement; IInitList; IElement; IVal (LInt (0)%Z); IIndex; IInitList; ISym (hx "6d"); IElement; IFunc 10; IInitTuple; ISym (hx "76616c"); IVal (LBool false); IField; ISym (hx "6f74686572"); IVal (LInt (7)%Z); IField; IVal (LStr (hx "76616c")); IIndex; IReturn; IVal (LInt (100)%Z); INot; IRuntime HFilter; IEqual; IBind; ISym (hx "6e"); IVal (LStr trace_text); IVal (LStr (hx "c3a9")); IVal (LStr (hx "61")); IAdd; ISym (hx "666f6f"); ISelectJump 13; IDeRef (hx "636667"); ISym (hx "74727565"); ISelectJump 2; IVal (LFloat 4636737291354636288%Z); IJump 7; ISym (hx "66616c7365"); ISelectJump 2; IVal (LFloat 4611686018427387904%Z); IJump 3; IPop; IVal (LStr (hx "556e68616e646c65642073656c65637420636173652077697468206e6f2064656661756c74")); IBang; IJump 2; IPop; IVal (LFloat 4652218415073722368%Z); IVal (LFloat 4611686018427387904%Z); IMul; IRuntime HTrace; IBind; ISym (hx "61"); IInitTuple; ISym (hx "61"); IInitTuple; ISym (hx "76616c"); IInitList; ISym (hx "6c7374"); IElement; ISym (hx "6d"); IElement; IFunc 2; IDeRef (hx "6c7374"); IReturn; IInitTuple; ISym (hx "61"); IVal (LInt (11)%Z); IField; IVal (LStr (hx "7475706c65")); IRuntime HReduce; IRender; IVal (LStr (hx "783d")); IAdd; IField; ISym (hx "6f74686572"); IVal (LInt (17)%Z); IField; IVal (LStr (hx "76616c")); IIndex; IField; ISym (hx "6f74686572"); IVal (LInt (12)%Z); IField; IVal (LStr (hx "61")); IIndex; IBind; ISym (hx "76"); IInitTuple; ISym (hx "63"); IVal (LStr (hx "666f6f")); IField; ISym (hx "696e6e6572"); IDeRef (hx "61"); IField; IInitTuple; ISym (hx "63"); IVal (LStr (hx "")); IDeRef (hx "61"); IAdd; IDeRef (hx "61"); IAdd; IField; ISym (hx "696e6e6572"); IInitList; ISym (hx "64617461"); IElement; ISym (hx "626172"); IElement; IFunc 2; IVal (LStr (hx "7475706c65")); IReturn; IDeRef (hx "61"); IInitList; ISym (hx "64"); IElement; ISym (hx "626172"); IElement; ISym (hx "74706c"); IElement; IFunc 6; IInitList; IVal (LFloat 4619567317775286272%Z); IElement; IVal (LFloat 4609434218613702656%Z); IElement; IReturn; IInitList; IVal (LFloat 4652218415073722368%Z); IElement; IVal (LFloat 4602678819172646912%Z); IElement; IInitTuple; ISym (hx "6631"); IVal (LInt (7)%Z); IField; ISym (hx "6632"); IVal (LInt (9223372036854775806)%Z); IField; IRuntime HReduce; IRuntime HReduce; IField; IEqual; IBind; ISym (hx "62"); IInitList; ISym (hx "74706c"); IElement; ISym (hx "74"); IElement; IFunc 2; IDeRef (hx "74706c"); IReturn; IVal (LStr (hx "33")); ICast CInt; IInitList; IInitList; ISym (hx "74"); IElement; ISym (hx "6e616d65"); IElement; IFunc 2; IDeRef (hx "74"); IReturn; IVal (LStr (hx "666f6f")); ISym (hx "666f6f"); ISelectJump 2; IVal (LInt (10)%Z); IJump 10; ISym (hx "61"); ISelectJump 2; IVal (LInt (1)%Z); IJump 6; ISym (hx "782079"); ISelectJump 2; IVal (LInt (0)%Z); IJump 2; IPop; IVal (LInt (2)%Z); IInitList; IVal (LInt (7)%Z); IElement; IRuntime HReduce; IElement; IRuntime HReduce; IBind; ISym (hx "7932"); IInitTuple; IInitThunk 2; IDeRef (hx "6b"); IReturn; IModule 23; IBind; ISym (hx "6b"); IInitList; ISym (hx "64617461"); IElement; IFunc 2; IDeRef (hx "64617461"); IReturn; IInitList; ISym (hx "6e"); IElement; IFunc 2; IVal (LBool false); IReturn; IInitList; IVal (LStr (hx "712271")); IElement; IVal (LStr (hx "6c696e6520627265616b")); IElement; IRuntime HFilter; IRuntime HMap; IBind; IReturn; IBind].
Proof. reflexivity. Qed.
(* let k = [select ([``, `a`] . 0 + (`line break` + `@`), `q\`q`) => {`é` = `foo`}] . 0; let lst = module {q = 0} => { let acc = `\\@@{item} @{item}` % {w = `日本`} . w; let y2 = filter(func (tpl, lst) => true, {x = false, c = 7, val = 100, x = true}); }; let x1 = {k1 = 42, name = {a = k}, val = {y = {b = 2.0, other = 6} . b}}; let data = (TRACE k); let it = {val = str((select (false, 19) => {`true` = 12}) %% 9)}; let foo = `\\@@{item}` % {a = 3, name = data};  *)
Example tr_gen_5 : translate [SLet (hx "6b") (EBin DOT (EList [(ESelect (EBin Add (EBin DOT (EList [(EStr (hx "")); (EStr (hx "61"))]) (EInt (0)%Z)) (EGroup (EBin Add (EStr (hx "6c696e6520627265616b")) (EStr (hx "40"))))) (Some (EStr (hx "712271"))) [((hx "c3a9"), (EStr (hx "666f6f")))])]) (EInt (0)%Z)); SLet (hx "6c7374") (EModule [((hx "71"), (EInt (0)%Z))] None [SLet (hx "616363") (EFormatS [PStr (hx "40"); PExpr (ESym (hx "6974656d")); PStr (hx "20"); PExpr (ESym (hx "6974656d"))] (EBin DOT (ETuple [((hx "77"), (EStr (hx "e697a5e69cac")))]) (ESym (hx "77")))); SLet (hx "7932") (EFilter (EFunc [(hx "74706c"); (hx "6c7374")] (EBool true)) (ETuple [((hx "78"), (EBool false)); ((hx "63"), (EInt (7)%Z)); ((hx "76616c"), (EInt (100)%Z)); ((hx "78"), (EBool true))]))]); SLet (hx "7831") (ETuple [((hx "6b31"), (EInt (42)%Z)); ((hx "6e616d65"), (ETuple [((hx "61"), (ESym (hx "6b")))])); ((hx "76616c"), (ETuple [((hx "79"), (EBin DOT (ETuple [((hx "62"), (EFloat 4611686018427387904%Z)); ((hx "6f74686572"), (EInt (6)%Z))]) (ESym (hx "62"))))]))]); SLet (hx "64617461") (EGroup (ETrace (ESym (hx "6b")))); SLet (hx "6974") (ETuple [((hx "76616c"), (ECast CStr (EBin Mod (EGroup (ESelect (EBool false) (Some (EInt (19)%Z)) [((hx "74727565"), (EInt (12)%Z))])) (EInt (9)%Z))))]); SLet (hx "666f6f") (EFormatS [PStr (hx "40"); PExpr (ESym (hx "6974656d"))] (ETuple [((hx "61"), (EInt (3)%Z)); ((hx "6e616d65"), (ESym (hx "64617461")))]))] = [ISym (hx "6b"); IInitList; IVal (LStr (hx "40")); IVal (LStr (hx "6c696e6520627265616b")); IAdd; IInitList; IVal (LStr (hx "")); IElement; IVal (LStr (hx "61")); IElement; IVal (LInt (0)%Z); IIndex; IAdd; ISym (hx "c3a9"); ISelectJump 2; IVal (LStr (hx "666f6f")); IJump 2; IPop; IVal (LStr (hx "712271")); IElement; IVal (LInt (0)%Z); IIndex; IBind; ISym (hx "6c7374"); IInitTuple; ISym (hx "71"); IVal (LInt (0)%Z); IField; IModule 47; IBind; ISym (hx "616363"); INewScope 18; ISym (hx "6974656d"); IInitTuple; ISym (hx "77"); IVal (LStr (hx "e697a5e69cac")); IField; IVal (LStr (hx "77")); IIndex; IBindOver; IDeRef (hx "6974656d"); IRender; IVal (LStr (hx "20")); IAdd; IDeRef (hx "6974656d"); IRender; IAdd; IVal (LStr (hx "40")); IAdd; IReturn; IBind; ISym (hx "7932"); IInitList; ISym (hx "74706c"); IElement; ISym (hx "6c7374"); IElement; IFunc 2; IVal (LBool true); IReturn; IInitTuple; ISym (hx "78"); IVal (LBool false); IField; ISym (hx "63"); IVal (LInt (7)%Z); IField; ISym (hx "76616c"); IVal (LInt (100)%Z); IField; ISym (hx "78"); IVal (LBool true); IField; IRuntime HFilter; IBind; IReturn; IBind; ISym (hx "7831"); IInitTuple; ISym (hx "6b31"); IVal (LInt (42)%Z); IField; ISym (hx "6e616d65"); IInitTuple; ISym (hx "61"); IDeRef (hx "6b"); IField; IField; ISym (hx "76616c"); IInitTuple; ISym (hx "79"); IInitTuple; ISym (hx "62"); IVal (LFloat 4611686018427387904%Z); IField; ISym (hx "6f74686572"); IVal (LInt (6)%Z); IField; IVal (LStr (hx "62")); IIndex; IField; IField; IBind; ISym (hx "64617461"); IVal (LStr trace_text); IDeRef (hx "6b"); IRuntime HTrace; IBind; ISym (hx "6974"); IInitTuple; ISym (hx "76616c"); IVal (LInt (9)%Z); IVal (LBool false); ISym (hx "74727565"); ISelectJump 2; IVal (LInt (12)%Z); IJump 2; IPop; IVal (LInt (19)%Z); IMod; ICast CStr; IField; IBind; ISym (hx "666f6f"); INewScope 14; ISym (hx "6974656d"); IInitTuple; ISym (hx "61"); IVal (LInt (3)%Z); IField; ISym (hx "6e616d65"); IDeRef (hx "64617461"); IField; IBindOver; IDeRef (hx "6974656d"); IRender; IVal (LStr (hx "40")); IAdd; IReturn; IBind].
Proof. reflexivity. Qed.
(* let n = float(15); let data = 0; let d = data; {`quoted field` = (`@é @a@` % ({a = 17}, ``, `a`)) + (`@` + `é`), host = (TRACE `é`) + str(`1`)}; let val = map(func (a) => data, filter(func (val) => 7.0 < (select (`a`, val) => {bar = 1024.0, `é` = 1.5, a = val}), map(func (acc) => 9223372036854775807 + 11, filter(func (tpl) => tpl, [2, 2])))); let it = {b = filter(func (x1, a) => true, {name = `@` in `q\`q`}), other = 19} . b;  *)
Example tr_gen_6 : translate [SLet (hx "6e") (ECast CFloat (EInt (15)%Z)); SLet (hx "64617461") (EInt (0)%Z); SLet (hx "64") (ESym (hx "64617461")); SExpr (ETuple [((hx "71756f746564206669656c64"), (EBin Add (EGroup (EFormatL [PStr (hx ""); PHole; PStr (hx "c3a920"); PHole; PStr (hx "61"); PHole] [(ETuple [((hx "61"), (EInt (17)%Z))]); (EStr (hx "")); (EStr (hx "61"))])) (EGroup (EBin Add (EStr (hx "40")) (EStr (hx "c3a9")))))); ((hx "686f7374"), (EBin Add (EGroup (ETrace (EStr (hx "c3a9")))) (ECast CStr (EStr (hx "31")))))]); SLet (hx "76616c") (EMap (EFunc [(hx "61")] (ESym (hx "64617461"))) (EFilter (EFunc [(hx "76616c")] (EBin LT (EFloat 4619567317775286272%Z) (EGroup (ESelect (EStr (hx "61")) (Some (ESym (hx "76616c"))) [((hx "626172"), (EFloat 4652218415073722368%Z)); ((hx "c3a9"), (EFloat 4609434218613702656%Z)); ((hx "61"), (ESym (hx "76616c")))])))) (EMap (EFunc [(hx "616363")] (EBin Add (EInt (9223372036854775807)%Z) (EInt (11)%Z))) (EFilter (EFunc [(hx "74706c")] (ESym (hx "74706c"))) (EList [(EInt (2)%Z); (EInt (2)%Z)]))))); SLet (hx "6974") (EBin DOT (ETuple [((hx "62"), (EFilter (EFunc [(hx "7831"); (hx "61")] (EBool true)) (ETuple [((hx "6e616d65"), (EBin IN (EStr (hx "40")) (EStr (hx "712271"))))]))); ((hx "6f74686572"), (EInt (19)%Z))]) (ESym (hx "62")))] = [ISym (hx "6e"); IVal (LInt (15)%Z); ICast CFloat; IBind; ISym (hx "64617461"); IVal (LInt (0)%Z); IBind; ISym (hx "64"); IDeRef (hx "64617461"); IBind; IInitTuple; ISym (hx "71756f746564206669656c64"); IVal (LStr (hx "c3a9")); IVal (LStr (hx "40")); IAdd; IVal (LStr (hx "61")); IRender; IVal (LStr (hx "61")); IAdd; IVal (LStr (hx "")); IRender; IAdd; IVal (LStr (hx "c3a920")); IAdd; IInitTuple; ISym (hx "61"); IVal (LInt (17)%Z); IField; IRender; IAdd; IVal (LStr (hx "")); IAdd; IAdd; IField; ISym (hx "686f7374"); IVal (LStr (hx "31")); ICast CStr; IVal (LStr trace_text); IVal (LStr (hx "c3a9")); IRuntime HTrace; IAdd; IField; IPop; ISym (hx "76616c"); IInitList; ISym (hx "61"); IElement; IFunc 2; IDeRef (hx "64617461"); IReturn; IInitList; ISym (hx "76616c"); IElement; IFunc 18; IVal (LStr (hx "61")); ISym (hx "626172"); ISelectJump 2; IVal (LFloat 4652218415073722368%Z); IJump 10; ISym (hx "c3a9"); ISelectJump 2; IVal (LFloat 4609434218613702656%Z); IJump 6; ISym (hx "61"); ISelectJump 2; IDeRef (hx "76616c"); IJump 2; IPop; IDeRef (hx "76616c"); IVal (LFloat 4619567317775286272%Z); ILt; IReturn; IInitList; ISym (hx "616363"); IElement; IFunc 4; IVal (LInt (11)%Z); IVal (LInt (9223372036854775807)%Z); IAdd; IReturn; IInitList; ISym (hx "74706c"); IElement; IFunc 2; IDeRef (hx "74706c"); IReturn; IInitList; IVal (LInt (2)%Z); IElement; IVal (LInt (2)%Z); IElement; IRuntime HFilter; IRuntime HMap; IRuntime HFilter; IRuntime HMap; IBind; ISym (hx "6974"); IInitTuple; ISym (hx "62"); IInitList; ISym (hx "7831"); IElement; ISym (hx "61"); IElement; IFunc 2; IVal (LBool true); IReturn; IInitTuple; ISym (hx "6e616d65"); IVal (LStr (hx "712271")); IVal (LStr (hx "40")); IExist; IField; IRuntime HFilter; IField; ISym (hx "6f74686572"); IVal (LInt (19)%Z); IField; IVal (LStr (hx "62")); IIndex; IBind].
Proof. reflexivity. Qed.
(* let x1 = 2 * 0 - 18; let n = func () => [[[`b\\s`], map(func (a) => ``, [4])] . 0, select (select (true, true) => {`true` = true}, map(func (a) => `line break`, [true])) => {`true` = select (false) => {`true` = [`foo`], `false` = [`a`, `foo`]}}, [select (`foo`) => {foo = []}, select (`a`, [`b\\s`, `b\\s`]) => {foo = [`bar`], a = [`bar`]}] . 0] . 1; let acc = {host = x1, a = [{b = bool(true), other = 3} . b]}; let foo = func (v, val) => [v, str(2), v]; let c = {a = 13}; let bar = module {cnt = 100.0, p = 15} => ([100 * 8, 6, 3]) { let acc = 0.25 / 0.0 + 0.125; };  *)
Example tr_gen_7 : translate [SLet (hx "7831") (EBin Sub (EBin Mul (EInt (2)%Z) (EInt (0)%Z)) (EInt (18)%Z)); SLet (hx "6e") (EFunc [] (EBin DOT (EList [(EBin DOT (EList [(EList [(EStr (hx "625c73"))]); (EMap (EFunc [(hx "61")] (EStr (hx ""))) (EList [(EInt (4)%Z)]))]) (EInt (0)%Z)); (ESelect (ESelect (EBool true) (Some (EBool true)) [((hx "74727565"), (EBool true))]) (Some (EMap (EFunc [(hx "61")] (EStr (hx "6c696e6520627265616b"))) (EList [(EBool true)]))) [((hx "74727565"), (ESelect (EBool false) None [((hx "74727565"), (EList [(EStr (hx "666f6f"))])); ((hx "66616c7365"), (EList [(EStr (hx "61")); (EStr (hx "666f6f"))]))]))]); (EBin DOT (EList [(ESelect (EStr (hx "666f6f")) None [((hx "666f6f"), (EList []))]); (ESelect (EStr (hx "61")) (Some (EList [(EStr (hx "625c73")); (EStr (hx "625c73"))])) [((hx "666f6f"), (EList [(EStr (hx "626172"))])); ((hx "61"), (EList [(EStr (hx "626172"))]))])]) (EInt (0)%Z))]) (EInt (1)%Z))); SLet (hx "616363") (ETuple [((hx "686f7374"), (ESym (hx "7831"))); ((hx "61"), (EList [(EBin DOT (ETuple [((hx "62"), (ECast CBool (EBool true))); ((hx "6f74686572"), (EInt (3)%Z))]) (ESym (hx "62")))]))]); SLet (hx "666f6f") (EFunc [(hx "76"); (hx "76616c")] (EList [(ESym (hx "76")); (ECast CStr (EInt (2)%Z)); (ESym (hx "76"))])); SLet (hx "63") (ETuple [((hx "61"), (EInt (13)%Z))]); SLet (hx "626172") (EModule [((hx "636e74"), (EFloat 4636737291354636288%Z)); ((hx "70"), (EInt (15)%Z))] (Some (EList [(EBin Mul (EInt (100)%Z) (EInt (8)%Z)); (EInt (6)%Z); (EInt (3)%Z)])) [SLet (hx "616363") (EBin Add (EBin Div (EFloat 4598175219545276416%Z) (EFloat 0%Z)) (EFloat 4593671619917905920%Z))])] = [ISym (hx "7831"); IVal (LInt (18)%Z); IVal (LInt (0)%Z); IVal (LInt (2)%Z); IMul; ISub; IBind; ISym (hx "6e"); IInitList; IFunc 96; IInitList; IInitList; IInitList; IVal (LStr (hx "625c73")); IElement; IElement; IInitList; ISym (hx "61"); IElement; IFunc 2; IVal (LStr (hx "")); IReturn; IInitList; IVal (LInt (4)%Z); IElement; IRuntime HMap; IElement; IVal (LInt (0)%Z); IIndex; IElement; IVal (LBool true); ISym (hx "74727565"); ISelectJump 2; IVal (LBool true); IJump 2; IPop; IVal (LBool true); ISym (hx "74727565"); ISelectJump 19; IVal (LBool false); ISym (hx "74727565"); ISelectJump 4; IInitList; IVal (LStr (hx "666f6f")); IElement; IJump 11; ISym (hx "66616c7365"); ISelectJump 6; IInitList; IVal (LStr (hx "61")); IElement; IVal (LStr (hx "666f6f")); IElement; IJump 3; IPop; IVal (LStr (hx "556e68616e646c65642073656c65637420636173652077697468206e6f2064656661756c74")); IBang; IJump 11; IPop; IInitList; ISym (hx "61"); IElement; IFunc 2; IVal (LStr (hx "6c696e6520627265616b")); IReturn; IInitList; IVal (LBool true); IElement; IRuntime HMap; IElement; IInitList; IVal (LStr (hx "666f6f")); ISym (hx "666f6f"); ISelectJump 2; IInitList; IJump 3; IPop; IVal (LStr (hx "556e68616e646c65642073656c65637420636173652077697468206e6f2064656661756c74")); IBang; IElement; IVal (LStr (hx "61")); ISym (hx "666f6f"); ISelectJump 4; IInitList; IVal (LStr (hx "626172")); IElement; IJump 12; ISym (hx "61"); ISelectJump 4; IInitList; IVal (LStr (hx "626172")); IElement; IJump 6; IPop; IInitList; IVal (LStr (hx "625c73")); IElement; IVal (LStr (hx "625c73")); IElement; IElement; IVal (LInt (0)%Z); IIndex; IElement; IVal (LInt (1)%Z); IIndex; IReturn; IBind; ISym (hx "616363"); IInitTuple; ISym (hx "686f7374"); IDeRef (hx "7831"); IField; ISym (hx "61"); IInitList; IInitTuple; ISym (hx "62"); IVal (LBool true); ICast CBool; IField; ISym (hx "6f74686572"); IVal (LInt (3)%Z); IField; IVal (LStr (hx "62")); IIndex; IElement; IField; IBind; ISym (hx "666f6f"); IInitList; ISym (hx "76"); IElement; ISym (hx "76616c"); IElement; IFunc 9; IInitList; IDeRef (hx "76"); IElement; IVal (LInt (2)%Z); ICast CStr; IElement; IDeRef (hx "76"); IElement; IReturn; IBind; ISym (hx "63"); IInitTuple; ISym (hx "61"); IVal (LInt (13)%Z); IField; IBind; ISym (hx "626172"); IInitTuple; ISym (hx "636e74"); IVal (LFloat 4636737291354636288%Z); IField; ISym (hx "70"); IVal (LInt (15)%Z); IField; IInitThunk 10; IInitList; IVal (LInt (8)%Z); IVal (LInt (100)%Z); IMul; IElement; IVal (LInt (6)%Z); IElement; IVal (LInt (3)%Z); IElement; IReturn; IModule 9; IBind; ISym (hx "616363"); IVal (LFloat 4593671619917905920%Z); IVal (LFloat 0%Z); IVal (LFloat 4598175219545276416%Z); IDiv; IAdd; IBind; IReturn; IBind].
Proof. reflexivity. Qed.
(* let k = str(map(func (b) => b, (`tuple` + `x y`))) + (`@` % (int(`48`))); let c = func (n, val) => [(0.5), 100.0, (0.25)]; let a = {y = reduce(func (m, foo) => {b = m, other = 9223372036854775807} . b, {`quoted field` = 8, host = 10 * 3}, select (10 != 1, filter(func (val) => true, [])) => {`true` = map(func (name) => k, [2, 10])}), port = [[k, `1`]] . 0 + [`x y`, [`é`, k, k] . 0]}; let t = select (filter(func (cfg) => false, filter(func (m) => 0.25 is `module`, k)), {val = float(43), other = 8} . val) => {`x y` = float(82), `é` = 7.0 - (1024.0 / 1.5 - 1024.0 / 100.0)}; let d = map(func (bar) => [k, k, select (`a`, `line break`) => {`é` = `日本`, foo = k, a = k}], (map(func (acc) => 8, [42, 13]) + map(func (b) => 20, []))) + [[not 2, [[], [`tuple`]] + [], map(func (val) => [`bar`, `é`], [])] . 3, {val = map(func (lst) => [`q\`q`, `é`], [0.125, 1024.0]), other = 17} . val] . 2; let y2 = (TRACE k);  *)
Example tr_gen_8 : translate [SLet (hx "6b") (EBin Add (ECast CStr (EMap (EFunc [(hx "62")] (ESym (hx "62"))) (EGroup (EBin Add (EStr (hx "7475706c65")) (EStr (hx "782079")))))) (EGroup (EFormatL [PStr (hx ""); PHole] [(ECast CInt (EStr (hx "3438")))]))); SLet (hx "63") (EFunc [(hx "6e"); (hx "76616c")] (EList [(EGroup (EFloat 4602678819172646912%Z)); (EFloat 4636737291354636288%Z); (EGroup (EFloat 4598175219545276416%Z))])); SLet (hx "61") (ETuple [((hx "79"), (EReduce (EFunc [(hx "6d"); (hx "666f6f")] (EBin DOT (ETuple [((hx "62"), (ESym (hx "6d"))); ((hx "6f74686572"), (EInt (9223372036854775807)%Z))]) (ESym (hx "62")))) (ETuple [((hx "71756f746564206669656c64"), (EInt (8)%Z)); ((hx "686f7374"), (EBin Mul (EInt (10)%Z) (EInt (3)%Z)))]) (ESelect (EBin NotEqual (EInt (10)%Z) (EInt (1)%Z)) (Some (EFilter (EFunc [(hx "76616c")] (EBool true)) (EList []))) [((hx "74727565"), (EMap (EFunc [(hx "6e616d65")] (ESym (hx "6b"))) (EList [(EInt (2)%Z); (EInt (10)%Z)])))]))); ((hx "706f7274"), (EBin Add (EBin DOT (EList [(EList [(ESym (hx "6b")); (EStr (hx "31"))])]) (EInt (0)%Z)) (EList [(EStr (hx "782079")); (EBin DOT (EList [(EStr (hx "c3a9")); (ESym (hx "6b")); (ESym (hx "6b"))]) (EInt (0)%Z))])))]); SLet (hx "74") (ESelect (EFilter (EFunc [(hx "636667")] (EBool false)) (EFilter (EFunc [(hx "6d")] (EBin IS (EFloat 4598175219545276416%Z) (EStr (hx "6d6f64756c65")))) (ESym (hx "6b")))) (Some (EBin DOT (ETuple [((hx "76616c"), (ECast CFloat (EInt (43)%Z))); ((hx "6f74686572"), (EInt (8)%Z))]) (ESym (hx "76616c")))) [((hx "782079"), (ECast CFloat (EInt (82)%Z))); ((hx "c3a9"), (EBin Sub (EFloat 4619567317775286272%Z) (EGroup (EBin Sub (EBin Div (EFloat 4652218415073722368%Z) (EFloat 4609434218613702656%Z)) (EBin Div (EFloat 4652218415073722368%Z) (EFloat 4636737291354636288%Z))))))]); SLet (hx "64") (EBin Add (EMap (EFunc [(hx "626172")] (EList [(ESym (hx "6b")); (ESym (hx "6b")); (ESelect (EStr (hx "61")) (Some (EStr (hx "6c696e6520627265616b"))) [((hx "c3a9"), (EStr (hx "e697a5e69cac"))); ((hx "666f6f"), (ESym (hx "6b"))); ((hx "61"), (ESym (hx "6b")))])])) (EGroup (EBin Add (EMap (EFunc [(hx "616363")] (EInt (8)%Z)) (EList [(EInt (42)%Z); (EInt (13)%Z)])) (EMap (EFunc [(hx "62")] (EInt (20)%Z)) (EList []))))) (EBin DOT (EList [(EBin DOT (EList [(ENot (EInt (2)%Z)); (EBin Add (EList [(EList []); (EList [(EStr (hx "7475706c65"))])]) (EList [])); (EMap (EFunc [(hx "76616c")] (EList [(EStr (hx "626172")); (EStr (hx "c3a9"))])) (EList []))]) (EInt (3)%Z)); (EBin DOT (ETuple [((hx "76616c"), (EMap (EFunc [(hx "6c7374")] (EList [(EStr (hx "712271")); (EStr (hx "c3a9"))])) (EList [(EFloat 4593671619917905920%Z); (EFloat 4652218415073722368%Z)]))); ((hx "6f74686572"), (EInt (17)%Z))]) (ESym (hx "76616c")))]) (EInt (2)%Z))); SLet (hx "7932") (EGroup (ETrace (ESym (hx "6b"))))] = [ISym (hx "6b"); IVal (LStr (hx "3438")); ICast CInt; IRender; IVal (LStr (hx "")); IAdd; IInitList; ISym (hx "62"); IElement; IFunc 2; IDeRef (hx "62"); IReturn; IVal (LStr (hx "782079")); IVal (LStr (hx "7475706c65")); IAdd; IRuntime HMap; ICast CStr; IAdd; IBind; ISym (hx "63"); IInitList; ISym (hx "6e"); IElement; ISym (hx "76616c"); IElement; IFunc 8; IInitList; IVal (LFloat 4602678819172646912%Z); IElement; IVal (LFloat 4636737291354636288%Z); IElement; IVal (LFloat 4598175219545276416%Z); IElement; IReturn; IBind; ISym (hx "61"); IInitTuple; ISym (hx "79"); IInitList; ISym (hx "6d"); IElement; ISym (hx "666f6f"); IElement; IFunc 10; IInitTuple; ISym (hx "62"); IDeRef (hx "6d"); IField; ISym (hx "6f74686572"); IVal (LInt (9223372036854775807)%Z); IField; IVal (LStr (hx "62")); IIndex; IReturn; IInitTuple; ISym (hx "71756f746564206669656c64"); IVal (LInt (8)%Z); IField; ISym (hx "686f7374"); IVal (LInt (3)%Z); IVal (LInt (10)%Z); IMul; IField; IVal (LInt (1)%Z); IVal (LInt (10)%Z); IEqual; INot; ISym (hx "74727565"); ISelectJump 13; IInitList; ISym (hx "6e616d65"); IElement; IFunc 2; IDeRef (hx "6b"); IReturn; IInitList; IVal (LInt (2)%Z); IElement; IVal (LInt (10)%Z); IElement; IRuntime HMap; IJump 9; IPop; IInitList; ISym (hx "76616c"); IElement; IFunc 2; IVal (LBool true); IReturn; IInitList; IRuntime HFilter; IRuntime HReduce; IField; ISym (hx "706f7274"); IInitList; IVal (LStr (hx "782079")); IElement; IInitList; IVal (LStr (hx "c3a9")); IElement; IDeRef (hx "6b"); IElement; IDeRef (hx "6b"); IElement; IVal (LInt (0)%Z); IIndex; IElement; IInitList; IInitList; IDeRef (hx "6b"); IElement; IVal (LStr (hx "31")); IElement; IElement; IVal (LInt (0)%Z); IIndex; IAdd; IField; IBind; ISym (hx "74"); IInitList; ISym (hx "636667"); IElement; IFunc 2; IVal (LBool false); IReturn; IInitList; ISym (hx "6d"); IElement; IFunc 5; IVal (LStr (hx "6d6f64756c65")); IVal (LFloat 4598175219545276416%Z); ITyp; IEqual; IReturn; IDeRef (hx "6b"); IRuntime HFilter; IRuntime HFilter; ISym (hx "782079"); ISelectJump 3; IVal (LInt (82)%Z); ICast CFloat; IJump 23; ISym (hx "c3a9"); ISelectJump 10; IVal (LFloat 4636737291354636288%Z); IVal (LFloat 4652218415073722368%Z); IDiv; IVal (LFloat 4609434218613702656%Z); IVal (LFloat 4652218415073722368%Z); IDiv; ISub; IVal (LFloat 4619567317775286272%Z); ISub; IJump 11; IPop; IInitTuple; ISym (hx "76616c"); IVal (LInt (43)%Z); ICast CFloat; IField; ISym (hx "6f74686572"); IVal (LInt (8)%Z); IField; IVal (LStr (hx "76616c")); IIndex; IBind; ISym (hx "64"); IInitList; IInitList; IVal (LInt (2)%Z); INot; IElement; IInitList; IInitList; IInitList; IElement; IInitList; IVal (LStr (hx "7475706c65")); IElement; IElement; IAdd; IElement; IInitList; ISym (hx "76616c"); IElement; IFunc 6; IInitList; IVal (LStr (hx "626172")); IElement; IVal (LStr (hx "c3a9")); IElement; IReturn; IInitList; IRuntime HMap; IElement; IVal (LInt (3)%Z); IIndex; IElement; IInitTuple; ISym (hx "76616c"); IInitList; ISym (hx "6c7374"); IElement; IFunc 6; IInitList; IVal (LStr (hx "712271")); IElement; IVal (LStr (hx "c3a9")); IElement; IReturn; IInitList; IVal (LFloat 4593671619917905920%Z); IElement; IVal (LFloat 4652218415073722368%Z); IElement; IRuntime HMap; IField; ISym (hx "6f74686572"); IVal (LInt (17)%Z); IField; IVal (LStr (hx "76616c")); IIndex; IElement; IVal (LInt (2)%Z); IIndex; IInitList; ISym (hx "626172"); IElement; IFunc 22; IInitList; IDeRef (hx "6b"); IElement; IDeRef (hx "6b"); IElement; IVal (LStr (hx "61")); ISym (hx "c3a9"); ISelectJump 2; IVal (LStr (hx "e697a5e69cac")); IJump 10; ISym (hx "666f6f"); ISelectJump 2; IDeRef (hx "6b"); IJump 6; ISym (hx "61"); ISelectJump 2; IDeRef (hx "6b"); IJump 2; IPop; IVal (LStr (hx "6c696e6520627265616b")); IElement; IReturn; IInitList; ISym (hx "62"); IElement; IFunc 2; IVal (LInt (20)%Z); IReturn; IInitList; IRuntime HMap; IInitList; ISym (hx "616363"); IElement; IFunc 2; IVal (LInt (8)%Z); IReturn; IInitList; IVal (LInt (42)%Z); IElement; IVal (LInt (13)%Z); IElement; IRuntime HMap; IAdd; IRuntime HMap; IAdd; IBind; ISym (hx "7932"); IVal (LStr trace_text); IDeRef (hx "6b"); IRuntime HTrace; IBind].
Proof. reflexivity. Qed.
(* let t = [map(func (d) => `x y`, ((` @` % (true)) + `q\`q`)), `\\@@\\@@ \\@ ` % (7 != 3, [100.0 > 1.5, 4 is `list`] . 2), `b\\s` + (`\\\\@a@a@!` % ([0], select (`foo`, {a = 13}) => {foo = {a = 19}}, reduce(func (n, k) => n, 3, [1.5, 3.75])))] . 1; let tpl = t; let b = {host = (TRACE {inner = (true)})}; let lst = {b = (TRACE (select (false, 10) => {`true` = 17}) < 3), other = 14} . b; let acc = {a = select (lst) => {`true` = {`quoted field` = {c = `é`}}, `false` = [{`quoted field` = {c = `x y`}}, [{`quoted field` = {c = `1`}}, {`quoted field` = {c = `tuple`}}, {`quoted field` = {c = `line break`}}] . 2, {`quoted field` = {c = `line break`}}] . 1}, other = 13} . a; let val = (`<@{item}é@{item}>@{item + 1}` % {w = [9, select (`a`) => {bar = 1, foo = 2, a = 100}, undefined_fn(8)] . 2} . w) + (`v=@{item . name}\\@@{item . name}` % {a = select (lst, 5) => {`true` = 3}, name = t});  *)
Example tr_gen_9 : translate [SLet (hx "74") (EBin DOT (EList [(EMap (EFunc [(hx "64")] (EStr (hx "782079"))) (EGroup (EBin Add (EGroup (EFormatL [PStr (hx "20"); PHole] [(EBool true)])) (EStr (hx "712271"))))); (EFormatL [PStr (hx "40"); PHole; PStr (hx "40"); PHole; PStr (hx "204020")] [(EBin NotEqual (EInt (7)%Z) (EInt (3)%Z)); (EBin DOT (EList [(EBin GT (EFloat 4636737291354636288%Z) (EFloat 4609434218613702656%Z)); (EBin IS (EInt (4)%Z) (EStr (hx "6c697374")))]) (EInt (2)%Z))]); (EBin Add (EStr (hx "625c73")) (EGroup (EFormatL [PStr (hx "5c"); PHole; PStr (hx "61"); PHole; PStr (hx "61"); PHole; PStr (hx "21")] [(EList [(EInt (0)%Z)]); (ESelect (EStr (hx "666f6f")) (Some (ETuple [((hx "61"), (EInt (13)%Z))])) [((hx "666f6f"), (ETuple [((hx "61"), (EInt (19)%Z))]))]); (EReduce (EFunc [(hx "6e"); (hx "6b")] (ESym (hx "6e"))) (EInt (3)%Z) (EList [(EFloat 4609434218613702656%Z); (EFloat 4615626668101337088%Z)]))])))]) (EInt (1)%Z)); SLet (hx "74706c") (ESym (hx "74")); SLet (hx "62") (ETuple [((hx "686f7374"), (EGroup (ETrace (ETuple [((hx "696e6e6572"), (EGroup (EBool true)))]))))]); SLet (hx "6c7374") (EBin DOT (ETuple [((hx "62"), (EGroup (ETrace (EBin LT (EGroup (ESelect (EBool false) (Some (EInt (10)%Z)) [((hx "74727565"), (EInt (17)%Z))])) (EInt (3)%Z))))); ((hx "6f74686572"), (EInt (14)%Z))]) (ESym (hx "62"))); SLet (hx "616363") (EBin DOT (ETuple [((hx "61"), (ESelect (ESym (hx "6c7374")) None [((hx "74727565"), (ETuple [((hx "71756f746564206669656c64"), (ETuple [((hx "63"), (EStr (hx "c3a9")))]))])); ((hx "66616c7365"), (EBin DOT (EList [(ETuple [((hx "71756f746564206669656c64"), (ETuple [((hx "63"), (EStr (hx "782079")))]))]); (EBin DOT (EList [(ETuple [((hx "71756f746564206669656c64"), (ETuple [((hx "63"), (EStr (hx "31")))]))]); (ETuple [((hx "71756f746564206669656c64"), (ETuple [((hx "63"), (EStr (hx "7475706c65")))]))]); (ETuple [((hx "71756f746564206669656c64"), (ETuple [((hx "63"), (EStr (hx "6c696e6520627265616b")))]))])]) (EInt (2)%Z)); (ETuple [((hx "71756f746564206669656c64"), (ETuple [((hx "63"), (EStr (hx "6c696e6520627265616b")))]))])]) (EInt (1)%Z)))])); ((hx "6f74686572"), (EInt (13)%Z))]) (ESym (hx "61"))); SLet (hx "76616c") (EBin Add (EGroup (EFormatS [PStr (hx "3c"); PExpr (ESym (hx "6974656d")); PStr (hx "c3a9"); PExpr (ESym (hx "6974656d")); PStr (hx "3e"); PExpr (EBin Add (ESym (hx "6974656d")) (EInt (1)%Z))] (EBin DOT (ETuple [((hx "77"), (EBin DOT (EList [(EInt (9)%Z); (ESelect (EStr (hx "61")) None [((hx "626172"), (EInt (1)%Z)); ((hx "666f6f"), (EInt (2)%Z)); ((hx "61"), (EInt (100)%Z))]); (ECall (ESym (hx "756e646566696e65645f666e")) [(EInt (8)%Z)])]) (EInt (2)%Z)))]) (ESym (hx "77"))))) (EGroup (EFormatS [PStr (hx "763d"); PExpr (EBin DOT (ESym (hx "6974656d")) (ESym (hx "6e616d65"))); PStr (hx "40"); PExpr (EBin DOT (ESym (hx "6974656d")) (ESym (hx "6e616d65")))] (ETuple [((hx "61"), (ESelect (ESym (hx "6c7374")) (Some (EInt (5)%Z)) [((hx "74727565"), (EInt (3)%Z))])); ((hx "6e616d65"), (ESym (hx "74")))]))))] = [ISym (hx "74"); IInitList; IInitList; ISym (hx "64"); IElement; IFunc 2; IVal (LStr (hx "782079")); IReturn; IVal (LStr (hx "712271")); IVal (LBool true); IRender; IVal (LStr (hx "20")); IAdd; IAdd; IRuntime HMap; IElement; IVal (LStr (hx "204020")); IInitList; IVal (LFloat 4609434218613702656%Z); IVal (LFloat 4636737291354636288%Z); IGt; IElement; IVal (LStr (hx "6c697374")); IVal (LInt (4)%Z); ITyp; IEqual; IElement; IVal (LInt (2)%Z); IIndex; IRender; IAdd; IVal (LStr (hx "40")); IAdd; IVal (LInt (3)%Z); IVal (LInt (7)%Z); IEqual; INot; IRender; IAdd; IVal (LStr (hx "40")); IAdd; IElement; IVal (LStr (hx "21")); IInitList; ISym (hx "6e"); IElement; ISym (hx "6b"); IElement; IFunc 2; IDeRef (hx "6e"); IReturn; IVal (LInt (3)%Z); IInitList; IVal (LFloat 4609434218613702656%Z); IElement; IVal (LFloat 4615626668101337088%Z); IElement; IRuntime HReduce; IRender; IAdd; IVal (LStr (hx "61")); IAdd; IVal (LStr (hx "666f6f")); ISym (hx "666f6f"); ISelectJump 5; IInitTuple; ISym (hx "61"); IVal (LInt (19)%Z); IField; IJump 5; IPop; IInitTuple; ISym (hx "61"); IVal (LInt (13)%Z); IField; IRender; IAdd; IVal (LStr (hx "61")); IAdd; IInitList; IVal (LInt (0)%Z); IElement; IRender; IAdd; IVal (LStr (hx "5c")); IAdd; IVal (LStr (hx "625c73")); IAdd; IElement; IVal (LInt (1)%Z); IIndex; IBind; ISym (hx "74706c"); IDeRef (hx "74"); IBind; ISym (hx "62"); IInitTuple; ISym (hx "686f7374"); IVal (LStr trace_text); IInitTuple; ISym (hx "696e6e6572"); IVal (LBool true); IField; IRuntime HTrace; IField; IBind; ISym (hx "6c7374"); IInitTuple; ISym (hx "62"); IVal (LStr trace_text); IVal (LInt (3)%Z); IVal (LBool false); ISym (hx "74727565"); ISelectJump 2; IVal (LInt (17)%Z); IJump 2; IPop; IVal (LInt (10)%Z); ILt; IRuntime HTrace; IField; ISym (hx "6f74686572"); IVal (LInt (14)%Z); IField; IVal (LStr (hx "62")); IIndex; IBind; ISym (hx "616363"); IInitTuple; ISym (hx "61"); IDeRef (hx "6c7374"); ISym (hx "74727565"); ISelectJump 8; IInitTuple; ISym (hx "71756f746564206669656c64"); IInitTuple; ISym (hx "63"); IVal (LStr (hx "c3a9")); IField; IField; IJump 53; ISym (hx "66616c7365"); ISelectJump 48; IInitList; IInitTuple; ISym (hx "71756f746564206669656c64"); IInitTuple; ISym (hx "63"); IVal (LStr (hx "782079")); IField; IField; IElement; IInitList; IInitTuple; ISym (hx "71756f746564206669656c64"); IInitTuple; ISym (hx "63"); IVal (LStr (hx "31")); IField; IField; IElement; IInitTuple; ISym (hx "71756f746564206669656c64"); IInitTuple; ISym (hx "63"); IVal (LStr (hx "7475706c65")); IField; IField; IElement; IInitTuple; ISym (hx "71756f746564206669656c64"); IInitTuple; ISym (hx "63"); IVal (LStr (hx "6c696e6520627265616b")); IField; IField; IElement; IVal (LInt (2)%Z); IIndex; IElement; IInitTuple; ISym (hx "71756f746564206669656c64"); IInitTuple; ISym (hx "63"); IVal (LStr (hx "6c696e6520627265616b")); IField; IField; IElement; IVal (LInt (1)%Z); IIndex; IJump 3; IPop; IVal (LStr (hx "556e68616e646c65642073656c65637420636173652077697468206e6f2064656661756c74")); IBang; IField; ISym (hx "6f74686572"); IVal (LInt (13)%Z); IField; IVal (LStr (hx "61")); IIndex; IBind; ISym (hx "76616c"); INewScope 29; ISym (hx "6974656d"); IInitTuple; ISym (hx "61"); IDeRef (hx "6c7374"); ISym (hx "74727565"); ISelectJump 2; IVal (LInt (3)%Z); IJump 2; IPop; IVal (LInt (5)%Z); IField; ISym (hx "6e616d65"); IDeRef (hx "74"); IField; IBindOver; IDeRef (hx "6974656d"); IVal (LStr (hx "6e616d65")); IIndex; IRender; IVal (LStr (hx "40")); IAdd; IDeRef (hx "6974656d"); IVal (LStr (hx "6e616d65")); IIndex; IRender; IAdd; IVal (LStr (hx "763d")); IAdd; IReturn; INewScope 51; ISym (hx "6974656d"); IInitTuple; ISym (hx "77"); IInitList; IVal (LInt (9)%Z); IElement; IVal (LStr (hx "61")); ISym (hx "626172"); ISelectJump 2; IVal (LInt (1)%Z); IJump 11; ISym (hx "666f6f"); ISelectJump 2; IVal (LInt (2)%Z); IJump 7; ISym (hx "61"); ISelectJump 2; IVal (LInt (100)%Z); IJump 3; IPop; IVal (LStr (hx "556e68616e646c65642073656c65637420636173652077697468206e6f2064656661756c74")); IBang; IElement; IVal (LInt (8)%Z); IVal (LInt (1)%Z); IDeRef (hx "756e646566696e65645f666e"); IFCall; IElement; IVal (LInt (2)%Z); IIndex; IField; IVal (LStr (hx "77")); IIndex; IBindOver; IVal (LInt (1)%Z); IDeRef (hx "6974656d"); IAdd; IRender; IVal (LStr (hx "3e")); IAdd; IDeRef (hx "6974656d"); IRender; IAdd; IVal (LStr (hx "c3a9")); IAdd; IDeRef (hx "6974656d"); IRender; IAdd; IVal (LStr (hx "3c")); IAdd; IReturn; IAdd; IBind].
Proof. reflexivity. Qed.
(* {host = 2 - 10 + 8 * 10, port = select (`nokey`) => {a = 14}, c = reduce(func (c, foo) => 1, 15, ``) + reduce(func (y2, data, t) => y2, 19, {f1 = `@`, f2 = `bar`})}; let it = {host = map(func (val) => select (`foo`, (`é`)) => {foo = map(func (b) => b, `foo`)}, (([0, 2]) + ([11] + [17]))), host = map(func (k) => `true` + (select (k, `日本`) => {`true` = `@`, `false` = `日本`}), (map(func (v) => v, [false]) + []))}; let foo = [(`@{item}@{item}\\@@{item}` % {w = `@{item}é@{item}` % `q\`q`} . w) + {val = `x y`, other = 9} . val]; let x1 = func (data, name) => name; let t = 2 / 7; let tpl = map(func (val) => str(`tuple` in `日本`), ((select (`é`, [1]) => {bar = [18, 0], foo = []}) + (4:2:0)));  *)
Example tr_gen_10 : translate [SExpr (ETuple [((hx "686f7374"), (EBin Add (EBin Sub (EInt (2)%Z) (EInt (10)%Z)) (EBin Mul (EInt (8)%Z) (EInt (10)%Z)))); ((hx "706f7274"), (ESelect (EStr (hx "6e6f6b6579")) None [((hx "61"), (EInt (14)%Z))])); ((hx "63"), (EBin Add (EReduce (EFunc [(hx "63"); (hx "666f6f")] (EInt (1)%Z)) (EInt (15)%Z) (EStr (hx ""))) (EReduce (EFunc [(hx "7932"); (hx "64617461"); (hx "74")] (ESym (hx "7932"))) (EInt (19)%Z) (ETuple [((hx "6631"), (EStr (hx "40"))); ((hx "6632"), (EStr (hx "626172")))]))))]); SLet (hx "6974") (ETuple [((hx "686f7374"), (EMap (EFunc [(hx "76616c")] (ESelect (EStr (hx "666f6f")) (Some (EGroup (EStr (hx "c3a9")))) [((hx "666f6f"), (EMap (EFunc [(hx "62")] (ESym (hx "62"))) (EStr (hx "666f6f"))))])) (EGroup (EBin Add (EGroup (EList [(EInt (0)%Z); (EInt (2)%Z)])) (EGroup (EBin Add (EList [(EInt (11)%Z)]) (EList [(EInt (17)%Z)]))))))); ((hx "686f7374"), (EMap (EFunc [(hx "6b")] (EBin Add (EStr (hx "74727565")) (EGroup (ESelect (ESym (hx "6b")) (Some (EStr (hx "e697a5e69cac"))) [((hx "74727565"), (EStr (hx "40"))); ((hx "66616c7365"), (EStr (hx "e697a5e69cac")))])))) (EGroup (EBin Add (EMap (EFunc [(hx "76")] (ESym (hx "76"))) (EList [(EBool false)])) (EList [])))))]); SLet (hx "666f6f") (EList [(EBin Add (EGroup (EFormatS [PStr (hx ""); PExpr (ESym (hx "6974656d")); PStr (hx ""); PExpr (ESym (hx "6974656d")); PStr (hx "40"); PExpr (ESym (hx "6974656d"))] (EBin DOT (ETuple [((hx "77"), (EFormatS [PStr (hx ""); PExpr (ESym (hx "6974656d")); PStr (hx "c3a9"); PExpr (ESym (hx "6974656d"))] (EStr (hx "712271"))))]) (ESym (hx "77"))))) (EBin DOT (ETuple [((hx "76616c"), (EStr (hx "782079"))); ((hx "6f74686572"), (EInt (9)%Z))]) (ESym (hx "76616c"))))]); SLet (hx "7831") (EFunc [(hx "64617461"); (hx "6e616d65")] (ESym (hx "6e616d65"))); SLet (hx "74") (EBin Div (EInt (2)%Z) (EInt (7)%Z)); SLet (hx "74706c") (EMap (EFunc [(hx "76616c")] (ECast CStr (EBin IN (EStr (hx "7475706c65")) (EStr (hx "e697a5e69cac"))))) (EGroup (EBin Add (EGroup (ESelect (EStr (hx "c3a9")) (Some (EList [(EInt (1)%Z)])) [((hx "626172"), (EList [(EInt (18)%Z); (EInt (0)%Z)])); ((hx "666f6f"), (EList []))])) (EGroup (ERange (EInt (4)%Z) (Some (EInt (2)%Z)) (EInt (0)%Z))))))] = [IInitTuple; ISym (hx "686f7374"); IVal (LInt (10)%Z); IVal (LInt (8)%Z); IMul; IVal (LInt (10)%Z); IVal (LInt (2)%Z); ISub; IAdd; IField; ISym (hx "706f7274"); IVal (LStr (hx "6e6f6b6579")); ISym (hx "61"); ISelectJump 2; IVal (LInt (14)%Z); IJump 3; IPop; IVal (LStr (hx "556e68616e646c65642073656c65637420636173652077697468206e6f2064656661756c74")); IBang; IField; ISym (hx "63"); IInitList; ISym (hx "7932"); IElement; ISym (hx "64617461"); IElement; ISym (hx "74"); IElement; IFunc 2; IDeRef (hx "7932"); IReturn; IVal (LInt (19)%Z); IInitTuple; ISym (hx "6631"); IVal (LStr (hx "40")); IField; ISym (hx "6632"); IVal (LStr (hx "626172")); IField; IRuntime HReduce; IInitList; ISym (hx "63"); IElement; ISym (hx "666f6f"); IElement; IFunc 2; IVal (LInt (1)%Z); IReturn; IVal (LInt (15)%Z); IVal (LStr (hx "")); IRuntime HReduce; IAdd; IField; IPop; ISym (hx "6974"); IInitTuple; ISym (hx "686f7374"); IInitList; ISym (hx "76616c"); IElement; IFunc 15; IVal (LStr (hx "666f6f")); ISym (hx "666f6f"); ISelectJump 9; IInitList; ISym (hx "62"); IElement; IFunc 2; IDeRef (hx "62"); IReturn; IVal (LStr (hx "666f6f")); IRuntime HMap; IJump 2; IPop; IVal (LStr (hx "c3a9")); IReturn; IInitList; IVal (LInt (17)%Z); IElement; IInitList; IVal (LInt (11)%Z); IElement; IAdd; IInitList; IVal (LInt (0)%Z); IElement; IVal (LInt (2)%Z); IElement; IAdd; IRuntime HMap; IField; ISym (hx "686f7374"); IInitList; ISym (hx "6b"); IElement; IFunc 14; IDeRef (hx "6b"); ISym (hx "74727565"); ISelectJump 2; IVal (LStr (hx "40")); IJump 6; ISym (hx "66616c7365"); ISelectJump 2; IVal (LStr (hx "e697a5e69cac")); IJump 2; IPop; IVal (LStr (hx "e697a5e69cac")); IVal (LStr (hx "74727565")); IAdd; IReturn; IInitList; IInitList; ISym (hx "76"); IElement; IFunc 2; IDeRef (hx "76"); IReturn; IInitList; IVal (LBool false); IElement; IRuntime HMap; IAdd; IRuntime HMap; IField; IBind; ISym (hx "666f6f"); IInitList; IInitTuple; ISym (hx "76616c"); IVal (LStr (hx "782079")); IField; ISym (hx "6f74686572"); IVal (LInt (9)%Z); IField; IVal (LStr (hx "76616c")); IIndex; INewScope 36; ISym (hx "6974656d"); IInitTuple; ISym (hx "77"); INewScope 13; ISym (hx "6974656d"); IVal (LStr (hx "712271")); IBindOver; IDeRef (hx "6974656d"); IRender; IVal (LStr (hx "c3a9")); IAdd; IDeRef (hx "6974656d"); IRender; IAdd; IVal (LStr (hx "")); IAdd; IReturn; IField; IVal (LStr (hx "77")); IIndex; IBindOver; IDeRef (hx "6974656d"); IRender; IVal (LStr (hx "40")); IAdd; IDeRef (hx "6974656d"); IRender; IAdd; IVal (LStr (hx "")); IAdd; IDeRef (hx "6974656d"); IRender; IAdd; IVal (LStr (hx "")); IAdd; IReturn; IAdd; IElement; IBind; ISym (hx "7831"); IInitList; ISym (hx "64617461"); IElement; ISym (hx "6e616d65"); IElement; IFunc 2; IDeRef (hx "6e616d65"); IReturn; IBind; ISym (hx "74"); IVal (LInt (7)%Z); IVal (LInt (2)%Z); IDiv; IBind; ISym (hx "74706c"); IInitList; ISym (hx "76616c"); IElement; IFunc 5; IVal (LStr (hx "e697a5e69cac")); IVal (LStr (hx "7475706c65")); IExist; ICast CStr; IReturn; IVal (LInt (0)%Z); IVal (LInt (2)%Z); IVal (LInt (4)%Z); IRuntime HRange; IVal (LStr (hx "c3a9")); ISym (hx "626172"); ISelectJump 6; IInitList; IVal (LInt (18)%Z); IElement; IVal (LInt (0)%Z); IElement; IJump 8; ISym (hx "666f6f"); ISelectJump 2; IInitList; IJump 4; IPop; IInitList; IVal (LInt (1)%Z); IElement; IAdd; IRuntime HMap; IBind].
Proof. reflexivity. Qed.
(* let x1 = {val = [not (2.0 != 2.0), false, (select (`foo`, `foo`) => {`é` = `bar`, foo = `true`, bar = `line break`}) is `list`] . 3, other = 42} . val; let n = ((2) + (10) + (20 + 19 - (11 - 15))); let v = n; let it = ((TRACE {inner = float(2.0)})); let lst = `a`; let y2 = 11 / 3;  *)
Example tr_gen_11 : translate [SLet (hx "7831") (EBin DOT (ETuple [((hx "76616c"), (EBin DOT (EList [(ENot (EGroup (EBin NotEqual (EFloat 4611686018427387904%Z) (EFloat 4611686018427387904%Z)))); (EBool false); (EBin IS (EGroup (ESelect (EStr (hx "666f6f")) (Some (EStr (hx "666f6f"))) [((hx "c3a9"), (EStr (hx "626172"))); ((hx "666f6f"), (EStr (hx "74727565"))); ((hx "626172"), (EStr (hx "6c696e6520627265616b")))])) (EStr (hx "6c697374")))]) (EInt (3)%Z))); ((hx "6f74686572"), (EInt (42)%Z))]) (ESym (hx "76616c"))); SLet (hx "6e") (EGroup (EBin Add (EBin Add (EGroup (EInt (2)%Z)) (EGroup (EInt (10)%Z))) (EGroup (EBin Sub (EBin Add (EInt (20)%Z) (EInt (19)%Z)) (EGroup (EBin Sub (EInt (11)%Z) (EInt (15)%Z))))))); SLet (hx "76") (ESym (hx "6e")); SLet (hx "6974") (EGroup (EGroup (ETrace (ETuple [((hx "696e6e6572"), (ECast CFloat (EFloat 4611686018427387904%Z)))])))); SLet (hx "6c7374") (EStr (hx "61")); SLet (hx "7932") (EBin Div (EInt (11)%Z) (EInt (3)%Z))] = [ISym (hx "7831"); IInitTuple; ISym (hx "76616c"); IInitList; IVal (LFloat 4611686018427387904%Z); IVal (LFloat 4611686018427387904%Z); IEqual; INot; INot; IElement; IVal (LBool false); IElement; IVal (LStr (hx "6c697374")); IVal (LStr (hx "666f6f")); ISym (hx "c3a9"); ISelectJump 2; IVal (LStr (hx "626172")); IJump 10; ISym (hx "666f6f"); ISelectJump 2; IVal (LStr (hx "74727565")); IJump 6; ISym (hx "626172"); ISelectJump 2; IVal (LStr (hx "6c696e6520627265616b")); IJump 2; IPop; IVal (LStr (hx "666f6f")); ITyp; IEqual; IElement; IVal (LInt (3)%Z); IIndex; IField; ISym (hx "6f74686572"); IVal (LInt (42)%Z); IField; IVal (LStr (hx "76616c")); IIndex; IBind; ISym (hx "6e"); IVal (LInt (15)%Z); IVal (LInt (11)%Z); ISub; IVal (LInt (19)%Z); IVal (LInt (20)%Z); IAdd; ISub; IVal (LInt (10)%Z); IVal (LInt (2)%Z); IAdd; IAdd; IBind; ISym (hx "76"); IDeRef (hx "6e"); IBind; ISym (hx "6974"); IVal (LStr trace_text); IInitTuple; ISym (hx "696e6e6572"); IVal (LFloat 4611686018427387904%Z); ICast CFloat; IField; IRuntime HTrace; IBind; ISym (hx "6c7374"); IVal (LStr (hx "61")); IBind; ISym (hx "7932"); IVal (LInt (3)%Z); IVal (LInt (11)%Z); IDiv; IBind].
Proof. reflexivity. Qed.
(* let a = `é @end` % (false); let lst = {c = {a = reduce(func (b, bar, foo) => `\\@@a@` % (4611686018427387904, {a = 0}), a, {f1 = a, f2 = a, f1 = `foo`}), other = 7} . a, host = 3}; let n = select (`a`, 0.25 * (1.5 / 0.125)) => {a = [2.0, float(78), 0.25 + 1024.0 - 0.0] . 0, `é` = reduce(func (t, cfg) => t, float(74), (TRACE map(func (data) => data, [`q\`q`]))), foo = 1.5 * (float(3.75) + (1.5 - 0.25))}; let c = int(`12x`) * 0 * ((reduce(func (t, y2, d) => 0, 1, {f1 = `a`, f2 = `@`}) - [9223372036854775806, 3] . 1) %% 6); let m = {a = c, x = (lst . host):3, name = {host = int(`37`), y = [n, n - n] . 1}}; let v = (select (a, 14) => {`é` = 9223372036854775807, `x y` = 5}) - [c, int(`12`), c] . 0;  *)
Example tr_gen_12 : translate [SLet (hx "61") (EFormatL [PStr (hx "c3a920"); PHole; PStr (hx "656e64")] [(EBool false)]); SLet (hx "6c7374") (ETuple [((hx "63"), (EBin DOT (ETuple [((hx "61"), (EReduce (EFunc [(hx "62"); (hx "626172"); (hx "666f6f")] (EFormatL [PStr (hx "40"); PHole; PStr (hx "61"); PHole] [(EInt (4611686018427387904)%Z); (ETuple [((hx "61"), (EInt (0)%Z))])])) (ESym (hx "61")) (ETuple [((hx "6631"), (ESym (hx "61"))); ((hx "6632"), (ESym (hx "61"))); ((hx "6631"), (EStr (hx "666f6f")))]))); ((hx "6f74686572"), (EInt (7)%Z))]) (ESym (hx "61")))); ((hx "686f7374"), (EInt (3)%Z))]); SLet (hx "6e") (ESelect (EStr (hx "61")) (Some (EBin Mul (EFloat 4598175219545276416%Z) (EGroup (EBin Div (EFloat 4609434218613702656%Z) (EFloat 4593671619917905920%Z))))) [((hx "61"), (EBin DOT (EList [(EFloat 4611686018427387904%Z); (ECast CFloat (EInt (78)%Z)); (EBin Sub (EBin Add (EFloat 4598175219545276416%Z) (EFloat 4652218415073722368%Z)) (EFloat 0%Z))]) (EInt (0)%Z))); ((hx "c3a9"), (EReduce (EFunc [(hx "74"); (hx "636667")] (ESym (hx "74"))) (ECast CFloat (EInt (74)%Z)) (EGroup (ETrace (EMap (EFunc [(hx "64617461")] (ESym (hx "64617461"))) (EList [(EStr (hx "712271"))])))))); ((hx "666f6f"), (EBin Mul (EFloat 4609434218613702656%Z) (EGroup (EBin Add (ECast CFloat (EFloat 4615626668101337088%Z)) (EGroup (EBin Sub (EFloat 4609434218613702656%Z) (EFloat 4598175219545276416%Z)))))))]); SLet (hx "63") (EBin Mul (EBin Mul (ECast CInt (EStr (hx "313278"))) (EInt (0)%Z)) (EGroup (EBin Mod (EGroup (EBin Sub (EReduce (EFunc [(hx "74"); (hx "7932"); (hx "64")] (EInt (0)%Z)) (EInt (1)%Z) (ETuple [((hx "6631"), (EStr (hx "61"))); ((hx "6632"), (EStr (hx "40")))])) (EBin DOT (EList [(EInt (9223372036854775806)%Z); (EInt (3)%Z)]) (EInt (1)%Z)))) (EInt (6)%Z)))); SLet (hx "6d") (ETuple [((hx "61"), (ESym (hx "63"))); ((hx "78"), (ERange (EGroup (EBin DOT (ESym (hx "6c7374")) (ESym (hx "686f7374")))) None (EInt (3)%Z))); ((hx "6e616d65"), (ETuple [((hx "686f7374"), (ECast CInt (EStr (hx "3337")))); ((hx "79"), (EBin DOT (EList [(ESym (hx "6e")); (EBin Sub (ESym (hx "6e")) (ESym (hx "6e")))]) (EInt (1)%Z)))]))]); SLet (hx "76") (EBin Sub (EGroup (ESelect (ESym (hx "61")) (Some (EInt (14)%Z)) [((hx "c3a9"), (EInt (9223372036854775807)%Z)); ((hx "782079"), (EInt (5)%Z))])) (EBin DOT (EList [(ESym (hx "63")); (ECast CInt (EStr (hx "3132"))); (ESym (hx "63"))]) (EInt (0)%Z)))] = [ISym (hx "61"); IVal (LStr (hx "656e64")); IVal (LBool false); IRender; IAdd; IVal (LStr (hx "c3a920")); IAdd; IBind; ISym (hx "6c7374"); IInitTuple; ISym (hx "63"); IInitTuple; ISym (hx "61"); IInitList; ISym (hx "62"); IElement; ISym (hx "626172"); IElement; ISym (hx "666f6f"); IElement; IFunc 13; IInitTuple; ISym (hx "61"); IVal (LInt (0)%Z); IField; IRender; IVal (LStr (hx "61")); IAdd; IVal (LInt (4611686018427387904)%Z); IRender; IAdd; IVal (LStr (hx "40")); IAdd; IReturn; IDeRef (hx "61"); IInitTuple; ISym (hx "6631"); IDeRef (hx "61"); IField; ISym (hx "6632"); IDeRef (hx "61"); IField; ISym (hx "6631"); IVal (LStr (hx "666f6f")); IField; IRuntime HReduce; IField; ISym (hx "6f74686572"); IVal (LInt (7)%Z); IField; IVal (LStr (hx "61")); IIndex; IField; ISym (hx "686f7374"); IVal (LInt (3)%Z); IField; IBind; ISym (hx "6e"); IVal (LStr (hx "61")); ISym (hx "61"); ISelectJump 15; IInitList; IVal (LFloat 4611686018427387904%Z); IElement; IVal (LInt (78)%Z); ICast CFloat; IElement; IVal (LFloat 0%Z); IVal (LFloat 4652218415073722368%Z); IVal (LFloat 4598175219545276416%Z); IAdd; ISub; IElement; IVal (LInt (0)%Z); IIndex; IJump 43; ISym (hx "c3a9"); ISelectJump 24; IInitList; ISym (hx "74"); IElement; ISym (hx "636667"); IElement; IFunc 2; IDeRef (hx "74"); IReturn; IVal (LInt (74)%Z); ICast CFloat; IVal (LStr trace_text); IInitList; ISym (hx "64617461"); IElement; IFunc 2; IDeRef (hx "64617461"); IReturn; IInitList; IVal (LStr (hx "712271")); IElement; IRuntime HMap; IRuntime HTrace; IRuntime HReduce; IJump 17; ISym (hx "666f6f"); ISelectJump 9; IVal (LFloat 4598175219545276416%Z); IVal (LFloat 4609434218613702656%Z); ISub; IVal (LFloat 4615626668101337088%Z); ICast CFloat; IAdd; IVal (LFloat 4609434218613702656%Z); IMul; IJump 6; IPop; IVal (LFloat 4593671619917905920%Z); IVal (LFloat 4609434218613702656%Z); IDiv; IVal (LFloat 4598175219545276416%Z); IMul; IBind; ISym (hx "63"); IVal (LInt (6)%Z); IInitList; IVal (LInt (9223372036854775806)%Z); IElement; IVal (LInt (3)%Z); IElement; IVal (LInt (1)%Z); IIndex; IInitList; ISym (hx "74"); IElement; ISym (hx "7932"); IElement; ISym (hx "64"); IElement; IFunc 2; IVal (LInt (0)%Z); IReturn; IVal (LInt (1)%Z); IInitTuple; ISym (hx "6631"); IVal (LStr (hx "61")); IField; ISym (hx "6632"); IVal (LStr (hx "40")); IField; IRuntime HReduce; ISub; IMod; IVal (LInt (0)%Z); IVal (LStr (hx "313278")); ICast CInt; IMul; IMul; IBind; ISym (hx "6d"); IInitTuple; ISym (hx "61"); IDeRef (hx "63"); IField; ISym (hx "78"); IVal (LInt (3)%Z); IVal LEmpty; IDeRef (hx "6c7374"); IVal (LStr (hx "686f7374")); IIndex; IRuntime HRange; IField; ISym (hx "6e616d65"); IInitTuple; ISym (hx "686f7374"); IVal (LStr (hx "3337")); ICast CInt; IField; ISym (hx "79"); IInitList; IDeRef (hx "6e"); IElement; IDeRef (hx "6e"); IDeRef (hx "6e"); ISub; IElement; IVal (LInt (1)%Z); IIndex; IField; IField; IBind; ISym (hx "76"); IInitList; IDeRef (hx "63"); IElement; IVal (LStr (hx "3132")); ICast CInt; IElement; IDeRef (hx "63"); IElement; IVal (LInt (0)%Z); IIndex; IDeRef (hx "61"); ISym (hx "c3a9"); ISelectJump 2; IVal (LInt (9223372036854775807)%Z); IJump 6; ISym (hx "782079"); ISelectJump 2; IVal (LInt (5)%Z); IJump 2; IPop; IVal (LInt (14)%Z); ISub; IBind].
Proof. reflexivity. Qed.
(* let foo = reduce(func (it, val) => select (0.25 <= 7.0) => {`true` = 3.75 + 7.0, `false` = [2.0] . 0}, float(6) + (select (`b\\s` + `true`, {a = 0.25, other = 16} . a) => {bar = 0.0 / 3.75}), [100.0 - 2.0]); let m = select (`zzz`, map(func (name) => select (`@`, {name = false, `é` = 2}) => {bar = {name = true, `é` = 19}}, ({a = [foo], other = 19} . a))) => {foo = map(func (it) => reduce(func (tpl, acc) => {name = true, `é` = 0}, {name = false, `é` = 4}, []), ({b = [20, 0], other = 42} . b)) + map(func (d) => select (`é`, {name = true, `é` = 17}) => {`é` = {name = true, `é` = 17}, a = {name = false, `é` = 3}}, filter(func (v) => v, [false, true]))}; let c = [map(func (a) => str(reduce(func (b, c) => b, true, [13, 100])), select (false == false) => {`true` = [7, 10], `false` = [5, 18, 9223372036854775806]})] . 0; let y2 = (select ({a = true, other = 9} . a && bool(`yes`), (select (`@`, 14) => {`é` = 12}) * (9 / 9)) => {`true` = 7, `false` = 12}) / 6; let name = [map(func (name) => `name` in {a = 2, name = ``}, map(func (it) => foo * foo, (c + c))), [(TRACE {val = true, other = 7} . val), {val = `1`} != {val = `line break`}], select (`x y`, [3 == y2, (true), `q\`q` in c]) => {foo = {b = {val = [true], other = 10} . val, other = 15} . b, `x y` = [], bar = filter(func (d) => NULL, ([false, false] + [true]))}]; let cfg = c . 0;  *)
Example tr_gen_13 : translate [SLet (hx "666f6f") (EReduce (EFunc [(hx "6974"); (hx "76616c")] (ESelect (EBin LTEqual (EFloat 4598175219545276416%Z) (EFloat 4619567317775286272%Z)) None [((hx "74727565"), (EBin Add (EFloat 4615626668101337088%Z) (EFloat 4619567317775286272%Z))); ((hx "66616c7365"), (EBin DOT (EList [(EFloat 4611686018427387904%Z)]) (EInt (0)%Z)))])) (EBin Add (ECast CFloat (EInt (6)%Z)) (EGroup (ESelect (EBin Add (EStr (hx "625c73")) (EStr (hx "74727565"))) (Some (EBin DOT (ETuple [((hx "61"), (EFloat 4598175219545276416%Z)); ((hx "6f74686572"), (EInt (16)%Z))]) (ESym (hx "61")))) [((hx "626172"), (EBin Div (EFloat 0%Z) (EFloat 4615626668101337088%Z)))]))) (EList [(EBin Sub (EFloat 4636737291354636288%Z) (EFloat 4611686018427387904%Z))])); SLet (hx "6d") (ESelect (EStr (hx "7a7a7a")) (Some (EMap (EFunc [(hx "6e616d65")] (ESelect (EStr (hx "40")) (Some (ETuple [((hx "6e616d65"), (EBool false)); ((hx "c3a9"), (EInt (2)%Z))])) [((hx "626172"), (ETuple [((hx "6e616d65"), (EBool true)); ((hx "c3a9"), (EInt (19)%Z))]))])) (EGroup (EBin DOT (ETuple [((hx "61"), (EList [(ESym (hx "666f6f"))])); ((hx "6f74686572"), (EInt (19)%Z))]) (ESym (hx "61")))))) [((hx "666f6f"), (EBin Add (EMap (EFunc [(hx "6974")] (EReduce (EFunc [(hx "74706c"); (hx "616363")] (ETuple [((hx "6e616d65"), (EBool true)); ((hx "c3a9"), (EInt (0)%Z))])) (ETuple [((hx "6e616d65"), (EBool false)); ((hx "c3a9"), (EInt (4)%Z))]) (EList []))) (EGroup (EBin DOT (ETuple [((hx "62"), (EList [(EInt (20)%Z); (EInt (0)%Z)])); ((hx "6f74686572"), (EInt (42)%Z))]) (ESym (hx "62"))))) (EMap (EFunc [(hx "64")] (ESelect (EStr (hx "c3a9")) (Some (ETuple [((hx "6e616d65"), (EBool true)); ((hx "c3a9"), (EInt (17)%Z))])) [((hx "c3a9"), (ETuple [((hx "6e616d65"), (EBool true)); ((hx "c3a9"), (EInt (17)%Z))])); ((hx "61"), (ETuple [((hx "6e616d65"), (EBool false)); ((hx "c3a9"), (EInt (3)%Z))]))])) (EFilter (EFunc [(hx "76")] (ESym (hx "76"))) (EList [(EBool false); (EBool true)])))))]); SLet (hx "63") (EBin DOT (EList [(EMap (EFunc [(hx "61")] (ECast CStr (EReduce (EFunc [(hx "62"); (hx "63")] (ESym (hx "62"))) (EBool true) (EList [(EInt (13)%Z); (EInt (100)%Z)])))) (ESelect (EBin Equal (EBool false) (EBool false)) None [((hx "74727565"), (EList [(EInt (7)%Z); (EInt (10)%Z)])); ((hx "66616c7365"), (EList [(EInt (5)%Z); (EInt (18)%Z); (EInt (9223372036854775806)%Z)]))]))]) (EInt (0)%Z)); SLet (hx "7932") (EBin Div (EGroup (ESelect (EBin AND (EBin DOT (ETuple [((hx "61"), (EBool true)); ((hx "6f74686572"), (EInt (9)%Z))]) (ESym (hx "61"))) (ECast CBool (EStr (hx "796573")))) (Some (EBin Mul (EGroup (ESelect (EStr (hx "40")) (Some (EInt (14)%Z)) [((hx "c3a9"), (EInt (12)%Z))])) (EGroup (EBin Div (EInt (9)%Z) (EInt (9)%Z))))) [((hx "74727565"), (EInt (7)%Z)); ((hx "66616c7365"), (EInt (12)%Z))])) (EInt (6)%Z)); SLet (hx "6e616d65") (EList [(EMap (EFunc [(hx "6e616d65")] (EBin IN (EStr (hx "6e616d65")) (ETuple [((hx "61"), (EInt (2)%Z)); ((hx "6e616d65"), (EStr (hx "")))]))) (EMap (EFunc [(hx "6974")] (EBin Mul (ESym (hx "666f6f")) (ESym (hx "666f6f")))) (EGroup (EBin Add (ESym (hx "63")) (ESym (hx "63")))))); (EList [(EGroup (ETrace (EBin DOT (ETuple [((hx "76616c"), (EBool true)); ((hx "6f74686572"), (EInt (7)%Z))]) (ESym (hx "76616c"))))); (EBin NotEqual (ETuple [((hx "76616c"), (EStr (hx "31")))]) (ETuple [((hx "76616c"), (EStr (hx "6c696e6520627265616b")))]))]); (ESelect (EStr (hx "782079")) (Some (EList [(EBin Equal (EInt (3)%Z) (ESym (hx "7932"))); (EGroup (EBool true)); (EBin IN (EStr (hx "712271")) (ESym (hx "63")))])) [((hx "666f6f"), (EBin DOT (ETuple [((hx "62"), (EBin DOT (ETuple [((hx "76616c"), (EList [(EBool true)])); ((hx "6f74686572"), (EInt (10)%Z))]) (ESym (hx "76616c")))); ((hx "6f74686572"), (EInt (15)%Z))]) (ESym (hx "62")))); ((hx "782079"), (EList [])); ((hx "626172"), (EFilter (EFunc [(hx "64")] ENull) (EGroup (EBin Add (EList [(EBool false); (EBool false)]) (EList [(EBool true)])))))])]); SLet (hx "636667") (EBin DOT (ESym (hx "63")) (EInt (0)%Z))] = [ISym (hx "666f6f"); IInitList; ISym (hx "6974"); IElement; ISym (hx "76616c"); IElement; IFunc 21; IVal (LFloat 4619567317775286272%Z); IVal (LFloat 4598175219545276416%Z); ILtEq; ISym (hx "74727565"); ISelectJump 4; IVal (LFloat 4619567317775286272%Z); IVal (LFloat 4615626668101337088%Z); IAdd; IJump 11; ISym (hx "66616c7365"); ISelectJump 6; IInitList; IVal (LFloat 4611686018427387904%Z); IElement; IVal (LInt (0)%Z); IIndex; IJump 3; IPop; IVal (LStr (hx "556e68616e646c65642073656c65637420636173652077697468206e6f2064656661756c74")); IBang; IReturn; IVal (LStr (hx "74727565")); IVal (LStr (hx "625c73")); IAdd; ISym (hx "626172"); ISelectJump 4; IVal (LFloat 4615626668101337088%Z); IVal (LFloat 0%Z); IDiv; IJump 10; IPop; IInitTuple; ISym (hx "61"); IVal (LFloat 4598175219545276416%Z); IField; ISym (hx "6f74686572"); IVal (LInt (16)%Z); IField; IVal (LStr (hx "61")); IIndex; IVal (LInt (6)%Z); ICast CFloat; IAdd; IInitList; IVal (LFloat 4611686018427387904%Z); IVal (LFloat 4636737291354636288%Z); ISub; IElement; IRuntime HReduce; IBind; ISym (hx "6d"); IVal (LStr (hx "7a7a7a")); ISym (hx "666f6f"); ISelectJump 91; IInitList; ISym (hx "64"); IElement; IFunc 30; IVal (LStr (hx "c3a9")); ISym (hx "c3a9"); ISelectJump 8; IInitTuple; ISym (hx "6e616d65"); IVal (LBool true); IField; ISym (hx "c3a9"); IVal (LInt (17)%Z); IField; IJump 18; ISym (hx "61"); ISelectJump 8; IInitTuple; ISym (hx "6e616d65"); IVal (LBool false); IField; ISym (hx "c3a9"); IVal (LInt (3)%Z); IField; IJump 8; IPop; IInitTuple; ISym (hx "6e616d65"); IVal (LBool true); IField; ISym (hx "c3a9"); IVal (LInt (17)%Z); IField; IReturn; IInitList; ISym (hx "76"); IElement; IFunc 2; IDeRef (hx "76"); IReturn; IInitList; IVal (LBool false); IElement; IVal (LBool true); IElement; IRuntime HFilter; IRuntime HMap; IInitList; ISym (hx "6974"); IElement; IFunc 24; IInitList; ISym (hx "74706c"); IElement; ISym (hx "616363"); IElement; IFunc 8; IInitTuple; ISym (hx "6e616d65"); IVal (LBool true); IField; ISym (hx "c3a9"); IVal (LInt (0)%Z); IField; IReturn; IInitTuple; ISym (hx "6e616d65"); IVal (LBool false); IField; ISym (hx "c3a9"); IVal (LInt (4)%Z); IField; IInitList; IRuntime HReduce; IReturn; IInitTuple; ISym (hx "62"); IInitList; IVal (LInt (20)%Z); IElement; IVal (LInt (0)%Z); IElement; IField; ISym (hx "6f74686572"); IVal (LInt (42)%Z); IField; IVal (LStr (hx "62")); IIndex; IRuntime HMap; IAdd; IJump 37; IPop; IInitList; ISym (hx "6e616d65"); IElement; IFunc 20; IVal (LStr (hx "40")); ISym (hx "626172"); ISelectJump 8; IInitTuple; ISym (hx "6e616d65"); IVal (LBool true); IField; ISym (hx "c3a9"); IVal (LInt (19)%Z); IField; IJump 8; IPop; IInitTuple; ISym (hx "6e616d65"); IVal (LBool false); IField; ISym (hx "c3a9"); IVal (LInt (2)%Z); IField; IReturn; IInitTuple; ISym (hx "61"); IInitList; IDeRef (hx "666f6f"); IElement; IField; ISym (hx "6f74686572"); IVal (LInt (19)%Z); IField; IVal (LStr (hx "61")); IIndex; IRuntime HMap; IBind; ISym (hx "63"); IInitList; IInitList; ISym (hx "61"); IElement; IFunc 17; IInitList; ISym (hx "62"); IElement; ISym (hx "63"); IElement; IFunc 2; IDeRef (hx "62"); IReturn; IVal (LBool true); IInitList; IVal (LInt (13)%Z); IElement; IVal (LInt (100)%Z); IElement; IRuntime HReduce; ICast CStr; IReturn; IVal (LBool false); IVal (LBool false); IEqual; ISym (hx "74727565"); ISelectJump 6; IInitList; IVal (LInt (7)%Z); IElement; IVal (LInt (10)%Z); IElement; IJump 13; ISym (hx "66616c7365"); ISelectJump 8; IInitList; IVal (LInt (5)%Z); IElement; IVal (LInt (18)%Z); IElement; IVal (LInt (9223372036854775806)%Z); IElement; IJump 3; IPop; IVal (LStr (hx "556e68616e646c65642073656c65637420636173652077697468206e6f2064656661756c74")); IBang; IRuntime HMap; IElement; IVal (LInt (0)%Z); IIndex; IBind; ISym (hx "7932"); IVal (LInt (6)%Z); IInitTuple; ISym (hx "61"); IVal (LBool true); IField; ISym (hx "6f74686572"); IVal (LInt (9)%Z); IField; IVal (LStr (hx "61")); IIndex; IAnd 2; IVal (LStr (hx "796573")); ICast CBool; ISym (hx "74727565"); ISelectJump 2; IVal (LInt (7)%Z); IJump 16; ISym (hx "66616c7365"); ISelectJump 2; IVal (LInt (12)%Z); IJump 12; IPop; IVal (LInt (9)%Z); IVal (LInt (9)%Z); IDiv; IVal (LStr (hx "40")); ISym (hx "c3a9"); ISelectJump 2; IVal (LInt (12)%Z); IJump 2; IPop; IVal (LInt (14)%Z); IMul; IDiv; IBind; ISym (hx "6e616d65"); IInitList; IInitList; ISym (hx "6e616d65"); IElement; IFunc 10; IInitTuple; ISym (hx "61"); IVal (LInt (2)%Z); IField; ISym (hx "6e616d65"); IVal (LStr (hx "")); IField; IVal (LStr (hx "6e616d65")); IExist; IReturn; IInitList; ISym (hx "6974"); IElement; IFunc 4; IDeRef (hx "666f6f"); IDeRef (hx "666f6f"); IMul; IReturn; IDeRef (hx "63"); IDeRef (hx "63"); IAdd; IRuntime HMap; IRuntime HMap; IElement; IInitList; IVal (LStr trace_text); IInitTuple; ISym (hx "76616c"); IVal (LBool true); IField; ISym (hx "6f74686572"); IVal (LInt (7)%Z); IField; IVal (LStr (hx "76616c")); IIndex; IRuntime HTrace; IElement; IInitTuple; ISym (hx "76616c"); IVal (LStr (hx "6c696e6520627265616b")); IField; IInitTuple; ISym (hx "76616c"); IVal (LStr (hx "31")); IField; IEqual; INot; IElement; IElement; IVal (LStr (hx "782079")); ISym (hx "666f6f"); ISelectJump 20; IInitTuple; ISym (hx "62"); IInitTuple; ISym (hx "76616c"); IInitList; IVal (LBool true); IElement; IField; ISym (hx "6f74686572"); IVal (LInt (10)%Z); IField; IVal (LStr (hx "76616c")); IIndex; IField; ISym (hx "6f74686572"); IVal (LInt (15)%Z); IField; IVal (LStr (hx "62")); IIndex; IJump 35; ISym (hx "782079"); ISelectJump 2; IInitList; IJump 31; ISym (hx "626172"); ISelectJump 17; IInitList; ISym (hx "64"); IElement; IFunc 2; IVal LEmpty; IReturn; IInitList; IVal (LBool true); IElement; IInitList; IVal (LBool false); IElement; IVal (LBool false); IElement; IAdd; IRuntime HFilter; IJump 12; IPop; IInitList; IDeRef (hx "7932"); IVal (LInt (3)%Z); IEqual; IElement; IVal (LBool true); IElement; IDeRef (hx "63"); IVal (LStr (hx "712271")); IExist; IElement; IElement; IBind; ISym (hx "636667"); IDeRef (hx "63"); IVal (LInt (0)%Z); IIndex; IBind].
Proof. reflexivity. Qed.
(* let y2 = map(func (x1) => select (select (true, x1) => {`true` = false, `false` = x1}) => {`true` = map(func (name) => `日本`, [16]), `false` = reduce(func (m, c) => m, [], [true])}, ((TRACE [false, true, false]) + ([[false, false], [true, false]] . 0))); let n = func (t, b) => select (({c = `tuple`, y = 10} == {c = `tuple`, y = 16}) || ({port = 11} != {port = 16})) => {`true` = select ({val = true, other = 9223372036854775807} . val, reduce(func (acc, val) => acc, true, `bar`)) => {`true` = 0.0 is `bool`}, `false` = {x = 2, k1 = `q\`q`, val = `tuple`} != {x = t, k1 = ``, val = `a`}}; let k = 1024.0; let m = module {q = 3, cnt = 0.25, host = 2} => ({b = b}) { let t = `<@{item}\\@@{item}<@{item}` % `tuple`; let n = undefined_name; let b = 5 / 1; }; let t = {b = float(21), other = 10} . b; let lst = str([4 / 4, 19 - 10] . 2) + (9223372036854775807 + (select (`x y`, 18 / 2) => {`x y` = (10), bar = (4)}));  *)
Example tr_gen_14 : translate [SLet (hx "7932") (EMap (EFunc [(hx "7831")] (ESelect (ESelect (EBool true) (Some (ESym (hx "7831"))) [((hx "74727565"), (EBool false)); ((hx "66616c7365"), (ESym (hx "7831")))]) None [((hx "74727565"), (EMap (EFunc [(hx "6e616d65")] (EStr (hx "e697a5e69cac"))) (EList [(EInt (16)%Z)]))); ((hx "66616c7365"), (EReduce (EFunc [(hx "6d"); (hx "63")] (ESym (hx "6d"))) (EList []) (EList [(EBool true)])))])) (EGroup (EBin Add (EGroup (ETrace (EList [(EBool false); (EBool true); (EBool false)]))) (EGroup (EBin DOT (EList [(EList [(EBool false); (EBool false)]); (EList [(EBool true); (EBool false)])]) (EInt (0)%Z)))))); SLet (hx "6e") (EFunc [(hx "74"); (hx "62")] (ESelect (EBin OR (EGroup (EBin Equal (ETuple [((hx "63"), (EStr (hx "7475706c65"))); ((hx "79"), (EInt (10)%Z))]) (ETuple [((hx "63"), (EStr (hx "7475706c65"))); ((hx "79"), (EInt (16)%Z))]))) (EGroup (EBin NotEqual (ETuple [((hx "706f7274"), (EInt (11)%Z))]) (ETuple [((hx "706f7274"), (EInt (16)%Z))])))) None [((hx "74727565"), (ESelect (EBin DOT (ETuple [((hx "76616c"), (EBool true)); ((hx "6f74686572"), (EInt (9223372036854775807)%Z))]) (ESym (hx "76616c"))) (Some (EReduce (EFunc [(hx "616363"); (hx "76616c")] (ESym (hx "616363"))) (EBool true) (EStr (hx "626172")))) [((hx "74727565"), (EBin IS (EFloat 0%Z) (EStr (hx "626f6f6c"))))])); ((hx "66616c7365"), (EBin NotEqual (ETuple [((hx "78"), (EInt (2)%Z)); ((hx "6b31"), (EStr (hx "712271"))); ((hx "76616c"), (EStr (hx "7475706c65")))]) (ETuple [((hx "78"), (ESym (hx "74"))); ((hx "6b31"), (EStr (hx ""))); ((hx "76616c"), (EStr (hx "61")))])))])); SLet (hx "6b") (EFloat 4652218415073722368%Z); SLet (hx "6d") (EModule [((hx "71"), (EInt (3)%Z)); ((hx "636e74"), (EFloat 4598175219545276416%Z)); ((hx "686f7374"), (EInt (2)%Z))] (Some (ETuple [((hx "62"), (ESym (hx "62")))])) [SLet (hx "74") (EFormatS [PStr (hx "3c"); PExpr (ESym (hx "6974656d")); PStr (hx "40"); PExpr (ESym (hx "6974656d")); PStr (hx "3c"); PExpr (ESym (hx "6974656d"))] (EStr (hx "7475706c65"))); SLet (hx "6e") (ESym (hx "756e646566696e65645f6e616d65")); SLet (hx "62") (EBin Div (EInt (5)%Z) (EInt (1)%Z))]); SLet (hx "74") (EBin DOT (ETuple [((hx "62"), (ECast CFloat (EInt (21)%Z))); ((hx "6f74686572"), (EInt (10)%Z))]) (ESym (hx "62"))); SLet (hx "6c7374") (EBin Add (ECast CStr (EBin DOT (EList [(EBin Div (EInt (4)%Z) (EInt (4)%Z)); (EBin Sub (EInt (19)%Z) (EInt (10)%Z))]) (EInt (2)%Z))) (EGroup (EBin Add (EInt (9223372036854775807)%Z) (EGroup (ESelect (EStr (hx "782079")) (Some (EBin Div (EInt (18)%Z) (EInt (2)%Z))) [((hx "782079"), (EGroup (EInt (10)%Z))); ((hx "626172"), (EGroup (EInt (4)%Z)))])))))] = [ISym (hx "7932"); IInitList; ISym (hx "7831"); IElement; IFunc 44; IVal (LBool true); ISym (hx "74727565"); ISelectJump 2; IVal (LBool false); IJump 6; ISym (hx "66616c7365"); ISelectJump 2; IDeRef (hx "7831"); IJump 2; IPop; IDeRef (hx "7831"); ISym (hx "74727565"); ISelectJump 11; IInitList; ISym (hx "6e616d65"); IElement; IFunc 2; IVal (LStr (hx "e697a5e69cac")); IReturn; IInitList; IVal (LInt (16)%Z); IElement; IRuntime HMap; IJump 19; ISym (hx "66616c7365"); ISelectJump 14; IInitList; ISym (hx "6d"); IElement; ISym (hx "63"); IElement; IFunc 2; IDeRef (hx "6d"); IReturn; IInitList; IInitList; IVal (LBool true); IElement; IRuntime HReduce; IJump 3; IPop; IVal (LStr (hx "556e68616e646c65642073656c65637420636173652077697468206e6f2064656661756c74")); IBang; IReturn; IInitList; IInitList; IVal (LBool false); IElement; IVal (LBool false); IElement; IElement; IInitList; IVal (LBool true); IElement; IVal (LBool false); IElement; IElement; IVal (LInt (0)%Z); IIndex; IVal (LStr trace_text); IInitList; IVal (LBool false); IElement; IVal (LBool true); IElement; IVal (LBool false); IElement; IRuntime HTrace; IAdd; IRuntime HMap; IBind; ISym (hx "6e"); IInitList; ISym (hx "74"); IElement; ISym (hx "62"); IElement; IFunc 86; IInitTuple; ISym (hx "63"); IVal (LStr (hx "7475706c65")); IField; ISym (hx "79"); IVal (LInt (16)%Z); IField; IInitTuple; ISym (hx "63"); IVal (LStr (hx "7475706c65")); IField; ISym (hx "79"); IVal (LInt (10)%Z); IField; IEqual; IOr 10; IInitTuple; ISym (hx "706f7274"); IVal (LInt (16)%Z); IField; IInitTuple; ISym (hx "706f7274"); IVal (LInt (11)%Z); IField; IEqual; INot; ISym (hx "74727565"); ISelectJump 29; IInitTuple; ISym (hx "76616c"); IVal (LBool true); IField; ISym (hx "6f74686572"); IVal (LInt (9223372036854775807)%Z); IField; IVal (LStr (hx "76616c")); IIndex; ISym (hx "74727565"); ISelectJump 5; IVal (LStr (hx "626f6f6c")); IVal (LFloat 0%Z); ITyp; IEqual; IJump 12; IPop; IInitList; ISym (hx "616363"); IElement; ISym (hx "76616c"); IElement; IFunc 2; IDeRef (hx "616363"); IReturn; IVal (LBool true); IVal (LStr (hx "626172")); IRuntime HReduce; IJump 28; ISym (hx "66616c7365"); ISelectJump 23; IInitTuple; ISym (hx "78"); IDeRef (hx "74"); IField; ISym (hx "6b31"); IVal (LStr (hx "")); IField; ISym (hx "76616c"); IVal (LStr (hx "61")); IField; IInitTuple; ISym (hx "78"); IVal (LInt (2)%Z); IField; ISym (hx "6b31"); IVal (LStr (hx "712271")); IField; ISym (hx "76616c"); IVal (LStr (hx "7475706c65")); IField; IEqual; INot; IJump 3; IPop; IVal (LStr (hx "556e68616e646c65642073656c65637420636173652077697468206e6f2064656661756c74")); IBang; IReturn; IBind; ISym (hx "6b"); IVal (LFloat 4652218415073722368%Z); IBind; ISym (hx "6d"); IInitTuple; ISym (hx "71"); IVal (LInt (3)%Z); IField; ISym (hx "636e74"); IVal (LFloat 4598175219545276416%Z); IField; ISym (hx "686f7374"); IVal (LInt (2)%Z); IField; IInitThunk 5; IInitTuple; ISym (hx "62"); IDeRef (hx "62"); IField; IReturn; IModule 31; IBind; ISym (hx "74"); INewScope 18; ISym (hx "6974656d"); IVal (LStr (hx "7475706c65")); IBindOver; IDeRef (hx "6974656d"); IRender; IVal (LStr (hx "3c")); IAdd; IDeRef (hx "6974656d"); IRender; IAdd; IVal (LStr (hx "40")); IAdd; IDeRef (hx "6974656d"); IRender; IAdd; IVal (LStr (hx "3c")); IAdd; IReturn; IBind; ISym (hx "6e"); IDeRef (hx "756e646566696e65645f6e616d65"); IBind; ISym (hx "62"); IVal (LInt (1)%Z); IVal (LInt (5)%Z); IDiv; IBind; IReturn; IBind; ISym (hx "74"); IInitTuple; ISym (hx "62"); IVal (LInt (21)%Z); ICast CFloat; IField; ISym (hx "6f74686572"); IVal (LInt (10)%Z); IField; IVal (LStr (hx "62")); IIndex; IBind; ISym (hx "6c7374"); IVal (LStr (hx "782079")); ISym (hx "782079"); ISelectJump 2; IVal (LInt (10)%Z); IJump 8; ISym (hx "626172"); ISelectJump 2; IVal (LInt (4)%Z); IJump 4; IPop; IVal (LInt (2)%Z); IVal (LInt (18)%Z); IDiv; IVal (LInt (9223372036854775807)%Z); IAdd; IInitList; IVal (LInt (4)%Z); IVal (LInt (4)%Z); IDiv; IElement; IVal (LInt (10)%Z); IVal (LInt (19)%Z); ISub; IElement; IVal (LInt (2)%Z); IIndex; ICast CStr; IAdd; IBind].
Proof. reflexivity. Qed.
(* let x1 = not reduce(func (lst, d) => undefined_name, true && true || (select (`日本`, true) => {`é` = false, bar = true, a = false}), filter(func (t) => 4 >= 3, select (false) => {`true` = [7.0, 100.0], `false` = []})); {a = int(`8`), other = 9} . a; let data = module {port = true} => { let b = 2.0 * (1.5 / 1024.0); let a = `foo`; let foo = [10, 7] . 1 + 6; }; let m = {val = select (x1) => {`true` = 9, `false` = 9223372036854775806}, other = 9223372036854775806} . val / 6 / 9; let k = [{k1 = {b = 4611686018427387904, port = 2}, name = [3.75] . 0, x = {host = `@` + `foo`, x = 18 + m, `é` = `foo`}}] . 0; let v = `b\\s`;  *)
Example tr_gen_15 : translate [SLet (hx "7831") (ENot (EReduce (EFunc [(hx "6c7374"); (hx "64")] (ESym (hx "756e646566696e65645f6e616d65"))) (EBin OR (EBin AND (EBool true) (EBool true)) (EGroup (ESelect (EStr (hx "e697a5e69cac")) (Some (EBool true)) [((hx "c3a9"), (EBool false)); ((hx "626172"), (EBool true)); ((hx "61"), (EBool false))]))) (EFilter (EFunc [(hx "74")] (EBin GTEqual (EInt (4)%Z) (EInt (3)%Z))) (ESelect (EBool false) None [((hx "74727565"), (EList [(EFloat 4619567317775286272%Z); (EFloat 4636737291354636288%Z)])); ((hx "66616c7365"), (EList []))])))); SExpr (EBin DOT (ETuple [((hx "61"), (ECast CInt (EStr (hx "38")))); ((hx "6f74686572"), (EInt (9)%Z))]) (ESym (hx "61"))); SLet (hx "64617461") (EModule [((hx "706f7274"), (EBool true))] None [SLet (hx "62") (EBin Mul (EFloat 4611686018427387904%Z) (EGroup (EBin Div (EFloat 4609434218613702656%Z) (EFloat 4652218415073722368%Z)))); SLet (hx "61") (EStr (hx "666f6f")); SLet (hx "666f6f") (EBin Add (EBin DOT (EList [(EInt (10)%Z); (EInt (7)%Z)]) (EInt (1)%Z)) (EInt (6)%Z))]); SLet (hx "6d") (EBin Div (EBin Div (EBin DOT (ETuple [((hx "76616c"), (ESelect (ESym (hx "7831")) None [((hx "74727565"), (EInt (9)%Z)); ((hx "66616c7365"), (EInt (9223372036854775806)%Z))])); ((hx "6f74686572"), (EInt (9223372036854775806)%Z))]) (ESym (hx "76616c"))) (EInt (6)%Z)) (EInt (9)%Z)); SLet (hx "6b") (EBin DOT (EList [(ETuple [((hx "6b31"), (ETuple [((hx "62"), (EInt (4611686018427387904)%Z)); ((hx "706f7274"), (EInt (2)%Z))])); ((hx "6e616d65"), (EBin DOT (EList [(EFloat 4615626668101337088%Z)]) (EInt (0)%Z))); ((hx "78"), (ETuple [((hx "686f7374"), (EBin Add (EStr (hx "40")) (EStr (hx "666f6f")))); ((hx "78"), (EBin Add (EInt (18)%Z) (ESym (hx "6d")))); ((hx "c3a9"), (EStr (hx "666f6f")))]))])]) (EInt (0)%Z)); SLet (hx "76") (EStr (hx "625c73"))] = [ISym (hx "7831"); IInitList; ISym (hx "6c7374"); IElement; ISym (hx "64"); IElement; IFunc 2; IDeRef (hx "756e646566696e65645f6e616d65"); IReturn; IVal (LBool true); IAnd 1; IVal (LBool true); IOr 15; IVal (LStr (hx "e697a5e69cac")); ISym (hx "c3a9"); ISelectJump 2; IVal (LBool false); IJump 10; ISym (hx "626172"); ISelectJump 2; IVal (LBool true); IJump 6; ISym (hx "61"); ISelectJump 2; IVal (LBool false); IJump 2; IPop; IVal (LBool true); IInitList; ISym (hx "74"); IElement; IFunc 4; IVal (LInt (3)%Z); IVal (LInt (4)%Z); IGtEq; IReturn; IVal (LBool false); ISym (hx "74727565"); ISelectJump 6; IInitList; IVal (LFloat 4619567317775286272%Z); IElement; IVal (LFloat 4636737291354636288%Z); IElement; IJump 7; ISym (hx "66616c7365"); ISelectJump 2; IInitList; IJump 3; IPop; IVal (LStr (hx "556e68616e646c65642073656c65637420636173652077697468206e6f2064656661756c74")); IBang; IRuntime HFilter; IRuntime HReduce; INot; IBind; IInitTuple; ISym (hx "61"); IVal (LStr (hx "38")); ICast CInt; IField; ISym (hx "6f74686572"); IVal (LInt (9)%Z); IField; IVal (LStr (hx "61")); IIndex; IPop; ISym (hx "64617461"); IInitTuple; ISym (hx "706f7274"); IVal (LBool true); IField; IModule 23; IBind; ISym (hx "62"); IVal (LFloat 4652218415073722368%Z); IVal (LFloat 4609434218613702656%Z); IDiv; IVal (LFloat 4611686018427387904%Z); IMul; IBind; ISym (hx "61"); IVal (LStr (hx "666f6f")); IBind; ISym (hx "666f6f"); IVal (LInt (6)%Z); IInitList; IVal (LInt (10)%Z); IElement; IVal (LInt (7)%Z); IElement; IVal (LInt (1)%Z); IIndex; IAdd; IBind; IReturn; IBind; ISym (hx "6d"); IVal (LInt (9)%Z); IVal (LInt (6)%Z); IInitTuple; ISym (hx "76616c"); IDeRef (hx "7831"); ISym (hx "74727565"); ISelectJump 2; IVal (LInt (9)%Z); IJump 7; ISym (hx "66616c7365"); ISelectJump 2; IVal (LInt (9223372036854775806)%Z); IJump 3; IPop; IVal (LStr (hx "556e68616e646c65642073656c65637420636173652077697468206e6f2064656661756c74")); IBang; IField; ISym (hx "6f74686572"); IVal (LInt (9223372036854775806)%Z); IField; IVal (LStr (hx "76616c")); IIndex; IDiv; IDiv; IBind; ISym (hx "6b"); IInitList; IInitTuple; ISym (hx "6b31"); IInitTuple; ISym (hx "62"); IVal (LInt (4611686018427387904)%Z); IField; ISym (hx "706f7274"); IVal (LInt (2)%Z); IField; IField; ISym (hx "6e616d65"); IInitList; IVal (LFloat 4615626668101337088%Z); IElement; IVal (LInt (0)%Z); IIndex; IField; ISym (hx "78"); IInitTuple; ISym (hx "686f7374"); IVal (LStr (hx "666f6f")); IVal (LStr (hx "40")); IAdd; IField; ISym (hx "78"); IDeRef (hx "6d"); IVal (LInt (18)%Z); IAdd; IField; ISym (hx "c3a9"); IVal (LStr (hx "666f6f")); IField; IField; IElement; IVal (LInt (0)%Z); IIndex; IBind; ISym (hx "76"); IVal (LStr (hx "625c73")); IBind].
Proof. reflexivity. Qed.
(* let name = func (a, it, d) => 7.0; let v = filter(func (c) => not (false && true), undefined_name); let lst = filter(func (acc, m) => true, {port = select (`foo` == `日本`) => {`true` = `bar` in `1`, `false` = [false, true, true] . 2}}); let cfg = func (k, c) => {b = c, other = 18} . b; let cfg = 6; let k = filter(func (m) => select (reduce(func (t, x1) => true, true, [11]), [false, false] . 1) => {`true` = 2 > 7, `false` = bool(`false`)}, map(func (b) => [map(func (t) => t, `foo`), select (true, `tuple`) => {`true` = `bar`}], [float(7.0), 0.5 / 3.75, 3.75 + 100.0]));  *)
Example tr_gen_16 : translate [SLet (hx "6e616d65") (EFunc [(hx "61"); (hx "6974"); (hx "64")] (EFloat 4619567317775286272%Z)); SLet (hx "76") (EFilter (EFunc [(hx "63")] (ENot (EGroup (EBin AND (EBool false) (EBool true))))) (ESym (hx "756e646566696e65645f6e616d65"))); SLet (hx "6c7374") (EFilter (EFunc [(hx "616363"); (hx "6d")] (EBool true)) (ETuple [((hx "706f7274"), (ESelect (EBin Equal (EStr (hx "666f6f")) (EStr (hx "e697a5e69cac"))) None [((hx "74727565"), (EBin IN (EStr (hx "626172")) (EStr (hx "31")))); ((hx "66616c7365"), (EBin DOT (EList [(EBool false); (EBool true); (EBool true)]) (EInt (2)%Z)))]))])); SLet (hx "636667") (EFunc [(hx "6b"); (hx "63")] (EBin DOT (ETuple [((hx "62"), (ESym (hx "63"))); ((hx "6f74686572"), (EInt (18)%Z))]) (ESym (hx "62")))); SLet (hx "636667") (EInt (6)%Z); SLet (hx "6b") (EFilter (EFunc [(hx "6d")] (ESelect (EReduce (EFunc [(hx "74"); (hx "7831")] (EBool true)) (EBool true) (EList [(EInt (11)%Z)])) (Some (EBin DOT (EList [(EBool false); (EBool false)]) (EInt (1)%Z))) [((hx "74727565"), (EBin GT (EInt (2)%Z) (EInt (7)%Z))); ((hx "66616c7365"), (ECast CBool (EStr (hx "66616c7365"))))])) (EMap (EFunc [(hx "62")] (EList [(EMap (EFunc [(hx "74")] (ESym (hx "74"))) (EStr (hx "666f6f"))); (ESelect (EBool true) (Some (EStr (hx "7475706c65"))) [((hx "74727565"), (EStr (hx "626172")))])])) (EList [(ECast CFloat (EFloat 4619567317775286272%Z)); (EBin Div (EFloat 4602678819172646912%Z) (EFloat 4615626668101337088%Z)); (EBin Add (EFloat 4615626668101337088%Z) (EFloat 4636737291354636288%Z))])))] = [ISym (hx "6e616d65"); IInitList; ISym (hx "61"); IElement; ISym (hx "6974"); IElement; ISym (hx "64"); IElement; IFunc 2; IVal (LFloat 4619567317775286272%Z); IReturn; IBind; ISym (hx "76"); IInitList; ISym (hx "63"); IElement; IFunc 5; IVal (LBool false); IAnd 1; IVal (LBool true); INot; IReturn; IDeRef (hx "756e646566696e65645f6e616d65"); IRuntime HFilter; IBind; ISym (hx "6c7374"); IInitList; ISym (hx "616363"); IElement; ISym (hx "6d"); IElement; IFunc 2; IVal (LBool true); IReturn; IInitTuple; ISym (hx "706f7274"); IVal (LStr (hx "e697a5e69cac")); IVal (LStr (hx "666f6f")); IEqual; ISym (hx "74727565"); ISelectJump 4; IVal (LStr (hx "31")); IVal (LStr (hx "626172")); IExist; IJump 15; ISym (hx "66616c7365"); ISelectJump 10; IInitList; IVal (LBool false); IElement; IVal (LBool true); IElement; IVal (LBool true); IElement; IVal (LInt (2)%Z); IIndex; IJump 3; IPop; IVal (LStr (hx "556e68616e646c65642073656c65637420636173652077697468206e6f2064656661756c74")); IBang; IField; IRuntime HFilter; IBind; ISym (hx "636667"); IInitList; ISym (hx "6b"); IElement; ISym (hx "63"); IElement; IFunc 10; IInitTuple; ISym (hx "62"); IDeRef (hx "63"); IField; ISym (hx "6f74686572"); IVal (LInt (18)%Z); IField; IVal (LStr (hx "62")); IIndex; IReturn; IBind; ISym (hx "636667"); IVal (LInt (6)%Z); IBind; ISym (hx "6b"); IInitList; ISym (hx "6d"); IElement; IFunc 33; IInitList; ISym (hx "74"); IElement; ISym (hx "7831"); IElement; IFunc 2; IVal (LBool true); IReturn; IVal (LBool true); IInitList; IVal (LInt (11)%Z); IElement; IRuntime HReduce; ISym (hx "74727565"); ISelectJump 4; IVal (LInt (7)%Z); IVal (LInt (2)%Z); IGt; IJump 13; ISym (hx "66616c7365"); ISelectJump 3; IVal (LStr (hx "66616c7365")); ICast CBool; IJump 8; IPop; IInitList; IVal (LBool false); IElement; IVal (LBool false); IElement; IVal (LInt (1)%Z); IIndex; IReturn; IInitList; ISym (hx "62"); IElement; IFunc 19; IInitList; IInitList; ISym (hx "74"); IElement; IFunc 2; IDeRef (hx "74"); IReturn; IVal (LStr (hx "666f6f")); IRuntime HMap; IElement; IVal (LBool true); ISym (hx "74727565"); ISelectJump 2; IVal (LStr (hx "626172")); IJump 2; IPop; IVal (LStr (hx "7475706c65")); IElement; IReturn; IInitList; IVal (LFloat 4619567317775286272%Z); ICast CFloat; IElement; IVal (LFloat 4615626668101337088%Z); IVal (LFloat 4602678819172646912%Z); IDiv; IElement; IVal (LFloat 4636737291354636288%Z); IVal (LFloat 4615626668101337088%Z); IAdd; IElement; IRuntime HMap; IRuntime HFilter; IBind].
Proof. reflexivity. Qed.
(* let n = filter(func (cfg) => bool(`yes`) || (9223372036854775807 <= 16), `@`); let val = func (cfg, tpl, t) => {a = [1] + [5] is `null`, other = 7} . a; let tpl = {name = n, x = 7.0, y = 7 - int(16), name = map(func (tpl) => n, ``)}; let n = 1; let cfg = n; let a = 6;  *)
Example tr_gen_17 : translate [SLet (hx "6e") (EFilter (EFunc [(hx "636667")] (EBin OR (ECast CBool (EStr (hx "796573"))) (EGroup (EBin LTEqual (EInt (9223372036854775807)%Z) (EInt (16)%Z))))) (EStr (hx "40"))); SLet (hx "76616c") (EFunc [(hx "636667"); (hx "74706c"); (hx "74")] (EBin DOT (ETuple [((hx "61"), (EBin IS (EBin Add (EList [(EInt (1)%Z)]) (EList [(EInt (5)%Z)])) (EStr (hx "6e756c6c")))); ((hx "6f74686572"), (EInt (7)%Z))]) (ESym (hx "61")))); SLet (hx "74706c") (ETuple [((hx "6e616d65"), (ESym (hx "6e"))); ((hx "78"), (EFloat 4619567317775286272%Z)); ((hx "79"), (EBin Sub (EInt (7)%Z) (ECast CInt (EInt (16)%Z)))); ((hx "6e616d65"), (EMap (EFunc [(hx "74706c")] (ESym (hx "6e"))) (EStr (hx ""))))]); SLet (hx "6e") (EInt (1)%Z); SLet (hx "636667") (ESym (hx "6e")); SLet (hx "61") (EInt (6)%Z)] = [ISym (hx "6e"); IInitList; ISym (hx "636667"); IElement; IFunc 7; IVal (LStr (hx "796573")); ICast CBool; IOr 3; IVal (LInt (16)%Z); IVal (LInt (9223372036854775807)%Z); ILtEq; IReturn; IVal (LStr (hx "40")); IRuntime HFilter; IBind; ISym (hx "76616c"); IInitList; ISym (hx "636667"); IElement; ISym (hx "74706c"); IElement; ISym (hx "74"); IElement; IFunc 19; IInitTuple; ISym (hx "61"); IVal (LStr (hx "6e756c6c")); IInitList; IVal (LInt (5)%Z); IElement; IInitList; IVal (LInt (1)%Z); IElement; IAdd; ITyp; IEqual; IField; ISym (hx "6f74686572"); IVal (LInt (7)%Z); IField; IVal (LStr (hx "61")); IIndex; IReturn; IBind; ISym (hx "74706c"); IInitTuple; ISym (hx "6e616d65"); IDeRef (hx "6e"); IField; ISym (hx "78"); IVal (LFloat 4619567317775286272%Z); IField; ISym (hx "79"); IVal (LInt (16)%Z); ICast CInt; IVal (LInt (7)%Z); ISub; IField; ISym (hx "6e616d65"); IInitList; ISym (hx "74706c"); IElement; IFunc 2; IDeRef (hx "6e"); IReturn; IVal (LStr (hx "")); IRuntime HMap; IField; IBind; ISym (hx "6e"); IVal (LInt (1)%Z); IBind; ISym (hx "636667"); IDeRef (hx "6e"); IBind; ISym (hx "61"); IVal (LInt (6)%Z); IBind].
Proof. reflexivity. Qed.
(* 18 PARSE ERROR: let v = {a = 13, other = 18} . a; let acc = select (bool(`false`)) => {`true` = [] + [7, 12] + (select (false, [9, 4]) => {`true` = [18, 0]}) + ([v] + [1, v]), `false` = reduce(func (b, t) => 11, 12, []):2}; let c = [0.0 / 1024.0 / 1.5 / 100.0, 0.0 * (0.5 * (1.5 + 1.5)), 7.0] . 3; let n = {`quoted field` = {a = v}, inner = {`quoted field` = (`:@end` % ({a = 0})) + (`foo` + `x y`)}}; let k = (TRACE select (`bar`, float(c) < (select (false, c) => {`true` = 1024.0})) => {bar = c < float(41), `x y` = select (`é`) => {a = true == true}, foo = {a = false, other = 11} . a}); let lst = {b = [], val = `tuple` + (` @{item . name}` % {w = [{a = 15, name = `bar`}] . 0} . w), inner = {y = reduce(func (a, tpl) => `\\\\@é @a@` % (acc, true, true), select (`bar`, `true`) => {a = `q\`q`}, ([[], [false, false]] . 0)), k1 = not (true || k), `é` = `@@` % ({a = v}, `q\`q` + `é`)}};  :: ParseError: Expected Expression to bind at line: 1 column: 45 Caused By: 	ParseError: Expected (}) but got (:) at line: 1 column: 204 *)
(* let n = [([[`@`, `foo`] + [`é`], {val = [`q\`q`], other = 7} . val] . 0), filter(func (a) => {a = true, other = 1} . a, map(func (a) => `1`, [0])) + filter(func (lst) => 7.0 >= 1.5, map(func (v) => `a`, [true, false])), map(func (y2) => map(func (d) => `v=@{item}\\@@{item}@{item}` % d, `line break`), [100])]; let y2 = (TRACE {a = 1.5 / 0.125, other = 2} . a) >= (0.0); let lst = func (it, data) => {`é` = (false) && (select (`é`, true) => {bar = y2, `x y` = y2, `é` = y2})}; let name = ((0.25) - {b = 0.25, other = 9223372036854775806} . b) * (2.0 - 1.5 / 2.0) - (7.0 - 0.0) / (0.25 * 7.0) / (select (bool(`yes`), 100.0 + 7.0) => {`true` = 0.5}); let m = select (int(`10`) is `tuple`, not 5) => {`true` = select (y2, [select (`true`, 5) => {`x y` = 8, `é` = 12, a = 19}] . 0) => {`true` = 2}}; let a = y2;  *)
Example tr_gen_19 : translate [SLet (hx "6e") (EList [(EGroup (EBin DOT (EList [(EBin Add (EList [(EStr (hx "40")); (EStr (hx "666f6f"))]) (EList [(EStr (hx "c3a9"))])); (EBin DOT (ETuple [((hx "76616c"), (EList [(EStr (hx "712271"))])); ((hx "6f74686572"), (EInt (7)%Z))]) (ESym (hx "76616c")))]) (EInt (0)%Z))); (EBin Add (EFilter (EFunc [(hx "61")] (EBin DOT (ETuple [((hx "61"), (EBool true)); ((hx "6f74686572"), (EInt (1)%Z))]) (ESym (hx "61")))) (EMap (EFunc [(hx "61")] (EStr (hx "31"))) (EList [(EInt (0)%Z)]))) (EFilter (EFunc [(hx "6c7374")] (EBin GTEqual (EFloat 4619567317775286272%Z) (EFloat 4609434218613702656%Z))) (EMap (EFunc [(hx "76")] (EStr (hx "61"))) (EList [(EBool true); (EBool false)])))); (EMap (EFunc [(hx "7932")] (EMap (EFunc [(hx "64")] (EFormatS [PStr (hx "763d"); PExpr (ESym (hx "6974656d")); PStr (hx "40"); PExpr (ESym (hx "6974656d")); PStr (hx ""); PExpr (ESym (hx "6974656d"))] (ESym (hx "64")))) (EStr (hx "6c696e6520627265616b")))) (EList [(EInt (100)%Z)]))]); SLet (hx "7932") (EBin GTEqual (EGroup (ETrace (EBin DOT (ETuple [((hx "61"), (EBin Div (EFloat 4609434218613702656%Z) (EFloat 4593671619917905920%Z))); ((hx "6f74686572"), (EInt (2)%Z))]) (ESym (hx "61"))))) (EGroup (EFloat 0%Z))); SLet (hx "6c7374") (EFunc [(hx "6974"); (hx "64617461")] (ETuple [((hx "c3a9"), (EBin AND (EGroup (EBool false)) (EGroup (ESelect (EStr (hx "c3a9")) (Some (EBool true)) [((hx "626172"), (ESym (hx "7932"))); ((hx "782079"), (ESym (hx "7932"))); ((hx "c3a9"), (ESym (hx "7932")))]))))])); SLet (hx "6e616d65") (EBin Sub (EBin Mul (EGroup (EBin Sub (EGroup (EFloat 4598175219545276416%Z)) (EBin DOT (ETuple [((hx "62"), (EFloat 4598175219545276416%Z)); ((hx "6f74686572"), (EInt (9223372036854775806)%Z))]) (ESym (hx "62"))))) (EGroup (EBin Sub (EFloat 4611686018427387904%Z) (EBin Div (EFloat 4609434218613702656%Z) (EFloat 4611686018427387904%Z))))) (EBin Div (EBin Div (EGroup (EBin Sub (EFloat 4619567317775286272%Z) (EFloat 0%Z))) (EGroup (EBin Mul (EFloat 4598175219545276416%Z) (EFloat 4619567317775286272%Z)))) (EGroup (ESelect (ECast CBool (EStr (hx "796573"))) (Some (EBin Add (EFloat 4636737291354636288%Z) (EFloat 4619567317775286272%Z))) [((hx "74727565"), (EFloat 4602678819172646912%Z))])))); SLet (hx "6d") (ESelect (EBin IS (ECast CInt (EStr (hx "3130"))) (EStr (hx "7475706c65"))) (Some (ENot (EInt (5)%Z))) [((hx "74727565"), (ESelect (ESym (hx "7932")) (Some (EBin DOT (EList [(ESelect (EStr (hx "74727565")) (Some (EInt (5)%Z)) [((hx "782079"), (EInt (8)%Z)); ((hx "c3a9"), (EInt (12)%Z)); ((hx "61"), (EInt (19)%Z))])]) (EInt (0)%Z))) [((hx "74727565"), (EInt (2)%Z))]))]); SLet (hx "61") (ESym (hx "7932"))] = [ISym (hx "6e"); IInitList; IInitList; IInitList; IVal (LStr (hx "c3a9")); IElement; IInitList; IVal (LStr (hx "40")); IElement; IVal (LStr (hx "666f6f")); IElement; IAdd; IElement; IInitTuple; ISym (hx "76616c"); IInitList; IVal (LStr (hx "712271")); IElement; IField; ISym (hx "6f74686572"); IVal (LInt (7)%Z); IField; IVal (LStr (hx "76616c")); IIndex; IElement; IVal (LInt (0)%Z); IIndex; IElement; IInitList; ISym (hx "6c7374"); IElement; IFunc 4; IVal (LFloat 4609434218613702656%Z); IVal (LFloat 4619567317775286272%Z); IGtEq; IReturn; IInitList; ISym (hx "76"); IElement; IFunc 2; IVal (LStr (hx "61")); IReturn; IInitList; IVal (LBool true); IElement; IVal (LBool false); IElement; IRuntime HMap; IRuntime HFilter; IInitList; ISym (hx "61"); IElement; IFunc 10; IInitTuple; ISym (hx "61"); IVal (LBool true); IField; ISym (hx "6f74686572"); IVal (LInt (1)%Z); IField; IVal (LStr (hx "61")); IIndex; IReturn; IInitList; ISym (hx "61"); IElement; IFunc 2; IVal (LStr (hx "31")); IReturn; IInitList; IVal (LInt (0)%Z); IElement; IRuntime HMap; IRuntime HFilter; IAdd; IElement; IInitList; ISym (hx "7932"); IElement; IFunc 27; IInitList; ISym (hx "64"); IElement; IFunc 20; INewScope 18; ISym (hx "6974656d"); IDeRef (hx "64"); IBindOver; IDeRef (hx "6974656d"); IRender; IVal (LStr (hx "")); IAdd; IDeRef (hx "6974656d"); IRender; IAdd; IVal (LStr (hx "40")); IAdd; IDeRef (hx "6974656d"); IRender; IAdd; IVal (LStr (hx "763d")); IAdd; IReturn; IReturn; IVal (LStr (hx "6c696e6520627265616b")); IRuntime HMap; IReturn; IInitList; IVal (LInt (100)%Z); IElement; IRuntime HMap; IElement; IBind; ISym (hx "7932"); IVal (LFloat 0%Z); IVal (LStr trace_text); IInitTuple; ISym (hx "61"); IVal (LFloat 4593671619917905920%Z); IVal (LFloat 4609434218613702656%Z); IDiv; IField; ISym (hx "6f74686572"); IVal (LInt (2)%Z); IField; IVal (LStr (hx "61")); IIndex; IRuntime HTrace; IGtEq; IBind; ISym (hx "6c7374"); IInitList; ISym (hx "6974"); IElement; ISym (hx "64617461"); IElement; IFunc 21; IInitTuple; ISym (hx "c3a9"); IVal (LBool false); IAnd 15; IVal (LStr (hx "c3a9")); ISym (hx "626172"); ISelectJump 2; IDeRef (hx "7932"); IJump 10; ISym (hx "782079"); ISelectJump 2; IDeRef (hx "7932"); IJump 6; ISym (hx "c3a9"); ISelectJump 2; IDeRef (hx "7932"); IJump 2; IPop; IVal (LBool true); IField; IReturn; IBind; ISym (hx "6e616d65"); IVal (LStr (hx "796573")); ICast CBool; ISym (hx "74727565"); ISelectJump 2; IVal (LFloat 4602678819172646912%Z); IJump 4; IPop; IVal (LFloat 4619567317775286272%Z); IVal (LFloat 4636737291354636288%Z); IAdd; IVal (LFloat 4619567317775286272%Z); IVal (LFloat 4598175219545276416%Z); IMul; IVal (LFloat 0%Z); IVal (LFloat 4619567317775286272%Z); ISub; IDiv; IDiv; IVal (LFloat 4611686018427387904%Z); IVal (LFloat 4609434218613702656%Z); IDiv; IVal (LFloat 4611686018427387904%Z); ISub; IInitTuple; ISym (hx "62"); IVal (LFloat 4598175219545276416%Z); IField; ISym (hx "6f74686572"); IVal (LInt (9223372036854775806)%Z); IField; IVal (LStr (hx "62")); IIndex; IVal (LFloat 4598175219545276416%Z); ISub; IMul; ISub; IBind; ISym (hx "6d"); IVal (LStr (hx "7475706c65")); IVal (LStr (hx "3130")); ICast CInt; ITyp; IEqual; ISym (hx "74727565"); ISelectJump 26; IDeRef (hx "7932"); ISym (hx "74727565"); ISelectJump 2; IVal (LInt (2)%Z); IJump 20; IPop; IInitList; IVal (LStr (hx "74727565")); ISym (hx "782079"); ISelectJump 2; IVal (LInt (8)%Z); IJump 10; ISym (hx "c3a9"); ISelectJump 2; IVal (LInt (12)%Z); IJump 6; ISym (hx "61"); ISelectJump 2; IVal (LInt (19)%Z); IJump 2; IPop; IVal (LInt (5)%Z); IElement; IVal (LInt (0)%Z); IIndex; IJump 3; IPop; IVal (LInt (5)%Z); INot; IBind; ISym (hx "61"); IDeRef (hx "7932"); IBind].
Proof. reflexivity. Qed.
(* let val = func () => (map(func (y2) => 3.75 - 1024.0, ({a = [15, 4611686018427387904], other = 3} . a))); let d = 1.5; let name = 2 * 3 - (select (select (`x y`, true) => {`x y` = true, foo = false, `é` = false}, 2) => {`true` = 3 - 9223372036854775807, `false` = 9223372036854775807}) < 17; let tpl = {k1 = reduce(func (y2, bar) => map(func (foo) => `tuple`, y2), filter(func (v) => true, []), filter(func (k) => name, [])) + [`q\`q` + `日本`, {a = `foo`, other = 7} . a], `quoted field` = name && ([[`é`], [`q\`q`, `b\\s`], [`a`]] . 0 == map(func (n) => n, [])), port = int(`-36`) - 7 / 2}; let a = filter(func (n) => name && true && (name || false), ((TRACE [`q\`q`] . 0) + {a = 3} . missing)); let c = [int(`16`)];  *)
Example tr_gen_20 : translate [SLet (hx "76616c") (EFunc [] (EGroup (EMap (EFunc [(hx "7932")] (EBin Sub (EFloat 4615626668101337088%Z) (EFloat 4652218415073722368%Z))) (EGroup (EBin DOT (ETuple [((hx "61"), (EList [(EInt (15)%Z); (EInt (4611686018427387904)%Z)])); ((hx "6f74686572"), (EInt (3)%Z))]) (ESym (hx "61"))))))); SLet (hx "64") (EFloat 4609434218613702656%Z); SLet (hx "6e616d65") (EBin LT (EBin Sub (EBin Mul (EInt (2)%Z) (EInt (3)%Z)) (EGroup (ESelect (ESelect (EStr (hx "782079")) (Some (EBool true)) [((hx "782079"), (EBool true)); ((hx "666f6f"), (EBool false)); ((hx "c3a9"), (EBool false))]) (Some (EInt (2)%Z)) [((hx "74727565"), (EBin Sub (EInt (3)%Z) (EInt (9223372036854775807)%Z))); ((hx "66616c7365"), (EInt (9223372036854775807)%Z))]))) (EInt (17)%Z)); SLet (hx "74706c") (ETuple [((hx "6b31"), (EBin Add (EReduce (EFunc [(hx "7932"); (hx "626172")] (EMap (EFunc [(hx "666f6f")] (EStr (hx "7475706c65"))) (ESym (hx "7932")))) (EFilter (EFunc [(hx "76")] (EBool true)) (EList [])) (EFilter (EFunc [(hx "6b")] (ESym (hx "6e616d65"))) (EList []))) (EList [(EBin Add (EStr (hx "712271")) (EStr (hx "e697a5e69cac"))); (EBin DOT (ETuple [((hx "61"), (EStr (hx "666f6f"))); ((hx "6f74686572"), (EInt (7)%Z))]) (ESym (hx "61")))]))); ((hx "71756f746564206669656c64"), (EBin AND (ESym (hx "6e616d65")) (EGroup (EBin Equal (EBin DOT (EList [(EList [(EStr (hx "c3a9"))]); (EList [(EStr (hx "712271")); (EStr (hx "625c73"))]); (EList [(EStr (hx "61"))])]) (EInt (0)%Z)) (EMap (EFunc [(hx "6e")] (ESym (hx "6e"))) (EList [])))))); ((hx "706f7274"), (EBin Sub (ECast CInt (EStr (hx "2d3336"))) (EBin Div (EInt (7)%Z) (EInt (2)%Z))))]); SLet (hx "61") (EFilter (EFunc [(hx "6e")] (EBin AND (EBin AND (ESym (hx "6e616d65")) (EBool true)) (EGroup (EBin OR (ESym (hx "6e616d65")) (EBool false))))) (EGroup (EBin Add (EGroup (ETrace (EBin DOT (EList [(EStr (hx "712271"))]) (EInt (0)%Z)))) (EBin DOT (ETuple [((hx "61"), (EInt (3)%Z))]) (ESym (hx "6d697373696e67")))))); SLet (hx "63") (EList [(ECast CInt (EStr (hx "3136")))])] = [ISym (hx "76616c"); IInitList; IFunc 23; IInitList; ISym (hx "7932"); IElement; IFunc 4; IVal (LFloat 4652218415073722368%Z); IVal (LFloat 4615626668101337088%Z); ISub; IReturn; IInitTuple; ISym (hx "61"); IInitList; IVal (LInt (15)%Z); IElement; IVal (LInt (4611686018427387904)%Z); IElement; IField; ISym (hx "6f74686572"); IVal (LInt (3)%Z); IField; IVal (LStr (hx "61")); IIndex; IRuntime HMap; IReturn; IBind; ISym (hx "64"); IVal (LFloat 4609434218613702656%Z); IBind; ISym (hx "6e616d65"); IVal (LInt (17)%Z); IVal (LStr (hx "782079")); ISym (hx "782079"); ISelectJump 2; IVal (LBool true); IJump 10; ISym (hx "666f6f"); ISelectJump 2; IVal (LBool false); IJump 6; ISym (hx "c3a9"); ISelectJump 2; IVal (LBool false); IJump 2; IPop; IVal (LBool true); ISym (hx "74727565"); ISelectJump 4; IVal (LInt (9223372036854775807)%Z); IVal (LInt (3)%Z); ISub; IJump 6; ISym (hx "66616c7365"); ISelectJump 2; IVal (LInt (9223372036854775807)%Z); IJump 2; IPop; IVal (LInt (2)%Z); IVal (LInt (3)%Z); IVal (LInt (2)%Z); IMul; ISub; ILt; IBind; ISym (hx "74706c"); IInitTuple; ISym (hx "6b31"); IInitList; IVal (LStr (hx "e697a5e69cac")); IVal (LStr (hx "712271")); IAdd; IElement; IInitTuple; ISym (hx "61"); IVal (LStr (hx "666f6f")); IField; ISym (hx "6f74686572"); IVal (LInt (7)%Z); IField; IVal (LStr (hx "61")); IIndex; IElement; IInitList; ISym (hx "7932"); IElement; ISym (hx "626172"); IElement; IFunc 9; IInitList; ISym (hx "666f6f"); IElement; IFunc 2; IVal (LStr (hx "7475706c65")); IReturn; IDeRef (hx "7932"); IRuntime HMap; IReturn; IInitList; ISym (hx "76"); IElement; IFunc 2; IVal (LBool true); IReturn; IInitList; IRuntime HFilter; IInitList; ISym (hx "6b"); IElement; IFunc 2; IDeRef (hx "6e616d65"); IReturn; IInitList; IRuntime HFilter; IRuntime HReduce; IAdd; IField; ISym (hx "71756f746564206669656c64"); IDeRef (hx "6e616d65"); IAnd 26; IInitList; ISym (hx "6e"); IElement; IFunc 2; IDeRef (hx "6e"); IReturn; IInitList; IRuntime HMap; IInitList; IInitList; IVal (LStr (hx "c3a9")); IElement; IElement; IInitList; IVal (LStr (hx "712271")); IElement; IVal (LStr (hx "625c73")); IElement; IElement; IInitList; IVal (LStr (hx "61")); IElement; IElement; IVal (LInt (0)%Z); IIndex; IEqual; IField; ISym (hx "706f7274"); IVal (LInt (2)%Z); IVal (LInt (7)%Z); IDiv; IVal (LStr (hx "2d3336")); ICast CInt; ISub; IField; IBind; ISym (hx "61"); IInitList; ISym (hx "6e"); IElement; IFunc 8; IDeRef (hx "6e616d65"); IAnd 1; IVal (LBool true); IAnd 3; IDeRef (hx "6e616d65"); IOr 1; IVal (LBool false); IReturn; IInitTuple; ISym (hx "61"); IVal (LInt (3)%Z); IField; IVal (LStr (hx "6d697373696e67")); IIndex; IVal (LStr trace_text); IInitList; IVal (LStr (hx "712271")); IElement; IVal (LInt (0)%Z); IIndex; IRuntime HTrace; IAdd; IRuntime HFilter; IBind; ISym (hx "63"); IInitList; IVal (LStr (hx "3136")); ICast CInt; IElement; IBind].
Proof. reflexivity. Qed.
(* let t = func (name, m, b) => name; filter(func (a) => a, map(func (acc) => 16 <= acc, ([9223372036854775807] + [10, 5]))); let v = map(func (a) => reduce(func (val, cfg) => val, `` + `b\\s`, [1, 18, 9223372036854775807]), [0.25]); let name = (TRACE 15) + ((0 + 12) * (7 + 10) - (5 - 16) / 7); let tpl = func (data, cfg, tpl) => 1.5 * (0.0 - 0.125) + (2.0 + 2.0) / (0.5 * 1024.0); let c = (select (`a`, select ((TRACE `line break`)) => {bar = t(`x y`, 7.0, false)}) => {bar = map(func (k) => k, ([`foo`] . 0)), a = [`foo` + `tuple`, `true` + `true`, select (`nokey`) => {a = 9}] . 0, `x y` = t(`b\\s`, 0.5 - 2.0)}) + `true`;  *)
Example tr_gen_21 : translate [SLet (hx "74") (EFunc [(hx "6e616d65"); (hx "6d"); (hx "62")] (ESym (hx "6e616d65"))); SExpr (EFilter (EFunc [(hx "61")] (ESym (hx "61"))) (EMap (EFunc [(hx "616363")] (EBin LTEqual (EInt (16)%Z) (ESym (hx "616363")))) (EGroup (EBin Add (EList [(EInt (9223372036854775807)%Z)]) (EList [(EInt (10)%Z); (EInt (5)%Z)]))))); SLet (hx "76") (EMap (EFunc [(hx "61")] (EReduce (EFunc [(hx "76616c"); (hx "636667")] (ESym (hx "76616c"))) (EBin Add (EStr (hx "")) (EStr (hx "625c73"))) (EList [(EInt (1)%Z); (EInt (18)%Z); (EInt (9223372036854775807)%Z)]))) (EList [(EFloat 4598175219545276416%Z)])); SLet (hx "6e616d65") (EBin Add (EGroup (ETrace (EInt (15)%Z))) (EGroup (EBin Sub (EBin Mul (EGroup (EBin Add (EInt (0)%Z) (EInt (12)%Z))) (EGroup (EBin Add (EInt (7)%Z) (EInt (10)%Z)))) (EBin Div (EGroup (EBin Sub (EInt (5)%Z) (EInt (16)%Z))) (EInt (7)%Z))))); SLet (hx "74706c") (EFunc [(hx "64617461"); (hx "636667"); (hx "74706c")] (EBin Add (EBin Mul (EFloat 4609434218613702656%Z) (EGroup (EBin Sub (EFloat 0%Z) (EFloat 4593671619917905920%Z)))) (EBin Div (EGroup (EBin Add (EFloat 4611686018427387904%Z) (EFloat 4611686018427387904%Z))) (EGroup (EBin Mul (EFloat 4602678819172646912%Z) (EFloat 4652218415073722368%Z)))))); SLet (hx "63") (EBin Add (EGroup (ESelect (EStr (hx "61")) (Some (ESelect (EGroup (ETrace (EStr (hx "6c696e6520627265616b")))) None [((hx "626172"), (ECall (ESym (hx "74")) [(EStr (hx "782079")); (EFloat 4619567317775286272%Z); (EBool false)]))])) [((hx "626172"), (EMap (EFunc [(hx "6b")] (ESym (hx "6b"))) (EGroup (EBin DOT (EList [(EStr (hx "666f6f"))]) (EInt (0)%Z))))); ((hx "61"), (EBin DOT (EList [(EBin Add (EStr (hx "666f6f")) (EStr (hx "7475706c65"))); (EBin Add (EStr (hx "74727565")) (EStr (hx "74727565"))); (ESelect (EStr (hx "6e6f6b6579")) None [((hx "61"), (EInt (9)%Z))])]) (EInt (0)%Z))); ((hx "782079"), (ECall (ESym (hx "74")) [(EStr (hx "625c73")); (EBin Sub (EFloat 4602678819172646912%Z) (EFloat 4611686018427387904%Z))]))])) (EStr (hx "74727565")))] = [ISym (hx "74"); IInitList; ISym (hx "6e616d65"); IElement; ISym (hx "6d"); IElement; ISym (hx "62"); IElement; IFunc 2; IDeRef (hx "6e616d65"); IReturn; IBind; IInitList; ISym (hx "61"); IElement; IFunc 2; IDeRef (hx "61"); IReturn; IInitList; ISym (hx "616363"); IElement; IFunc 4; IDeRef (hx "616363"); IVal (LInt (16)%Z); ILtEq; IReturn; IInitList; IVal (LInt (10)%Z); IElement; IVal (LInt (5)%Z); IElement; IInitList; IVal (LInt (9223372036854775807)%Z); IElement; IAdd; IRuntime HMap; IRuntime HFilter; IPop; ISym (hx "76"); IInitList; ISym (hx "61"); IElement; IFunc 20; IInitList; ISym (hx "76616c"); IElement; ISym (hx "636667"); IElement; IFunc 2; IDeRef (hx "76616c"); IReturn; IVal (LStr (hx "625c73")); IVal (LStr (hx "")); IAdd; IInitList; IVal (LInt (1)%Z); IElement; IVal (LInt (18)%Z); IElement; IVal (LInt (9223372036854775807)%Z); IElement; IRuntime HReduce; IReturn; IInitList; IVal (LFloat 4598175219545276416%Z); IElement; IRuntime HMap; IBind; ISym (hx "6e616d65"); IVal (LInt (7)%Z); IVal (LInt (16)%Z); IVal (LInt (5)%Z); ISub; IDiv; IVal (LInt (10)%Z); IVal (LInt (7)%Z); IAdd; IVal (LInt (12)%Z); IVal (LInt (0)%Z); IAdd; IMul; ISub; IVal (LStr trace_text); IVal (LInt (15)%Z); IRuntime HTrace; IAdd; IBind; ISym (hx "74706c"); IInitList; ISym (hx "64617461"); IElement; ISym (hx "636667"); IElement; ISym (hx "74706c"); IElement; IFunc 14; IVal (LFloat 4652218415073722368%Z); IVal (LFloat 4602678819172646912%Z); IMul; IVal (LFloat 4611686018427387904%Z); IVal (LFloat 4611686018427387904%Z); IAdd; IDiv; IVal (LFloat 4593671619917905920%Z); IVal (LFloat 0%Z); ISub; IVal (LFloat 4609434218613702656%Z); IMul; IAdd; IReturn; IBind; ISym (hx "63"); IVal (LStr (hx "74727565")); IVal (LStr (hx "61")); ISym (hx "626172"); ISelectJump 13; IInitList; ISym (hx "6b"); IElement; IFunc 2; IDeRef (hx "6b"); IReturn; IInitList; IVal (LStr (hx "666f6f")); IElement; IVal (LInt (0)%Z); IIndex; IRuntime HMap; IJump 49; ISym (hx "61"); ISelectJump 21; IInitList; IVal (LStr (hx "7475706c65")); IVal (LStr (hx "666f6f")); IAdd; IElement; IVal (LStr (hx "74727565")); IVal (LStr (hx "74727565")); IAdd; IElement; IVal (LStr (hx "6e6f6b6579")); ISym (hx "61"); ISelectJump 2; IVal (LInt (9)%Z); IJump 3; IPop; IVal (LStr (hx "556e68616e646c65642073656c65637420636173652077697468206e6f2064656661756c74")); IBang; IElement; IVal (LInt (0)%Z); IIndex; IJump 26; ISym (hx "782079"); ISelectJump 8; IVal (LStr (hx "625c73")); IVal (LFloat 4611686018427387904%Z); IVal (LFloat 4602678819172646912%Z); ISub; IVal (LInt (2)%Z); IDeRef (hx "74"); IFCall; IJump 16; IPop; IVal (LStr trace_text); IVal (LStr (hx "6c696e6520627265616b")); IRuntime HTrace; ISym (hx "626172"); ISelectJump 7; IVal (LStr (hx "782079")); IVal (LFloat 4619567317775286272%Z); IVal (LBool false); IVal (LInt (3)%Z); IDeRef (hx "74"); IFCall; IJump 3; IPop; IVal (LStr (hx "556e68616e646c65642073656c65637420636173652077697468206e6f2064656661756c74")); IBang; IAdd; IBind].
Proof. reflexivity. Qed.
(* let bar = `é`; let t = func (a, x1) => `日本` + a + `1`; let lst = not select (select (`foo`, (TRACE false)) => {foo = true == false, bar = select (false) => {`true` = true, `false` = true}}) => {`true` = {b = 2, other = 1} . b is `tuple`, `false` = (15) is `null`}; let acc = bar; let a = map(func (k) => k, [select (`zzz`, 1) => {bar = select (lst) => {`true` = 0, `false` = 3}, a = select (false) => {`true` = 0, `false` = 20}}, (9223372036854775806 + 18) %% 3]); let x1 = (select (`foo`, []) => {a = [1.5, 0.125] + [7.0] + [0.0], bar = [100.0], foo = map(func (y2) => {b = 2.0, other = 5} . b, (9223372036854775807 + 13))}) + [];  *)
Example tr_gen_22 : translate [SLet (hx "626172") (EStr (hx "c3a9")); SLet (hx "74") (EFunc [(hx "61"); (hx "7831")] (EBin Add (EBin Add (EStr (hx "e697a5e69cac")) (ESym (hx "61"))) (EStr (hx "31")))); SLet (hx "6c7374") (ENot (ESelect (ESelect (EStr (hx "666f6f")) (Some (EGroup (ETrace (EBool false)))) [((hx "666f6f"), (EBin Equal (EBool true) (EBool false))); ((hx "626172"), (ESelect (EBool false) None [((hx "74727565"), (EBool true)); ((hx "66616c7365"), (EBool true))]))]) None [((hx "74727565"), (EBin IS (EBin DOT (ETuple [((hx "62"), (EInt (2)%Z)); ((hx "6f74686572"), (EInt (1)%Z))]) (ESym (hx "62"))) (EStr (hx "7475706c65")))); ((hx "66616c7365"), (EBin IS (EGroup (EInt (15)%Z)) (EStr (hx "6e756c6c"))))])); SLet (hx "616363") (ESym (hx "626172")); SLet (hx "61") (EMap (EFunc [(hx "6b")] (ESym (hx "6b"))) (EList [(ESelect (EStr (hx "7a7a7a")) (Some (EInt (1)%Z)) [((hx "626172"), (ESelect (ESym (hx "6c7374")) None [((hx "74727565"), (EInt (0)%Z)); ((hx "66616c7365"), (EInt (3)%Z))])); ((hx "61"), (ESelect (EBool false) None [((hx "74727565"), (EInt (0)%Z)); ((hx "66616c7365"), (EInt (20)%Z))]))]); (EBin Mod (EGroup (EBin Add (EInt (9223372036854775806)%Z) (EInt (18)%Z))) (EInt (3)%Z))])); SLet (hx "7831") (EBin Add (EGroup (ESelect (EStr (hx "666f6f")) (Some (EList [])) [((hx "61"), (EBin Add (EBin Add (EList [(EFloat 4609434218613702656%Z); (EFloat 4593671619917905920%Z)]) (EList [(EFloat 4619567317775286272%Z)])) (EList [(EFloat 0%Z)]))); ((hx "626172"), (EList [(EFloat 4636737291354636288%Z)])); ((hx "666f6f"), (EMap (EFunc [(hx "7932")] (EBin DOT (ETuple [((hx "62"), (EFloat 4611686018427387904%Z)); ((hx "6f74686572"), (EInt (5)%Z))]) (ESym (hx "62")))) (EGroup (EBin Add (EInt (9223372036854775807)%Z) (EInt (13)%Z)))))])) (EList []))] = [ISym (hx "626172"); IVal (LStr (hx "c3a9")); IBind; ISym (hx "74"); IInitList; ISym (hx "61"); IElement; ISym (hx "7831"); IElement; IFunc 6; IVal (LStr (hx "31")); IDeRef (hx "61"); IVal (LStr (hx "e697a5e69cac")); IAdd; IAdd; IReturn; IBind; ISym (hx "6c7374"); IVal (LStr (hx "666f6f")); ISym (hx "666f6f"); ISelectJump 4; IVal (LBool false); IVal (LBool true); IEqual; IJump 19; ISym (hx "626172"); ISelectJump 13; IVal (LBool false); ISym (hx "74727565"); ISelectJump 2; IVal (LBool true); IJump 7; ISym (hx "66616c7365"); ISelectJump 2; IVal (LBool true); IJump 3; IPop; IVal (LStr (hx "556e68616e646c65642073656c65637420636173652077697468206e6f2064656661756c74")); IBang; IJump 4; IPop; IVal (LStr trace_text); IVal (LBool false); IRuntime HTrace; ISym (hx "74727565"); ISelectJump 13; IVal (LStr (hx "7475706c65")); IInitTuple; ISym (hx "62"); IVal (LInt (2)%Z); IField; ISym (hx "6f74686572"); IVal (LInt (1)%Z); IField; IVal (LStr (hx "62")); IIndex; ITyp; IEqual; IJump 10; ISym (hx "66616c7365"); ISelectJump 5; IVal (LStr (hx "6e756c6c")); IVal (LInt (15)%Z); ITyp; IEqual; IJump 3; IPop; IVal (LStr (hx "556e68616e646c65642073656c65637420636173652077697468206e6f2064656661756c74")); IBang; INot; IBind; ISym (hx "616363"); IDeRef (hx "626172"); IBind; ISym (hx "61"); IInitList; ISym (hx "6b"); IElement; IFunc 2; IDeRef (hx "6b"); IReturn; IInitList; IVal (LStr (hx "7a7a7a")); ISym (hx "626172"); ISelectJump 13; IDeRef (hx "6c7374"); ISym (hx "74727565"); ISelectJump 2; IVal (LInt (0)%Z); IJump 7; ISym (hx "66616c7365"); ISelectJump 2; IVal (LInt (3)%Z); IJump 3; IPop; IVal (LStr (hx "556e68616e646c65642073656c65637420636173652077697468206e6f2064656661756c74")); IBang; IJump 17; ISym (hx "61"); ISelectJump 13; IVal (LBool false); ISym (hx "74727565"); ISelectJump 2; IVal (LInt (0)%Z); IJump 7; ISym (hx "66616c7365"); ISelectJump 2; IVal (LInt (20)%Z); IJump 3; IPop; IVal (LStr (hx "556e68616e646c65642073656c65637420636173652077697468206e6f2064656661756c74")); IBang; IJump 2; IPop; IVal (LInt (1)%Z); IElement; IVal (LInt (3)%Z); IVal (LInt (18)%Z); IVal (LInt (9223372036854775806)%Z); IAdd; IMod; IElement; IRuntime HMap; IBind; ISym (hx "7831"); IInitList; IVal (LStr (hx "666f6f")); ISym (hx "61"); ISelectJump 14; IInitList; IVal (LFloat 0%Z); IElement; IInitList; IVal (LFloat 4619567317775286272%Z); IElement; IInitList; IVal (LFloat 4609434218613702656%Z); IElement; IVal (LFloat 4593671619917905920%Z); IElement; IAdd; IAdd; IJump 29; ISym (hx "626172"); ISelectJump 4; IInitList; IVal (LFloat 4636737291354636288%Z); IElement; IJump 23; ISym (hx "666f6f"); ISelectJump 19; IInitList; ISym (hx "7932"); IElement; IFunc 10; IInitTuple; ISym (hx "62"); IVal (LFloat 4611686018427387904%Z); IField; ISym (hx "6f74686572"); IVal (LInt (5)%Z); IField; IVal (LStr (hx "62")); IIndex; IReturn; IVal (LInt (13)%Z); IVal (LInt (9223372036854775807)%Z); IAdd; IRuntime HMap; IJump 2; IPop; IInitList; IAdd; IBind].
Proof. reflexivity. Qed.
(* let k = module {p = `tuple`, host = `1`} => { let m = reduce(func (d, foo) => foo + d, str(false), (TRACE [`foo`, `bar`])); }; let v = {a = [select (false, [`bar`]) => {`true` = [`foo`]}, []] + map(func (b) => [`@`], map(func (lst) => false, [])), other = 0} . a; let name = filter(func (val, name) => true, ([{c = select (true, `true`) => {`true` = `1`, `false` = `foo`}, k1 = filter(func (y2, val) => true, {host = 10})}] . 0)); let d = (0.125 < 100.0 + 100.0 + {b = 7.0, other = 12} . b) && (({y = false}) != {y = not true}); let data = 4:3; let tpl = name . c;  *)
Example tr_gen_23 : translate [SLet (hx "6b") (EModule [((hx "70"), (EStr (hx "7475706c65"))); ((hx "686f7374"), (EStr (hx "31")))] None [SLet (hx "6d") (EReduce (EFunc [(hx "64"); (hx "666f6f")] (EBin Add (ESym (hx "666f6f")) (ESym (hx "64")))) (ECast CStr (EBool false)) (EGroup (ETrace (EList [(EStr (hx "666f6f")); (EStr (hx "626172"))]))))]); SLet (hx "76") (EBin DOT (ETuple [((hx "61"), (EBin Add (EList [(ESelect (EBool false) (Some (EList [(EStr (hx "626172"))])) [((hx "74727565"), (EList [(EStr (hx "666f6f"))]))]); (EList [])]) (EMap (EFunc [(hx "62")] (EList [(EStr (hx "40"))])) (EMap (EFunc [(hx "6c7374")] (EBool false)) (EList []))))); ((hx "6f74686572"), (EInt (0)%Z))]) (ESym (hx "61"))); SLet (hx "6e616d65") (EFilter (EFunc [(hx "76616c"); (hx "6e616d65")] (EBool true)) (EGroup (EBin DOT (EList [(ETuple [((hx "63"), (ESelect (EBool true) (Some (EStr (hx "74727565"))) [((hx "74727565"), (EStr (hx "31"))); ((hx "66616c7365"), (EStr (hx "666f6f")))])); ((hx "6b31"), (EFilter (EFunc [(hx "7932"); (hx "76616c")] (EBool true)) (ETuple [((hx "686f7374"), (EInt (10)%Z))])))])]) (EInt (0)%Z)))); SLet (hx "64") (EBin AND (EGroup (EBin LT (EFloat 4593671619917905920%Z) (EBin Add (EBin Add (EFloat 4636737291354636288%Z) (EFloat 4636737291354636288%Z)) (EBin DOT (ETuple [((hx "62"), (EFloat 4619567317775286272%Z)); ((hx "6f74686572"), (EInt (12)%Z))]) (ESym (hx "62")))))) (EGroup (EBin NotEqual (EGroup (ETuple [((hx "79"), (EBool false))])) (ETuple [((hx "79"), (ENot (EBool true)))])))); SLet (hx "64617461") (ERange (EInt (4)%Z) None (EInt (3)%Z)); SLet (hx "74706c") (EBin DOT (ESym (hx "6e616d65")) (ESym (hx "63")))] = [ISym (hx "6b"); IInitTuple; ISym (hx "70"); IVal (LStr (hx "7475706c65")); IField; ISym (hx "686f7374"); IVal (LStr (hx "31")); IField; IModule 24; IBind; ISym (hx "6d"); IInitList; ISym (hx "64"); IElement; ISym (hx "666f6f"); IElement; IFunc 4; IDeRef (hx "64"); IDeRef (hx "666f6f"); IAdd; IReturn; IVal (LBool false); ICast CStr; IVal (LStr trace_text); IInitList; IVal (LStr (hx "666f6f")); IElement; IVal (LStr (hx "626172")); IElement; IRuntime HTrace; IRuntime HReduce; IBind; IReturn; IBind; ISym (hx "76"); IInitTuple; ISym (hx "61"); IInitList; ISym (hx "62"); IElement; IFunc 4; IInitList; IVal (LStr (hx "40")); IElement; IReturn; IInitList; ISym (hx "6c7374"); IElement; IFunc 2; IVal (LBool false); IReturn; IInitList; IRuntime HMap; IRuntime HMap; IInitList; IVal (LBool false); ISym (hx "74727565"); ISelectJump 4; IInitList; IVal (LStr (hx "666f6f")); IElement; IJump 4; IPop; IInitList; IVal (LStr (hx "626172")); IElement; IElement; IInitList; IElement; IAdd; IField; ISym (hx "6f74686572"); IVal (LInt (0)%Z); IField; IVal (LStr (hx "61")); IIndex; IBind; ISym (hx "6e616d65"); IInitList; ISym (hx "76616c"); IElement; ISym (hx "6e616d65"); IElement; IFunc 2; IVal (LBool true); IReturn; IInitList; IInitTuple; ISym (hx "63"); IVal (LBool true); ISym (hx "74727565"); ISelectJump 2; IVal (LStr (hx "31")); IJump 6; ISym (hx "66616c7365"); ISelectJump 2; IVal (LStr (hx "666f6f")); IJump 2; IPop; IVal (LStr (hx "74727565")); IField; ISym (hx "6b31"); IInitList; ISym (hx "7932"); IElement; ISym (hx "76616c"); IElement; IFunc 2; IVal (LBool true); IReturn; IInitTuple; ISym (hx "686f7374"); IVal (LInt (10)%Z); IField; IRuntime HFilter; IField; IElement; IVal (LInt (0)%Z); IIndex; IRuntime HFilter; IBind; ISym (hx "64"); IInitTuple; ISym (hx "62"); IVal (LFloat 4619567317775286272%Z); IField; ISym (hx "6f74686572"); IVal (LInt (12)%Z); IField; IVal (LStr (hx "62")); IIndex; IVal (LFloat 4636737291354636288%Z); IVal (LFloat 4636737291354636288%Z); IAdd; IAdd; IVal (LFloat 4593671619917905920%Z); ILt; IAnd 11; IInitTuple; ISym (hx "79"); IVal (LBool true); INot; IField; IInitTuple; ISym (hx "79"); IVal (LBool false); IField; IEqual; INot; IBind; ISym (hx "64617461"); IVal (LInt (3)%Z); IVal LEmpty; IVal (LInt (4)%Z); IRuntime HRange; IBind; ISym (hx "74706c"); IDeRef (hx "6e616d65"); IVal (LStr (hx "63")); IIndex; IBind].
Proof. reflexivity. Qed.
(* let t = select (select (`x y`, `\\@@{item} @{item}` % 9) => {`x y` = `tuple` + (`q\`q` + `x y`), foo = `é @\\\\@` % (``, {b = {a = 8}, other = 14} . b)}, (int(`+7`))) => {a = 11, `é` = 13}; let d = func (a, tpl) => {b = 2.0 * 1024.0 - float(14), other = 7} . b; let bar = bool(`false`); let y2 = [17]; let x1 = [[`é`, `true` + ``] . 1 + `bar`] . 0; let n = func (val, cfg) => select ({a = `foo`, other = 3} . a + `日本`, [cfg]) => {a = map(func (b) => cfg, reduce(func (lst, v, tpl) => lst, [], {f1 = 10, f2 = 10}))};  *)
Example tr_gen_24 : translate [SLet (hx "74") (ESelect (ESelect (EStr (hx "782079")) (Some (EFormatS [PStr (hx "40"); PExpr (ESym (hx "6974656d")); PStr (hx "20"); PExpr (ESym (hx "6974656d"))] (EInt (9)%Z))) [((hx "782079"), (EBin Add (EStr (hx "7475706c65")) (EGroup (EBin Add (EStr (hx "712271")) (EStr (hx "782079")))))); ((hx "666f6f"), (EFormatL [PStr (hx "c3a920"); PHole; PStr (hx "5c"); PHole] [(EStr (hx "")); (EBin DOT (ETuple [((hx "62"), (ETuple [((hx "61"), (EInt (8)%Z))])); ((hx "6f74686572"), (EInt (14)%Z))]) (ESym (hx "62")))]))]) (Some (EGroup (ECast CInt (EStr (hx "2b37"))))) [((hx "61"), (EInt (11)%Z)); ((hx "c3a9"), (EInt (13)%Z))]); SLet (hx "64") (EFunc [(hx "61"); (hx "74706c")] (EBin DOT (ETuple [((hx "62"), (EBin Sub (EBin Mul (EFloat 4611686018427387904%Z) (EFloat 4652218415073722368%Z)) (ECast CFloat (EInt (14)%Z)))); ((hx "6f74686572"), (EInt (7)%Z))]) (ESym (hx "62")))); SLet (hx "626172") (ECast CBool (EStr (hx "66616c7365"))); SLet (hx "7932") (EList [(EInt (17)%Z)]); SLet (hx "7831") (EBin DOT (EList [(EBin Add (EBin DOT (EList [(EStr (hx "c3a9")); (EBin Add (EStr (hx "74727565")) (EStr (hx "")))]) (EInt (1)%Z)) (EStr (hx "626172")))]) (EInt (0)%Z)); SLet (hx "6e") (EFunc [(hx "76616c"); (hx "636667")] (ESelect (EBin Add (EBin DOT (ETuple [((hx "61"), (EStr (hx "666f6f"))); ((hx "6f74686572"), (EInt (3)%Z))]) (ESym (hx "61"))) (EStr (hx "e697a5e69cac"))) (Some (EList [(ESym (hx "636667"))])) [((hx "61"), (EMap (EFunc [(hx "62")] (ESym (hx "636667"))) (EReduce (EFunc [(hx "6c7374"); (hx "76"); (hx "74706c")] (ESym (hx "6c7374"))) (EList []) (ETuple [((hx "6631"), (EInt (10)%Z)); ((hx "6632"), (EInt (10)%Z))]))))]))] = [ISym (hx "74"); IVal (LStr (hx "782079")); ISym (hx "782079"); ISelectJump 6; IVal (LStr (hx "782079")); IVal (LStr (hx "712271")); IAdd; IVal (LStr (hx "7475706c65")); IAdd; IJump 38; ISym (hx "666f6f"); ISelectJump 21; IInitTuple; ISym (hx "62"); IInitTuple; ISym (hx "61"); IVal (LInt (8)%Z); IField; IField; ISym (hx "6f74686572"); IVal (LInt (14)%Z); IField; IVal (LStr (hx "62")); IIndex; IRender; IVal (LStr (hx "5c")); IAdd; IVal (LStr (hx "")); IRender; IAdd; IVal (LStr (hx "c3a920")); IAdd; IJump 15; IPop; INewScope 13; ISym (hx "6974656d"); IVal (LInt (9)%Z); IBindOver; IDeRef (hx "6974656d"); IRender; IVal (LStr (hx "20")); IAdd; IDeRef (hx "6974656d"); IRender; IAdd; IVal (LStr (hx "40")); IAdd; IReturn; ISym (hx "61"); ISelectJump 2; IVal (LInt (11)%Z); IJump 7; ISym (hx "c3a9"); ISelectJump 2; IVal (LInt (13)%Z); IJump 3; IPop; IVal (LStr (hx "2b37")); ICast CInt; IBind; ISym (hx "64"); IInitList; ISym (hx "61"); IElement; ISym (hx "74706c"); IElement; IFunc 15; IInitTuple; ISym (hx "62"); IVal (LInt (14)%Z); ICast CFloat; IVal (LFloat 4652218415073722368%Z); IVal (LFloat 4611686018427387904%Z); IMul; ISub; IField; ISym (hx "6f74686572"); IVal (LInt (7)%Z); IField; IVal (LStr (hx "62")); IIndex; IReturn; IBind; ISym (hx "626172"); IVal (LStr (hx "66616c7365")); ICast CBool; IBind; ISym (hx "7932"); IInitList; IVal (LInt (17)%Z); IElement; IBind; ISym (hx "7831"); IInitList; IVal (LStr (hx "626172")); IInitList; IVal (LStr (hx "c3a9")); IElement; IVal (LStr (hx "")); IVal (LStr (hx "74727565")); IAdd; IElement; IVal (LInt (1)%Z); IIndex; IAdd; IElement; IVal (LInt (0)%Z); IIndex; IBind; ISym (hx "6e"); IInitList; ISym (hx "76616c"); IElement; ISym (hx "636667"); IElement; IFunc 45; IVal (LStr (hx "e697a5e69cac")); IInitTuple; ISym (hx "61"); IVal (LStr (hx "666f6f")); IField; ISym (hx "6f74686572"); IVal (LInt (3)%Z); IField; IVal (LStr (hx "61")); IIndex; IAdd; ISym (hx "61"); ISelectJump 27; IInitList; ISym (hx "62"); IElement; IFunc 2; IDeRef (hx "636667"); IReturn; IInitList; ISym (hx "6c7374"); IElement; ISym (hx "76"); IElement; ISym (hx "74706c"); IElement; IFunc 2; IDeRef (hx "6c7374"); IReturn; IInitList; IInitTuple; ISym (hx "6631"); IVal (LInt (10)%Z); IField; ISym (hx "6632"); IVal (LInt (10)%Z); IField; IRuntime HReduce; IRuntime HMap; IJump 4; IPop; IInitList; IDeRef (hx "636667"); IElement; IReturn; IBind].
Proof. reflexivity. Qed.
(* let lst = {`é` = {val = 0.0, other = 1} . val / ((select (`foo`, 1024.0) => {bar = 1.5}) * 0.125), host = `é` + (`line break` + `a` + `line break`)}; select (`a`, {k1 = `line break`, c = 0} == {k1 = `@`, c = 9223372036854775806}) => {a = `nope` in {a = 11, name = `line break`}}; let y2 = filter(func (a) => {b = false && true, other = 2} . b, select ((select (false, false) => {`true` = true, `false` = true}) || true) => {`true` = [`日本`] + filter(func (tpl) => true, []), `false` = map(func (bar) => `line break` + `foo`, (1:8))}); let b = `true`; let d = 6; let cfg = {val = select (7 != d, 0.125 / 100.0) => {`true` = 0.0}, other = 11} . val > float(57);  *)
Example tr_gen_25 : translate [SLet (hx "6c7374") (ETuple [((hx "c3a9"), (EBin Div (EBin DOT (ETuple [((hx "76616c"), (EFloat 0%Z)); ((hx "6f74686572"), (EInt (1)%Z))]) (ESym (hx "76616c"))) (EGroup (EBin Mul (EGroup (ESelect (EStr (hx "666f6f")) (Some (EFloat 4652218415073722368%Z)) [((hx "626172"), (EFloat 4609434218613702656%Z))])) (EFloat 4593671619917905920%Z))))); ((hx "686f7374"), (EBin Add (EStr (hx "c3a9")) (EGroup (EBin Add (EBin Add (EStr (hx "6c696e6520627265616b")) (EStr (hx "61"))) (EStr (hx "6c696e6520627265616b"))))))]); SExpr (ESelect (EStr (hx "61")) (Some (EBin Equal (ETuple [((hx "6b31"), (EStr (hx "6c696e6520627265616b"))); ((hx "63"), (EInt (0)%Z))]) (ETuple [((hx "6b31"), (EStr (hx "40"))); ((hx "63"), (EInt (9223372036854775806)%Z))]))) [((hx "61"), (EBin IN (EStr (hx "6e6f7065")) (ETuple [((hx "61"), (EInt (11)%Z)); ((hx "6e616d65"), (EStr (hx "6c696e6520627265616b")))])))]); SLet (hx "7932") (EFilter (EFunc [(hx "61")] (EBin DOT (ETuple [((hx "62"), (EBin AND (EBool false) (EBool true))); ((hx "6f74686572"), (EInt (2)%Z))]) (ESym (hx "62")))) (ESelect (EBin OR (EGroup (ESelect (EBool false) (Some (EBool false)) [((hx "74727565"), (EBool true)); ((hx "66616c7365"), (EBool true))])) (EBool true)) None [((hx "74727565"), (EBin Add (EList [(EStr (hx "e697a5e69cac"))]) (EFilter (EFunc [(hx "74706c")] (EBool true)) (EList [])))); ((hx "66616c7365"), (EMap (EFunc [(hx "626172")] (EBin Add (EStr (hx "6c696e6520627265616b")) (EStr (hx "666f6f")))) (EGroup (ERange (EInt (1)%Z) None (EInt (8)%Z)))))])); SLet (hx "62") (EStr (hx "74727565")); SLet (hx "64") (EInt (6)%Z); SLet (hx "636667") (EBin GT (EBin DOT (ETuple [((hx "76616c"), (ESelect (EBin NotEqual (EInt (7)%Z) (ESym (hx "64"))) (Some (EBin Div (EFloat 4593671619917905920%Z) (EFloat 4636737291354636288%Z))) [((hx "74727565"), (EFloat 0%Z))])); ((hx "6f74686572"), (EInt (11)%Z))]) (ESym (hx "76616c"))) (ECast CFloat (EInt (57)%Z)))] = [ISym (hx "6c7374"); IInitTuple; ISym (hx "c3a9"); IVal (LFloat 4593671619917905920%Z); IVal (LStr (hx "666f6f")); ISym (hx "626172"); ISelectJump 2; IVal (LFloat 4609434218613702656%Z); IJump 2; IPop; IVal (LFloat 4652218415073722368%Z); IMul; IInitTuple; ISym (hx "76616c"); IVal (LFloat 0%Z); IField; ISym (hx "6f74686572"); IVal (LInt (1)%Z); IField; IVal (LStr (hx "76616c")); IIndex; IDiv; IField; ISym (hx "686f7374"); IVal (LStr (hx "6c696e6520627265616b")); IVal (LStr (hx "61")); IVal (LStr (hx "6c696e6520627265616b")); IAdd; IAdd; IVal (LStr (hx "c3a9")); IAdd; IField; IBind; IVal (LStr (hx "61")); ISym (hx "61"); ISelectJump 10; IInitTuple; ISym (hx "61"); IVal (LInt (11)%Z); IField; ISym (hx "6e616d65"); IVal (LStr (hx "6c696e6520627265616b")); IField; IVal (LStr (hx "6e6f7065")); IExist; IJump 16; IPop; IInitTuple; ISym (hx "6b31"); IVal (LStr (hx "40")); IField; ISym (hx "63"); IVal (LInt (9223372036854775806)%Z); IField; IInitTuple; ISym (hx "6b31"); IVal (LStr (hx "6c696e6520627265616b")); IField; ISym (hx "63"); IVal (LInt (0)%Z); IField; IEqual; IPop; ISym (hx "7932"); IInitList; ISym (hx "61"); IElement; IFunc 12; IInitTuple; ISym (hx "62"); IVal (LBool false); IAnd 1; IVal (LBool true); IField; ISym (hx "6f74686572"); IVal (LInt (2)%Z); IField; IVal (LStr (hx "62")); IIndex; IReturn; IVal (LBool false); ISym (hx "74727565"); ISelectJump 2; IVal (LBool true); IJump 6; ISym (hx "66616c7365"); ISelectJump 2; IVal (LBool true); IJump 2; IPop; IVal (LBool false); IOr 1; IVal (LBool true); ISym (hx "74727565"); ISelectJump 13; IInitList; ISym (hx "74706c"); IElement; IFunc 2; IVal (LBool true); IReturn; IInitList; IRuntime HFilter; IInitList; IVal (LStr (hx "e697a5e69cac")); IElement; IAdd; IJump 19; ISym (hx "66616c7365"); ISelectJump 14; IInitList; ISym (hx "626172"); IElement; IFunc 4; IVal (LStr (hx "666f6f")); IVal (LStr (hx "6c696e6520627265616b")); IAdd; IReturn; IVal (LInt (8)%Z); IVal LEmpty; IVal (LInt (1)%Z); IRuntime HRange; IRuntime HMap; IJump 3; IPop; IVal (LStr (hx "556e68616e646c65642073656c65637420636173652077697468206e6f2064656661756c74")); IBang; IRuntime HFilter; IBind; ISym (hx "62"); IVal (LStr (hx "74727565")); IBind; ISym (hx "64"); IVal (LInt (6)%Z); IBind; ISym (hx "636667"); IVal (LInt (57)%Z); ICast CFloat; IInitTuple; ISym (hx "76616c"); IDeRef (hx "64"); IVal (LInt (7)%Z); IEqual; INot; ISym (hx "74727565"); ISelectJump 2; IVal (LFloat 0%Z); IJump 4; IPop; IVal (LFloat 4636737291354636288%Z); IVal (LFloat 4593671619917905920%Z); IDiv; IField; ISym (hx "6f74686572"); IVal (LInt (11)%Z); IField; IVal (LStr (hx "76616c")); IIndex; IGt; IBind].
Proof. reflexivity. Qed.
(* (TRACE 7 + (select (true) => {`true` = 4611686018427387904, `false` = 0})); let data = map(func (a) => 100.0 < (select (true) => {`true` = 0.5, `false` = 0.25}), [17 / 5, select (select (`zzz`, `foo`) => {`x y` = `b\\s`}, 100) => {`x y` = 3}]); let a = str(({`quoted field` = true} != {`quoted field` = false}) && (false != false) || ((select (`zzz`, true) => {bar = false}) || reduce(func (n, bar) => n, false, [`x y`, `q\`q`]))); let lst = map(func (k) => `nope` in {a = 10, name = k}, map(func (c) => `é @é @` % ({a = 13}, not c), data)); let foo = func (b) => select ([b, b, b] . 1 < [b] . 0, (7 != 13) || ([`q\`q`, `b\\s`] != [`日本`, `q\`q`])) => {`true` = (select (false) => {`true` = true, `false` = false}) || (not true), `false` = bool(false) || (9223372036854775807 + 16)}; let val = {`quoted field` = 1024.0 + (select (foo(1024.0), 2.0 * 0.25) => {`true` = 0.25 - 1024.0, `false` = [100.0] . 0}), y = {c = 1024.0}};  *)
Example tr_gen_26 : translate [SExpr (EGroup (ETrace (EBin Add (EInt (7)%Z) (EGroup (ESelect (EBool true) None [((hx "74727565"), (EInt (4611686018427387904)%Z)); ((hx "66616c7365"), (EInt (0)%Z))]))))); SLet (hx "64617461") (EMap (EFunc [(hx "61")] (EBin LT (EFloat 4636737291354636288%Z) (EGroup (ESelect (EBool true) None [((hx "74727565"), (EFloat 4602678819172646912%Z)); ((hx "66616c7365"), (EFloat 4598175219545276416%Z))])))) (EList [(EBin Div (EInt (17)%Z) (EInt (5)%Z)); (ESelect (ESelect (EStr (hx "7a7a7a")) (Some (EStr (hx "666f6f"))) [((hx "782079"), (EStr (hx "625c73")))]) (Some (EInt (100)%Z)) [((hx "782079"), (EInt (3)%Z))])])); SLet (hx "61") (ECast CStr (EBin OR (EBin AND (EGroup (EBin NotEqual (ETuple [((hx "71756f746564206669656c64"), (EBool true))]) (ETuple [((hx "71756f746564206669656c64"), (EBool false))]))) (EGroup (EBin NotEqual (EBool false) (EBool false)))) (EGroup (EBin OR (EGroup (ESelect (EStr (hx "7a7a7a")) (Some (EBool true)) [((hx "626172"), (EBool false))])) (EReduce (EFunc [(hx "6e"); (hx "626172")] (ESym (hx "6e"))) (EBool false) (EList [(EStr (hx "782079")); (EStr (hx "712271"))])))))); SLet (hx "6c7374") (EMap (EFunc [(hx "6b")] (EBin IN (EStr (hx "6e6f7065")) (ETuple [((hx "61"), (EInt (10)%Z)); ((hx "6e616d65"), (ESym (hx "6b")))]))) (EMap (EFunc [(hx "63")] (EFormatL [PStr (hx "c3a920"); PHole; PStr (hx "c3a920"); PHole] [(ETuple [((hx "61"), (EInt (13)%Z))]); (ENot (ESym (hx "63")))])) (ESym (hx "64617461")))); SLet (hx "666f6f") (EFunc [(hx "62")] (ESelect (EBin LT (EBin DOT (EList [(ESym (hx "62")); (ESym (hx "62")); (ESym (hx "62"))]) (EInt (1)%Z)) (EBin DOT (EList [(ESym (hx "62"))]) (EInt (0)%Z))) (Some (EBin OR (EGroup (EBin NotEqual (EInt (7)%Z) (EInt (13)%Z))) (EGroup (EBin NotEqual (EList [(EStr (hx "712271")); (EStr (hx "625c73"))]) (EList [(EStr (hx "e697a5e69cac")); (EStr (hx "712271"))]))))) [((hx "74727565"), (EBin OR (EGroup (ESelect (EBool false) None [((hx "74727565"), (EBool true)); ((hx "66616c7365"), (EBool false))])) (EGroup (ENot (EBool true))))); ((hx "66616c7365"), (EBin OR (ECast CBool (EBool false)) (EGroup (EBin Add (EInt (9223372036854775807)%Z) (EInt (16)%Z)))))])); SLet (hx "76616c") (ETuple [((hx "71756f746564206669656c64"), (EBin Add (EFloat 4652218415073722368%Z) (EGroup (ESelect (ECall (ESym (hx "666f6f")) [(EFloat 4652218415073722368%Z)]) (Some (EBin Mul (EFloat 4611686018427387904%Z) (EFloat 4598175219545276416%Z))) [((hx "74727565"), (EBin Sub (EFloat 4598175219545276416%Z) (EFloat 4652218415073722368%Z))); ((hx "66616c7365"), (EBin DOT (EList [(EFloat 4636737291354636288%Z)]) (EInt (0)%Z)))])))); ((hx "79"), (ETuple [((hx "63"), (EFloat 4652218415073722368%Z))]))])] = [IVal (LStr trace_text); IVal (LBool true); ISym (hx "74727565"); ISelectJump 2; IVal (LInt (4611686018427387904)%Z); IJump 7; ISym (hx "66616c7365"); ISelectJump 2; IVal (LInt (0)%Z); IJump 3; IPop; IVal (LStr (hx "556e68616e646c65642073656c65637420636173652077697468206e6f2064656661756c74")); IBang; IVal (LInt (7)%Z); IAdd; IRuntime HTrace; IPop; ISym (hx "64617461"); IInitList; ISym (hx "61"); IElement; IFunc 15; IVal (LBool true); ISym (hx "74727565"); ISelectJump 2; IVal (LFloat 4602678819172646912%Z); IJump 7; ISym (hx "66616c7365"); ISelectJump 2; IVal (LFloat 4598175219545276416%Z); IJump 3; IPop; IVal (LStr (hx "556e68616e646c65642073656c65637420636173652077697468206e6f2064656661756c74")); IBang; IVal (LFloat 4636737291354636288%Z); ILt; IReturn; IInitList; IVal (LInt (5)%Z); IVal (LInt (17)%Z); IDiv; IElement; IVal (LStr (hx "7a7a7a")); ISym (hx "782079"); ISelectJump 2; IVal (LStr (hx "625c73")); IJump 2; IPop; IVal (LStr (hx "666f6f")); ISym (hx "782079"); ISelectJump 2; IVal (LInt (3)%Z); IJump 2; IPop; IVal (LInt (100)%Z); IElement; IRuntime HMap; IBind; ISym (hx "61"); IInitTuple; ISym (hx "71756f746564206669656c64"); IVal (LBool false); IField; IInitTuple; ISym (hx "71756f746564206669656c64"); IVal (LBool true); IField; IEqual; INot; IAnd 4; IVal (LBool false); IVal (LBool false); IEqual; INot; IOr 23; IVal (LStr (hx "7a7a7a")); ISym (hx "626172"); ISelectJump 2; IVal (LBool false); IJump 2; IPop; IVal (LBool true); IOr 15; IInitList; ISym (hx "6e"); IElement; ISym (hx "626172"); IElement; IFunc 2; IDeRef (hx "6e"); IReturn; IVal (LBool false); IInitList; IVal (LStr (hx "782079")); IElement; IVal (LStr (hx "712271")); IElement; IRuntime HReduce; ICast CStr; IBind; ISym (hx "6c7374"); IInitList; ISym (hx "6b"); IElement; IFunc 10; IInitTuple; ISym (hx "61"); IVal (LInt (10)%Z); IField; ISym (hx "6e616d65"); IDeRef (hx "6b"); IField; IVal (LStr (hx "6e6f7065")); IExist; IReturn; IInitList; ISym (hx "63"); IElement; IFunc 14; IDeRef (hx "63"); INot; IRender; IVal (LStr (hx "c3a920")); IAdd; IInitTuple; ISym (hx "61"); IVal (LInt (13)%Z); IField; IRender; IAdd; IVal (LStr (hx "c3a920")); IAdd; IReturn; IDeRef (hx "64617461"); IRuntime HMap; IRuntime HMap; IBind; ISym (hx "666f6f"); IInitList; ISym (hx "62"); IElement; IFunc 61; IInitList; IDeRef (hx "62"); IElement; IVal (LInt (0)%Z); IIndex; IInitList; IDeRef (hx "62"); IElement; IDeRef (hx "62"); IElement; IDeRef (hx "62"); IElement; IVal (LInt (1)%Z); IIndex; ILt; ISym (hx "74727565"); ISelectJump 16; IVal (LBool false); ISym (hx "74727565"); ISelectJump 2; IVal (LBool true); IJump 7; ISym (hx "66616c7365"); ISelectJump 2; IVal (LBool false); IJump 3; IPop; IVal (LStr (hx "556e68616e646c65642073656c65637420636173652077697468206e6f2064656661756c74")); IBang; IOr 2; IVal (LBool true); INot; IJump 27; ISym (hx "66616c7365"); ISelectJump 7; IVal (LBool false); ICast CBool; IOr 3; IVal (LInt (16)%Z); IVal (LInt (9223372036854775807)%Z); IAdd; IJump 18; IPop; IVal (LInt (13)%Z); IVal (LInt (7)%Z); IEqual; INot; IOr 12; IInitList; IVal (LStr (hx "e697a5e69cac")); IElement; IVal (LStr (hx "712271")); IElement; IInitList; IVal (LStr (hx "712271")); IElement; IVal (LStr (hx "625c73")); IElement; IEqual; INot; IReturn; IBind; ISym (hx "76616c"); IInitTuple; ISym (hx "71756f746564206669656c64"); IVal (LFloat 4652218415073722368%Z); IVal (LInt (1)%Z); IDeRef (hx "666f6f"); IFCall; ISym (hx "74727565"); ISelectJump 4; IVal (LFloat 4652218415073722368%Z); IVal (LFloat 4598175219545276416%Z); ISub; IJump 12; ISym (hx "66616c7365"); ISelectJump 6; IInitList; IVal (LFloat 4636737291354636288%Z); IElement; IVal (LInt (0)%Z); IIndex; IJump 4; IPop; IVal (LFloat 4598175219545276416%Z); IVal (LFloat 4611686018427387904%Z); IMul; IVal (LFloat 4652218415073722368%Z); IAdd; IField; ISym (hx "79"); IInitTuple; ISym (hx "63"); IVal (LFloat 4652218415073722368%Z); IField; IField; IBind].
Proof. reflexivity. Qed.
(* let lst = func (data, acc) => {b = 3.75, other = 0} . b; let k = 100.0 / reduce(func (bar, c) => 0.125, 0.5, select ({`é` = `x y`} is `list`, [] + [true]) => {`true` = ([]), `false` = [true] + []}); let cfg = {y = 3} != {y = 16}; let c = reduce(func (m, d) => 4611686018427387904 %% 3, int(42 * 20), filter(func (n) => select (n, true) => {foo = cfg, `x y` = cfg, `é` = cfg}, filter(func (bar) => cfg, `@`))) - 0 %% 1; let it = k; c;  *)
Example tr_gen_27 : translate [SLet (hx "6c7374") (EFunc [(hx "64617461"); (hx "616363")] (EBin DOT (ETuple [((hx "62"), (EFloat 4615626668101337088%Z)); ((hx "6f74686572"), (EInt (0)%Z))]) (ESym (hx "62")))); SLet (hx "6b") (EBin Div (EFloat 4636737291354636288%Z) (EReduce (EFunc [(hx "626172"); (hx "63")] (EFloat 4593671619917905920%Z)) (EFloat 4602678819172646912%Z) (ESelect (EBin IS (ETuple [((hx "c3a9"), (EStr (hx "782079")))]) (EStr (hx "6c697374"))) (Some (EBin Add (EList []) (EList [(EBool true)]))) [((hx "74727565"), (EGroup (EList []))); ((hx "66616c7365"), (EBin Add (EList [(EBool true)]) (EList [])))]))); SLet (hx "636667") (EBin NotEqual (ETuple [((hx "79"), (EInt (3)%Z))]) (ETuple [((hx "79"), (EInt (16)%Z))])); SLet (hx "63") (EBin Sub (EReduce (EFunc [(hx "6d"); (hx "64")] (EBin Mod (EInt (4611686018427387904)%Z) (EInt (3)%Z))) (ECast CInt (EBin Mul (EInt (42)%Z) (EInt (20)%Z))) (EFilter (EFunc [(hx "6e")] (ESelect (ESym (hx "6e")) (Some (EBool true)) [((hx "666f6f"), (ESym (hx "636667"))); ((hx "782079"), (ESym (hx "636667"))); ((hx "c3a9"), (ESym (hx "636667")))])) (EFilter (EFunc [(hx "626172")] (ESym (hx "636667"))) (EStr (hx "40"))))) (EBin Mod (EInt (0)%Z) (EInt (1)%Z))); SLet (hx "6974") (ESym (hx "6b")); SExpr (ESym (hx "63"))] = [ISym (hx "6c7374"); IInitList; ISym (hx "64617461"); IElement; ISym (hx "616363"); IElement; IFunc 10; IInitTuple; ISym (hx "62"); IVal (LFloat 4615626668101337088%Z); IField; ISym (hx "6f74686572"); IVal (LInt (0)%Z); IField; IVal (LStr (hx "62")); IIndex; IReturn; IBind; ISym (hx "6b"); IInitList; ISym (hx "626172"); IElement; ISym (hx "63"); IElement; IFunc 2; IVal (LFloat 4593671619917905920%Z); IReturn; IVal (LFloat 4602678819172646912%Z); IVal (LStr (hx "6c697374")); IInitTuple; ISym (hx "c3a9"); IVal (LStr (hx "782079")); IField; ITyp; IEqual; ISym (hx "74727565"); ISelectJump 2; IInitList; IJump 14; ISym (hx "66616c7365"); ISelectJump 6; IInitList; IInitList; IVal (LBool true); IElement; IAdd; IJump 6; IPop; IInitList; IVal (LBool true); IElement; IInitList; IAdd; IRuntime HReduce; IVal (LFloat 4636737291354636288%Z); IDiv; IBind; ISym (hx "636667"); IInitTuple; ISym (hx "79"); IVal (LInt (16)%Z); IField; IInitTuple; ISym (hx "79"); IVal (LInt (3)%Z); IField; IEqual; INot; IBind; ISym (hx "63"); IVal (LInt (1)%Z); IVal (LInt (0)%Z); IMod; IInitList; ISym (hx "6d"); IElement; ISym (hx "64"); IElement; IFunc 4; IVal (LInt (3)%Z); IVal (LInt (4611686018427387904)%Z); IMod; IReturn; IVal (LInt (20)%Z); IVal (LInt (42)%Z); IMul; ICast CInt; IInitList; ISym (hx "6e"); IElement; IFunc 16; IDeRef (hx "6e"); ISym (hx "666f6f"); ISelectJump 2; IDeRef (hx "636667"); IJump 10; ISym (hx "782079"); ISelectJump 2; IDeRef (hx "636667"); IJump 6; ISym (hx "c3a9"); ISelectJump 2; IDeRef (hx "636667"); IJump 2; IPop; IVal (LBool true); IReturn; IInitList; ISym (hx "626172"); IElement; IFunc 2; IDeRef (hx "636667"); IReturn; IVal (LStr (hx "40")); IRuntime HFilter; IRuntime HFilter; IRuntime HReduce; ISub; IBind; ISym (hx "6974"); IDeRef (hx "6b"); IBind; IDeRef (hx "63"); IPop].
Proof. reflexivity. Qed.
(* let c = func (b, it, y2) => reduce(func (n, c) => select (c, n + []) => {`x y` = [n, n] . 0, bar = n}, select (it) => {`true` = map(func (tpl) => 0.5, [0.0, 7.0]), `false` = select (`bar`, [0.0]) => {bar = [100.0, 0.25]}}, ((`@{item + 1}<@{item + 1}` % 15) + (`a` + `1`))); let val = (select (`a`, (18 - 0) %% 4) => {bar = reduce(func (acc, tpl) => acc, 10 * 3, []), a = 9223372036854775807}) in [select (false) => {`true` = 15, `false` = 2}, not 7, 4] + map(func (name) => {b = name, other = 9} . b, select (`x y`, []) => {`x y` = [6], foo = [42, 19], a = [8]}); let a = ([{a = val, val = reduce(func (k, t) => 3, 5, []), name = {b = 0, other = 1} . b}, {a = false || true, val = int(`-42`), name = {b = 13, other = 19} . b}]); let t = (select (`é@{item}` % `a`, select (not val, float(20)) => {`true` = 0.5, `false` = 100.0}) => {`é` = float(57)}) - (fail `boom`); let d = (select (val && true, `bar` + `1`) => {`true` = select (false, `tuple`) => {`true` = `1`, `false` = `q\`q`}, `false` = `@` % (`b\\s`)}) + (select (`foo` + `foo`, `q\`q`) => {bar = (`é`), `x y` = `q\`q`, foo = `tuple`}) + filter(func (b) => select (`zzz`, val == val) => {foo = false, `é` = val}, ({val = select (val, `@`) => {`true` = `line break`, `false` = `a`}, other = 18} . val)); let data = d;  *)
Example tr_gen_28 : translate [SLet (hx "63") (EFunc [(hx "62"); (hx "6974"); (hx "7932")] (EReduce (EFunc [(hx "6e"); (hx "63")] (ESelect (ESym (hx "63")) (Some (EBin Add (ESym (hx "6e")) (EList []))) [((hx "782079"), (EBin DOT (EList [(ESym (hx "6e")); (ESym (hx "6e"))]) (EInt (0)%Z))); ((hx "626172"), (ESym (hx "6e")))])) (ESelect (ESym (hx "6974")) None [((hx "74727565"), (EMap (EFunc [(hx "74706c")] (EFloat 4602678819172646912%Z)) (EList [(EFloat 0%Z); (EFloat 4619567317775286272%Z)]))); ((hx "66616c7365"), (ESelect (EStr (hx "626172")) (Some (EList [(EFloat 0%Z)])) [((hx "626172"), (EList [(EFloat 4636737291354636288%Z); (EFloat 4598175219545276416%Z)]))]))]) (EGroup (EBin Add (EGroup (EFormatS [PStr (hx ""); PExpr (EBin Add (ESym (hx "6974656d")) (EInt (1)%Z)); PStr (hx "3c"); PExpr (EBin Add (ESym (hx "6974656d")) (EInt (1)%Z))] (EInt (15)%Z))) (EGroup (EBin Add (EStr (hx "61")) (EStr (hx "31")))))))); SLet (hx "76616c") (EBin IN (EGroup (ESelect (EStr (hx "61")) (Some (EBin Mod (EGroup (EBin Sub (EInt (18)%Z) (EInt (0)%Z))) (EInt (4)%Z))) [((hx "626172"), (EReduce (EFunc [(hx "616363"); (hx "74706c")] (ESym (hx "616363"))) (EBin Mul (EInt (10)%Z) (EInt (3)%Z)) (EList []))); ((hx "61"), (EInt (9223372036854775807)%Z))])) (EBin Add (EList [(ESelect (EBool false) None [((hx "74727565"), (EInt (15)%Z)); ((hx "66616c7365"), (EInt (2)%Z))]); (ENot (EInt (7)%Z)); (EInt (4)%Z)]) (EMap (EFunc [(hx "6e616d65")] (EBin DOT (ETuple [((hx "62"), (ESym (hx "6e616d65"))); ((hx "6f74686572"), (EInt (9)%Z))]) (ESym (hx "62")))) (ESelect (EStr (hx "782079")) (Some (EList [])) [((hx "782079"), (EList [(EInt (6)%Z)])); ((hx "666f6f"), (EList [(EInt (42)%Z); (EInt (19)%Z)])); ((hx "61"), (EList [(EInt (8)%Z)]))])))); SLet (hx "61") (EGroup (EList [(ETuple [((hx "61"), (ESym (hx "76616c"))); ((hx "76616c"), (EReduce (EFunc [(hx "6b"); (hx "74")] (EInt (3)%Z)) (EInt (5)%Z) (EList []))); ((hx "6e616d65"), (EBin DOT (ETuple [((hx "62"), (EInt (0)%Z)); ((hx "6f74686572"), (EInt (1)%Z))]) (ESym (hx "62"))))]); (ETuple [((hx "61"), (EBin OR (EBool false) (EBool true))); ((hx "76616c"), (ECast CInt (EStr (hx "2d3432")))); ((hx "6e616d65"), (EBin DOT (ETuple [((hx "62"), (EInt (13)%Z)); ((hx "6f74686572"), (EInt (19)%Z))]) (ESym (hx "62"))))])])); SLet (hx "74") (EBin Sub (EGroup (ESelect (EFormatS [PStr (hx "c3a9"); PExpr (ESym (hx "6974656d"))] (EStr (hx "61"))) (Some (ESelect (ENot (ESym (hx "76616c"))) (Some (ECast CFloat (EInt (20)%Z))) [((hx "74727565"), (EFloat 4602678819172646912%Z)); ((hx "66616c7365"), (EFloat 4636737291354636288%Z))])) [((hx "c3a9"), (ECast CFloat (EInt (57)%Z)))])) (EGroup (EFail (EStr (hx "626f6f6d"))))); SLet (hx "64") (EBin Add (EBin Add (EGroup (ESelect (EBin AND (ESym (hx "76616c")) (EBool true)) (Some (EBin Add (EStr (hx "626172")) (EStr (hx "31")))) [((hx "74727565"), (ESelect (EBool false) (Some (EStr (hx "7475706c65"))) [((hx "74727565"), (EStr (hx "31"))); ((hx "66616c7365"), (EStr (hx "712271")))])); ((hx "66616c7365"), (EFormatL [PStr (hx ""); PHole] [(EStr (hx "625c73"))]))])) (EGroup (ESelect (EBin Add (EStr (hx "666f6f")) (EStr (hx "666f6f"))) (Some (EStr (hx "712271"))) [((hx "626172"), (EGroup (EStr (hx "c3a9")))); ((hx "782079"), (EStr (hx "712271"))); ((hx "666f6f"), (EStr (hx "7475706c65")))]))) (EFilter (EFunc [(hx "62")] (ESelect (EStr (hx "7a7a7a")) (Some (EBin Equal (ESym (hx "76616c")) (ESym (hx "76616c")))) [((hx "666f6f"), (EBool false)); ((hx "c3a9"), (ESym (hx "76616c")))])) (EGroup (EBin DOT (ETuple [((hx "76616c"), (ESelect (ESym (hx "76616c")) (Some (EStr (hx "40"))) [((hx "74727565"), (EStr (hx "6c696e6520627265616b"))); ((hx "66616c7365"), (EStr (hx "61")))])); ((hx "6f74686572"), (EInt (18)%Z))]) (ESym (hx "76616c")))))); SLet (hx "64617461") (ESym (hx "64"))] = [ISym (hx "63"); IInitList; ISym (hx "62"); IElement; ISym (hx "6974"); IElement; ISym (hx "7932"); IElement; IFunc 85; IInitList; ISym (hx "6e"); IElement; ISym (hx "63"); IElement; IFunc 20; IDeRef (hx "63"); ISym (hx "782079"); ISelectJump 8; IInitList; IDeRef (hx "6e"); IElement; IDeRef (hx "6e"); IElement; IVal (LInt (0)%Z); IIndex; IJump 8; ISym (hx "626172"); ISelectJump 2; IDeRef (hx "6e"); IJump 4; IPop; IInitList; IDeRef (hx "6e"); IAdd; IReturn; IDeRef (hx "6974"); ISym (hx "74727565"); ISelectJump 13; IInitList; ISym (hx "74706c"); IElement; IFunc 2; IVal (LFloat 4602678819172646912%Z); IReturn; IInitList; IVal (LFloat 0%Z); IElement; IVal (LFloat 4619567317775286272%Z); IElement; IRuntime HMap; IJump 19; ISym (hx "66616c7365"); ISelectJump 14; IVal (LStr (hx "626172")); ISym (hx "626172"); ISelectJump 6; IInitList; IVal (LFloat 4636737291354636288%Z); IElement; IVal (LFloat 4598175219545276416%Z); IElement; IJump 4; IPop; IInitList; IVal (LFloat 0%Z); IElement; IJump 3; IPop; IVal (LStr (hx "556e68616e646c65642073656c65637420636173652077697468206e6f2064656661756c74")); IBang; IVal (LStr (hx "31")); IVal (LStr (hx "61")); IAdd; INewScope 17; ISym (hx "6974656d"); IVal (LInt (15)%Z); IBindOver; IVal (LInt (1)%Z); IDeRef (hx "6974656d"); IAdd; IRender; IVal (LStr (hx "3c")); IAdd; IVal (LInt (1)%Z); IDeRef (hx "6974656d"); IAdd; IRender; IAdd; IVal (LStr (hx "")); IAdd; IReturn; IAdd; IRuntime HReduce; IReturn; IBind; ISym (hx "76616c"); IInitList; ISym (hx "6e616d65"); IElement; IFunc 10; IInitTuple; ISym (hx "62"); IDeRef (hx "6e616d65"); IField; ISym (hx "6f74686572"); IVal (LInt (9)%Z); IField; IVal (LStr (hx "62")); IIndex; IReturn; IVal (LStr (hx "782079")); ISym (hx "782079"); ISelectJump 4; IInitList; IVal (LInt (6)%Z); IElement; IJump 16; ISym (hx "666f6f"); ISelectJump 6; IInitList; IVal (LInt (42)%Z); IElement; IVal (LInt (19)%Z); IElement; IJump 8; ISym (hx "61"); ISelectJump 4; IInitList; IVal (LInt (8)%Z); IElement; IJump 2; IPop; IInitList; IRuntime HMap; IInitList; IVal (LBool false); ISym (hx "74727565"); ISelectJump 2; IVal (LInt (15)%Z); IJump 7; ISym (hx "66616c7365"); ISelectJump 2; IVal (LInt (2)%Z); IJump 3; IPop; IVal (LStr (hx "556e68616e646c65642073656c65637420636173652077697468206e6f2064656661756c74")); IBang; IElement; IVal (LInt (7)%Z); INot; IElement; IVal (LInt (4)%Z); IElement; IAdd; IVal (LStr (hx "61")); ISym (hx "626172"); ISelectJump 14; IInitList; ISym (hx "616363"); IElement; ISym (hx "74706c"); IElement; IFunc 2; IDeRef (hx "616363"); IReturn; IVal (LInt (3)%Z); IVal (LInt (10)%Z); IMul; IInitList; IRuntime HReduce; IJump 10; ISym (hx "61"); ISelectJump 2; IVal (LInt (9223372036854775807)%Z); IJump 6; IPop; IVal (LInt (4)%Z); IVal (LInt (0)%Z); IVal (LInt (18)%Z); ISub; IMod; IExist; IBind; ISym (hx "61"); IInitList; IInitTuple; ISym (hx "61"); IDeRef (hx "76616c"); IField; ISym (hx "76616c"); IInitList; ISym (hx "6b"); IElement; ISym (hx "74"); IElement; IFunc 2; IVal (LInt (3)%Z); IReturn; IVal (LInt (5)%Z); IInitList; IRuntime HReduce; IField; ISym (hx "6e616d65"); IInitTuple; ISym (hx "62"); IVal (LInt (0)%Z); IField; ISym (hx "6f74686572"); IVal (LInt (1)%Z); IField; IVal (LStr (hx "62")); IIndex; IField; IElement; IInitTuple; ISym (hx "61"); IVal (LBool false); IOr 1; IVal (LBool true); IField; ISym (hx "76616c"); IVal (LStr (hx "2d3432")); ICast CInt; IField; ISym (hx "6e616d65"); IInitTuple; ISym (hx "62"); IVal (LInt (13)%Z); IField; ISym (hx "6f74686572"); IVal (LInt (19)%Z); IField; IVal (LStr (hx "62")); IIndex; IField; IElement; IBind; ISym (hx "74"); IVal (LStr (hx "626f6f6d")); IVal (LStr (hx "55736572446566696e65643a20")); IAdd; IBang; INewScope 8; ISym (hx "6974656d"); IVal (LStr (hx "61")); IBindOver; IDeRef (hx "6974656d"); IRender; IVal (LStr (hx "c3a9")); IAdd; IReturn; ISym (hx "c3a9"); ISelectJump 3; IVal (LInt (57)%Z); ICast CFloat; IJump 14; IPop; IDeRef (hx "76616c"); INot; ISym (hx "74727565"); ISelectJump 2; IVal (LFloat 4602678819172646912%Z); IJump 7; ISym (hx "66616c7365"); ISelectJump 2; IVal (LFloat 4636737291354636288%Z); IJump 3; IPop; IVal (LInt (20)%Z); ICast CFloat; ISub; IBind; ISym (hx "64"); IInitList; ISym (hx "62"); IElement; IFunc 14; IVal (LStr (hx "7a7a7a")); ISym (hx "666f6f"); ISelectJump 2; IVal (LBool false); IJump 8; ISym (hx "c3a9"); ISelectJump 2; IDeRef (hx "76616c"); IJump 4; IPop; IDeRef (hx "76616c"); IDeRef (hx "76616c"); IEqual; IReturn; IInitTuple; ISym (hx "76616c"); IDeRef (hx "76616c"); ISym (hx "74727565"); ISelectJump 2; IVal (LStr (hx "6c696e6520627265616b")); IJump 6; ISym (hx "66616c7365"); ISelectJump 2; IVal (LStr (hx "61")); IJump 2; IPop; IVal (LStr (hx "40")); IField; ISym (hx "6f74686572"); IVal (LInt (18)%Z); IField; IVal (LStr (hx "76616c")); IIndex; IRuntime HFilter; IVal (LStr (hx "666f6f")); IVal (LStr (hx "666f6f")); IAdd; ISym (hx "626172"); ISelectJump 2; IVal (LStr (hx "c3a9")); IJump 10; ISym (hx "782079"); ISelectJump 2; IVal (LStr (hx "712271")); IJump 6; ISym (hx "666f6f"); ISelectJump 2; IVal (LStr (hx "7475706c65")); IJump 2; IPop; IVal (LStr (hx "712271")); IDeRef (hx "76616c"); IAnd 1; IVal (LBool true); ISym (hx "74727565"); ISelectJump 12; IVal (LBool false); ISym (hx "74727565"); ISelectJump 2; IVal (LStr (hx "31")); IJump 6; ISym (hx "66616c7365"); ISelectJump 2; IVal (LStr (hx "712271")); IJump 2; IPop; IVal (LStr (hx "7475706c65")); IJump 11; ISym (hx "66616c7365"); ISelectJump 5; IVal (LStr (hx "625c73")); IRender; IVal (LStr (hx "")); IAdd; IJump 4; IPop; IVal (LStr (hx "31")); IVal (LStr (hx "626172")); IAdd; IAdd; IAdd; IBind; ISym (hx "64617461"); IDeRef (hx "64"); IBind].
Proof. reflexivity. Qed.
(* let n = [select (``, {`é` = 1.5, x = 2}) => {`é` = {`é` = [0.125, 1.5] . 1, x = int(`12`), `é` = {a = 0.125, other = 5} . a}}, {`é` = reduce(func (x1, acc) => 7.0 - x1, float(9), map(func (it) => 0.25, [])), x = int([10, 10, 1] . 0)}, select (`` + `q\`q` == `q\`q`) => {`true` = {`é` = 0.0, x = {val = 14, other = 20} . val}, `false` = {`é` = select (`bar`, 7.0) => {bar = 1.5}, x = select (`é`, 16) => {bar = 3}}}] . 1; let foo = (float(0.0) * (select (false) => {`true` = 0.0, `false` = 0.25}) <= {a = 1024.0 - 0.125, other = 7} . a); select (`nokey`) => {a = 19}; let a = {b = select (`é`, {val = select (foo, {`é` = {k1 = 9, x = 100, port = 3}, y = true}) => {`true` = {`é` = {k1 = 11, x = 18, port = 4}, y = true}}, other = 1} . val) => {bar = {`é` = {k1 = 9, x = 2, port = 7}, y = {a = false, other = 2} . a}, `é` = {`é` = [{k1 = 2, x = 5, port = 14}, {k1 = 1, x = 9223372036854775806, port = 11}, {k1 = 6, x = 5, port = 16}] . 1, y = foo}}, other = 12} . b; let it = func () => (select (foo) => {`true` = 0.125 * 0.125, `false` = 0.5}) + (100.0 + 2.0); let b = 0 - n . x;  *)
Example tr_gen_29 : translate [SLet (hx "6e") (EBin DOT (EList [(ESelect (EStr (hx "")) (Some (ETuple [((hx "c3a9"), (EFloat 4609434218613702656%Z)); ((hx "78"), (EInt (2)%Z))])) [((hx "c3a9"), (ETuple [((hx "c3a9"), (EBin DOT (EList [(EFloat 4593671619917905920%Z); (EFloat 4609434218613702656%Z)]) (EInt (1)%Z))); ((hx "78"), (ECast CInt (EStr (hx "3132")))); ((hx "c3a9"), (EBin DOT (ETuple [((hx "61"), (EFloat 4593671619917905920%Z)); ((hx "6f74686572"), (EInt (5)%Z))]) (ESym (hx "61"))))]))]); (ETuple [((hx "c3a9"), (EReduce (EFunc [(hx "7831"); (hx "616363")] (EBin Sub (EFloat 4619567317775286272%Z) (ESym (hx "7831")))) (ECast CFloat (EInt (9)%Z)) (EMap (EFunc [(hx "6974")] (EFloat 4598175219545276416%Z)) (EList [])))); ((hx "78"), (ECast CInt (EBin DOT (EList [(EInt (10)%Z); (EInt (10)%Z); (EInt (1)%Z)]) (EInt (0)%Z))))]); (ESelect (EBin Equal (EBin Add (EStr (hx "")) (EStr (hx "712271"))) (EStr (hx "712271"))) None [((hx "74727565"), (ETuple [((hx "c3a9"), (EFloat 0%Z)); ((hx "78"), (EBin DOT (ETuple [((hx "76616c"), (EInt (14)%Z)); ((hx "6f74686572"), (EInt (20)%Z))]) (ESym (hx "76616c"))))])); ((hx "66616c7365"), (ETuple [((hx "c3a9"), (ESelect (EStr (hx "626172")) (Some (EFloat 4619567317775286272%Z)) [((hx "626172"), (EFloat 4609434218613702656%Z))])); ((hx "78"), (ESelect (EStr (hx "c3a9")) (Some (EInt (16)%Z)) [((hx "626172"), (EInt (3)%Z))]))]))])]) (EInt (1)%Z)); SLet (hx "666f6f") (EGroup (EBin LTEqual (EBin Mul (ECast CFloat (EFloat 0%Z)) (EGroup (ESelect (EBool false) None [((hx "74727565"), (EFloat 0%Z)); ((hx "66616c7365"), (EFloat 4598175219545276416%Z))]))) (EBin DOT (ETuple [((hx "61"), (EBin Sub (EFloat 4652218415073722368%Z) (EFloat 4593671619917905920%Z))); ((hx "6f74686572"), (EInt (7)%Z))]) (ESym (hx "61"))))); SExpr (ESelect (EStr (hx "6e6f6b6579")) None [((hx "61"), (EInt (19)%Z))]); SLet (hx "61") (EBin DOT (ETuple [((hx "62"), (ESelect (EStr (hx "c3a9")) (Some (EBin DOT (ETuple [((hx "76616c"), (ESelect (ESym (hx "666f6f")) (Some (ETuple [((hx "c3a9"), (ETuple [((hx "6b31"), (EInt (9)%Z)); ((hx "78"), (EInt (100)%Z)); ((hx "706f7274"), (EInt (3)%Z))])); ((hx "79"), (EBool true))])) [((hx "74727565"), (ETuple [((hx "c3a9"), (ETuple [((hx "6b31"), (EInt (11)%Z)); ((hx "78"), (EInt (18)%Z)); ((hx "706f7274"), (EInt (4)%Z))])); ((hx "79"), (EBool true))]))])); ((hx "6f74686572"), (EInt (1)%Z))]) (ESym (hx "76616c")))) [((hx "626172"), (ETuple [((hx "c3a9"), (ETuple [((hx "6b31"), (EInt (9)%Z)); ((hx "78"), (EInt (2)%Z)); ((hx "706f7274"), (EInt (7)%Z))])); ((hx "79"), (EBin DOT (ETuple [((hx "61"), (EBool false)); ((hx "6f74686572"), (EInt (2)%Z))]) (ESym (hx "61"))))])); ((hx "c3a9"), (ETuple [((hx "c3a9"), (EBin DOT (EList [(ETuple [((hx "6b31"), (EInt (2)%Z)); ((hx "78"), (EInt (5)%Z)); ((hx "706f7274"), (EInt (14)%Z))]); (ETuple [((hx "6b31"), (EInt (1)%Z)); ((hx "78"), (EInt (9223372036854775806)%Z)); ((hx "706f7274"), (EInt (11)%Z))]); (ETuple [((hx "6b31"), (EInt (6)%Z)); ((hx "78"), (EInt (5)%Z)); ((hx "706f7274"), (EInt (16)%Z))])]) (EInt (1)%Z))); ((hx "79"), (ESym (hx "666f6f")))]))])); ((hx "6f74686572"), (EInt (12)%Z))]) (ESym (hx "62"))); SLet (hx "6974") (EFunc [] (EBin Add (EGroup (ESelect (ESym (hx "666f6f")) None [((hx "74727565"), (EBin Mul (EFloat 4593671619917905920%Z) (EFloat 4593671619917905920%Z))); ((hx "66616c7365"), (EFloat 4602678819172646912%Z))])) (EGroup (EBin Add (EFloat 4636737291354636288%Z) (EFloat 4611686018427387904%Z))))); SLet (hx "62") (EBin Sub (EInt (0)%Z) (EBin DOT (ESym (hx "6e")) (ESym (hx "78"))))] = [ISym (hx "6e"); IInitList; IVal (LStr (hx "")); ISym (hx "c3a9"); ISelectJump 26; IInitTuple; ISym (hx "c3a9"); IInitList; IVal (LFloat 4593671619917905920%Z); IElement; IVal (LFloat 4609434218613702656%Z); IElement; IVal (LInt (1)%Z); IIndex; IField; ISym (hx "78"); IVal (LStr (hx "3132")); ICast CInt; IField; ISym (hx "c3a9"); IInitTuple; ISym (hx "61"); IVal (LFloat 4593671619917905920%Z); IField; ISym (hx "6f74686572"); IVal (LInt (5)%Z); IField; IVal (LStr (hx "61")); IIndex; IField; IJump 8; IPop; IInitTuple; ISym (hx "c3a9"); IVal (LFloat 4609434218613702656%Z); IField; ISym (hx "78"); IVal (LInt (2)%Z); IField; IElement; IInitTuple; ISym (hx "c3a9"); IInitList; ISym (hx "7831"); IElement; ISym (hx "616363"); IElement; IFunc 4; IDeRef (hx "7831"); IVal (LFloat 4619567317775286272%Z); ISub; IReturn; IVal (LInt (9)%Z); ICast CFloat; IInitList; ISym (hx "6974"); IElement; IFunc 2; IVal (LFloat 4598175219545276416%Z); IReturn; IInitList; IRuntime HMap; IRuntime HReduce; IField; ISym (hx "78"); IInitList; IVal (LInt (10)%Z); IElement; IVal (LInt (10)%Z); IElement; IVal (LInt (1)%Z); IElement; IVal (LInt (0)%Z); IIndex; ICast CInt; IField; IElement; IVal (LStr (hx "712271")); IVal (LStr (hx "712271")); IVal (LStr (hx "")); IAdd; IEqual; ISym (hx "74727565"); ISelectJump 16; IInitTuple; ISym (hx "c3a9"); IVal (LFloat 0%Z); IField; ISym (hx "78"); IInitTuple; ISym (hx "76616c"); IVal (LInt (14)%Z); IField; ISym (hx "6f74686572"); IVal (LInt (20)%Z); IField; IVal (LStr (hx "76616c")); IIndex; IField; IJump 25; ISym (hx "66616c7365"); ISelectJump 20; IInitTuple; ISym (hx "c3a9"); IVal (LStr (hx "626172")); ISym (hx "626172"); ISelectJump 2; IVal (LFloat 4609434218613702656%Z); IJump 2; IPop; IVal (LFloat 4619567317775286272%Z); IField; ISym (hx "78"); IVal (LStr (hx "c3a9")); ISym (hx "626172"); ISelectJump 2; IVal (LInt (3)%Z); IJump 2; IPop; IVal (LInt (16)%Z); IField; IJump 3; IPop; IVal (LStr (hx "556e68616e646c65642073656c65637420636173652077697468206e6f2064656661756c74")); IBang; IElement; IVal (LInt (1)%Z); IIndex; IBind; ISym (hx "666f6f"); IInitTuple; ISym (hx "61"); IVal (LFloat 4593671619917905920%Z); IVal (LFloat 4652218415073722368%Z); ISub; IField; ISym (hx "6f74686572"); IVal (LInt (7)%Z); IField; IVal (LStr (hx "61")); IIndex; IVal (LBool false); ISym (hx "74727565"); ISelectJump 2; IVal (LFloat 0%Z); IJump 7; ISym (hx "66616c7365"); ISelectJump 2; IVal (LFloat 4598175219545276416%Z); IJump 3; IPop; IVal (LStr (hx "556e68616e646c65642073656c65637420636173652077697468206e6f2064656661756c74")); IBang; IVal (LFloat 0%Z); ICast CFloat; IMul; ILtEq; IBind; IVal (LStr (hx "6e6f6b6579")); ISym (hx "61"); ISelectJump 2; IVal (LInt (19)%Z); IJump 3; IPop; IVal (LStr (hx "556e68616e646c65642073656c65637420636173652077697468206e6f2064656661756c74")); IBang; IPop; ISym (hx "61"); IInitTuple; ISym (hx "62"); IVal (LStr (hx "c3a9")); ISym (hx "626172"); ISelectJump 25; IInitTuple; ISym (hx "c3a9"); IInitTuple; ISym (hx "6b31"); IVal (LInt (9)%Z); IField; ISym (hx "78"); IVal (LInt (2)%Z); IField; ISym (hx "706f7274"); IVal (LInt (7)%Z); IField; IField; ISym (hx "79"); IInitTuple; ISym (hx "61"); IVal (LBool false); IField; ISym (hx "6f74686572"); IVal (LInt (2)%Z); IField; IVal (LStr (hx "61")); IIndex; IField; IJump 91; ISym (hx "c3a9"); ISelectJump 43; IInitTuple; ISym (hx "c3a9"); IInitList; IInitTuple; ISym (hx "6b31"); IVal (LInt (2)%Z); IField; ISym (hx "78"); IVal (LInt (5)%Z); IField; ISym (hx "706f7274"); IVal (LInt (14)%Z); IField; IElement; IInitTuple; ISym (hx "6b31"); IVal (LInt (1)%Z); IField; ISym (hx "78"); IVal (LInt (9223372036854775806)%Z); IField; ISym (hx "706f7274"); IVal (LInt (11)%Z); IField; IElement; IInitTuple; ISym (hx "6b31"); IVal (LInt (6)%Z); IField; ISym (hx "78"); IVal (LInt (5)%Z); IField; ISym (hx "706f7274"); IVal (LInt (16)%Z); IField; IElement; IVal (LInt (1)%Z); IIndex; IField; ISym (hx "79"); IDeRef (hx "666f6f"); IField; IJump 46; IPop; IInitTuple; ISym (hx "76616c"); IDeRef (hx "666f6f"); ISym (hx "74727565"); ISelectJump 17; IInitTuple; ISym (hx "c3a9"); IInitTuple; ISym (hx "6b31"); IVal (LInt (11)%Z); IField; ISym (hx "78"); IVal (LInt (18)%Z); IField; ISym (hx "706f7274"); IVal (LInt (4)%Z); IField; IField; ISym (hx "79"); IVal (LBool true); IField; IJump 17; IPop; IInitTuple; ISym (hx "c3a9"); IInitTuple; ISym (hx "6b31"); IVal (LInt (9)%Z); IField; ISym (hx "78"); IVal (LInt (100)%Z); IField; ISym (hx "706f7274"); IVal (LInt (3)%Z); IField; IField; ISym (hx "79"); IVal (LBool true); IField; IField; ISym (hx "6f74686572"); IVal (LInt (1)%Z); IField; IVal (LStr (hx "76616c")); IIndex; IField; ISym (hx "6f74686572"); IVal (LInt (12)%Z); IField; IVal (LStr (hx "62")); IIndex; IBind; ISym (hx "6974"); IInitList; IFunc 19; IVal (LFloat 4611686018427387904%Z); IVal (LFloat 4636737291354636288%Z); IAdd; IDeRef (hx "666f6f"); ISym (hx "74727565"); ISelectJump 4; IVal (LFloat 4593671619917905920%Z); IVal (LFloat 4593671619917905920%Z); IMul; IJump 7; ISym (hx "66616c7365"); ISelectJump 2; IVal (LFloat 4602678819172646912%Z); IJump 3; IPop; IVal (LStr (hx "556e68616e646c65642073656c65637420636173652077697468206e6f2064656661756c74")); IBang; IAdd; IReturn; IBind; ISym (hx "62"); IDeRef (hx "6e"); IVal (LStr (hx "78")); IIndex; IVal (LInt (0)%Z); ISub; IBind].
Proof. reflexivity. Qed.
(* let k = str(reduce(func (y2, cfg) => `a@` % (false), `é`, select (`é`, `日本`) => {`é` = (`true`)})); let k = 8; let n = {name = filter(func (name, y2) => true, select (bool(`yes`), {b = {x = 1}, other = 3} . b) => {`true` = reduce(func (x1, foo) => {x = 7}, {x = 2}, [])})}; let d = ((TRACE k)) + k + str(7); {host = 8, inner = k, x = k + k + k}; let b = 0.5;  *)
Example tr_gen_30 : translate [SLet (hx "6b") (ECast CStr (EReduce (EFunc [(hx "7932"); (hx "636667")] (EFormatL [PStr (hx "61"); PHole] [(EBool false)])) (EStr (hx "c3a9")) (ESelect (EStr (hx "c3a9")) (Some (EStr (hx "e697a5e69cac"))) [((hx "c3a9"), (EGroup (EStr (hx "74727565"))))]))); SLet (hx "6b") (EInt (8)%Z); SLet (hx "6e") (ETuple [((hx "6e616d65"), (EFilter (EFunc [(hx "6e616d65"); (hx "7932")] (EBool true)) (ESelect (ECast CBool (EStr (hx "796573"))) (Some (EBin DOT (ETuple [((hx "62"), (ETuple [((hx "78"), (EInt (1)%Z))])); ((hx "6f74686572"), (EInt (3)%Z))]) (ESym (hx "62")))) [((hx "74727565"), (EReduce (EFunc [(hx "7831"); (hx "666f6f")] (ETuple [((hx "78"), (EInt (7)%Z))])) (ETuple [((hx "78"), (EInt (2)%Z))]) (EList [])))])))]); SLet (hx "64") (EBin Add (EBin Add (EGroup (EGroup (ETrace (ESym (hx "6b"))))) (ESym (hx "6b"))) (ECast CStr (EInt (7)%Z))); SExpr (ETuple [((hx "686f7374"), (EInt (8)%Z)); ((hx "696e6e6572"), (ESym (hx "6b"))); ((hx "78"), (EBin Add (EBin Add (ESym (hx "6b")) (ESym (hx "6b"))) (ESym (hx "6b"))))]); SLet (hx "62") (EFloat 4602678819172646912%Z)] = [ISym (hx "6b"); IInitList; ISym (hx "7932"); IElement; ISym (hx "636667"); IElement; IFunc 5; IVal (LBool false); IRender; IVal (LStr (hx "61")); IAdd; IReturn; IVal (LStr (hx "c3a9")); IVal (LStr (hx "c3a9")); ISym (hx "c3a9"); ISelectJump 2; IVal (LStr (hx "74727565")); IJump 2; IPop; IVal (LStr (hx "e697a5e69cac")); IRuntime HReduce; ICast CStr; IBind; ISym (hx "6b"); IVal (LInt (8)%Z); IBind; ISym (hx "6e"); IInitTuple; ISym (hx "6e616d65"); IInitList; ISym (hx "6e616d65"); IElement; ISym (hx "7932"); IElement; IFunc 2; IVal (LBool true); IReturn; IVal (LStr (hx "796573")); ICast CBool; ISym (hx "74727565"); ISelectJump 18; IInitList; ISym (hx "7831"); IElement; ISym (hx "666f6f"); IElement; IFunc 5; IInitTuple; ISym (hx "78"); IVal (LInt (7)%Z); IField; IReturn; IInitTuple; ISym (hx "78"); IVal (LInt (2)%Z); IField; IInitList; IRuntime HReduce; IJump 13; IPop; IInitTuple; ISym (hx "62"); IInitTuple; ISym (hx "78"); IVal (LInt (1)%Z); IField; IField; ISym (hx "6f74686572"); IVal (LInt (3)%Z); IField; IVal (LStr (hx "62")); IIndex; IRuntime HFilter; IField; IBind; ISym (hx "64"); IVal (LInt (7)%Z); ICast CStr; IDeRef (hx "6b"); IVal (LStr trace_text); IDeRef (hx "6b"); IRuntime HTrace; IAdd; IAdd; IBind; IInitTuple; ISym (hx "686f7374"); IVal (LInt (8)%Z); IField; ISym (hx "696e6e6572"); IDeRef (hx "6b"); IField; ISym (hx "78"); IDeRef (hx "6b"); IDeRef (hx "6b"); IDeRef (hx "6b"); IAdd; IAdd; IField; IPop; ISym (hx "62"); IVal (LFloat 4602678819172646912%Z); IBind].
Proof. reflexivity. Qed.
(* let m = [1 * (14 - 2) - {a = 5} . missing, {b = (0 - 0) * 9, other = 0} . b]; let it = `<@{item}>@{item}` % `foo`; let t = it + it; let cfg = module {port = 0.0, host = 12} => (({b = mod . host, other = 17} . b)) { let cfg = true; let lst = (select (`é`, `tuple`) => {a = `@`, `é` = `@`, bar = ``}) + str(`x y`); }; let x1 = {`quoted field` = (zz in {a = 7, name = t, a = 20}) && false, `é` = select ((select (false, true) => {`true` = false}) && (3.75 <= 1.5), {b = (TRACE 12), name = `a`}) => {`true` = {b = int(5), name = filter(func (k) => false, `1`)}, `false` = {val = {b = 8, name = it}, other = 0} . val}, name = m . 0}; let n = module {p = `true`, cnt = 1, q = 14} => { let acc = map(func (foo) => str(foo), (`<@{item}` % {a = 5, name = `@`})); let foo = reduce(func (c, t) => c, {inner = ``}, ([[10], []] . 1)); };  *)
Example tr_gen_31 : translate [SLet (hx "6d") (EList [(EBin Sub (EBin Mul (EInt (1)%Z) (EGroup (EBin Sub (EInt (14)%Z) (EInt (2)%Z)))) (EBin DOT (ETuple [((hx "61"), (EInt (5)%Z))]) (ESym (hx "6d697373696e67")))); (EBin DOT (ETuple [((hx "62"), (EBin Mul (EGroup (EBin Sub (EInt (0)%Z) (EInt (0)%Z))) (EInt (9)%Z))); ((hx "6f74686572"), (EInt (0)%Z))]) (ESym (hx "62")))]); SLet (hx "6974") (EFormatS [PStr (hx "3c"); PExpr (ESym (hx "6974656d")); PStr (hx "3e"); PExpr (ESym (hx "6974656d"))] (EStr (hx "666f6f"))); SLet (hx "74") (EBin Add (ESym (hx "6974")) (ESym (hx "6974"))); SLet (hx "636667") (EModule [((hx "706f7274"), (EFloat 0%Z)); ((hx "686f7374"), (EInt (12)%Z))] (Some (EGroup (EBin DOT (ETuple [((hx "62"), (EBin DOT (ESym (hx "6d6f64")) (ESym (hx "686f7374")))); ((hx "6f74686572"), (EInt (17)%Z))]) (ESym (hx "62"))))) [SLet (hx "636667") (EBool true); SLet (hx "6c7374") (EBin Add (EGroup (ESelect (EStr (hx "c3a9")) (Some (EStr (hx "7475706c65"))) [((hx "61"), (EStr (hx "40"))); ((hx "c3a9"), (EStr (hx "40"))); ((hx "626172"), (EStr (hx "")))])) (ECast CStr (EStr (hx "782079"))))]); SLet (hx "7831") (ETuple [((hx "71756f746564206669656c64"), (EBin AND (EGroup (EBin IN (ESym (hx "7a7a")) (ETuple [((hx "61"), (EInt (7)%Z)); ((hx "6e616d65"), (ESym (hx "74"))); ((hx "61"), (EInt (20)%Z))]))) (EBool false))); ((hx "c3a9"), (ESelect (EBin AND (EGroup (ESelect (EBool false) (Some (EBool true)) [((hx "74727565"), (EBool false))])) (EGroup (EBin LTEqual (EFloat 4615626668101337088%Z) (EFloat 4609434218613702656%Z)))) (Some (ETuple [((hx "62"), (EGroup (ETrace (EInt (12)%Z)))); ((hx "6e616d65"), (EStr (hx "61")))])) [((hx "74727565"), (ETuple [((hx "62"), (ECast CInt (EInt (5)%Z))); ((hx "6e616d65"), (EFilter (EFunc [(hx "6b")] (EBool false)) (EStr (hx "31"))))])); ((hx "66616c7365"), (EBin DOT (ETuple [((hx "76616c"), (ETuple [((hx "62"), (EInt (8)%Z)); ((hx "6e616d65"), (ESym (hx "6974")))])); ((hx "6f74686572"), (EInt (0)%Z))]) (ESym (hx "76616c"))))])); ((hx "6e616d65"), (EBin DOT (ESym (hx "6d")) (EInt (0)%Z)))]); SLet (hx "6e") (EModule [((hx "70"), (EStr (hx "74727565"))); ((hx "636e74"), (EInt (1)%Z)); ((hx "71"), (EInt (14)%Z))] None [SLet (hx "616363") (EMap (EFunc [(hx "666f6f")] (ECast CStr (ESym (hx "666f6f")))) (EGroup (EFormatS [PStr (hx "3c"); PExpr (ESym (hx "6974656d"))] (ETuple [((hx "61"), (EInt (5)%Z)); ((hx "6e616d65"), (EStr (hx "40")))])))); SLet (hx "666f6f") (EReduce (EFunc [(hx "63"); (hx "74")] (ESym (hx "63"))) (ETuple [((hx "696e6e6572"), (EStr (hx "")))]) (EGroup (EBin DOT (EList [(EList [(EInt (10)%Z)]); (EList [])]) (EInt (1)%Z))))])] = [ISym (hx "6d"); IInitList; IInitTuple; ISym (hx "61"); IVal (LInt (5)%Z); IField; IVal (LStr (hx "6d697373696e67")); IIndex; IVal (LInt (2)%Z); IVal (LInt (14)%Z); ISub; IVal (LInt (1)%Z); IMul; ISub; IElement; IInitTuple; ISym (hx "62"); IVal (LInt (9)%Z); IVal (LInt (0)%Z); IVal (LInt (0)%Z); ISub; IMul; IField; ISym (hx "6f74686572"); IVal (LInt (0)%Z); IField; IVal (LStr (hx "62")); IIndex; IElement; IBind; ISym (hx "6974"); INewScope 13; ISym (hx "6974656d"); IVal (LStr (hx "666f6f")); IBindOver; IDeRef (hx "6974656d"); IRender; IVal (LStr (hx "3e")); IAdd; IDeRef (hx "6974656d"); IRender; IAdd; IVal (LStr (hx "3c")); IAdd; IReturn; IBind; ISym (hx "74"); IDeRef (hx "6974"); IDeRef (hx "6974"); IAdd; IBind; ISym (hx "636667"); IInitTuple; ISym (hx "706f7274"); IVal (LFloat 0%Z); IField; ISym (hx "686f7374"); IVal (LInt (12)%Z); IField; IInitThunk 12; IInitTuple; ISym (hx "62"); IDeRef (hx "6d6f64"); IVal (LStr (hx "686f7374")); IIndex; IField; ISym (hx "6f74686572"); IVal (LInt (17)%Z); IField; IVal (LStr (hx "62")); IIndex; IReturn; IModule 25; IBind; ISym (hx "636667"); IVal (LBool true); IBind; ISym (hx "6c7374"); IVal (LStr (hx "782079")); ICast CStr; IVal (LStr (hx "c3a9")); ISym (hx "61"); ISelectJump 2; IVal (LStr (hx "40")); IJump 10; ISym (hx "c3a9"); ISelectJump 2; IVal (LStr (hx "40")); IJump 6; ISym (hx "626172"); ISelectJump 2; IVal (LStr (hx "")); IJump 2; IPop; IVal (LStr (hx "7475706c65")); IAdd; IBind; IReturn; IBind; ISym (hx "7831"); IInitTuple; ISym (hx "71756f746564206669656c64"); IInitTuple; ISym (hx "61"); IVal (LInt (7)%Z); IField; ISym (hx "6e616d65"); IDeRef (hx "74"); IField; ISym (hx "61"); IVal (LInt (20)%Z); IField; IVal (LStr (hx "7475706c65")); IInitTuple; ISym (hx "61"); IVal (LInt (7)%Z); IField; ISym (hx "6e616d65"); IDeRef (hx "74"); IField; ISym (hx "61"); IVal (LInt (20)%Z); IField; ITyp; IEqual; ISym (hx "74727565"); ISelectJump 2; IVal (LStr (hx "7a7a")); IJump 2; IPop; IDeRef (hx "7a7a"); IExist; IAnd 1; IVal (LBool false); IField; ISym (hx "c3a9"); IVal (LBool false); ISym (hx "74727565"); ISelectJump 2; IVal (LBool false); IJump 2; IPop; IVal (LBool true); IAnd 3; IVal (LFloat 4609434218613702656%Z); IVal (LFloat 4615626668101337088%Z); ILtEq; ISym (hx "74727565"); ISelectJump 16; IInitTuple; ISym (hx "62"); IVal (LInt (5)%Z); ICast CInt; IField; ISym (hx "6e616d65"); IInitList; ISym (hx "6b"); IElement; IFunc 2; IVal (LBool false); IReturn; IVal (LStr (hx "31")); IRuntime HFilter; IField; IJump 28; ISym (hx "66616c7365"); ISelectJump 16; IInitTuple; ISym (hx "76616c"); IInitTuple; ISym (hx "62"); IVal (LInt (8)%Z); IField; ISym (hx "6e616d65"); IDeRef (hx "6974"); IField; IField; ISym (hx "6f74686572"); IVal (LInt (0)%Z); IField; IVal (LStr (hx "76616c")); IIndex; IJump 10; IPop; IInitTuple; ISym (hx "62"); IVal (LStr trace_text); IVal (LInt (12)%Z); IRuntime HTrace; IField; ISym (hx "6e616d65"); IVal (LStr (hx "61")); IField; IField; ISym (hx "6e616d65"); IDeRef (hx "6d"); IVal (LInt (0)%Z); IIndex; IField; IBind; ISym (hx "6e"); IInitTuple; ISym (hx "70"); IVal (LStr (hx "74727565")); IField; ISym (hx "636e74"); IVal (LInt (1)%Z); IField; ISym (hx "71"); IVal (LInt (14)%Z); IField; IModule 51; IBind; ISym (hx "616363"); IInitList; ISym (hx "666f6f"); IElement; IFunc 3; IDeRef (hx "666f6f"); ICast CStr; IReturn; INewScope 14; ISym (hx "6974656d"); IInitTuple; ISym (hx "61"); IVal (LInt (5)%Z); IField; ISym (hx "6e616d65"); IVal (LStr (hx "40")); IField; IBindOver; IDeRef (hx "6974656d"); IRender; IVal (LStr (hx "3c")); IAdd; IReturn; IRuntime HMap; IBind; ISym (hx "666f6f"); IInitList; ISym (hx "63"); IElement; ISym (hx "74"); IElement; IFunc 2; IDeRef (hx "63"); IReturn; IInitTuple; ISym (hx "696e6e6572"); IVal (LStr (hx "")); IField; IInitList; IInitList; IVal (LInt (10)%Z); IElement; IElement; IInitList; IElement; IVal (LInt (1)%Z); IIndex; IRuntime HReduce; IBind; IReturn; IBind].
Proof. reflexivity. Qed.
(* let acc = 6 - (not 4611686018427387904) - 12; let k = [({port = 42} != reduce(func (lst, v) => {port = 5}, {port = 10}, [true])) || bool(`yes`), `name` in {a = 2 * acc, name = str(`tuple`)}] . 2; let v = {b = filter(func (n, data) => true, {val = reduce(func (m, bar) => `q\`q`, `tuple`, [11, 8]), name = select (k) => {`true` = `tuple`, `false` = `true`}})}; let t = [((select (k, 1.5) => {`true` = 100.0, `false` = 0.5}) - float(100.0)) * (TRACE 0.125), (select (k) => {`true` = 1.5, `false` = select (`b\\s`, 7.0) => {`é` = 0.0}}) * reduce(func (c, d) => c, 3.75, [`line break`, `line break`]), 2.0 / (float(3.75) + 1024.0 / 3.75)] . 3; let val = {name = select (bool(`yes`)) => {`true` = `\\@@{item . name}@{item} @{item}` % {a = acc, name = `@`}, `false` = reduce(func (y2, tpl) => {b = tpl, other = 18} . b, map(func (x1) => x1, ``), str(acc))}, val = 0.125, k1 = 1:0}; let a = ({`é` = k, k1 = [not 9] . 0});  *)
Example tr_gen_32 : translate [SLet (hx "616363") (EBin Sub (EBin Sub (EInt (6)%Z) (EGroup (ENot (EInt (4611686018427387904)%Z)))) (EInt (12)%Z)); SLet (hx "6b") (EBin DOT (EList [(EBin OR (EGroup (EBin NotEqual (ETuple [((hx "706f7274"), (EInt (42)%Z))]) (EReduce (EFunc [(hx "6c7374"); (hx "76")] (ETuple [((hx "706f7274"), (EInt (5)%Z))])) (ETuple [((hx "706f7274"), (EInt (10)%Z))]) (EList [(EBool true)])))) (ECast CBool (EStr (hx "796573")))); (EBin IN (EStr (hx "6e616d65")) (ETuple [((hx "61"), (EBin Mul (EInt (2)%Z) (ESym (hx "616363")))); ((hx "6e616d65"), (ECast CStr (EStr (hx "7475706c65"))))]))]) (EInt (2)%Z)); SLet (hx "76") (ETuple [((hx "62"), (EFilter (EFunc [(hx "6e"); (hx "64617461")] (EBool true)) (ETuple [((hx "76616c"), (EReduce (EFunc [(hx "6d"); (hx "626172")] (EStr (hx "712271"))) (EStr (hx "7475706c65")) (EList [(EInt (11)%Z); (EInt (8)%Z)]))); ((hx "6e616d65"), (ESelect (ESym (hx "6b")) None [((hx "74727565"), (EStr (hx "7475706c65"))); ((hx "66616c7365"), (EStr (hx "74727565")))]))])))]); SLet (hx "74") (EBin DOT (EList [(EBin Mul (EGroup (EBin Sub (EGroup (ESelect (ESym (hx "6b")) (Some (EFloat 4609434218613702656%Z)) [((hx "74727565"), (EFloat 4636737291354636288%Z)); ((hx "66616c7365"), (EFloat 4602678819172646912%Z))])) (ECast CFloat (EFloat 4636737291354636288%Z)))) (EGroup (ETrace (EFloat 4593671619917905920%Z)))); (EBin Mul (EGroup (ESelect (ESym (hx "6b")) None [((hx "74727565"), (EFloat 4609434218613702656%Z)); ((hx "66616c7365"), (ESelect (EStr (hx "625c73")) (Some (EFloat 4619567317775286272%Z)) [((hx "c3a9"), (EFloat 0%Z))]))])) (EReduce (EFunc [(hx "63"); (hx "64")] (ESym (hx "63"))) (EFloat 4615626668101337088%Z) (EList [(EStr (hx "6c696e6520627265616b")); (EStr (hx "6c696e6520627265616b"))]))); (EBin Div (EFloat 4611686018427387904%Z) (EGroup (EBin Add (ECast CFloat (EFloat 4615626668101337088%Z)) (EBin Div (EFloat 4652218415073722368%Z) (EFloat 4615626668101337088%Z)))))]) (EInt (3)%Z)); SLet (hx "76616c") (ETuple [((hx "6e616d65"), (ESelect (ECast CBool (EStr (hx "796573"))) None [((hx "74727565"), (EFormatS [PStr (hx "40"); PExpr (EBin DOT (ESym (hx "6974656d")) (ESym (hx "6e616d65"))); PStr (hx ""); PExpr (ESym (hx "6974656d")); PStr (hx "20"); PExpr (ESym (hx "6974656d"))] (ETuple [((hx "61"), (ESym (hx "616363"))); ((hx "6e616d65"), (EStr (hx "40")))]))); ((hx "66616c7365"), (EReduce (EFunc [(hx "7932"); (hx "74706c")] (EBin DOT (ETuple [((hx "62"), (ESym (hx "74706c"))); ((hx "6f74686572"), (EInt (18)%Z))]) (ESym (hx "62")))) (EMap (EFunc [(hx "7831")] (ESym (hx "7831"))) (EStr (hx ""))) (ECast CStr (ESym (hx "616363")))))])); ((hx "76616c"), (EFloat 4593671619917905920%Z)); ((hx "6b31"), (ERange (EInt (1)%Z) None (EInt (0)%Z)))]); SLet (hx "61") (EGroup (ETuple [((hx "c3a9"), (ESym (hx "6b"))); ((hx "6b31"), (EBin DOT (EList [(ENot (EInt (9)%Z))]) (EInt (0)%Z)))]))] = [ISym (hx "616363"); IVal (LInt (12)%Z); IVal (LInt (4611686018427387904)%Z); INot; IVal (LInt (6)%Z); ISub; ISub; IBind; ISym (hx "6b"); IInitList; IInitList; ISym (hx "6c7374"); IElement; ISym (hx "76"); IElement; IFunc 5; IInitTuple; ISym (hx "706f7274"); IVal (LInt (5)%Z); IField; IReturn; IInitTuple; ISym (hx "706f7274"); IVal (LInt (10)%Z); IField; IInitList; IVal (LBool true); IElement; IRuntime HReduce; IInitTuple; ISym (hx "706f7274"); IVal (LInt (42)%Z); IField; IEqual; INot; IOr 2; IVal (LStr (hx "796573")); ICast CBool; IElement; IInitTuple; ISym (hx "61"); IDeRef (hx "616363"); IVal (LInt (2)%Z); IMul; IField; ISym (hx "6e616d65"); IVal (LStr (hx "7475706c65")); ICast CStr; IField; IVal (LStr (hx "6e616d65")); IExist; IElement; IVal (LInt (2)%Z); IIndex; IBind; ISym (hx "76"); IInitTuple; ISym (hx "62"); IInitList; ISym (hx "6e"); IElement; ISym (hx "64617461"); IElement; IFunc 2; IVal (LBool true); IReturn; IInitTuple; ISym (hx "76616c"); IInitList; ISym (hx "6d"); IElement; ISym (hx "626172"); IElement; IFunc 2; IVal (LStr (hx "712271")); IReturn; IVal (LStr (hx "7475706c65")); IInitList; IVal (LInt (11)%Z); IElement; IVal (LInt (8)%Z); IElement; IRuntime HReduce; IField; ISym (hx "6e616d65"); IDeRef (hx "6b"); ISym (hx "74727565"); ISelectJump 2; IVal (LStr (hx "7475706c65")); IJump 7; ISym (hx "66616c7365"); ISelectJump 2; IVal (LStr (hx "74727565")); IJump 3; IPop; IVal (LStr (hx "556e68616e646c65642073656c65637420636173652077697468206e6f2064656661756c74")); IBang; IField; IRuntime HFilter; IField; IBind; ISym (hx "74"); IInitList; IVal (LStr trace_text); IVal (LFloat 4593671619917905920%Z); IRuntime HTrace; IVal (LFloat 4636737291354636288%Z); ICast CFloat; IDeRef (hx "6b"); ISym (hx "74727565"); ISelectJump 2; IVal (LFloat 4636737291354636288%Z); IJump 6; ISym (hx "66616c7365"); ISelectJump 2; IVal (LFloat 4602678819172646912%Z); IJump 2; IPop; IVal (LFloat 4609434218613702656%Z); ISub; IMul; IElement; IInitList; ISym (hx "63"); IElement; ISym (hx "64"); IElement; IFunc 2; IDeRef (hx "63"); IReturn; IVal (LFloat 4615626668101337088%Z); IInitList; IVal (LStr (hx "6c696e6520627265616b")); IElement; IVal (LStr (hx "6c696e6520627265616b")); IElement; IRuntime HReduce; IDeRef (hx "6b"); ISym (hx "74727565"); ISelectJump 2; IVal (LFloat 4609434218613702656%Z); IJump 13; ISym (hx "66616c7365"); ISelectJump 8; IVal (LStr (hx "625c73")); ISym (hx "c3a9"); ISelectJump 2; IVal (LFloat 0%Z); IJump 2; IPop; IVal (LFloat 4619567317775286272%Z); IJump 3; IPop; IVal (LStr (hx "556e68616e646c65642073656c65637420636173652077697468206e6f2064656661756c74")); IBang; IMul; IElement; IVal (LFloat 4615626668101337088%Z); IVal (LFloat 4652218415073722368%Z); IDiv; IVal (LFloat 4615626668101337088%Z); ICast CFloat; IAdd; IVal (LFloat 4611686018427387904%Z); IDiv; IElement; IVal (LInt (3)%Z); IIndex; IBind; ISym (hx "76616c"); IInitTuple; ISym (hx "6e616d65"); IVal (LStr (hx "796573")); ICast CBool; ISym (hx "74727565"); ISelectJump 28; INewScope 26; ISym (hx "6974656d"); IInitTuple; ISym (hx "61"); IDeRef (hx "616363"); IField; ISym (hx "6e616d65"); IVal (LStr (hx "40")); IField; IBindOver; IDeRef (hx "6974656d"); IRender; IVal (LStr (hx "20")); IAdd; IDeRef (hx "6974656d"); IRender; IAdd; IVal (LStr (hx "")); IAdd; IDeRef (hx "6974656d"); IVal (LStr (hx "6e616d65")); IIndex; IRender; IAdd; IVal (LStr (hx "40")); IAdd; IReturn; IJump 33; ISym (hx "66616c7365"); ISelectJump 28; IInitList; ISym (hx "7932"); IElement; ISym (hx "74706c"); IElement; IFunc 10; IInitTuple; ISym (hx "62"); IDeRef (hx "74706c"); IField; ISym (hx "6f74686572"); IVal (LInt (18)%Z); IField; IVal (LStr (hx "62")); IIndex; IReturn; IInitList; ISym (hx "7831"); IElement; IFunc 2; IDeRef (hx "7831"); IReturn; IVal (LStr (hx "")); IRuntime HMap; IDeRef (hx "616363"); ICast CStr; IRuntime HReduce; IJump 3; IPop; IVal (LStr (hx "556e68616e646c65642073656c65637420636173652077697468206e6f2064656661756c74")); IBang; IField; ISym (hx "76616c"); IVal (LFloat 4593671619917905920%Z); IField; ISym (hx "6b31"); IVal (LInt (0)%Z); IVal LEmpty; IVal (LInt (1)%Z); IRuntime HRange; IField; IBind; ISym (hx "61"); IInitTuple; ISym (hx "c3a9"); IDeRef (hx "6b"); IField; ISym (hx "6b31"); IInitList; IVal (LInt (9)%Z); INot; IElement; IVal (LInt (0)%Z); IIndex; IField; IBind].
Proof. reflexivity. Qed.
(* let acc = 7; let name = func (y2, v, c) => `bar`; let foo = {name = 0.5 / 0.25 * [1024.0, 2.0, 0.125] . 0 - 0.25}; let x1 = bool(`yes`); let a = map(func (c) => select (5 == 10, (TRACE acc)) => {`true` = 1, `false` = acc + acc}, filter(func (it) => not it, map(func (cfg) => not x1, [13]))); let cfg = `line break` + (`@` % (a . 0)) + filter(func (y2) => (select (`é`) => {a = 100.0, `x y` = 2.0, `é` = 1.5}) > 2.0 * 0.5, `x y`);  *)
Example tr_gen_33 : translate [SLet (hx "616363") (EInt (7)%Z); SLet (hx "6e616d65") (EFunc [(hx "7932"); (hx "76"); (hx "63")] (EStr (hx "626172"))); SLet (hx "666f6f") (ETuple [((hx "6e616d65"), (EBin Sub (EBin Mul (EBin Div (EFloat 4602678819172646912%Z) (EFloat 4598175219545276416%Z)) (EBin DOT (EList [(EFloat 4652218415073722368%Z); (EFloat 4611686018427387904%Z); (EFloat 4593671619917905920%Z)]) (EInt (0)%Z))) (EFloat 4598175219545276416%Z)))]); SLet (hx "7831") (ECast CBool (EStr (hx "796573"))); SLet (hx "61") (EMap (EFunc [(hx "63")] (ESelect (EBin Equal (EInt (5)%Z) (EInt (10)%Z)) (Some (EGroup (ETrace (ESym (hx "616363"))))) [((hx "74727565"), (EInt (1)%Z)); ((hx "66616c7365"), (EBin Add (ESym (hx "616363")) (ESym (hx "616363"))))])) (EFilter (EFunc [(hx "6974")] (ENot (ESym (hx "6974")))) (EMap (EFunc [(hx "636667")] (ENot (ESym (hx "7831")))) (EList [(EInt (13)%Z)])))); SLet (hx "636667") (EBin Add (EBin Add (EStr (hx "6c696e6520627265616b")) (EGroup (EFormatL [PStr (hx ""); PHole] [(EBin DOT (ESym (hx "61")) (EInt (0)%Z))]))) (EFilter (EFunc [(hx "7932")] (EBin GT (EGroup (ESelect (EStr (hx "c3a9")) None [((hx "61"), (EFloat 4636737291354636288%Z)); ((hx "782079"), (EFloat 4611686018427387904%Z)); ((hx "c3a9"), (EFloat 4609434218613702656%Z))])) (EBin Mul (EFloat 4611686018427387904%Z) (EFloat 4602678819172646912%Z)))) (EStr (hx "782079"))))] = [ISym (hx "616363"); IVal (LInt (7)%Z); IBind; ISym (hx "6e616d65"); IInitList; ISym (hx "7932"); IElement; ISym (hx "76"); IElement; ISym (hx "63"); IElement; IFunc 2; IVal (LStr (hx "626172")); IReturn; IBind; ISym (hx "666f6f"); IInitTuple; ISym (hx "6e616d65"); IVal (LFloat 4598175219545276416%Z); IInitList; IVal (LFloat 4652218415073722368%Z); IElement; IVal (LFloat 4611686018427387904%Z); IElement; IVal (LFloat 4593671619917905920%Z); IElement; IVal (LInt (0)%Z); IIndex; IVal (LFloat 4598175219545276416%Z); IVal (LFloat 4602678819172646912%Z); IDiv; IMul; ISub; IField; IBind; ISym (hx "7831"); IVal (LStr (hx "796573")); ICast CBool; IBind; ISym (hx "61"); IInitList; ISym (hx "63"); IElement; IFunc 18; IVal (LInt (10)%Z); IVal (LInt (5)%Z); IEqual; ISym (hx "74727565"); ISelectJump 2; IVal (LInt (1)%Z); IJump 10; ISym (hx "66616c7365"); ISelectJump 4; IDeRef (hx "616363"); IDeRef (hx "616363"); IAdd; IJump 4; IPop; IVal (LStr trace_text); IDeRef (hx "616363"); IRuntime HTrace; IReturn; IInitList; ISym (hx "6974"); IElement; IFunc 3; IDeRef (hx "6974"); INot; IReturn; IInitList; ISym (hx "636667"); IElement; IFunc 3; IDeRef (hx "7831"); INot; IReturn; IInitList; IVal (LInt (13)%Z); IElement; IRuntime HMap; IRuntime HFilter; IRuntime HMap; IBind; ISym (hx "636667"); IInitList; ISym (hx "7932"); IElement; IFunc 21; IVal (LFloat 4602678819172646912%Z); IVal (LFloat 4611686018427387904%Z); IMul; IVal (LStr (hx "c3a9")); ISym (hx "61"); ISelectJump 2; IVal (LFloat 4636737291354636288%Z); IJump 11; ISym (hx "782079"); ISelectJump 2; IVal (LFloat 4611686018427387904%Z); IJump 7; ISym (hx "c3a9"); ISelectJump 2; IVal (LFloat 4609434218613702656%Z); IJump 3; IPop; IVal (LStr (hx "556e68616e646c65642073656c65637420636173652077697468206e6f2064656661756c74")); IBang; IGt; IReturn; IVal (LStr (hx "782079")); IRuntime HFilter; IDeRef (hx "61"); IVal (LInt (0)%Z); IIndex; IRender; IVal (LStr (hx "")); IAdd; IVal (LStr (hx "6c696e6520627265616b")); IAdd; IAdd; IBind].
Proof. reflexivity. Qed.
(* let val = filter(func (a) => (select (true, false) => {`true` = true, `false` = false}) && (select (`zzz`, true) => {foo = true, `é` = false}), [10 * 2 * (11 + 7), select (true && true, select (`bar`, 3) => {bar = 16}) => {`true` = {b = 2, other = 3} . b, `false` = 3}, select (`1`, select (false, 100) => {`true` = 13, `false` = 13}) => {a = 19 + 8, bar = 16 - 9223372036854775806}]); let tpl = []; let acc = {val = (15 + 12) / 0, val = 100.0 + 0.25}; let c = (TRACE `foo`); let bar = filter(func (foo) => c in c + `bar`, val); let foo = 100;  *)
Example tr_gen_34 : translate [SLet (hx "76616c") (EFilter (EFunc [(hx "61")] (EBin AND (EGroup (ESelect (EBool true) (Some (EBool false)) [((hx "74727565"), (EBool true)); ((hx "66616c7365"), (EBool false))])) (EGroup (ESelect (EStr (hx "7a7a7a")) (Some (EBool true)) [((hx "666f6f"), (EBool true)); ((hx "c3a9"), (EBool false))])))) (EList [(EBin Mul (EBin Mul (EInt (10)%Z) (EInt (2)%Z)) (EGroup (EBin Add (EInt (11)%Z) (EInt (7)%Z)))); (ESelect (EBin AND (EBool true) (EBool true)) (Some (ESelect (EStr (hx "626172")) (Some (EInt (3)%Z)) [((hx "626172"), (EInt (16)%Z))])) [((hx "74727565"), (EBin DOT (ETuple [((hx "62"), (EInt (2)%Z)); ((hx "6f74686572"), (EInt (3)%Z))]) (ESym (hx "62")))); ((hx "66616c7365"), (EInt (3)%Z))]); (ESelect (EStr (hx "31")) (Some (ESelect (EBool false) (Some (EInt (100)%Z)) [((hx "74727565"), (EInt (13)%Z)); ((hx "66616c7365"), (EInt (13)%Z))])) [((hx "61"), (EBin Add (EInt (19)%Z) (EInt (8)%Z))); ((hx "626172"), (EBin Sub (EInt (16)%Z) (EInt (9223372036854775806)%Z)))])])); SLet (hx "74706c") (EList []); SLet (hx "616363") (ETuple [((hx "76616c"), (EBin Div (EGroup (EBin Add (EInt (15)%Z) (EInt (12)%Z))) (EInt (0)%Z))); ((hx "76616c"), (EBin Add (EFloat 4636737291354636288%Z) (EFloat 4598175219545276416%Z)))]); SLet (hx "63") (EGroup (ETrace (EStr (hx "666f6f")))); SLet (hx "626172") (EFilter (EFunc [(hx "666f6f")] (EBin IN (ESym (hx "63")) (EBin Add (ESym (hx "63")) (EStr (hx "626172"))))) (ESym (hx "76616c"))); SLet (hx "666f6f") (EInt (100)%Z)] = [ISym (hx "76616c"); IInitList; ISym (hx "61"); IElement; IFunc 24; IVal (LBool true); ISym (hx "74727565"); ISelectJump 2; IVal (LBool true); IJump 6; ISym (hx "66616c7365"); ISelectJump 2; IVal (LBool false); IJump 2; IPop; IVal (LBool false); IAnd 11; IVal (LStr (hx "7a7a7a")); ISym (hx "666f6f"); ISelectJump 2; IVal (LBool true); IJump 6; ISym (hx "c3a9"); ISelectJump 2; IVal (LBool false); IJump 2; IPop; IVal (LBool true); IReturn; IInitList; IVal (LInt (7)%Z); IVal (LInt (11)%Z); IAdd; IVal (LInt (2)%Z); IVal (LInt (10)%Z); IMul; IMul; IElement; IVal (LBool true); IAnd 1; IVal (LBool true); ISym (hx "74727565"); ISelectJump 10; IInitTuple; ISym (hx "62"); IVal (LInt (2)%Z); IField; ISym (hx "6f74686572"); IVal (LInt (3)%Z); IField; IVal (LStr (hx "62")); IIndex; IJump 12; ISym (hx "66616c7365"); ISelectJump 2; IVal (LInt (3)%Z); IJump 8; IPop; IVal (LStr (hx "626172")); ISym (hx "626172"); ISelectJump 2; IVal (LInt (16)%Z); IJump 2; IPop; IVal (LInt (3)%Z); IElement; IVal (LStr (hx "31")); ISym (hx "61"); ISelectJump 4; IVal (LInt (8)%Z); IVal (LInt (19)%Z); IAdd; IJump 18; ISym (hx "626172"); ISelectJump 4; IVal (LInt (9223372036854775806)%Z); IVal (LInt (16)%Z); ISub; IJump 12; IPop; IVal (LBool false); ISym (hx "74727565"); ISelectJump 2; IVal (LInt (13)%Z); IJump 6; ISym (hx "66616c7365"); ISelectJump 2; IVal (LInt (13)%Z); IJump 2; IPop; IVal (LInt (100)%Z); IElement; IRuntime HFilter; IBind; ISym (hx "74706c"); IInitList; IBind; ISym (hx "616363"); IInitTuple; ISym (hx "76616c"); IVal (LInt (0)%Z); IVal (LInt (12)%Z); IVal (LInt (15)%Z); IAdd; IDiv; IField; ISym (hx "76616c"); IVal (LFloat 4598175219545276416%Z); IVal (LFloat 4636737291354636288%Z); IAdd; IField; IBind; ISym (hx "63"); IVal (LStr trace_text); IVal (LStr (hx "666f6f")); IRuntime HTrace; IBind; ISym (hx "626172"); IInitList; ISym (hx "666f6f"); IElement; IFunc 17; IVal (LStr (hx "626172")); IDeRef (hx "63"); IAdd; IVal (LStr (hx "7475706c65")); IVal (LStr (hx "626172")); IDeRef (hx "63"); IAdd; ITyp; IEqual; ISym (hx "74727565"); ISelectJump 2; IVal (LStr (hx "63")); IJump 2; IPop; IDeRef (hx "63"); IExist; IReturn; IDeRef (hx "76616c"); IRuntime HFilter; IBind; ISym (hx "666f6f"); IVal (LInt (100)%Z); IBind].
Proof. reflexivity. Qed.
(* let v = (TRACE [1 %% 7, 19 + 14, 3] . 2 * (select (`bar`, int(`-17`)) => {bar = 12, `x y` = 3 + 7, `é` = 4611686018427387904})); let name = {b = 0.25 / 7.0 - 1024.0, other = 0} . b; let lst = module {} => { let foo = [reduce(func (k, m) => `foo`, `é`, []), `tuple` + `foo`, {b = `@`, other = 13} . b] . 1; }; let tpl = reduce(func (val, tpl) => not (select (false, val) => {`true` = val, `false` = val}), undefined_name == (select (`x y`, {b = false}) => {`é` = {b = false}, `x y` = {b = true}}), map(func (b) => `x y`, select (`q\`q`, [12, 0]) => {bar = [0, 12]})) is `tuple`; let acc = {b = (17 - v) %% 1, other = 20} . b; let d = filter(func (val) => true || (3 - `b\\s`), [{a = `x=@ \\@ ` % (false), other = 42} . a]);  *)
Example tr_gen_35 : translate [SLet (hx "76") (EGroup (ETrace (EBin Mul (EBin DOT (EList [(EBin Mod (EInt (1)%Z) (EInt (7)%Z)); (EBin Add (EInt (19)%Z) (EInt (14)%Z)); (EInt (3)%Z)]) (EInt (2)%Z)) (EGroup (ESelect (EStr (hx "626172")) (Some (ECast CInt (EStr (hx "2d3137")))) [((hx "626172"), (EInt (12)%Z)); ((hx "782079"), (EBin Add (EInt (3)%Z) (EInt (7)%Z))); ((hx "c3a9"), (EInt (4611686018427387904)%Z))]))))); SLet (hx "6e616d65") (EBin DOT (ETuple [((hx "62"), (EBin Sub (EBin Div (EFloat 4598175219545276416%Z) (EFloat 4619567317775286272%Z)) (EFloat 4652218415073722368%Z))); ((hx "6f74686572"), (EInt (0)%Z))]) (ESym (hx "62"))); SLet (hx "6c7374") (EModule [] None [SLet (hx "666f6f") (EBin DOT (EList [(EReduce (EFunc [(hx "6b"); (hx "6d")] (EStr (hx "666f6f"))) (EStr (hx "c3a9")) (EList [])); (EBin Add (EStr (hx "7475706c65")) (EStr (hx "666f6f"))); (EBin DOT (ETuple [((hx "62"), (EStr (hx "40"))); ((hx "6f74686572"), (EInt (13)%Z))]) (ESym (hx "62")))]) (EInt (1)%Z))]); SLet (hx "74706c") (EBin IS (EReduce (EFunc [(hx "76616c"); (hx "74706c")] (ENot (EGroup (ESelect (EBool false) (Some (ESym (hx "76616c"))) [((hx "74727565"), (ESym (hx "76616c"))); ((hx "66616c7365"), (ESym (hx "76616c")))])))) (EBin Equal (ESym (hx "756e646566696e65645f6e616d65")) (EGroup (ESelect (EStr (hx "782079")) (Some (ETuple [((hx "62"), (EBool false))])) [((hx "c3a9"), (ETuple [((hx "62"), (EBool false))])); ((hx "782079"), (ETuple [((hx "62"), (EBool true))]))]))) (EMap (EFunc [(hx "62")] (EStr (hx "782079"))) (ESelect (EStr (hx "712271")) (Some (EList [(EInt (12)%Z); (EInt (0)%Z)])) [((hx "626172"), (EList [(EInt (0)%Z); (EInt (12)%Z)]))]))) (EStr (hx "7475706c65"))); SLet (hx "616363") (EBin DOT (ETuple [((hx "62"), (EBin Mod (EGroup (EBin Sub (EInt (17)%Z) (ESym (hx "76")))) (EInt (1)%Z))); ((hx "6f74686572"), (EInt (20)%Z))]) (ESym (hx "62"))); SLet (hx "64") (EFilter (EFunc [(hx "76616c")] (EBin OR (EBool true) (EGroup (EBin Sub (EInt (3)%Z) (EStr (hx "625c73")))))) (EList [(EBin DOT (ETuple [((hx "61"), (EFormatL [PStr (hx "783d"); PHole; PStr (hx "204020")] [(EBool false)])); ((hx "6f74686572"), (EInt (42)%Z))]) (ESym (hx "61")))]))] = [ISym (hx "76"); IVal (LStr trace_text); IVal (LStr (hx "626172")); ISym (hx "626172"); ISelectJump 2; IVal (LInt (12)%Z); IJump 13; ISym (hx "782079"); ISelectJump 4; IVal (LInt (7)%Z); IVal (LInt (3)%Z); IAdd; IJump 7; ISym (hx "c3a9"); ISelectJump 2; IVal (LInt (4611686018427387904)%Z); IJump 3; IPop; IVal (LStr (hx "2d3137")); ICast CInt; IInitList; IVal (LInt (7)%Z); IVal (LInt (1)%Z); IMod; IElement; IVal (LInt (14)%Z); IVal (LInt (19)%Z); IAdd; IElement; IVal (LInt (3)%Z); IElement; IVal (LInt (2)%Z); IIndex; IMul; IRuntime HTrace; IBind; ISym (hx "6e616d65"); IInitTuple; ISym (hx "62"); IVal (LFloat 4652218415073722368%Z); IVal (LFloat 4619567317775286272%Z); IVal (LFloat 4598175219545276416%Z); IDiv; ISub; IField; ISym (hx "6f74686572"); IVal (LInt (0)%Z); IField; IVal (LStr (hx "62")); IIndex; IBind; ISym (hx "6c7374"); IInitTuple; IModule 33; IBind; ISym (hx "666f6f"); IInitList; IInitList; ISym (hx "6b"); IElement; ISym (hx "6d"); IElement; IFunc 2; IVal (LStr (hx "666f6f")); IReturn; IVal (LStr (hx "c3a9")); IInitList; IRuntime HReduce; IElement; IVal (LStr (hx "666f6f")); IVal (LStr (hx "7475706c65")); IAdd; IElement; IInitTuple; ISym (hx "62"); IVal (LStr (hx "40")); IField; ISym (hx "6f74686572"); IVal (LInt (13)%Z); IField; IVal (LStr (hx "62")); IIndex; IElement; IVal (LInt (1)%Z); IIndex; IBind; IReturn; IBind; ISym (hx "74706c"); IVal (LStr (hx "7475706c65")); IInitList; ISym (hx "76616c"); IElement; ISym (hx "74706c"); IElement; IFunc 13; IVal (LBool false); ISym (hx "74727565"); ISelectJump 2; IDeRef (hx "76616c"); IJump 6; ISym (hx "66616c7365"); ISelectJump 2; IDeRef (hx "76616c"); IJump 2; IPop; IDeRef (hx "76616c"); INot; IReturn; IVal (LStr (hx "782079")); ISym (hx "c3a9"); ISelectJump 5; IInitTuple; ISym (hx "62"); IVal (LBool false); IField; IJump 12; ISym (hx "782079"); ISelectJump 5; IInitTuple; ISym (hx "62"); IVal (LBool true); IField; IJump 5; IPop; IInitTuple; ISym (hx "62"); IVal (LBool false); IField; IDeRef (hx "756e646566696e65645f6e616d65"); IEqual; IInitList; ISym (hx "62"); IElement; IFunc 2; IVal (LStr (hx "782079")); IReturn; IVal (LStr (hx "712271")); ISym (hx "626172"); ISelectJump 6; IInitList; IVal (LInt (0)%Z); IElement; IVal (LInt (12)%Z); IElement; IJump 6; IPop; IInitList; IVal (LInt (12)%Z); IElement; IVal (LInt (0)%Z); IElement; IRuntime HMap; IRuntime HReduce; ITyp; IEqual; IBind; ISym (hx "616363"); IInitTuple; ISym (hx "62"); IVal (LInt (1)%Z); IDeRef (hx "76"); IVal (LInt (17)%Z); ISub; IMod; IField; ISym (hx "6f74686572"); IVal (LInt (20)%Z); IField; IVal (LStr (hx "62")); IIndex; IBind; ISym (hx "64"); IInitList; ISym (hx "76616c"); IElement; IFunc 6; IVal (LBool true); IOr 3; IVal (LStr (hx "625c73")); IVal (LInt (3)%Z); ISub; IReturn; IInitList; IInitTuple; ISym (hx "61"); IVal (LStr (hx "204020")); IVal (LBool false); IRender; IAdd; IVal (LStr (hx "783d")); IAdd; IField; ISym (hx "6f74686572"); IVal (LInt (42)%Z); IField; IVal (LStr (hx "61")); IIndex; IElement; IRuntime HFilter; IBind].
Proof. reflexivity. Qed.
(* let t = int(`-21`); let x1 = func (m) => 5; let data = `é`; let d = module {host = 7, p = `a`, port = `1`} => {  }; let name = module {q = `bar`, host = true, cnt = 1.5} => ({c = 18, port = 0.5}) { let it = {inner = `@` + `tuple`, a = `@` in `x y`}; let tpl = select (`foo`, `é @ @!` % (true, {a = 9223372036854775806})) => {foo = filter(func (foo) => true, `@`), bar = str(17)}; }; let tpl = data;  *)
Example tr_gen_36 : translate [SLet (hx "74") (ECast CInt (EStr (hx "2d3231"))); SLet (hx "7831") (EFunc [(hx "6d")] (EInt (5)%Z)); SLet (hx "64617461") (EStr (hx "c3a9")); SLet (hx "64") (EModule [((hx "686f7374"), (EInt (7)%Z)); ((hx "70"), (EStr (hx "61"))); ((hx "706f7274"), (EStr (hx "31")))] None []); SLet (hx "6e616d65") (EModule [((hx "71"), (EStr (hx "626172"))); ((hx "686f7374"), (EBool true)); ((hx "636e74"), (EFloat 4609434218613702656%Z))] (Some (ETuple [((hx "63"), (EInt (18)%Z)); ((hx "706f7274"), (EFloat 4602678819172646912%Z))])) [SLet (hx "6974") (ETuple [((hx "696e6e6572"), (EBin Add (EStr (hx "40")) (EStr (hx "7475706c65")))); ((hx "61"), (EBin IN (EStr (hx "40")) (EStr (hx "782079"))))]); SLet (hx "74706c") (ESelect (EStr (hx "666f6f")) (Some (EFormatL [PStr (hx "c3a920"); PHole; PStr (hx "20"); PHole; PStr (hx "21")] [(EBool true); (ETuple [((hx "61"), (EInt (9223372036854775806)%Z))])])) [((hx "666f6f"), (EFilter (EFunc [(hx "666f6f")] (EBool true)) (EStr (hx "40")))); ((hx "626172"), (ECast CStr (EInt (17)%Z)))])]); SLet (hx "74706c") (ESym (hx "64617461"))] = [ISym (hx "74"); IVal (LStr (hx "2d3231")); ICast CInt; IBind; ISym (hx "7831"); IInitList; ISym (hx "6d"); IElement; IFunc 2; IVal (LInt (5)%Z); IReturn; IBind; ISym (hx "64617461"); IVal (LStr (hx "c3a9")); IBind; ISym (hx "64"); IInitTuple; ISym (hx "686f7374"); IVal (LInt (7)%Z); IField; ISym (hx "70"); IVal (LStr (hx "61")); IField; ISym (hx "706f7274"); IVal (LStr (hx "31")); IField; IModule 2; IBind; IReturn; IBind; ISym (hx "6e616d65"); IInitTuple; ISym (hx "71"); IVal (LStr (hx "626172")); IField; ISym (hx "686f7374"); IVal (LBool true); IField; ISym (hx "636e74"); IVal (LFloat 4609434218613702656%Z); IField; IInitThunk 8; IInitTuple; ISym (hx "63"); IVal (LInt (18)%Z); IField; ISym (hx "706f7274"); IVal (LFloat 4602678819172646912%Z); IField; IReturn; IModule 49; IBind; ISym (hx "6974"); IInitTuple; ISym (hx "696e6e6572"); IVal (LStr (hx "7475706c65")); IVal (LStr (hx "40")); IAdd; IField; ISym (hx "61"); IVal (LStr (hx "782079")); IVal (LStr (hx "40")); IExist; IField; IBind; ISym (hx "74706c"); IVal (LStr (hx "666f6f")); ISym (hx "666f6f"); ISelectJump 9; IInitList; ISym (hx "666f6f"); IElement; IFunc 2; IVal (LBool true); IReturn; IVal (LStr (hx "40")); IRuntime HFilter; IJump 20; ISym (hx "626172"); ISelectJump 3; IVal (LInt (17)%Z); ICast CStr; IJump 15; IPop; IVal (LStr (hx "21")); IInitTuple; ISym (hx "61"); IVal (LInt (9223372036854775806)%Z); IField; IRender; IAdd; IVal (LStr (hx "20")); IAdd; IVal (LBool true); IRender; IAdd; IVal (LStr (hx "c3a920")); IAdd; IBind; IReturn; IBind; ISym (hx "74706c"); IDeRef (hx "64617461"); IBind].
Proof. reflexivity. Qed.
(* let c = select ([0.25 * 3.75, 3.75 + 100.0, 2.0] . 3 >= 100.0 * 0.25 * reduce(func (n, val) => 0.125, 2.0, []), select (`x y`, filter(func (v) => `nope` in {a = 11, name = `true`}, ([``, `bar`] + []))) => {a = [[]] . 0 + [`1`, `q\`q`, `true`], `x y` = [reduce(func (v, k, data) => `bar`, `a`, {f1 = 3, f2 = 1})]}) => {`true` = (TRACE map(func (name) => name, [`é`]) + (select (true, []) => {`true` = [`true`, `q\`q`], `false` = []})), `false` = map(func (y2) => {b = `\\@@end` % ({a = 0}), other = 16} . b, ([`a`, `b\\s`] + [`line break`]))}; let val = {name = {a = select (select (`line break`, false) => {`x y` = false, a = true, bar = false}) => {`true` = select (false, {`é` = 3.75, name = 1}) => {`true` = {`é` = 7.0, name = 7}}, `false` = {`é` = 3.75, name = 42}}, other = 14} . a}; let k = reduce(func (cfg, n) => cfg, {b = (`name` in {a = 0, name = `é`}) && ({`quoted field` = 3.75} == {`quoted field` = 7.0}), other = 11} . b, (`é @x=@end` % (`true` + `line break` + `q\`q`))); let bar = [int(`15`), select (k, reduce(func (foo, a, acc) => 15, 6, {f1 = 14, f2 = 10}) + (1 - 0)) => {`true` = 2 + (6 + 4)}]; let name = [{a = 0.125 - {a = 100.0, other = 10} . a, `é` = c}, {a = [1024.0, 0.5] . 0 + 2.0, `é` = c}] . 0; let a = {a = map(func (acc) => int(`-19`) != 14, [select (true, k) => {`true` = k}]), other = 16} . a;  *)
Example tr_gen_37 : translate [SLet (hx "63") (ESelect (EBin GTEqual (EBin DOT (EList [(EBin Mul (EFloat 4598175219545276416%Z) (EFloat 4615626668101337088%Z)); (EBin Add (EFloat 4615626668101337088%Z) (EFloat 4636737291354636288%Z)); (EFloat 4611686018427387904%Z)]) (EInt (3)%Z)) (EBin Mul (EBin Mul (EFloat 4636737291354636288%Z) (EFloat 4598175219545276416%Z)) (EReduce (EFunc [(hx "6e"); (hx "76616c")] (EFloat 4593671619917905920%Z)) (EFloat 4611686018427387904%Z) (EList [])))) (Some (ESelect (EStr (hx "782079")) (Some (EFilter (EFunc [(hx "76")] (EBin IN (EStr (hx "6e6f7065")) (ETuple [((hx "61"), (EInt (11)%Z)); ((hx "6e616d65"), (EStr (hx "74727565")))]))) (EGroup (EBin Add (EList [(EStr (hx "")); (EStr (hx "626172"))]) (EList []))))) [((hx "61"), (EBin Add (EBin DOT (EList [(EList [])]) (EInt (0)%Z)) (EList [(EStr (hx "31")); (EStr (hx "712271")); (EStr (hx "74727565"))]))); ((hx "782079"), (EList [(EReduce (EFunc [(hx "76"); (hx "6b"); (hx "64617461")] (EStr (hx "626172"))) (EStr (hx "61")) (ETuple [((hx "6631"), (EInt (3)%Z)); ((hx "6632"), (EInt (1)%Z))]))]))])) [((hx "74727565"), (EGroup (ETrace (EBin Add (EMap (EFunc [(hx "6e616d65")] (ESym (hx "6e616d65"))) (EList [(EStr (hx "c3a9"))])) (EGroup (ESelect (EBool true) (Some (EList [])) [((hx "74727565"), (EList [(EStr (hx "74727565")); (EStr (hx "712271"))])); ((hx "66616c7365"), (EList []))])))))); ((hx "66616c7365"), (EMap (EFunc [(hx "7932")] (EBin DOT (ETuple [((hx "62"), (EFormatL [PStr (hx "40"); PHole; PStr (hx "656e64")] [(ETuple [((hx "61"), (EInt (0)%Z))])])); ((hx "6f74686572"), (EInt (16)%Z))]) (ESym (hx "62")))) (EGroup (EBin Add (EList [(EStr (hx "61")); (EStr (hx "625c73"))]) (EList [(EStr (hx "6c696e6520627265616b"))])))))]); SLet (hx "76616c") (ETuple [((hx "6e616d65"), (EBin DOT (ETuple [((hx "61"), (ESelect (ESelect (EStr (hx "6c696e6520627265616b")) (Some (EBool false)) [((hx "782079"), (EBool false)); ((hx "61"), (EBool true)); ((hx "626172"), (EBool false))]) None [((hx "74727565"), (ESelect (EBool false) (Some (ETuple [((hx "c3a9"), (EFloat 4615626668101337088%Z)); ((hx "6e616d65"), (EInt (1)%Z))])) [((hx "74727565"), (ETuple [((hx "c3a9"), (EFloat 4619567317775286272%Z)); ((hx "6e616d65"), (EInt (7)%Z))]))])); ((hx "66616c7365"), (ETuple [((hx "c3a9"), (EFloat 4615626668101337088%Z)); ((hx "6e616d65"), (EInt (42)%Z))]))])); ((hx "6f74686572"), (EInt (14)%Z))]) (ESym (hx "61"))))]); SLet (hx "6b") (EReduce (EFunc [(hx "636667"); (hx "6e")] (ESym (hx "636667"))) (EBin DOT (ETuple [((hx "62"), (EBin AND (EGroup (EBin IN (EStr (hx "6e616d65")) (ETuple [((hx "61"), (EInt (0)%Z)); ((hx "6e616d65"), (EStr (hx "c3a9")))]))) (EGroup (EBin Equal (ETuple [((hx "71756f746564206669656c64"), (EFloat 4615626668101337088%Z))]) (ETuple [((hx "71756f746564206669656c64"), (EFloat 4619567317775286272%Z))]))))); ((hx "6f74686572"), (EInt (11)%Z))]) (ESym (hx "62"))) (EGroup (EFormatL [PStr (hx "c3a920"); PHole; PStr (hx "783d"); PHole; PStr (hx "656e64")] [(EBin Add (EBin Add (EStr (hx "74727565")) (EStr (hx "6c696e6520627265616b"))) (EStr (hx "712271")))]))); SLet (hx "626172") (EList [(ECast CInt (EStr (hx "3135"))); (ESelect (ESym (hx "6b")) (Some (EBin Add (EReduce (EFunc [(hx "666f6f"); (hx "61"); (hx "616363")] (EInt (15)%Z)) (EInt (6)%Z) (ETuple [((hx "6631"), (EInt (14)%Z)); ((hx "6632"), (EInt (10)%Z))])) (EGroup (EBin Sub (EInt (1)%Z) (EInt (0)%Z))))) [((hx "74727565"), (EBin Add (EInt (2)%Z) (EGroup (EBin Add (EInt (6)%Z) (EInt (4)%Z)))))])]); SLet (hx "6e616d65") (EBin DOT (EList [(ETuple [((hx "61"), (EBin Sub (EFloat 4593671619917905920%Z) (EBin DOT (ETuple [((hx "61"), (EFloat 4636737291354636288%Z)); ((hx "6f74686572"), (EInt (10)%Z))]) (ESym (hx "61"))))); ((hx "c3a9"), (ESym (hx "63")))]); (ETuple [((hx "61"), (EBin Add (EBin DOT (EList [(EFloat 4652218415073722368%Z); (EFloat 4602678819172646912%Z)]) (EInt (0)%Z)) (EFloat 4611686018427387904%Z))); ((hx "c3a9"), (ESym (hx "63")))])]) (EInt (0)%Z)); SLet (hx "61") (EBin DOT (ETuple [((hx "61"), (EMap (EFunc [(hx "616363")] (EBin NotEqual (ECast CInt (EStr (hx "2d3139"))) (EInt (14)%Z))) (EList [(ESelect (EBool true) (Some (ESym (hx "6b"))) [((hx "74727565"), (ESym (hx "6b")))])]))); ((hx "6f74686572"), (EInt (16)%Z))]) (ESym (hx "61")))] = [ISym (hx "63"); IInitList; ISym (hx "6e"); IElement; ISym (hx "76616c"); IElement; IFunc 2; IVal (LFloat 4593671619917905920%Z); IReturn; IVal (LFloat 4611686018427387904%Z); IInitList; IRuntime HReduce; IVal (LFloat 4598175219545276416%Z); IVal (LFloat 4636737291354636288%Z); IMul; IMul; IInitList; IVal (LFloat 4615626668101337088%Z); IVal (LFloat 4598175219545276416%Z); IMul; IElement; IVal (LFloat 4636737291354636288%Z); IVal (LFloat 4615626668101337088%Z); IAdd; IElement; IVal (LFloat 4611686018427387904%Z); IElement; IVal (LInt (3)%Z); IIndex; IGtEq; ISym (hx "74727565"); ISelectJump 29; IVal (LStr trace_text); IVal (LBool true); ISym (hx "74727565"); ISelectJump 6; IInitList; IVal (LStr (hx "74727565")); IElement; IVal (LStr (hx "712271")); IElement; IJump 6; ISym (hx "66616c7365"); ISelectJump 2; IInitList; IJump 2; IPop; IInitList; IInitList; ISym (hx "6e616d65"); IElement; IFunc 2; IDeRef (hx "6e616d65"); IReturn; IInitList; IVal (LStr (hx "c3a9")); IElement; IRuntime HMap; IAdd; IRuntime HTrace; IJump 100; ISym (hx "66616c7365"); ISelectJump 33; IInitList; ISym (hx "7932"); IElement; IFunc 18; IInitTuple; ISym (hx "62"); IVal (LStr (hx "656e64")); IInitTuple; ISym (hx "61"); IVal (LInt (0)%Z); IField; IRender; IAdd; IVal (LStr (hx "40")); IAdd; IField; ISym (hx "6f74686572"); IVal (LInt (16)%Z); IField; IVal (LStr (hx "62")); IIndex; IReturn; IInitList; IVal (LStr (hx "6c696e6520627265616b")); IElement; IInitList; IVal (LStr (hx "61")); IElement; IVal (LStr (hx "625c73")); IElement; IAdd; IRuntime HMap; IJump 65; IPop; IVal (LStr (hx "782079")); ISym (hx "61"); ISelectJump 14; IInitList; IVal (LStr (hx "31")); IElement; IVal (LStr (hx "712271")); IElement; IVal (LStr (hx "74727565")); IElement; IInitList; IInitList; IElement; IVal (LInt (0)%Z); IIndex; IAdd; IJump 47; ISym (hx "782079"); ISelectJump 22; IInitList; IInitList; ISym (hx "76"); IElement; ISym (hx "6b"); IElement; ISym (hx "64617461"); IElement; IFunc 2; IVal (LStr (hx "626172")); IReturn; IVal (LStr (hx "61")); IInitTuple; ISym (hx "6631"); IVal (LInt (3)%Z); IField; ISym (hx "6632"); IVal (LInt (1)%Z); IField; IRuntime HReduce; IElement; IJump 23; IPop; IInitList; ISym (hx "76"); IElement; IFunc 10; IInitTuple; ISym (hx "61"); IVal (LInt (11)%Z); IField; ISym (hx "6e616d65"); IVal (LStr (hx "74727565")); IField; IVal (LStr (hx "6e6f7065")); IExist; IReturn; IInitList; IInitList; IVal (LStr (hx "")); IElement; IVal (LStr (hx "626172")); IElement; IAdd; IRuntime HFilter; IBind; ISym (hx "76616c"); IInitTuple; ISym (hx "6e616d65"); IInitTuple; ISym (hx "61"); IVal (LStr (hx "6c696e6520627265616b")); ISym (hx "782079"); ISelectJump 2; IVal (LBool false); IJump 10; ISym (hx "61"); ISelectJump 2; IVal (LBool true); IJump 6; ISym (hx "626172"); ISelectJump 2; IVal (LBool false); IJump 2; IPop; IVal (LBool false); ISym (hx "74727565"); ISelectJump 20; IVal (LBool false); ISym (hx "74727565"); ISelectJump 8; IInitTuple; ISym (hx "c3a9"); IVal (LFloat 4619567317775286272%Z); IField; ISym (hx "6e616d65"); IVal (LInt (7)%Z); IField; IJump 8; IPop; IInitTuple; ISym (hx "c3a9"); IVal (LFloat 4615626668101337088%Z); IField; ISym (hx "6e616d65"); IVal (LInt (1)%Z); IField; IJump 13; ISym (hx "66616c7365"); ISelectJump 8; IInitTuple; ISym (hx "c3a9"); IVal (LFloat 4615626668101337088%Z); IField; ISym (hx "6e616d65"); IVal (LInt (42)%Z); IField; IJump 3; IPop; IVal (LStr (hx "556e68616e646c65642073656c65637420636173652077697468206e6f2064656661756c74")); IBang; IField; ISym (hx "6f74686572"); IVal (LInt (14)%Z); IField; IVal (LStr (hx "61")); IIndex; IField; IBind; ISym (hx "6b"); IInitList; ISym (hx "636667"); IElement; ISym (hx "6e"); IElement; IFunc 2; IDeRef (hx "636667"); IReturn; IInitTuple; ISym (hx "62"); IInitTuple; ISym (hx "61"); IVal (LInt (0)%Z); IField; ISym (hx "6e616d65"); IVal (LStr (hx "c3a9")); IField; IVal (LStr (hx "6e616d65")); IExist; IAnd 9; IInitTuple; ISym (hx "71756f746564206669656c64"); IVal (LFloat 4619567317775286272%Z); IField; IInitTuple; ISym (hx "71756f746564206669656c64"); IVal (LFloat 4615626668101337088%Z); IField; IEqual; IField; ISym (hx "6f74686572"); IVal (LInt (11)%Z); IField; IVal (LStr (hx "62")); IIndex; IVal (LStr (hx "466f726d617420737472696e6720686173203220706c616365686f6c6465727320627574203120617267756d656e7473207765726520676976656e")); IBang; IRuntime HReduce; IBind; ISym (hx "626172"); IInitList; IVal (LStr (hx "3135")); ICast CInt; IElement; IDeRef (hx "6b"); ISym (hx "74727565"); ISelectJump 6; IVal (LInt (4)%Z); IVal (LInt (6)%Z); IAdd; IVal (LInt (2)%Z); IAdd; IJump 24; IPop; IVal (LInt (0)%Z); IVal (LInt (1)%Z); ISub; IInitList; ISym (hx "666f6f"); IElement; ISym (hx "61"); IElement; ISym (hx "616363"); IElement; IFunc 2; IVal (LInt (15)%Z); IReturn; IVal (LInt (6)%Z); IInitTuple; ISym (hx "6631"); IVal (LInt (14)%Z); IField; ISym (hx "6632"); IVal (LInt (10)%Z); IField; IRuntime HReduce; IAdd; IElement; IBind; ISym (hx "6e616d65"); IInitList; IInitTuple; ISym (hx "61"); IInitTuple; ISym (hx "61"); IVal (LFloat 4636737291354636288%Z); IField; ISym (hx "6f74686572"); IVal (LInt (10)%Z); IField; IVal (LStr (hx "61")); IIndex; IVal (LFloat 4593671619917905920%Z); ISub; IField; ISym (hx "c3a9"); IDeRef (hx "63"); IField; IElement; IInitTuple; ISym (hx "61"); IVal (LFloat 4611686018427387904%Z); IInitList; IVal (LFloat 4652218415073722368%Z); IElement; IVal (LFloat 4602678819172646912%Z); IElement; IVal (LInt (0)%Z); IIndex; IAdd; IField; ISym (hx "c3a9"); IDeRef (hx "63"); IField; IElement; IVal (LInt (0)%Z); IIndex; IBind; ISym (hx "61"); IInitTuple; ISym (hx "61"); IInitList; ISym (hx "616363"); IElement; IFunc 6; IVal (LInt (14)%Z); IVal (LStr (hx "2d3139")); ICast CInt; IEqual; INot; IReturn; IInitList; IVal (LBool true); ISym (hx "74727565"); ISelectJump 2; IDeRef (hx "6b"); IJump 2; IPop; IDeRef (hx "6b"); IElement; IRuntime HMap; IField; ISym (hx "6f74686572"); IVal (LInt (16)%Z); IField; IVal (LStr (hx "61")); IIndex; IBind].
Proof. reflexivity. Qed.
(* let lst = func () => map(func (k) => `line break` + `bar` + {a = k, other = 4} . a, (`@@end` % ({b = {a = 11}, other = 10} . b, select (`tuple`, false) => {a = false, foo = true}))); let it = reduce(func (data, bar) => select (bar, {`quoted field` = [true], c = false, `é` = 5, `quoted field` = [false, false]}) => {bar = select (true) => {`true` = data, `false` = {`quoted field` = [false, true], c = true, `é` = 10}}}, {a = [{`quoted field` = [false, false], c = true, `é` = 17}, {`quoted field` = [false, false], c = false, `é` = 3}] . 1, other = 10} . a, [`x y`, `b\\s`]); let foo = `@` % (2:1:5); let acc = foo; let name = float(select (select (`b\\s`) => {`é` = `日本`}, [select (false, 3.75) => {`true` = 100.0, `false` = 0.5}, select (false) => {`true` = 0.25, `false` = 0.5}, 0.0 * 2.0] . 0) => {`é` = 3.75 * (0.5 - 1024.0)}); let v = select ((TRACE (TRACE acc + acc)), true) => {foo = zz in {a = {val = 13, other = 10} . val, name = `q\`q`}, `é` = {b = name is `int`, other = 2} . b || (name in [0.0, 100.0] + [7.0, 7.0])};  *)
Example tr_gen_38 : translate [SLet (hx "6c7374") (EFunc [] (EMap (EFunc [(hx "6b")] (EBin Add (EBin Add (EStr (hx "6c696e6520627265616b")) (EStr (hx "626172"))) (EBin DOT (ETuple [((hx "61"), (ESym (hx "6b"))); ((hx "6f74686572"), (EInt (4)%Z))]) (ESym (hx "61"))))) (EGroup (EFormatL [PStr (hx ""); PHole; PStr (hx ""); PHole; PStr (hx "656e64")] [(EBin DOT (ETuple [((hx "62"), (ETuple [((hx "61"), (EInt (11)%Z))])); ((hx "6f74686572"), (EInt (10)%Z))]) (ESym (hx "62"))); (ESelect (EStr (hx "7475706c65")) (Some (EBool false)) [((hx "61"), (EBool false)); ((hx "666f6f"), (EBool true))])])))); SLet (hx "6974") (EReduce (EFunc [(hx "64617461"); (hx "626172")] (ESelect (ESym (hx "626172")) (Some (ETuple [((hx "71756f746564206669656c64"), (EList [(EBool true)])); ((hx "63"), (EBool false)); ((hx "c3a9"), (EInt (5)%Z)); ((hx "71756f746564206669656c64"), (EList [(EBool false); (EBool false)]))])) [((hx "626172"), (ESelect (EBool true) None [((hx "74727565"), (ESym (hx "64617461"))); ((hx "66616c7365"), (ETuple [((hx "71756f746564206669656c64"), (EList [(EBool false); (EBool true)])); ((hx "63"), (EBool true)); ((hx "c3a9"), (EInt (10)%Z))]))]))])) (EBin DOT (ETuple [((hx "61"), (EBin DOT (EList [(ETuple [((hx "71756f746564206669656c64"), (EList [(EBool false); (EBool false)])); ((hx "63"), (EBool true)); ((hx "c3a9"), (EInt (17)%Z))]); (ETuple [((hx "71756f746564206669656c64"), (EList [(EBool false); (EBool false)])); ((hx "63"), (EBool false)); ((hx "c3a9"), (EInt (3)%Z))])]) (EInt (1)%Z))); ((hx "6f74686572"), (EInt (10)%Z))]) (ESym (hx "61"))) (EList [(EStr (hx "782079")); (EStr (hx "625c73"))])); SLet (hx "666f6f") (EFormatL [PStr (hx ""); PHole] [(ERange (EInt (2)%Z) (Some (EInt (1)%Z)) (EInt (5)%Z))]); SLet (hx "616363") (ESym (hx "666f6f")); SLet (hx "6e616d65") (ECast CFloat (ESelect (ESelect (EStr (hx "625c73")) None [((hx "c3a9"), (EStr (hx "e697a5e69cac")))]) (Some (EBin DOT (EList [(ESelect (EBool false) (Some (EFloat 4615626668101337088%Z)) [((hx "74727565"), (EFloat 4636737291354636288%Z)); ((hx "66616c7365"), (EFloat 4602678819172646912%Z))]); (ESelect (EBool false) None [((hx "74727565"), (EFloat 4598175219545276416%Z)); ((hx "66616c7365"), (EFloat 4602678819172646912%Z))]); (EBin Mul (EFloat 0%Z) (EFloat 4611686018427387904%Z))]) (EInt (0)%Z))) [((hx "c3a9"), (EBin Mul (EFloat 4615626668101337088%Z) (EGroup (EBin Sub (EFloat 4602678819172646912%Z) (EFloat 4652218415073722368%Z)))))])); SLet (hx "76") (ESelect (EGroup (ETrace (EGroup (ETrace (EBin Add (ESym (hx "616363")) (ESym (hx "616363"))))))) (Some (EBool true)) [((hx "666f6f"), (EBin IN (ESym (hx "7a7a")) (ETuple [((hx "61"), (EBin DOT (ETuple [((hx "76616c"), (EInt (13)%Z)); ((hx "6f74686572"), (EInt (10)%Z))]) (ESym (hx "76616c")))); ((hx "6e616d65"), (EStr (hx "712271")))]))); ((hx "c3a9"), (EBin OR (EBin DOT (ETuple [((hx "62"), (EBin IS (ESym (hx "6e616d65")) (EStr (hx "696e74")))); ((hx "6f74686572"), (EInt (2)%Z))]) (ESym (hx "62"))) (EGroup (EBin IN (ESym (hx "6e616d65")) (EBin Add (EList [(EFloat 0%Z); (EFloat 4636737291354636288%Z)]) (EList [(EFloat 4619567317775286272%Z); (EFloat 4619567317775286272%Z)]))))))])] = [ISym (hx "6c7374"); IInitList; IFunc 52; IInitList; ISym (hx "6b"); IElement; IFunc 14; IInitTuple; ISym (hx "61"); IDeRef (hx "6b"); IField; ISym (hx "6f74686572"); IVal (LInt (4)%Z); IField; IVal (LStr (hx "61")); IIndex; IVal (LStr (hx "626172")); IVal (LStr (hx "6c696e6520627265616b")); IAdd; IAdd; IReturn; IVal (LStr (hx "656e64")); IVal (LStr (hx "7475706c65")); ISym (hx "61"); ISelectJump 2; IVal (LBool false); IJump 6; ISym (hx "666f6f"); ISelectJump 2; IVal (LBool true); IJump 2; IPop; IVal (LBool false); IRender; IAdd; IVal (LStr (hx "")); IAdd; IInitTuple; ISym (hx "62"); IInitTuple; ISym (hx "61"); IVal (LInt (11)%Z); IField; IField; ISym (hx "6f74686572"); IVal (LInt (10)%Z); IField; IVal (LStr (hx "62")); IIndex; IRender; IAdd; IVal (LStr (hx "")); IAdd; IRuntime HMap; IReturn; IBind; ISym (hx "6974"); IInitList; ISym (hx "64617461"); IElement; ISym (hx "626172"); IElement; IFunc 50; IDeRef (hx "626172"); ISym (hx "626172"); ISelectJump 26; IVal (LBool true); ISym (hx "74727565"); ISelectJump 2; IDeRef (hx "64617461"); IJump 20; ISym (hx "66616c7365"); ISelectJump 15; IInitTuple; ISym (hx "71756f746564206669656c64"); IInitList; IVal (LBool false); IElement; IVal (LBool true); IElement; IField; ISym (hx "63"); IVal (LBool true); IField; ISym (hx "c3a9"); IVal (LInt (10)%Z); IField; IJump 3; IPop; IVal (LStr (hx "556e68616e646c65642073656c65637420636173652077697468206e6f2064656661756c74")); IBang; IJump 20; IPop; IInitTuple; ISym (hx "71756f746564206669656c64"); IInitList; IVal (LBool true); IElement; IField; ISym (hx "63"); IVal (LBool false); IField; ISym (hx "c3a9"); IVal (LInt (5)%Z); IField; ISym (hx "71756f746564206669656c64"); IInitList; IVal (LBool false); IElement; IVal (LBool false); IElement; IField; IReturn; IInitTuple; ISym (hx "61"); IInitList; IInitTuple; ISym (hx "71756f746564206669656c64"); IInitList; IVal (LBool false); IElement; IVal (LBool false); IElement; IField; ISym (hx "63"); IVal (LBool true); IField; ISym (hx "c3a9"); IVal (LInt (17)%Z); IField; IElement; IInitTuple; ISym (hx "71756f746564206669656c64"); IInitList; IVal (LBool false); IElement; IVal (LBool false); IElement; IField; ISym (hx "63"); IVal (LBool false); IField; ISym (hx "c3a9"); IVal (LInt (3)%Z); IField; IElement; IVal (LInt (1)%Z); IIndex; IField; ISym (hx "6f74686572"); IVal (LInt (10)%Z); IField; IVal (LStr (hx "61")); IIndex; IInitList; IVal (LStr (hx "782079")); IElement; IVal (LStr (hx "625c73")); IElement; IRuntime HReduce; IBind; ISym (hx "666f6f"); IVal (LInt (5)%Z); IVal (LInt (1)%Z); IVal (LInt (2)%Z); IRuntime HRange; IRender; IVal (LStr (hx "")); IAdd; IBind; ISym (hx "616363"); IDeRef (hx "666f6f"); IBind; ISym (hx "6e616d65"); IVal (LStr (hx "625c73")); ISym (hx "c3a9"); ISelectJump 2; IVal (LStr (hx "e697a5e69cac")); IJump 3; IPop; IVal (LStr (hx "556e68616e646c65642073656c65637420636173652077697468206e6f2064656661756c74")); IBang; ISym (hx "c3a9"); ISelectJump 6; IVal (LFloat 4652218415073722368%Z); IVal (LFloat 4602678819172646912%Z); ISub; IVal (LFloat 4615626668101337088%Z); IMul; IJump 33; IPop; IInitList; IVal (LBool false); ISym (hx "74727565"); ISelectJump 2; IVal (LFloat 4636737291354636288%Z); IJump 6; ISym (hx "66616c7365"); ISelectJump 2; IVal (LFloat 4602678819172646912%Z); IJump 2; IPop; IVal (LFloat 4615626668101337088%Z); IElement; IVal (LBool false); ISym (hx "74727565"); ISelectJump 2; IVal (LFloat 4598175219545276416%Z); IJump 7; ISym (hx "66616c7365"); ISelectJump 2; IVal (LFloat 4602678819172646912%Z); IJump 3; IPop; IVal (LStr (hx "556e68616e646c65642073656c65637420636173652077697468206e6f2064656661756c74")); IBang; IElement; IVal (LFloat 4611686018427387904%Z); IVal (LFloat 0%Z); IMul; IElement; IVal (LInt (0)%Z); IIndex; ICast CFloat; IBind; ISym (hx "76"); IVal (LStr trace_text); IVal (LStr trace_text); IDeRef (hx "616363"); IDeRef (hx "616363"); IAdd; IRuntime HTrace; IRuntime HTrace; ISym (hx "666f6f"); ISelectJump 41; IInitTuple; ISym (hx "61"); IInitTuple; ISym (hx "76616c"); IVal (LInt (13)%Z); IField; ISym (hx "6f74686572"); IVal (LInt (10)%Z); IField; IVal (LStr (hx "76616c")); IIndex; IField; ISym (hx "6e616d65"); IVal (LStr (hx "712271")); IField; IVal (LStr (hx "7475706c65")); IInitTuple; ISym (hx "61"); IInitTuple; ISym (hx "76616c"); IVal (LInt (13)%Z); IField; ISym (hx "6f74686572"); IVal (LInt (10)%Z); IField; IVal (LStr (hx "76616c")); IIndex; IField; ISym (hx "6e616d65"); IVal (LStr (hx "712271")); IField; ITyp; IEqual; ISym (hx "74727565"); ISelectJump 2; IVal (LStr (hx "7a7a")); IJump 2; IPop; IDeRef (hx "7a7a"); IExist; IJump 50; ISym (hx "c3a9"); ISelectJump 46; IInitTuple; ISym (hx "62"); IVal (LStr (hx "696e74")); IDeRef (hx "6e616d65"); ITyp; IEqual; IField; ISym (hx "6f74686572"); IVal (LInt (2)%Z); IField; IVal (LStr (hx "62")); IIndex; IOr 32; IInitList; IVal (LFloat 4619567317775286272%Z); IElement; IVal (LFloat 4619567317775286272%Z); IElement; IInitList; IVal (LFloat 0%Z); IElement; IVal (LFloat 4636737291354636288%Z); IElement; IAdd; IVal (LStr (hx "7475706c65")); IInitList; IVal (LFloat 4619567317775286272%Z); IElement; IVal (LFloat 4619567317775286272%Z); IElement; IInitList; IVal (LFloat 0%Z); IElement; IVal (LFloat 4636737291354636288%Z); IElement; IAdd; ITyp; IEqual; ISym (hx "74727565"); ISelectJump 2; IVal (LStr (hx "6e616d65")); IJump 2; IPop; IDeRef (hx "6e616d65"); IExist; IJump 2; IPop; IVal (LBool true); IBind].
Proof. reflexivity. Qed.
(* let y2 = func (t) => select (`zzz`, select ({name = `@`, inner = 0.0, k1 = 2} is `tuple`, str(`b\\s`)) => {`true` = `a` + `foo`}) => {a = map(func (lst) => `é @a@ \\@ ` % (lst, t), (`é@{item + 1}@{item}v=@{item}` % 5)), foo = 9223372036854775807 + [15, 7, 42] . 0}; let d = func (t, m, bar) => `x=@end` % ({val = map(func (lst) => 5, [true, true]), other = 0} . val); let k = 0.5 > (select (`@{item . a}\\@@{item . name}` % {a = 10, name = `é`}, (2.0 - 1024.0) / (0.125 - 0.0)) => {a = 1024.0 + 0.5 / 3.75, `x y` = float(0.125 / 0.0)}); let val = {name = [[{b = `foo`, other = 100} . b], filter(func (a) => false, [`a`, `@`]) + [`a`], select (`é`) => {`é` = filter(func (a) => k, [`x y`]), bar = filter(func (lst) => true, [`é`, `b\\s`])}] . 1, `é` = {`é` = 0.25 * 2.0 / (select (``) => {a = 0.0}), k1 = `@x=@\\@@` % (1:4, `line break`, {a = 2})}}; let x1 = {name = (select (select (k) => {`true` = k, `false` = k}, `q\`q` + `q\`q`) => {`true` = {b = ``, other = 7} . b}) + (`日本` + `b\\s`), a = float((select (`foo`, 3.75) => {foo = 3.75}) / (100.0 + 1024.0))}; [12, [14 + 8] . 1];  *)
Example tr_gen_39 : translate [SLet (hx "7932") (EFunc [(hx "74")] (ESelect (EStr (hx "7a7a7a")) (Some (ESelect (EBin IS (ETuple [((hx "6e616d65"), (EStr (hx "40"))); ((hx "696e6e6572"), (EFloat 0%Z)); ((hx "6b31"), (EInt (2)%Z))]) (EStr (hx "7475706c65"))) (Some (ECast CStr (EStr (hx "625c73")))) [((hx "74727565"), (EBin Add (EStr (hx "61")) (EStr (hx "666f6f"))))])) [((hx "61"), (EMap (EFunc [(hx "6c7374")] (EFormatL [PStr (hx "c3a920"); PHole; PStr (hx "61"); PHole; PStr (hx "204020")] [(ESym (hx "6c7374")); (ESym (hx "74"))])) (EGroup (EFormatS [PStr (hx "c3a9"); PExpr (EBin Add (ESym (hx "6974656d")) (EInt (1)%Z)); PStr (hx ""); PExpr (ESym (hx "6974656d")); PStr (hx "763d"); PExpr (ESym (hx "6974656d"))] (EInt (5)%Z))))); ((hx "666f6f"), (EBin Add (EInt (9223372036854775807)%Z) (EBin DOT (EList [(EInt (15)%Z); (EInt (7)%Z); (EInt (42)%Z)]) (EInt (0)%Z))))])); SLet (hx "64") (EFunc [(hx "74"); (hx "6d"); (hx "626172")] (EFormatL [PStr (hx "783d"); PHole; PStr (hx "656e64")] [(EBin DOT (ETuple [((hx "76616c"), (EMap (EFunc [(hx "6c7374")] (EInt (5)%Z)) (EList [(EBool true); (EBool true)]))); ((hx "6f74686572"), (EInt (0)%Z))]) (ESym (hx "76616c")))])); SLet (hx "6b") (EBin GT (EFloat 4602678819172646912%Z) (EGroup (ESelect (EFormatS [PStr (hx ""); PExpr (EBin DOT (ESym (hx "6974656d")) (ESym (hx "61"))); PStr (hx "40"); PExpr (EBin DOT (ESym (hx "6974656d")) (ESym (hx "6e616d65")))] (ETuple [((hx "61"), (EInt (10)%Z)); ((hx "6e616d65"), (EStr (hx "c3a9")))])) (Some (EBin Div (EGroup (EBin Sub (EFloat 4611686018427387904%Z) (EFloat 4652218415073722368%Z))) (EGroup (EBin Sub (EFloat 4593671619917905920%Z) (EFloat 0%Z))))) [((hx "61"), (EBin Add (EFloat 4652218415073722368%Z) (EBin Div (EFloat 4602678819172646912%Z) (EFloat 4615626668101337088%Z)))); ((hx "782079"), (ECast CFloat (EBin Div (EFloat 4593671619917905920%Z) (EFloat 0%Z))))]))); SLet (hx "76616c") (ETuple [((hx "6e616d65"), (EBin DOT (EList [(EList [(EBin DOT (ETuple [((hx "62"), (EStr (hx "666f6f"))); ((hx "6f74686572"), (EInt (100)%Z))]) (ESym (hx "62")))]); (EBin Add (EFilter (EFunc [(hx "61")] (EBool false)) (EList [(EStr (hx "61")); (EStr (hx "40"))])) (EList [(EStr (hx "61"))])); (ESelect (EStr (hx "c3a9")) None [((hx "c3a9"), (EFilter (EFunc [(hx "61")] (ESym (hx "6b"))) (EList [(EStr (hx "782079"))]))); ((hx "626172"), (EFilter (EFunc [(hx "6c7374")] (EBool true)) (EList [(EStr (hx "c3a9")); (EStr (hx "625c73"))])))])]) (EInt (1)%Z))); ((hx "c3a9"), (ETuple [((hx "c3a9"), (EBin Div (EBin Mul (EFloat 4598175219545276416%Z) (EFloat 4611686018427387904%Z)) (EGroup (ESelect (EStr (hx "")) None [((hx "61"), (EFloat 0%Z))])))); ((hx "6b31"), (EFormatL [PStr (hx ""); PHole; PStr (hx "783d"); PHole; PStr (hx "40"); PHole] [(ERange (EInt (1)%Z) None (EInt (4)%Z)); (EStr (hx "6c696e6520627265616b")); (ETuple [((hx "61"), (EInt (2)%Z))])]))]))]); SLet (hx "7831") (ETuple [((hx "6e616d65"), (EBin Add (EGroup (ESelect (ESelect (ESym (hx "6b")) None [((hx "74727565"), (ESym (hx "6b"))); ((hx "66616c7365"), (ESym (hx "6b")))]) (Some (EBin Add (EStr (hx "712271")) (EStr (hx "712271")))) [((hx "74727565"), (EBin DOT (ETuple [((hx "62"), (EStr (hx ""))); ((hx "6f74686572"), (EInt (7)%Z))]) (ESym (hx "62"))))])) (EGroup (EBin Add (EStr (hx "e697a5e69cac")) (EStr (hx "625c73")))))); ((hx "61"), (ECast CFloat (EBin Div (EGroup (ESelect (EStr (hx "666f6f")) (Some (EFloat 4615626668101337088%Z)) [((hx "666f6f"), (EFloat 4615626668101337088%Z))])) (EGroup (EBin Add (EFloat 4636737291354636288%Z) (EFloat 4652218415073722368%Z))))))]); SExpr (EList [(EInt (12)%Z); (EBin DOT (EList [(EBin Add (EInt (14)%Z) (EInt (8)%Z))]) (EInt (1)%Z))])] = [ISym (hx "7932"); IInitList; ISym (hx "74"); IElement; IFunc 80; IVal (LStr (hx "7a7a7a")); ISym (hx "61"); ISelectJump 39; IInitList; ISym (hx "6c7374"); IElement; IFunc 12; IVal (LStr (hx "204020")); IDeRef (hx "74"); IRender; IAdd; IVal (LStr (hx "61")); IAdd; IDeRef (hx "6c7374"); IRender; IAdd; IVal (LStr (hx "c3a920")); IAdd; IReturn; INewScope 20; ISym (hx "6974656d"); IVal (LInt (5)%Z); IBindOver; IDeRef (hx "6974656d"); IRender; IVal (LStr (hx "763d")); IAdd; IDeRef (hx "6974656d"); IRender; IAdd; IVal (LStr (hx "")); IAdd; IVal (LInt (1)%Z); IDeRef (hx "6974656d"); IAdd; IRender; IAdd; IVal (LStr (hx "c3a9")); IAdd; IReturn; IRuntime HMap; IJump 37; ISym (hx "666f6f"); ISelectJump 12; IInitList; IVal (LInt (15)%Z); IElement; IVal (LInt (7)%Z); IElement; IVal (LInt (42)%Z); IElement; IVal (LInt (0)%Z); IIndex; IVal (LInt (9223372036854775807)%Z); IAdd; IJump 23; IPop; IVal (LStr (hx "7475706c65")); IInitTuple; ISym (hx "6e616d65"); IVal (LStr (hx "40")); IField; ISym (hx "696e6e6572"); IVal (LFloat 0%Z); IField; ISym (hx "6b31"); IVal (LInt (2)%Z); IField; ITyp; IEqual; ISym (hx "74727565"); ISelectJump 4; IVal (LStr (hx "666f6f")); IVal (LStr (hx "61")); IAdd; IJump 3; IPop; IVal (LStr (hx "625c73")); ICast CStr; IReturn; IBind; ISym (hx "64"); IInitList; ISym (hx "74"); IElement; ISym (hx "6d"); IElement; ISym (hx "626172"); IElement; IFunc 26; IVal (LStr (hx "656e64")); IInitTuple; ISym (hx "76616c"); IInitList; ISym (hx "6c7374"); IElement; IFunc 2; IVal (LInt (5)%Z); IReturn; IInitList; IVal (LBool true); IElement; IVal (LBool true); IElement; IRuntime HMap; IField; ISym (hx "6f74686572"); IVal (LInt (0)%Z); IField; IVal (LStr (hx "76616c")); IIndex; IRender; IAdd; IVal (LStr (hx "783d")); IAdd; IReturn; IBind; ISym (hx "6b"); INewScope 23; ISym (hx "6974656d"); IInitTuple; ISym (hx "61"); IVal (LInt (10)%Z); IField; ISym (hx "6e616d65"); IVal (LStr (hx "c3a9")); IField; IBindOver; IDeRef (hx "6974656d"); IVal (LStr (hx "6e616d65")); IIndex; IRender; IVal (LStr (hx "40")); IAdd; IDeRef (hx "6974656d"); IVal (LStr (hx "61")); IIndex; IRender; IAdd; IVal (LStr (hx "")); IAdd; IReturn; ISym (hx "61"); ISelectJump 6; IVal (LFloat 4615626668101337088%Z); IVal (LFloat 4602678819172646912%Z); IDiv; IVal (LFloat 4652218415073722368%Z); IAdd; IJump 15; ISym (hx "782079"); ISelectJump 5; IVal (LFloat 0%Z); IVal (LFloat 4593671619917905920%Z); IDiv; ICast CFloat; IJump 8; IPop; IVal (LFloat 0%Z); IVal (LFloat 4593671619917905920%Z); ISub; IVal (LFloat 4652218415073722368%Z); IVal (LFloat 4611686018427387904%Z); ISub; IDiv; IVal (LFloat 4602678819172646912%Z); IGt; IBind; ISym (hx "76616c"); IInitTuple; ISym (hx "6e616d65"); IInitList; IInitList; IInitTuple; ISym (hx "62"); IVal (LStr (hx "666f6f")); IField; ISym (hx "6f74686572"); IVal (LInt (100)%Z); IField; IVal (LStr (hx "62")); IIndex; IElement; IElement; IInitList; IVal (LStr (hx "61")); IElement; IInitList; ISym (hx "61"); IElement; IFunc 2; IVal (LBool false); IReturn; IInitList; IVal (LStr (hx "61")); IElement; IVal (LStr (hx "40")); IElement; IRuntime HFilter; IAdd; IElement; IVal (LStr (hx "c3a9")); ISym (hx "c3a9"); ISelectJump 11; IInitList; ISym (hx "61"); IElement; IFunc 2; IDeRef (hx "6b"); IReturn; IInitList; IVal (LStr (hx "782079")); IElement; IRuntime HFilter; IJump 18; ISym (hx "626172"); ISelectJump 13; IInitList; ISym (hx "6c7374"); IElement; IFunc 2; IVal (LBool true); IReturn; IInitList; IVal (LStr (hx "c3a9")); IElement; IVal (LStr (hx "625c73")); IElement; IRuntime HFilter; IJump 3; IPop; IVal (LStr (hx "556e68616e646c65642073656c65637420636173652077697468206e6f2064656661756c74")); IBang; IElement; IVal (LInt (1)%Z); IIndex; IField; ISym (hx "c3a9"); IInitTuple; ISym (hx "c3a9"); IVal (LStr (hx "")); ISym (hx "61"); ISelectJump 2; IVal (LFloat 0%Z); IJump 3; IPop; IVal (LStr (hx "556e68616e646c65642073656c65637420636173652077697468206e6f2064656661756c74")); IBang; IVal (LFloat 4611686018427387904%Z); IVal (LFloat 4598175219545276416%Z); IMul; IDiv; IField; ISym (hx "6b31"); IInitTuple; ISym (hx "61"); IVal (LInt (2)%Z); IField; IRender; IVal (LStr (hx "40")); IAdd; IVal (LStr (hx "6c696e6520627265616b")); IRender; IAdd; IVal (LStr (hx "783d")); IAdd; IVal (LInt (4)%Z); IVal LEmpty; IVal (LInt (1)%Z); IRuntime HRange; IRender; IAdd; IVal (LStr (hx "")); IAdd; IField; IField; IBind; ISym (hx "7831"); IInitTuple; ISym (hx "6e616d65"); IVal (LStr (hx "625c73")); IVal (LStr (hx "e697a5e69cac")); IAdd; IDeRef (hx "6b"); ISym (hx "74727565"); ISelectJump 2; IDeRef (hx "6b"); IJump 7; ISym (hx "66616c7365"); ISelectJump 2; IDeRef (hx "6b"); IJump 3; IPop; IVal (LStr (hx "556e68616e646c65642073656c65637420636173652077697468206e6f2064656661756c74")); IBang; ISym (hx "74727565"); ISelectJump 10; IInitTuple; ISym (hx "62"); IVal (LStr (hx "")); IField; ISym (hx "6f74686572"); IVal (LInt (7)%Z); IField; IVal (LStr (hx "62")); IIndex; IJump 4; IPop; IVal (LStr (hx "712271")); IVal (LStr (hx "712271")); IAdd; IAdd; IField; ISym (hx "61"); IVal (LFloat 4652218415073722368%Z); IVal (LFloat 4636737291354636288%Z); IAdd; IVal (LStr (hx "666f6f")); ISym (hx "666f6f"); ISelectJump 2; IVal (LFloat 4615626668101337088%Z); IJump 2; IPop; IVal (LFloat 4615626668101337088%Z); IDiv; ICast CFloat; IField; IBind; IInitList; IVal (LInt (12)%Z); IElement; IInitList; IVal (LInt (8)%Z); IVal (LInt (14)%Z); IAdd; IElement; IVal (LInt (1)%Z); IIndex; IElement; IPop].
Proof. reflexivity. Qed.
(* let bar = 5; let a = bar %% 2; let d = `a`; let k = select (d, `日本`) => {a = reduce(func (m, x1) => `a@é @ \\@ ` % ({a = 6}, 0.125 <= 1.5), d + (`:@@@` % ({a = 19}, false, {a = 12})), (map(func (c) => `foo`, [`tuple`]) + [d])), foo = `b\\s`}; let foo = reduce(func (val, lst) => val + [[{c = 3.75}], val, val] . 2, [{c = 0.5, c = 1024.0}], ({a = [`tuple`, `@`], other = 7} . a)) + (map(func (data) => filter(func (y2, c) => true, {c = 0.5}), select (`bar`, [15]) => {bar = []}) + (map(func (m) => {c = 100.0}, [`bar`, `é`]) + [[{c = 0.125}, {c = 0.5}], [{c = 0.125}, {c = 1.5}], [{c = 1024.0}]] . 2)); let cfg = a / 4;  *)
Example tr_gen_40 : translate [SLet (hx "626172") (EInt (5)%Z); SLet (hx "61") (EBin Mod (ESym (hx "626172")) (EInt (2)%Z)); SLet (hx "64") (EStr (hx "61")); SLet (hx "6b") (ESelect (ESym (hx "64")) (Some (EStr (hx "e697a5e69cac"))) [((hx "61"), (EReduce (EFunc [(hx "6d"); (hx "7831")] (EFormatL [PStr (hx "61"); PHole; PStr (hx "c3a920"); PHole; PStr (hx "204020")] [(ETuple [((hx "61"), (EInt (6)%Z))]); (EBin LTEqual (EFloat 4593671619917905920%Z) (EFloat 4609434218613702656%Z))])) (EBin Add (ESym (hx "64")) (EGroup (EFormatL [PStr (hx "3a"); PHole; PStr (hx ""); PHole; PStr (hx ""); PHole] [(ETuple [((hx "61"), (EInt (19)%Z))]); (EBool false); (ETuple [((hx "61"), (EInt (12)%Z))])]))) (EGroup (EBin Add (EMap (EFunc [(hx "63")] (EStr (hx "666f6f"))) (EList [(EStr (hx "7475706c65"))])) (EList [(ESym (hx "64"))]))))); ((hx "666f6f"), (EStr (hx "625c73")))]); SLet (hx "666f6f") (EBin Add (EReduce (EFunc [(hx "76616c"); (hx "6c7374")] (EBin Add (ESym (hx "76616c")) (EBin DOT (EList [(EList [(ETuple [((hx "63"), (EFloat 4615626668101337088%Z))])]); (ESym (hx "76616c")); (ESym (hx "76616c"))]) (EInt (2)%Z)))) (EList [(ETuple [((hx "63"), (EFloat 4602678819172646912%Z)); ((hx "63"), (EFloat 4652218415073722368%Z))])]) (EGroup (EBin DOT (ETuple [((hx "61"), (EList [(EStr (hx "7475706c65")); (EStr (hx "40"))])); ((hx "6f74686572"), (EInt (7)%Z))]) (ESym (hx "61"))))) (EGroup (EBin Add (EMap (EFunc [(hx "64617461")] (EFilter (EFunc [(hx "7932"); (hx "63")] (EBool true)) (ETuple [((hx "63"), (EFloat 4602678819172646912%Z))]))) (ESelect (EStr (hx "626172")) (Some (EList [(EInt (15)%Z)])) [((hx "626172"), (EList []))])) (EGroup (EBin Add (EMap (EFunc [(hx "6d")] (ETuple [((hx "63"), (EFloat 4636737291354636288%Z))])) (EList [(EStr (hx "626172")); (EStr (hx "c3a9"))])) (EBin DOT (EList [(EList [(ETuple [((hx "63"), (EFloat 4593671619917905920%Z))]); (ETuple [((hx "63"), (EFloat 4602678819172646912%Z))])]); (EList [(ETuple [((hx "63"), (EFloat 4593671619917905920%Z))]); (ETuple [((hx "63"), (EFloat 4609434218613702656%Z))])]); (EList [(ETuple [((hx "63"), (EFloat 4652218415073722368%Z))])])]) (EInt (2)%Z))))))); SLet (hx "636667") (EBin Div (ESym (hx "61")) (EInt (4)%Z))] = [ISym (hx "626172"); IVal (LInt (5)%Z); IBind; ISym (hx "61"); IVal (LInt (2)%Z); IDeRef (hx "626172"); IMod; IBind; ISym (hx "64"); IVal (LStr (hx "61")); IBind; ISym (hx "6b"); IDeRef (hx "64"); ISym (hx "61"); ISelectJump 61; IInitList; ISym (hx "6d"); IElement; ISym (hx "7831"); IElement; IFunc 17; IVal (LStr (hx "204020")); IVal (LFloat 4609434218613702656%Z); IVal (LFloat 4593671619917905920%Z); ILtEq; IRender; IAdd; IVal (LStr (hx "c3a920")); IAdd; IInitTuple; ISym (hx "61"); IVal (LInt (6)%Z); IField; IRender; IAdd; IVal (LStr (hx "61")); IAdd; IReturn; IInitTuple; ISym (hx "61"); IVal (LInt (12)%Z); IField; IRender; IVal (LStr (hx "")); IAdd; IVal (LBool false); IRender; IAdd; IVal (LStr (hx "")); IAdd; IInitTuple; ISym (hx "61"); IVal (LInt (19)%Z); IField; IRender; IAdd; IVal (LStr (hx "3a")); IAdd; IDeRef (hx "64"); IAdd; IInitList; IDeRef (hx "64"); IElement; IInitList; ISym (hx "63"); IElement; IFunc 2; IVal (LStr (hx "666f6f")); IReturn; IInitList; IVal (LStr (hx "7475706c65")); IElement; IRuntime HMap; IAdd; IRuntime HReduce; IJump 6; ISym (hx "666f6f"); ISelectJump 2; IVal (LStr (hx "625c73")); IJump 2; IPop; IVal (LStr (hx "e697a5e69cac")); IBind; ISym (hx "666f6f"); IInitList; IInitList; IInitTuple; ISym (hx "63"); IVal (LFloat 4593671619917905920%Z); IField; IElement; IInitTuple; ISym (hx "63"); IVal (LFloat 4602678819172646912%Z); IField; IElement; IElement; IInitList; IInitTuple; ISym (hx "63"); IVal (LFloat 4593671619917905920%Z); IField; IElement; IInitTuple; ISym (hx "63"); IVal (LFloat 4609434218613702656%Z); IField; IElement; IElement; IInitList; IInitTuple; ISym (hx "63"); IVal (LFloat 4652218415073722368%Z); IField; IElement; IElement; IVal (LInt (2)%Z); IIndex; IInitList; ISym (hx "6d"); IElement; IFunc 5; IInitTuple; ISym (hx "63"); IVal (LFloat 4636737291354636288%Z); IField; IReturn; IInitList; IVal (LStr (hx "626172")); IElement; IVal (LStr (hx "c3a9")); IElement; IRuntime HMap; IAdd; IInitList; ISym (hx "64617461"); IElement; IFunc 14; IInitList; ISym (hx "7932"); IElement; ISym (hx "63"); IElement; IFunc 2; IVal (LBool true); IReturn; IInitTuple; ISym (hx "63"); IVal (LFloat 4602678819172646912%Z); IField; IRuntime HFilter; IReturn; IVal (LStr (hx "626172")); ISym (hx "626172"); ISelectJump 2; IInitList; IJump 4; IPop; IInitList; IVal (LInt (15)%Z); IElement; IRuntime HMap; IAdd; IInitList; ISym (hx "76616c"); IElement; ISym (hx "6c7374"); IElement; IFunc 17; IInitList; IInitList; IInitTuple; ISym (hx "63"); IVal (LFloat 4615626668101337088%Z); IField; IElement; IElement; IDeRef (hx "76616c"); IElement; IDeRef (hx "76616c"); IElement; IVal (LInt (2)%Z); IIndex; IDeRef (hx "76616c"); IAdd; IReturn; IInitList; IInitTuple; ISym (hx "63"); IVal (LFloat 4602678819172646912%Z); IField; ISym (hx "63"); IVal (LFloat 4652218415073722368%Z); IField; IElement; IInitTuple; ISym (hx "61"); IInitList; IVal (LStr (hx "7475706c65")); IElement; IVal (LStr (hx "40")); IElement; IField; ISym (hx "6f74686572"); IVal (LInt (7)%Z); IField; IVal (LStr (hx "61")); IIndex; IRuntime HReduce; IAdd; IBind; ISym (hx "636667"); IVal (LInt (4)%Z); IDeRef (hx "61"); IDiv; IBind].
Proof. reflexivity. Qed.
