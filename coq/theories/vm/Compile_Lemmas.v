(* Compile correctness: the simulation between the definitional evaluator (sem/Sem.v) and the
   VM model (vm/Vm.v) running the model translator's code (vm/Translate.v), "code in context".
   Each construct is a triple [runs] about its code, put together from the triples of its parts. *)
From Ucg Require Import base.Bytes_Lemmas.
From Ucg Require Import sem.Scope_Lemmas.
From Ucg Require Export vm.Compile_Eqs vm.Symtab_Lemmas.

(* keep byte-string literals folded when handlers are evaluated *)
Local Arguments b : simpl never.

Section Sim.
  Variable fo : float_ops.
  Variable C : ops.
  Variable strict_ : bool.
  Variable envv : list (bytes * bytes).

  Notation wval := (wval fo).
  Notation value := (value fo).
  Notation ctx := (ctx fo).
  Notation run := (vm_run fo C strict_ envv).
  Notation exec := (exec_instr fo C strict_ envv).
  Notation reaches := (reaches fo C strict_ envv).
  Notation runs := (runs fo C strict_ envv).
  Notation pushes := (pushes fo).
  Notation code_at := (code_at C).
  Notation val_rel := (val_rel fo C).
  Notation fld_rel := (fld_rel fo C).
  Notation scope_rel := (scope_rel fo C).
  Notation self_rel := (self_rel fo C).
  Notation mk := (mk fo).

  Definition ctx_ok (c : ctx) : Prop :=
    strict fo c = strict_ /\ envt fo c = envv /\ eq_ordered fo c = true.

  (* the machine's symbols and self stack stand for the evaluator's context *)
  Definition ctx_rel (c : ctx) (t : symtab fo) (ss : list wval) : Prop :=
    ctx_ok c /\ scope_rel (sc fo c) t /\ self_rel (self_v fo c) ss.

  Lemma ctx_rel_ok c t ss : ctx_rel c t ss -> ctx_ok c.
  Proof. intros H. apply H. Qed.
  Lemma ctx_rel_env c t ss : ctx_rel c t ss -> envt fo c = envv.
  Proof. intros H. apply H. Qed.
  Lemma ctx_rel_ordered c t ss : ctx_rel c t ss -> eq_ordered fo c = true.
  Proof. intros H. apply H. Qed.
  Lemma ctx_rel_scope c t ss : ctx_rel c t ss -> scope_rel (sc fo c) t.
  Proof. intros H. apply H. Qed.
  Lemma ctx_rel_self c t ss : ctx_rel c t ss -> self_rel (self_v fo c) ss.
  Proof. intros H. apply H. Qed.

  (* another scope and other symbols, another `self` *)
  Lemma ctx_rel_with_scope c t ss sc' t' :
    ctx_rel c t ss -> scope_rel sc' t' -> ctx_rel (with_scope fo c sc') t' ss.
  Proof. intros (Hok & _ & Hself) Hs. repeat split; auto; apply Hok. Qed.
  Lemma ctx_rel_with_self c t ss tv tw :
    ctx_rel c t ss -> val_rel tv tw -> ctx_rel (with_self fo c (Some tv)) t (tw :: ss).
  Proof. intros (Hok & Hs & _) Hvw. repeat split; auto; try apply Hok. constructor. exact Hvw. Qed.

  Definition sim_at (f : nat) (e : expr) : Prop :=
    forall c s t ss, frag e = true -> ctx_rel c t ss ->
      runs (tr e) s t ss (eval fo f c e) (pushes val_rel s t ss).
  Definition sim_e (f : nat) : Prop := forall e, sim_at f e.

  (* statements leave the stack alone and extend the symbols, which stay sorted *)
  Definition sim_ss (f : nat) : Prop :=
    forall ss c s t sst, forallb frag_stmt ss = true -> ctx_rel c t sst ->
      runs (translate ss) s t sst (exec_list fo f c ss)
           (fun sc' s1 t1 ss1 => s1 = s /\ ss1 = sst /\ scope_rel sc' t1 /\ (sorted t -> sorted t1)).

  Definition frags (fs : list (bytes * expr)) : bool := forallb (fun kv => frag (snd kv)) fs.

  Definition sim_copy (f : nat) : Prop :=
    forall tv tw fs c s t ss, val_rel tv tw -> frags fs = true -> ctx_rel c t ss ->
      runs (copy_code (tr_fields fs)) (tw :: s) t ss (copy_into fo f c tv fs) (pushes val_rel s t ss).

  (* the next instruction does what evaluating its handler shows *)
  Ltac exec_eq :=
    intros; unfold Compile_Base.mk; cbn; unfold push_next, next, with_stk, with_pc; cbn [pc stk syms selfs];
    reflexivity.
  Ltac step := eapply runs_step; [reflexivity|exec_eq|].
  (* ... or stops with an error, where the evaluator does too *)
  Ltac fails := apply runs_fail; [reflexivity|intros; reflexivity].
  Ltac split_frag H :=
    cbn [frag] in H; repeat (let H' := fresh "Hf" in apply andb_true_iff in H; destruct H as [H H']).

  Section Step.
    Variable f : nat.
    Hypothesis IH : sim_e f.
    Hypothesis IHs : sim_ss f.
    Hypothesis IHc : sim_copy f.

    Lemma sim_ih e c s t ss : frag e = true -> ctx_rel c t ss ->
      runs (tr e) s t ss (eval fo f c e) (pushes val_rel s t ss).
    Proof. apply IH. Qed.

    Lemma sim_lit e l v :
      tr e = [IVal l] -> (forall c, eval fo (S f) c e = Ok v) -> val_rel v (lit_val fo l) -> sim_at (S f) e.
    Proof.
      intros Htr Hev Hv c s t ss _ _. rewrite Htr, Hev. step. apply runs_nil, pushes_intro, Hv.
    Qed.

    Lemma env_tuple_rel c : envt fo c = envv -> val_rel (env_tuple fo c) (env_tuple_w fo envv).
    Proof.
      intros H. unfold env_tuple, env_tuple_w. rewrite H. constructor.
      generalize envv as E. induction E as [|[k v] l IHl]; cbn; constructor; auto. split; cbn; auto. constructor.
    Qed.

    Lemma binding_rel c t ss x : ctx_rel c t ss ->
      res_out val_rel (eval fo (S f) c (ESym x))
              (match get_binding fo envv (mk 0 [] t ss) x with Some w => VOk w | None => VErr end).
    Proof.
      intros Hc. pose proof (ctx_rel_scope _ _ _ Hc) as Hs. pose proof (ctx_rel_self _ _ _ Hc) as Hself.
      rewrite eval_sym. unfold get_binding. cbn [selfs syms Compile_Base.mk].
      destruct (bytes_eqb x (b "self")).
      - destruct Hself; cbn; eauto.
      - destruct (Hs x); destruct (bytes_eqb x (b "env")); cbn; eauto using env_tuple_rel, ctx_rel_env.
    Qed.

    Lemma sim_sym x : sim_at (S f) (ESym x).
    Proof.
      intros c s t ss _ Hc. eapply runs_prim; [reflexivity| |apply binding_rel, Hc].
      intros rn n. cbn. unfold get_binding. cbn [selfs syms Compile_Base.mk].
      destruct (if bytes_eqb x (b "self") then _ else _); reflexivity.
    Qed.

    Lemma sim_group e : sim_at (S f) (EGroup e).
    Proof. intros c s t ss Hf Hc. rewrite eval_group. exact (sim_ih e c s t ss Hf Hc). Qed.

    Lemma sim_not e : sim_at (S f) (ENot e).
    Proof.
      intros c s t ss Hf Hc. rewrite eval_not. change (tr (ENot e)) with (tr e ++ [INot]).
      eapply evals_seq; [apply sim_ih; auto|]. intros v w Hvw.
      eapply runs_prim with (o := match w with WBool x => VOk (WBool (negb x)) | _ => VErr end);
        [reflexivity|intros; destruct w; reflexivity|].
      destruct Hvw; cbn; eauto using Compile_Rel.val_rel.
    Qed.

    Lemma sim_cast ct e : sim_at (S f) (ECast ct e).
    Proof.
      intros c s t ss Hf Hc. rewrite eval_cast. change (tr (ECast ct e)) with (tr e ++ [ICast ct]).
      eapply evals_seq; [apply sim_ih; auto|]. intros v w Hvw.
      eapply runs_prim; [reflexivity| |apply cast_rel, Hvw].
      intros rn n. cbn. destruct (vm_cast fo ct w); reflexivity.
    Qed.

    Lemma sim_fail e : sim_at (S f) (EFail e).
    Proof.
      intros c s t ss Hf Hc. rewrite eval_fail.
      change (tr (EFail e)) with (tr e ++ [IVal (LStr user_defined_msg); IAdd; IBang]).
      eapply evals_seq; [apply sim_ih; auto|]. intros v w Hvw. step.
      destruct w; try fails. step. fails.
    Qed.

    Lemma sim_trace e : sim_at (S f) (ETrace e).
    Proof.
      intros c s t ss Hf Hc. rewrite eval_trace.
      change (tr (ETrace e)) with (IVal (LStr trace_text) :: tr e ++ [IRuntime HTrace]). step.
      eapply runs_then; [apply sim_ih; auto|]. intros v s1 t1 ss1 (w & Hvw & -> & -> & ->).
      step. apply runs_nil, pushes_intro, Hvw.
    Qed.

    Lemma sim_operands {A} l r c s t ss tail (k : value -> value -> res A) Q :
      frag l = true -> frag r = true -> ctx_rel c t ss ->
      (forall lv rv lw rw, val_rel lv lw -> val_rel rv rw -> runs tail (lw :: rw :: s) t ss (k lv rv) Q) ->
      runs (tr r ++ tr l ++ tail) s t ss (do rv <- eval fo f c r; do lv <- eval fo f c l; k lv rv) Q.
    Proof.
      intros Hfl Hfr Hc Hk.
      eapply evals_seq; [apply sim_ih; auto|]. intros rv rw Rr.
      eapply evals_seq; [apply sim_ih; auto|]. intros lv lw Rl. auto.
    Qed.

    Lemma sim_binop l r c s t ss i (prim : value -> value -> res value) (wprim : wval -> wval -> outcome wval) :
      frag l = true -> frag r = true -> ctx_rel c t ss -> is_ret i = false ->
      (forall lw rw s' n rn, exec rn i (mk n (lw :: rw :: s') t ss) =
                             vdo v <- wprim lw rw; VOk (mk (S n) (v :: s') t ss)) ->
      (forall lv rv lw rw, val_rel lv lw -> val_rel rv rw -> res_out val_rel (prim lv rv) (wprim lw rw)) ->
      runs (tr r ++ tr l ++ [i]) s t ss (do rv <- eval fo f c r; do lv <- eval fo f c l; prim lv rv)
           (pushes val_rel s t ss).
    Proof.
      intros Hfl Hfr Hc Hi Hex Hprim. apply sim_operands; auto. intros lv rv lw rw Rl Rr.
      eapply runs_prim; [exact Hi|intros; apply Hex|auto].
    Qed.

    Lemma sim_arith o l r : is_arith o = true -> sim_at (S f) (EBin o l r).
    Proof.
      intros Ho c s t ss Hf Hc. rewrite (tr_arith o l r Ho), (eval_arith fo f c o l r Ho).
      assert (Hf' : frag l && frag r = true) by (destruct o; try discriminate; exact Hf).
      apply andb_true_iff in Hf' as [Hfl Hfr].
      apply sim_binop with (wprim := vm_arith fo (arith_instr o)); auto.
      - destruct o; try discriminate; reflexivity.
      - intros. destruct o; try discriminate; reflexivity.
      - intros. apply arith_rel; auto.
    Qed.

    Lemma sim_cmp o l r : is_cmp o = true -> sim_at (S f) (EBin o l r).
    Proof.
      intros Ho c s t ss Hf Hc. rewrite (tr_cmp o l r Ho), (eval_cmp fo f c o l r Ho).
      assert (Hf' : frag l && frag r = true) by (destruct o; try discriminate; exact Hf).
      apply andb_true_iff in Hf' as [Hfl Hfr].
      apply sim_binop with (wprim := vm_compare fo (cmp_instr o)); auto.
      - destruct o; try discriminate; reflexivity.
      - intros. destruct o; try discriminate; reflexivity.
      - intros. apply compare_rel; auto.
    Qed.

    Lemma exec_equal rn n lw rw s t ss :
      exec rn IEqual (mk n (lw :: rw :: s) t ss) = vdo v <- weq_prim fo lw rw; VOk (mk (S n) (v :: s) t ss).
    Proof.
      unfold weq_prim. cbn -[wcompatible weq]. destruct (wcompatible lw rw); [|reflexivity].
      destruct (weq lw rw); reflexivity.
    Qed.

    Lemma runs_equal c lv rv lw rw s t ss :
      ctx_rel c t ss -> val_rel lv lw -> val_rel rv rw ->
      runs [IEqual] (lw :: rw :: s) t ss (eq_sem fo f c lv rv) (pushes (fun q w => w = WBool q) s t ss).
    Proof.
      intros Hc Hl Hr. unfold eq_sem. rewrite (ctx_rel_ordered _ _ _ Hc).
      eapply runs_prim; [reflexivity|intros; apply exec_equal|apply (equal_rel fo C); auto].
    Qed.

    Lemma sim_equal l r : sim_at (S f) (EBin Equal l r).
    Proof.
      intros c s t ss Hf Hc. rewrite eval_equal. split_frag Hf.
      change (tr (EBin Equal l r)) with (tr r ++ tr l ++ [IEqual]).
      apply sim_operands; auto. intros lv rv lw rw Rl Rr.
      eapply runs_post; [eapply runs_equal; eauto|].
      intros q s1 t1 ss1 (w & -> & -> & -> & ->). apply pushes_intro. constructor.
    Qed.

    Lemma sim_notequal l r : sim_at (S f) (EBin NotEqual l r).
    Proof.
      intros c s t ss Hf Hc. rewrite eval_notequal. split_frag Hf.
      change (tr (EBin NotEqual l r)) with (tr r ++ tr l ++ [IEqual] ++ [INot]).
      apply sim_operands; auto. intros lv rv lw rw Rl Rr.
      eapply runs_seq; [eapply runs_equal; eauto|]. intros q s1 t1 ss1 (w & -> & -> & -> & ->).
      step. apply runs_nil, pushes_intro. constructor.
    Qed.

    Lemma sim_is l r : sim_at (S f) (EBin IS l r).
    Proof.
      intros c s t ss Hf Hc. rewrite eval_is. split_frag Hf.
      change (tr (EBin IS l r)) with (tr r ++ tr l ++ [ITyp; IEqual]).
      apply sim_operands; auto. intros lv tv lw tw Rl Rt. step.
      eapply runs_prim; [reflexivity|intros; apply exec_equal|].
      rewrite (is_name_rel fo C lv lw Rl).
      destruct Rt; cbn; try reflexivity; eexists; split; try reflexivity; constructor.
    Qed.

    (* the regex hook is not modelled: the evaluator never answers Ok *)
    Lemma sim_regex l r rest c s t ss Q :
      frag l = true -> frag r = true -> ctx_rel c t ss ->
      runs (tr r ++ tr l ++ IRuntime HRegex :: rest) s t ss
           (do rv <- eval fo f c r; do lv <- eval fo f c l; regex_sem fo lv rv) Q.
    Proof.
      intros Hfl Hfr Hc. apply sim_operands; auto. intros lv rv lw rw Rl Rr.
      destruct Rl; try fails; destruct Rr; try fails; intros n _; exact I.
    Qed.

    Lemma sim_andor (is_and : bool) l r : sim_at (S f) (EBin (if is_and then AND else OR) l r).
    Proof.
      intros c s t ss Hf Hc. rewrite eval_andor, tr_andor.
      assert (Hf' : frag l && frag r = true) by (destruct is_and; exact Hf).
      apply andb_true_iff in Hf' as [Hfl Hfr].
      eapply evals_seq; [apply sim_ih; auto|]. intros lv lw Rl.
      destruct Rl as [|x| | | | | | |]; try (destruct is_and; fails).
      destruct (Bool.eqb x is_and) eqn:Ex.
      - (* the operand is dropped, the right one decides *)
        eapply runs_step; [destruct is_and; reflexivity| |apply sim_ih; auto].
        intros. destruct is_and, x; try discriminate; reflexivity.
      - (* the operand stays, the right one is jumped over *)
        eapply runs_skip; [destruct is_and; reflexivity| |apply pushes_intro; constructor].
        intros. destruct is_and, x; try discriminate; reflexivity.
    Qed.

    Lemma exec_seljump rn n k w s t ss j :
      exec rn (ISelectJump j) (mk n (WSym k :: w :: s) t ss) =
      if select_matches fo (WSym k) w then VOk (mk (S n) s t ss) else jump fo C (mk n (w :: s) t ss) j.
    Proof. reflexivity. Qed.

    Lemma runs_exist hay needle hw nw s t ss :
      val_rel hay hw -> val_rel needle nw ->
      runs [IExist] (nw :: hw :: s) t ss (in_result fo f hay needle) (pushes val_rel s t ss).
    Proof.
      intros Hh Hn. eapply runs_prim with (o := vm_exist fo hw nw); [reflexivity|intros; reflexivity|].
      destruct Hh; try (cbn; reflexivity).
      - destruct Hn; cbn; eexists; split; try reflexivity; constructor.
      - apply in_list_rel; auto.
      - destruct Hn; try (cbn; reflexivity).
        pose proof (lookup_fld_get fo C s0 _ _ H) as Hl. cbn.
        eexists; split; [reflexivity|]. inversion Hl; constructor.
    Qed.

    Lemma sim_in_gen l r : match l with ESym _ => False | _ => True end -> sim_at (S f) (EBin IN l r).
    Proof.
      intros Hl c s t ss Hf Hc. pose proof (ctx_rel_ordered _ _ _ Hc) as Hord.
      rewrite (tr_in l r Hl), (eval_in fo f c l r Hord). split_frag Hf.
      eapply evals_seq; [apply sim_ih; auto|]. intros hay hw Rh. rewrite (in_needle_gen fo f c l hay Hl).
      eapply evals_seq; [apply sim_ih; auto|]. intros needle nw Rn. apply runs_exist; auto.
    Qed.

    Lemma wtyp_tuple v w : val_rel v w ->
      bytes_eqb (wtyp w) (b "tuple") = match v with VTuple _ => true | _ => false end.
    Proof. destruct 1; reflexivity. Qed.

    (* `x in r` with a bare name: the translator evaluates [r] a second time to see whether it is a
       tuple, and then takes the name itself or the value bound to it *)
    Lemma sim_in_sym x r : sim_at (S f) (EBin IN (ESym x) r).
    Proof.
      intros c s t ss Hf Hc. pose proof (ctx_rel_ordered _ _ _ Hc) as Hord.
      rewrite (eval_in fo f c (ESym x) r Hord). split_frag Hf.
      change (tr (EBin IN (ESym x) r)) with
        (tr r ++ (IVal (LStr (b "tuple")) :: tr r ++
                  [ITyp; IEqual; ISym (b "true"); ISelectJump 2; IVal (LStr x); IJump 2; IPop] ++ tr (ESym x))
              ++ [IExist]).
      pose proof (fun s => sim_ih r c s t ss Hf0 Hc) as Hr.
      destruct (eval fo f c r) as [hay| | |] eqn:Er; try (intros n _; exact I).
      2: { intros n Hn. apply code_at_app in Hn as [Hn _]. exact (Hr s n Hn). }
      cbn [bind]. eapply evals_known; [apply Hr|]. intros hw Rh.
      eapply evals_seq with (R := val_rel); [|intros needle nw Rn; apply runs_exist; auto].
      step. eapply evals_known; [apply Hr|]. intros hw' Rh'. cbn [app]. step.
      eapply runs_step; [reflexivity|intros; rewrite exec_equal; reflexivity|].
      rewrite (wtyp_tuple _ _ Rh'). step.
      assert (Hsel : forall v : bool, select_matches fo (WSym (b "true")) (WBool v) = v) by (intros []; reflexivity).
      destruct hay;
        try (eapply runs_jump with (skipped := [IVal (LStr x); IJump 2]);
             [reflexivity|intros; rewrite exec_seljump, Hsel; reflexivity|];
             step; apply sim_ih; [reflexivity|exact Hc]).
      eapply runs_step; [reflexivity|intros; rewrite exec_seljump, Hsel; reflexivity|].
      step. eapply runs_skip; [reflexivity|intros; reflexivity|]. apply pushes_intro. constructor.
    Qed.

    Lemma runs_index c lv kv lw kw s t ss :
      ctx_rel c t ss -> val_rel lv lw -> val_rel kv kw ->
      runs [IIndex] (kw :: lw :: s) t ss (index fo c lv kv) (pushes val_rel s t ss).
    Proof.
      intros ((<- & _ & _) & _) Hl Hk. eapply runs_prim; [reflexivity| |apply index_rel; eauto].
      intros rn n. cbn -[vm_index]. destruct (vm_index _ _ _ _); reflexivity.
    Qed.

    Lemma sim_dot_gen l r : dot_general r = true -> sim_at (S f) (EBin DOT l r).
    Proof.
      intros Hg c s t ss Hf Hc. rewrite (tr_dot_gen l r Hg), (eval_dot_gen fo f c l r Hg).
      assert (Hf' : frag l && frag r = true) by (destruct r; try discriminate; exact Hf).
      apply andb_true_iff in Hf' as [Hfl Hfr].
      apply sim_operands; auto. intros kv lv kw lw Rk Rl. eapply runs_index; eauto.
    Qed.

    Lemma sel_key_rel sel : is_sel sel = true -> val_rel (sel_key_val fo sel) (lit_val fo (sel_lit sel)).
    Proof. destruct sel; try discriminate; constructor. Qed.

    Lemma sim_dot_sym l k : sim_at (S f) (EBin DOT l (ESym k)).
    Proof.
      intros c s t ss Hf Hc. rewrite eval_dot_sym. split_frag Hf.
      change (tr (EBin DOT l (ESym k))) with (tr l ++ [IVal (LStr k); IIndex]).
      eapply evals_seq; [apply sim_ih; auto|]. intros lv lw Rl. step.
      eapply runs_index; eauto. constructor.
    Qed.

    Definition tuple_res (r : list (bytes * value)) (w : wval) : Prop :=
      exists rw, w = WTuple rw /\ Forall2 fld_rel r rw.

    Lemma tuple_lit_bind c fs r : tuple_lit_f fo f c fs r = do a <- r; tuple_lit_f fo f c fs (Ok a).
    Proof. apply fold_strict. intros [] []; reflexivity. Qed.

    Lemma sim_fields c t ss : ctx_rel c t ss -> forall fs acc accw s,
      frags fs = true -> Forall2 fld_rel acc accw ->
      runs (tr_fields fs) (WTuple accw :: s) t ss (tuple_lit_f fo f c fs (Ok acc)) (pushes tuple_res s t ss).
    Proof.
      intros Hc. induction fs as [|[k e] fs IHfs]; intros acc accw s Hf Hacc.
      - apply runs_nil, pushes_intro. exists accw. auto.
      - cbn in Hf. apply andb_true_iff in Hf as [Hfe Hffs]. rewrite tr_fields_cons.
        change (tuple_lit_f fo f c ((k, e) :: fs) (Ok acc)) with
          (tuple_lit_f fo f c fs (do v <- eval fo f c e; merge_field fo acc k v)).
        rewrite tuple_lit_bind, bind_assoc. step.
        eapply evals_seq; [apply sim_ih; auto|]. intros v w Hvw.
        eapply runs_seq with (Q1 := pushes tuple_res s t ss).
        + eapply runs_prim; [reflexivity| |eapply res_out_map; [apply merge_field_rel; eauto|]].
          * intros rn n. cbn. destruct (wmerge_field accw k w); reflexivity.
          * intros a aw Ha. exists aw. auto.
        + intros acc' s1 t1 ss1 (w' & (acc'w & -> & Hacc') & -> & -> & ->). apply IHfs; auto.
    Qed.

    Lemma sim_tuple fs : sim_at (S f) (ETuple fs).
    Proof.
      intros c s t ss Hf Hc. rewrite tr_tuple, eval_tuple. step.
      eapply runs_post; [apply sim_fields; auto|].
      intros r s1 t1 ss1 (w & (rw & -> & Hrw) & -> & -> & ->). apply pushes_intro, VR_tuple, Hrw.
    Qed.

    Lemma sim_elems c t ss : ctx_rel c t ss -> forall es accw s,
      forallb frag es = true ->
      runs (cat_map (fun e => tr e ++ [IElement]) es) (WList accw :: s) t ss (mapM (eval fo f c) es)
           (pushes (fun r w => exists rw, w = WList (accw ++ rw) /\ Forall2 val_rel r rw) s t ss).
    Proof.
      intros Hc. induction es as [|e es IHes]; intros accw s Hf.
      - apply runs_nil, pushes_intro. exists []. rewrite app_nil_r. auto.
      - cbn in Hf. apply andb_true_iff in Hf as [Hfe Hfes]. cbn [cat_map mapM]. rewrite <- app_assoc.
        eapply evals_seq; [apply sim_ih; auto|]. intros v w Hvw. step.
        eapply runs_post; [apply IHes; auto|].
        intros r s1 t1 ss1 (w' & (rw & -> & Hrw) & -> & -> & ->). apply pushes_intro.
        exists (w :: rw). rewrite <- app_assoc. auto.
    Qed.

    Lemma sim_list es : sim_at (S f) (EList es).
    Proof.
      intros c s t ss Hf Hc. rewrite tr_list, eval_list. step.
      eapply runs_post; [apply sim_elems; auto|].
      intros r s1 t1 ss1 (w & (rw & -> & Hrw) & -> & -> & ->). apply pushes_intro, VR_list, Hrw.
    Qed.

    (* call arguments are pushed left to right, so the last one ends on top *)
    Lemma sim_args c t ss : ctx_rel c t ss -> forall args s,
      forallb frag args = true ->
      runs (cat_map tr args) s t ss (mapM (eval fo f c) args)
           (fun avs s1 t1 ss1 => exists avw, Forall2 val_rel avs avw /\ List.length avs = List.length args /\
                                            s1 = rev avw ++ s /\ t1 = t /\ ss1 = ss).
    Proof.
      intros Hc. induction args as [|e es IHes]; intros s Hf.
      - apply runs_nil. exists []. auto.
      - cbn in Hf. apply andb_true_iff in Hf as [Hfe Hfes]. cbn [cat_map mapM].
        eapply evals_seq; [apply sim_ih; auto|]. intros v w Hvw.
        eapply runs_post; [apply IHes; auto|].
        intros r s1 t1 ss1 (rw & Hrw & Hlen & -> & -> & ->). exists (w :: rw). cbn [rev List.length].
        rewrite <- app_assoc, Hlen. auto.
    Qed.

    (* what a call or a callback loop computes, with the stack as it found it *)
    Definition loop_rel {A W} (R : A -> W -> Prop) (s : list wval) (a : A) (p : W * list wval) : Prop :=
      exists w, p = (w, s) /\ R a w.

    Lemma loop_ret {A W} (R : A -> W -> Prop) s a w :
      R a w -> answers (loop_rel R s) (Ok a) (fun _ => VOk (w, s)).
    Proof. intros H. apply answers_ret. exists w. auto. Qed.

    (* one call of a closure: the callee pops its arguments and leaves one value *)
    Lemma call_sim c fv ptr bs snap avs avw s :
      ctx_ok c -> val_rel fv (WFunc ptr bs snap) -> Forall2 val_rel avs avw ->
      List.length bs = List.length avs ->
      answers (loop_rel val_rel s) (call_f fo f c fv avs)
              (fun k => fcall_impl fo (run k) ptr bs snap (rev avw ++ s)).
    Proof.
      intros Hc Hfw Hav Hlen. inversion Hfw as [| | | | | | |ps body clo ptr' snap' Hfb Hps Hcode Hclo|]; subst.
      cbn [call_f]. rewrite rev_length in Hlen. rewrite Hlen, Nat.eqb_refl. cbn [negb]. unfold fcall_impl.
      apply code_at_cons in Hcode as [_ Hcode].
      eapply answers_bind; [apply answers_pure, bind_rel; eauto|]. intros sc' [s' t'] [Hs' Hsc]. cbn in Hs'. subst s'.
      eapply answers_then.
      - apply runs_nested with (n := S ptr) (s := []) (t := t') (ss := []); [|exact Hcode].
        apply sim_ih; [exact Hfb|]. split; [exact Hc|]. split; [exact Hsc|constructor].
      - intros v fin (s1 & t1 & ss1 & -> & w & Hvw & -> & -> & ->). apply loop_ret, Hvw.
    Qed.

    Lemma exec_fcall_func rn n ptr bs snap m rest t ss :
      exec rn IFCall (mk n (WFunc ptr bs snap :: WInt (Z.of_nat m) :: rest) t ss) =
      if Nat.eqb (List.length bs) m
      then vdo p <- fcall_impl fo rn ptr bs snap rest; VOk (mk (S n) (fst p :: snd p) t ss) else VErr.
    Proof.
      cbn -[fcall_impl Z.ltb Z.of_nat]. destruct (Nat.eqb_spec (List.length bs) m) as [->|Hne].
      - rewrite Z.ltb_irrefl. cbn -[fcall_impl].
        destruct (fcall_impl fo rn ptr bs snap rest) as [[v s3]| | | |]; reflexivity.
      - destruct (Z.ltb_spec (Z.of_nat (List.length bs)) (Z.of_nat m)); [reflexivity|].
        destruct (Z.ltb_spec (Z.of_nat m) (Z.of_nat (List.length bs))); [reflexivity|lia].
    Qed.

    Lemma runs_fcall c fv fw avs avw s t ss :
      ctx_ok c -> val_rel fv fw -> Forall2 val_rel avs avw ->
      runs [IFCall] (fw :: WInt (Z.of_nat (List.length avs)) :: rev avw ++ s) t ss (call_f fo f c fv avs)
           (pushes val_rel s t ss).
    Proof.
      intros Hc Hfw Hav. pose proof Hfw as Hfw0. destruct Hfw; try fails.
      apply runs_instr; [reflexivity|]. intros n _.
      eapply answers_ext; [intros k; apply exec_fcall_func|]. rewrite rev_length.
      destruct (Nat.eqb_spec (List.length ps) (List.length avs)) as [Hlen|Hne].
      - eapply answers_then; [apply call_sim; eauto; rewrite rev_length; exact Hlen|].
        intros v p (w & -> & Hvw). apply answers_ret.
        exists (w :: s), t, ss. split; [reflexivity|apply pushes_intro, Hvw].
      - unfold call_f. apply Nat.eqb_neq in Hne. rewrite Hne. apply settles_const.
    Qed.

    Lemma sim_call fn args : sim_at (S f) (ECall fn args).
    Proof.
      intros c s t ss Hf Hc. rewrite eval_call. split_frag Hf.
      change (tr (ECall fn args)) with
        (cat_map tr args ++ IVal (LInt (Z.of_nat (List.length args))) :: tr fn ++ [IFCall]).
      eapply runs_seq; [apply sim_args; eauto|]. intros avs s1 t1 ss1 (avw & Hav & Hlen & -> & -> & ->).
      step. eapply evals_seq; [apply sim_ih; auto|]. intros fv fw Rf.
      rewrite <- Hlen. apply runs_fcall; eauto using ctx_rel_ok.
    Qed.

    Lemma sim_dot_call l sel args : sim_at (S f) (EBin DOT l (ECall sel args)).
    Proof.
      intros c s t ss Hf Hc. split_frag Hf.
      rewrite (eval_dot_call fo f c l sel args Hf1), (tr_dot_call l sel args Hf1).
      eapply runs_seq; [apply sim_args; eauto|]. intros avs s1 t1 ss1 (avw & Hav & Hlen & -> & -> & ->).
      step. eapply evals_seq; [apply sim_ih; auto|]. intros lv lw Rl. step.
      change [IIndex; IFCall] with ([IIndex] ++ [IFCall]).
      eapply runs_seq; [eapply runs_index; eauto using sel_key_rel|].
      intros fv s1 t1 ss1 (fw & Rf & -> & -> & ->).
      rewrite <- Hlen. apply runs_fcall; eauto using ctx_rel_ok.
    Qed.

    Lemma runs_params ps : forall accw s t ss,
      runs (cat_map (fun p => [ISym p; IElement]) ps) (WList accw :: s) t ss (Ok tt)
           (fun _ s1 t1 ss1 => s1 = WList (accw ++ map (fun p => WSym p) ps) :: s /\ t1 = t /\ ss1 = ss).
    Proof.
      induction ps as [|p ps IHp]; intros accw s t ss.
      - apply runs_nil. rewrite app_nil_r. auto.
      - cbn [cat_map app map]. step. step. eapply runs_weaken; [apply IHp|].
        intros _ s1 t1 ss1 (-> & -> & ->). rewrite <- app_assoc. auto.
    Qed.

    Lemma func_names ps :
      (fix go (l : list wval) : outcome (list bytes) :=
         match l with
         | [] => VOk []
         | WSym nm :: l' => vdo r <- go l'; VOk (nm :: r)
         | _ :: _ => VErr
         end) (map (fun p => WSym p) ps) = VOk ps.
    Proof. induction ps as [|p ps IHp]; cbn; auto. rewrite IHp. reflexivity. Qed.

    (* a closure records where its Func instruction stands *)
    Lemma sim_func ps body : sim_at (S f) (EFunc ps body).
    Proof.
      intros c s t ss Hf Hc. rewrite eval_func. split_frag Hf.
      change (tr (EFunc ps body)) with
        (IInitList :: cat_map (fun p => [ISym p; IElement]) ps ++
                   IFunc (S (List.length (tr body))) :: tr body ++ [IReturn]).
      step. eapply runs_known; [apply runs_params|]. intros s1 t1 ss1 (-> & -> & ->).
      intros n Hcode. exists (WFunc n (rev ps) t :: s), t, ss. split.
      - apply pushes_intro. constructor; auto. exact (ctx_rel_scope _ _ _ Hc).
      - cbn [List.length]. rewrite Nat.add_succ_r.
        eapply reaches_jump with (c := []); [rewrite app_nil_r; exact Hcode|reflexivity|].
        intros rn. cbn -[jump]. rewrite func_names, app_length, Nat.add_1_r. reflexivity.
    Qed.

    Definition arm_codes (arms : list (bytes * expr)) : list (bytes * ops) :=
      map (fun kv => (fst kv, tr (snd kv))) arms.

    Lemma sim_arms c t ss v w dflt :
      ctx_rel c t ss -> val_rel v w -> match dflt with Some d => frag d = true | None => True end ->
      let dcode := match dflt with Some de => tr de | None => [IVal (LStr no_default_msg); IBang] end in
      forall arms s, frags arms = true ->
        runs (sel_arms (arm_codes arms) dcode) (w :: s) t ss
             (match (match sel_key fo v with Some k => find_arm k arms | None => None end) with
              | Some ae => eval fo f c ae
              | None => match dflt with Some d => eval fo f c d | None => Err end
              end) (pushes val_rel s t ss).
    Proof.
      intros Hc Hvw Hfd dcode. induction arms as [|[k ae] arms IHarms]; intros s Hf.
      - (* no arm matched: Pop, then the default *)
        replace (match sel_key fo v with Some k => find_arm k [] | None => None end) with (@None expr)
          by (destruct (sel_key fo v); reflexivity).
        cbn [arm_codes map sel_arms]. step. subst dcode. destruct dflt as [d|]; [apply sim_ih; auto|].
        step. fails.
      - cbn in Hf. apply andb_true_iff in Hf as [Hfa Hfarms].
        cbn [arm_codes map sel_arms fst snd]. fold (arm_codes arms).
        set (rest := sel_arms (arm_codes arms) dcode) in *. step.
        pose proof (select_matches_rel fo C v w k Hvw) as Hsm.
        destruct (sel_key fo v) as [kk|]; cbn [find_arm]; [destruct (bytes_eqb kk k)|].
        + (* this arm; its Jump goes past the remaining ones *)
          eapply runs_step; [reflexivity|intros; rewrite exec_seljump, Hsm; reflexivity|].
          eapply runs_then; [apply sim_ih; auto|]. intros va s1 t1 ss1 HQ.
          eapply runs_skip; [reflexivity|intros; reflexivity|exact HQ].
        + change (IJump (List.length rest) :: rest) with ([IJump (List.length rest)] ++ rest).
          rewrite app_assoc. eapply runs_jump; [reflexivity| |apply IHarms; auto].
          intros. rewrite exec_seljump, Hsm, app_length, Nat.add_1_r. reflexivity.
        + change (IJump (List.length rest) :: rest) with ([IJump (List.length rest)] ++ rest).
          rewrite app_assoc. eapply runs_jump; [reflexivity| |apply IHarms; auto].
          intros. rewrite exec_seljump, Hsm, app_length, Nat.add_1_r. reflexivity.
    Qed.

    Lemma sim_select ve dflt arms : sim_at (S f) (ESelect ve dflt arms).
    Proof.
      intros c s t ss Hf Hc. rewrite eval_select, tr_select. split_frag Hf.
      eapply evals_seq; [apply sim_ih; auto|]. intros v w Rv.
      apply sim_arms with (dflt := dflt); auto. destruct dflt; auto.
    Qed.

    Lemma range_rel sv stv zv sw stw zw :
      val_rel sv sw -> val_rel stv stw -> val_rel zv zw ->
      res_out val_rel (range_sem fo sv stv zv) (vm_range fo sw stw zw).
    Proof.
      intros H1 H2 H3.
      destruct H1; try (destruct H2; reflexivity).
      destruct H2; try reflexivity.
      - destruct H3; try reflexivity. cbn.
        destruct (Z.ltb range_limit (range_len z 1 z0)); cbn; auto.
        eexists; split; [reflexivity|]. apply VR_list. apply range_from_rel.
      - destruct H3; try reflexivity. cbn.
        destruct (Z.leb z0 0); cbn; auto.
        destruct (Z.ltb range_limit (range_len z z0 z1)); cbn; auto.
        eexists; split; [reflexivity|]. apply VR_list. apply range_from_rel.
    Qed.

    Lemma sim_range st stp en : sim_at (S f) (ERange st stp en).
    Proof.
      intros c s t ss Hf Hc. rewrite eval_range. split_frag Hf.
      change (tr (ERange st stp en)) with
        (tr en ++ (match stp with Some s => tr s | None => [IVal LEmpty] end) ++ tr st ++ [IRuntime HRange]).
      eapply evals_seq; [apply sim_ih; auto|]. intros env_ enw Re.
      eapply evals_seq with (R := val_rel).
      { destruct stp as [se|]; [apply sim_ih; auto|]. step. apply runs_nil, pushes_intro. constructor. }
      intros stv stw Rs. eapply evals_seq; [apply sim_ih; auto|]. intros sv sw Rsv.
      eapply runs_prim with (o := vm_range fo sw stw enw); [reflexivity| |apply range_rel; auto].
      intros rn n. cbn -[vm_range]. destruct (vm_range fo sw stw enw); reflexivity.
    Qed.

    Lemma translate_cons s ss : translate (s :: ss) = tr_stmt s ++ translate ss.
    Proof. reflexivity. Qed.

    Lemma exec_bind rn n w x s t ss :
      exec rn IBind (mk n (w :: WSym x :: s) t ss) =
      vdo t' <- binding_push fo t x w true; VOk (mk (S n) s t' ss).
    Proof. cbn -[binding_push]. destruct (binding_push fo t x w true); reflexivity. Qed.

    Lemma sim_stmt st c s t sst : frag_stmt st = true -> ctx_rel c t sst ->
      runs (tr_stmt st) s t sst (exec_stmt fo f c st)
           (fun sc' s1 t1 ss1 => s1 = s /\ ss1 = sst /\ scope_rel sc' t1 /\ (sorted t -> sorted t1)).
    Proof.
      intros Hf Hc. destruct st as [x e|e|e|ty e]; try discriminate; cbn [frag_stmt tr_stmt exec_stmt] in *.
      - step. eapply evals_seq; [apply sim_ih; auto|]. intros v w Hvw.
        eapply runs_op with (o := binding_push fo t x w true) (s1 := fun _ => s) (t1 := fun t' => t')
                            (ss1 := fun _ => sst) (R := fun sc' t' => scope_rel sc' t' /\ (sorted t -> sorted t'));
          [reflexivity|intros; apply exec_bind| |intros sc' t' [H1 H2]; auto].
        (* Bind refuses reserved names and, being strict, names already bound *)
        pose proof (ctx_rel_scope _ _ _ Hc) as Hs. unfold binding_push. change (vm_is_reserved x) with (is_reserved x).
        destruct (is_reserved x); [reflexivity|]. unfold sym_bound. destruct (Hs x); [|reflexivity].
        eexists. split; [reflexivity|]. split; [apply scope_rel_add; auto|apply sorted_sym_add].
      - eapply evals_seq; [apply sim_ih; auto|]. intros v w _. step. apply runs_nil.
        repeat split; auto. exact (ctx_rel_scope _ _ _ Hc).
    Qed.

    Lemma sim_ss_S : sim_ss (S f).
    Proof.
      intros ss c s t sst Hf Hc. rewrite exec_list_S. destruct ss as [|st ss].
      - apply runs_nil. repeat split; auto. exact (ctx_rel_scope _ _ _ Hc).
      - rewrite translate_cons. cbn [forallb] in Hf. apply andb_true_iff in Hf as [Hfs Hfss].
        eapply runs_seq; [apply sim_stmt; auto|]. intros sc1 s1 t1 ss1 (-> & -> & Hs1 & Hso1).
        eapply runs_weaken; [apply IHs; [exact Hfss|apply (ctx_rel_with_scope _ _ _ _ _ Hc Hs1)]|].
        intros sc' s2 t2 ss2 (-> & -> & Hs2 & Hso2). auto 6.
    Qed.

    Lemma exec_cp_tuple rn n ovw basew s t ss :
      exec rn ICp (mk n (WTuple ovw :: WTuple basew :: s) t ss) =
      vdo v <- (vdo r <- wmerge_fields basew ovw; VOk (WTuple r)); VOk (mk (S n) (v :: s) t ss).
    Proof. cbn. destruct (wmerge_fields basew ovw); reflexivity. Qed.

    Lemma exec_cp_mod rn n ovw ptr rp flds s t ss :
      exec rn ICp (mk n (WTuple ovw :: WMod ptr rp flds :: s) t ss) =
      vdo flds1 <- wmerge_fields flds ovw;
      vdo flds2 <- wmerge_field flds1 (b "this") (WMod ptr rp flds);
      vdo fin <- rn (mk (S ptr) [WTuple flds2; WSym (b "mod")] [] ss);
      match rp with
      | Some tp =>
        if Nat.ltb tp (List.length C) then
          vdo fin2 <- rn (with_pc fo fin (S tp));
          vdo p <- pop fo (stk fin2);
          VOk (mk (S n) (fst p :: s) t ss)
        else VBug
      | None => VOk (mk (S n) (symbols_to_tuple fo (syms fin) false :: s) t ss)
      end.
    Proof.
      cbn -[wmerge_fields wmerge_field Nat.ltb symbols_to_tuple].
      destruct (wmerge_fields flds ovw) as [f1| | | |]; cbn -[wmerge_field Nat.ltb symbols_to_tuple]; auto.
      destruct (wmerge_field f1 _ _) as [f2| | | |]; cbn -[Nat.ltb symbols_to_tuple]; auto.
      destruct (rn _) as [fin| | | |]; cbn -[Nat.ltb symbols_to_tuple]; auto.
      destruct rp; auto. destruct (Nat.ltb _ _); auto.
      destruct (rn _) as [fin2| | | |]; cbn; auto.
      destruct (pop fo (stk fin2)) as [[v r]| | | |]; reflexivity.
    Qed.

    (* Cp on a module: a nested run of the body from its Bind, then one of the out expression
       from its thunk or the export of the body's bindings *)
    Lemma runs_cp_mod c ps out body ptr rp flds ovs ovw s t ss :
      ctx_ok c -> val_rel (VModule ps out body) (WMod ptr rp flds) -> Forall2 fld_rel ovs ovw ->
      let tv := VModule ps out body in
      let tw := WMod ptr rp flds in
      runs [ICp] (WTuple ovw :: tw :: s) t (tw :: ss)
           (do flds <- merge_fields fo ps ovs;
            do flds <- merge_field fo flds (b "this") tv;
            let c0 := {| sc := [(b "mod", VTuple flds)]; self_v := Some tv; envt := envt fo c;
                         strict := strict fo c; eq_ordered := eq_ordered fo c |} in
            do s' <- exec_list fo f c0 body;
            match out with
            | Some oe => eval fo f (with_scope fo c0 s') oe
            | None => Ok (VTuple (export_scope fo s' true))
            end) (pushes val_rel s t (tw :: ss)).
    Proof.
      intros Hc Hvw Hov tv tw. inversion Hvw as [| | | | | | | |? ? ? ? ? ? Hps Hfb Hmc Hout]; subst.
      apply code_at_cons in Hmc as [_ Hmc].
      apply runs_instr; [reflexivity|]. intros n _. eapply answers_ext; [intros k; apply exec_cp_mod|].
      eapply answers_bind; [eapply answers_pure, merge_fields_rel; eauto|]. intros flds1 flds1w Hf1.
      eapply answers_bind; [eapply answers_pure, merge_field_rel; eauto|]. intros flds2 flds2w Hf2. cbv zeta.
      set (c0 := {| sc := [(b "mod", VTuple flds2)]; self_v := Some tv; envt := envt fo c;
                    strict := strict fo c; eq_ordered := eq_ordered fo c |}).
      set (t0 := sym_add (b "mod") (WTuple flds2w) ([] : symtab fo)).
      assert (Hc0 : forall sc' t', scope_rel sc' t' -> ctx_rel (with_scope fo c0 sc') t' (tw :: ss)).
      { intros sc' t' H. split; [exact Hc|]. split; [exact H|]. constructor. exact Hvw. }
      eapply answers_bind.
      - eapply runs_nested with (code := IBind :: translate body) (n := S ptr); [|exact Hmc].
        eapply runs_step with (t1 := t0); [reflexivity|intros; rewrite exec_bind; reflexivity|].
        apply IHs; [exact Hfb|]. apply (Hc0 (sc fo c0)).
        apply scope_rel_add; [apply scope_rel_nil|apply VR_tuple, Hf2].
      - intros s' fin (s1 & t1 & ss1 & -> & -> & -> & Hs' & Hso'). cbn [syms Compile_Base.mk].
        destruct out as [oe|].
        + destruct Hout as (Hfo & tp & -> & Htc).
          assert (Hlt : Nat.ltb tp (List.length C) = true).
          { apply Nat.ltb_lt. rewrite <- (Nat.add_0_r tp). eapply code_at_lt; [exact Htc|]. cbn. lia. }
          apply code_at_cons in Htc as [_ Htc]. rewrite Hlt.
          eapply answers_then.
          * eapply runs_nested with (n := S tp) (s := []) (t := t1) (ss := tw :: ss); [|exact Htc].
            apply sim_ih; [exact Hfo|]. apply Hc0, Hs'.
          * intros v fin2 (s2 & t2 & ss2 & -> & w & Hv & -> & -> & ->). apply answers_ret.
            exists (w :: s), t, (tw :: ss). split; [reflexivity|apply pushes_intro, Hv].
        + subst rp. apply answers_ret. eexists _, t, (tw :: ss). split; [reflexivity|].
          apply pushes_intro, module_export_rel; auto.
          apply Hso'. subst t0. cbn. auto.
    Qed.

    Lemma sim_copy_S : sim_copy (S f).
    Proof.
      intros tv tw fs c s t ss Hvw Hf Hc. rewrite copy_into_eq. unfold copy_code. step. step.
      pose proof (ctx_rel_with_self _ _ _ _ _ Hc Hvw) as Hc'.
      eapply runs_seq; [apply sim_fields with (acc := []); eauto|].
      intros ovs s1 t1 ss1 (w & (ovw & -> & Hov) & -> & -> & ->).
      change [ICp; IPopSelf] with ([ICp] ++ [IPopSelf]).
      eapply runs_then with (Q1 := pushes val_rel s t (tw :: ss));
        [|intros v s1 t1 ss1 (w & Hv & -> & -> & ->); step; apply runs_nil, pushes_intro, Hv].
      pose proof Hvw as Hvw0. destruct Hvw; try fails.
      - eapply runs_prim; [reflexivity|intros; apply exec_cp_tuple|].
        eapply res_out_bind; [eapply merge_fields_rel; eauto|]. intros r rw Hr.
        eexists. split; [reflexivity|apply VR_tuple, Hr].
      - apply runs_cp_mod; eauto using ctx_rel_ok.
    Qed.

    Lemma sim_copy_expr tg fs : sim_at (S f) (ECopy tg fs).
    Proof.
      intros c s t ss Hf Hc. rewrite eval_copy, tr_copy. split_frag Hf.
      eapply evals_seq; [apply sim_ih; auto|]. intros tv tw Rt. apply IHc; auto.
    Qed.

    Lemma sim_dot_copy l sel fs : sim_at (S f) (EBin DOT l (ECopy sel fs)).
    Proof.
      intros c s t ss Hf Hc. split_frag Hf.
      rewrite (eval_dot_copy fo f c l sel fs Hf1), (tr_dot_copy l sel fs Hf1).
      eapply evals_seq; [apply sim_ih; auto|]. intros lv lw Rl. step.
      change (IIndex :: copy_code (tr_fields fs)) with ([IIndex] ++ copy_code (tr_fields fs)).
      eapply runs_seq; [eapply runs_index; eauto using sel_key_rel|].
      intros tv s1 t1 ss1 (tw & Rt & -> & -> & ->). apply IHc; auto.
    Qed.

    Lemma keeps_rel v w : val_rel v w -> keeps fo w = keep_sem fo v.
    Proof. destruct 1; try reflexivity; destruct v; reflexivity. Qed.

    Section Loops.
      Variables (c : ctx) (fv : value) (ptr : nat) (bs : list bytes) (snap : symtab fo).
      Hypothesis Hc : ctx_ok c.
      Hypothesis Hfw : val_rel fv (WFunc ptr bs snap).

      Lemma call_with_sim avs avw s :
        Forall2 val_rel avs avw -> List.length bs = List.length avs ->
        answers (loop_rel val_rel s) (call_f fo f c fv avs) (fun k => call_with fo (run k) ptr bs snap (rev avw) s).
      Proof. apply call_sim; auto. Qed.

      Lemma map_list_sim l lw s : List.length bs = 1 -> Forall2 val_rel l lw ->
        answers (loop_rel (Forall2 val_rel) s) (mapM (fun v => call_f fo f c fv [v]) l)
                (fun k => map_list fo (run k) ptr bs snap lw s).
      Proof.
        intros Hb Hl. induction Hl as [|v w l lw Hvw Hl IHl]; cbn [mapM map_list].
        - apply loop_ret. constructor.
        - eapply answers_bind; [apply (call_with_sim [v] [w]); [repeat constructor; assumption|exact Hb]|]. intros r p (rw & -> & Hr).
          eapply answers_bind; [exact IHl|]. intros rs p (rsw & -> & Hrs).
          apply loop_ret. constructor; auto.
      Qed.

      Lemma map_tuple_sim l lw s : List.length bs = 2 -> Forall2 fld_rel l lw ->
        answers (loop_rel (Forall2 fld_rel) s) (map_tuple_sem fo f c fv l)
                (fun k => map_tuple fo (run k) ptr bs snap lw s).
      Proof.
        intros Hb Hl. induction Hl as [|[k v] [k' w] l lw [Hk Hvw] Hl IHl]; cbn [map_tuple_sem map_tuple].
        - apply loop_ret. constructor.
        - cbn in Hk, Hvw. subst k'.
          eapply answers_bind; [apply (call_with_sim [VStr k; v] [WStr k; w]); [repeat constructor; assumption|exact Hb]|].
          intros r p (rw & -> & Hr).
          (* only a list [name, value] with a string name makes a field; any other list is an error,
             anything else is dropped *)
          destruct Hr as [| | | | |r rw Hr| | |]; try exact IHl.
          destruct Hr as [|n nw r rw Hn Hr]; [apply settles_const|].
          destruct Hr as [|v' v'w r rw Hv' Hr]; [destruct Hn; apply settles_const|].
          destruct Hr; [|destruct Hn; apply settles_const].
          destruct Hn; try apply settles_const.
          eapply answers_bind; [exact IHl|]. intros rs p (rsw & -> & Hrs).
          apply loop_ret. constructor; auto. split; auto.
      Qed.

      Lemma map_str_sim chars s : List.length bs = 1 ->
        answers (loop_rel (fun (r : list bytes) (w : bytes) => w = concat r) s)
                (mapM (fun ch => do o <- call_f fo f c fv [VStr ch]; match o with VStr t => Ok t | _ => Err end) chars)
                (fun k => map_str fo (run k) ptr bs snap chars s).
      Proof.
        intros Hb. induction chars as [|ch chars IHl]; cbn [mapM map_str].
        - apply loop_ret. reflexivity.
        - rewrite bind_assoc.
          eapply answers_bind; [apply (call_with_sim [VStr ch] [WStr ch]); [repeat constructor; assumption|exact Hb]|].
          intros r p (rw & -> & Hr).
          destruct Hr; try apply settles_const. cbn [bind].
          eapply answers_bind; [exact IHl|]. intros rs p (rsw & -> & ->).
          apply loop_ret. reflexivity.
      Qed.

      Lemma filter_list_sim l lw s : List.length bs = 1 -> Forall2 val_rel l lw ->
        answers (loop_rel (fun (r : list (bool * value)) w => Forall2 val_rel (map snd (filter fst r)) w) s)
                (mapM (fun v => do o <- call_f fo f c fv [v]; Ok (keep_sem fo o, v)) l)
                (fun k => filter_list fo (run k) ptr bs snap lw s).
      Proof.
        intros Hb Hl. induction Hl as [|v w l lw Hvw Hl IHl]; cbn [mapM filter_list].
        - apply loop_ret. constructor.
        - rewrite bind_assoc.
          eapply answers_bind; [apply (call_with_sim [v] [w]); [repeat constructor; assumption|exact Hb]|]. intros r p (rw & -> & Hr).
          cbn [bind].
          eapply answers_bind; [exact IHl|]. intros rs p (rsw & -> & Hrs).
          apply (loop_ret _ _ _ (if keeps fo rw then w :: rsw else rsw)). cbn. rewrite (keeps_rel _ _ Hr). destruct (keep_sem fo r); cbn; auto.
      Qed.

      Lemma filter_tuple_sim l lw s : List.length bs = 2 -> Forall2 fld_rel l lw ->
        answers (loop_rel (fun (r : list (bool * (bytes * value))) w => Forall2 fld_rel (map snd (filter fst r)) w) s)
                (mapM (fun '(k, v) => do o <- call_f fo f c fv [VStr k; v]; Ok (keep_sem fo o, (k, v))) l)
                (fun k => filter_tuple fo (run k) ptr bs snap lw s).
      Proof.
        intros Hb Hl. induction Hl as [|[k v] [k' w] l lw [Hk Hvw] Hl IHl]; cbn [mapM filter_tuple].
        - apply loop_ret. constructor.
        - cbn in Hk, Hvw. subst k'. rewrite bind_assoc.
          eapply answers_bind; [apply (call_with_sim [VStr k; v] [WStr k; w]); [repeat constructor; assumption|exact Hb]|].
          intros r p (rw & -> & Hr). cbn [bind].
          eapply answers_bind; [exact IHl|]. intros rs p (rsw & -> & Hrs).
          apply (loop_ret _ _ _ (if keeps fo rw then (k, w) :: rsw else rsw)). cbn. rewrite (keeps_rel _ _ Hr). destruct (keep_sem fo r); cbn; auto.
          constructor; auto. split; auto.
      Qed.

      Lemma filter_str_sim chars s : List.length bs = 1 ->
        answers (loop_rel (fun (r : list (bool * bytes)) (w : bytes) => w = concat (map snd (filter fst r))) s)
                (mapM (fun ch => do o <- call_f fo f c fv [VStr ch]; Ok (keep_sem fo o, ch)) chars)
                (fun k => filter_str fo (run k) ptr bs snap chars s).
      Proof.
        intros Hb. induction chars as [|ch chars IHl]; cbn [mapM filter_str].
        - apply loop_ret. reflexivity.
        - rewrite bind_assoc.
          eapply answers_bind; [apply (call_with_sim [VStr ch] [WStr ch]); [repeat constructor; assumption|exact Hb]|].
          intros r p (rw & -> & Hr). cbn [bind].
          eapply answers_bind; [exact IHl|]. intros rs p (rsw & -> & ->).
          apply (loop_ret _ _ _ (if keeps fo rw then ch ++ concat (map snd (filter fst rs))
                                 else concat (map snd (filter fst rs)))).
          cbn. rewrite (keeps_rel _ _ Hr). destruct (keep_sem fo r); reflexivity.
      Qed.

      Lemma reduce_list_sim l lw s : List.length bs = 2 -> Forall2 val_rel l lw ->
        forall acc accw, val_rel acc accw ->
        answers (loop_rel val_rel s) (fold_left (fun a v => do a' <- a; call_f fo f c fv [a'; v]) l (Ok acc))
                (fun k => reduce_list fo (run k) ptr bs snap lw accw s).
      Proof.
        intros Hb Hl. induction Hl as [|v w l lw Hvw Hl IHl]; intros acc accw Hacc; cbn [fold_left reduce_list].
        - apply loop_ret, Hacc.
        - cbn [bind]. rewrite fold_strict by (intros [] ?; reflexivity).
          eapply answers_bind; [apply (call_with_sim [acc; v] [accw; w]); [repeat constructor; assumption|exact Hb]|].
          intros r p (rw & -> & Hr). apply IHl, Hr.
      Qed.

      Lemma reduce_tuple_sim l lw s : List.length bs = 3 -> Forall2 fld_rel l lw ->
        forall acc accw, val_rel acc accw ->
        answers (loop_rel val_rel s)
                (fold_left (fun a '(k, v) => do a' <- a; call_f fo f c fv [a'; VStr k; v]) l (Ok acc))
                (fun k => reduce_tuple fo (run k) ptr bs snap lw accw s).
      Proof.
        intros Hb Hl. induction Hl as [|[k v] [k' w] l lw [Hk Hvw] Hl IHl]; intros acc accw Hacc;
          cbn [fold_left reduce_tuple].
        - apply loop_ret, Hacc.
        - cbn in Hk, Hvw. subst k'. cbn [bind]. rewrite fold_strict by (intros [] []; reflexivity).
          eapply answers_bind; [apply (call_with_sim [acc; VStr k; v] [accw; WStr k; w]); [repeat constructor; assumption|exact Hb]|].
          intros r p (rw & -> & Hr). apply IHl, Hr.
      Qed.

      Lemma reduce_str_sim chars s : List.length bs = 2 ->
        forall acc accw, val_rel acc accw ->
        answers (loop_rel val_rel s) (fold_left (fun a ch => do a' <- a; call_f fo f c fv [a'; VStr ch]) chars (Ok acc))
                (fun k => reduce_str fo (run k) ptr bs snap chars accw s).
      Proof.
        intros Hb. induction chars as [|ch chars IHl]; intros acc accw Hacc; cbn [fold_left reduce_str].
        - apply loop_ret, Hacc.
        - cbn [bind]. rewrite fold_strict by (intros [] ?; reflexivity).
          eapply answers_bind; [apply (call_with_sim [acc; VStr ch] [accw; WStr ch]); [repeat constructor; assumption|exact Hb]|].
          intros r p (rw & -> & Hr). apply IHl, Hr.
      Qed.
    End Loops.
    (* a hook, once it has found a closure and a container: arity check, the loop, push *)
    Lemma runs_hook {A W} h s0 s t ss ps arity (r : res A) (g : nat -> outcome (W * list wval))
          (R : A -> W -> Prop) (mkV : A -> value) (mkv : W -> wval) :
      (forall k n, exec (run k) (IRuntime h) (mk n s0 t ss) =
                   vdo _ <- arity_ok (rev ps) arity; vdo p <- g k; VOk (mk (S n) (mkv (fst p) :: snd p) t ss)) ->
      (List.length (rev ps) = arity -> answers (loop_rel R s) r g) ->
      (forall a w, R a w -> val_rel (mkV a) (mkv w)) ->
      runs [IRuntime h] s0 t ss
           (if negb (Nat.eqb (List.length ps) arity) then Err else do a <- r; Ok (mkV a)) (pushes val_rel s t ss).
    Proof.
      intros Hex Hloop HR. apply runs_instr; [reflexivity|]. intros n _.
      eapply answers_ext; [intros k; apply Hex|]. unfold arity_ok. rewrite rev_length in *.
      destruct (Nat.eqb_spec (List.length ps) arity) as [Hlen|Hne]; cbn [negb vbind]; [|apply settles_const].
      eapply answers_bind; [apply Hloop, Hlen|]. intros a p (w & -> & Hw).
      apply answers_ret. exists (mkv w :: s), t, ss. split; [reflexivity|apply pushes_intro, HR, Hw].
    Qed.

    (* a hook's handler written as in [runs_hook]: evaluate it, then split on the arity check and the loop *)
    Ltac hook_eq := intros k n; cbn -[arity_ok]; destruct (arity_ok _ _); [cbn|reflexivity..];
                    match goal with |- context [vbind ?x _] => destruct x as [[? ?]| | | |] end; reflexivity.

    Lemma sim_map fe te : sim_at (S f) (EMap fe te).
    Proof.
      intros c s t ss Hf Hc. rewrite eval_map. split_frag Hf.
      change (tr (EMap fe te)) with (tr fe ++ tr te ++ [IRuntime HMap]).
      apply sim_operands; auto. intros tv fv tw fw Rt Rf. pose proof Rf as Rf0. pose proof (ctx_rel_ok _ _ _ Hc) as Hok.
      destruct Rf; try (destruct tw; fails). destruct Rt; try fails; cbn [map_sem].
      - eapply runs_hook with (mkv := fun w => WStr w) (mkV := fun r => VStr (concat r));
          [|intros; eapply map_str_sim; eauto|intros a w ->; constructor]; hook_eq.
      - eapply runs_hook with (mkv := fun w => WList w) (mkV := fun r => VList r);
          [|intros; eapply map_list_sim; eauto|intros a w; apply VR_list]; hook_eq.
      - eapply runs_hook with (mkv := fun w => WTuple w) (mkV := fun r => VTuple r);
          [|intros; eapply map_tuple_sim; eauto|intros a w; apply VR_tuple]; hook_eq.
    Qed.

    Lemma sim_filter fe te : sim_at (S f) (EFilter fe te).
    Proof.
      intros c s t ss Hf Hc. rewrite eval_filter. split_frag Hf.
      change (tr (EFilter fe te)) with (tr fe ++ tr te ++ [IRuntime HFilter]).
      apply sim_operands; auto. intros tv fv tw fw Rt Rf. pose proof Rf as Rf0. pose proof (ctx_rel_ok _ _ _ Hc) as Hok.
      destruct Rf; try (destruct tw; fails). destruct Rt; try fails; cbn [filter_sem].
      - eapply runs_hook with (mkv := fun w => WStr w) (mkV := fun r => VStr (concat (map snd (filter fst r))));
          [|intros; eapply filter_str_sim; eauto|intros a w ->; constructor]; hook_eq.
      - eapply runs_hook with (mkv := fun w => WList w) (mkV := fun r => VList (map snd (filter fst r)));
          [|intros; eapply filter_list_sim; eauto|intros a w; apply VR_list]; hook_eq.
      - eapply runs_hook with (mkv := fun w => WTuple w) (mkV := fun r => VTuple (map snd (filter fst r)));
          [|intros; eapply filter_tuple_sim; eauto|intros a w; apply VR_tuple]; hook_eq.
    Qed.

    Lemma sim_reduce fe ae te : sim_at (S f) (EReduce fe ae te).
    Proof.
      intros c s t ss Hf Hc. rewrite eval_reduce. split_frag Hf.
      change (tr (EReduce fe ae te)) with (tr fe ++ tr ae ++ tr te ++ [IRuntime HReduce]).
      eapply evals_seq; [apply sim_ih; auto|]. intros fv fw Rf.
      apply sim_operands; auto. intros tv acc tw accw Rt Ra. pose proof Rf as Rf0. pose proof (ctx_rel_ok _ _ _ Hc) as Hok.
      destruct Rf; try (destruct tw; fails). destruct Rt; try fails; cbn [reduce_sem];
        match goal with |- context [fold_left ?g ?l ?a] => rewrite <- (bind_ret (fold_left g l a)) end.
      - eapply runs_hook with (mkv := fun w => w) (mkV := fun r => r);
          [|intros; eapply reduce_str_sim; eauto|auto]; hook_eq.
      - eapply runs_hook with (mkv := fun w => w) (mkV := fun r => r);
          [|intros; eapply reduce_list_sim; eauto|auto]; hook_eq.
      - eapply runs_hook with (mkv := fun w => w) (mkV := fun r => r);
          [|intros; eapply reduce_tuple_sim; eauto|auto]; hook_eq.
    Qed.

    Lemma join_parts_snoc l c : l <> [] -> join_parts (l ++ [c]) = join_parts l ++ c ++ [IAdd].
    Proof.
      destruct l as [|c0 cs]; [congruence|]. intros _. cbn. rewrite cat_map_app. cbn.
      rewrite app_nil_r, <- !app_assoc. reflexivity.
    Qed.

    Definition str_res (v : value) (w : wval) : Prop := exists x, v = VStr x /\ w = WStr x.

    (* one piece of a template: its code pushes the text it stands for *)
    Definition item_ok (t : symtab fo) (ss : list wval) (it : ops * res bytes) : Prop :=
      forall s, runs (fst it) s t ss (snd it) (pushes (fun x w => w = WStr x) s t ss).

    (* the evaluator goes through a template from its end, the way the code joins the pieces *)
    Fixpoint sem_join (items : list (ops * res bytes)) : res value :=
      match items with
      | [] => Ok (VStr [])
      | it :: rest =>
        do acc <- sem_join rest; do x <- snd it;
        match acc with VStr x' => Ok (VStr (x ++ x')) | _ => Err end
      end.

    Lemma sim_join t ss items : Forall (item_ok t ss) items -> forall s,
      runs (join_parts (rev (map fst items))) s t ss (sem_join items) (pushes str_res s t ss).
    Proof.
      induction 1 as [|it rest Hit Hrest IHr]; intros s.
      - cbn. step. apply runs_nil, pushes_intro. exists []. auto.
      - cbn [map rev sem_join]. destruct rest as [|it2 rest'].
        + cbn. rewrite app_nil_r. eapply runs_post; [apply Hit|].
          intros x s1 t1 ss1 (w & -> & -> & -> & ->). apply pushes_intro. exists x. rewrite app_nil_r. auto.
        + rewrite join_parts_snoc by (cbn [map rev]; destruct (rev (map fst rest')); discriminate).
          eapply evals_seq; [apply IHr|]. intros acc w (x' & -> & ->).
          eapply evals_seq; [apply Hit|]. intros x w ->.
          step. apply runs_nil, pushes_intro. exists (x ++ x'). auto.
    Qed.

    Lemma item_render c t ss e :
      frag e = true -> ctx_rel c t ss -> item_ok t ss (tr e ++ [IRender], do v <- eval fo f c e; render fo f v).
    Proof.
      intros Hf Hc s. cbn [fst snd]. eapply evals_seq; [apply sim_ih; auto|]. intros v w Rv.
      eapply runs_prim with (o := match wrender w with Some x => VOk (WStr x) | None => VUnsup end);
        [reflexivity|intros; cbn -[wrender]; destruct (wrender w); reflexivity|].
      pose proof (render_rel fo C f v w Rv) as Hr.
      destruct (render fo f v) as [x| | |]; cbn in Hr |- *; auto; [rewrite Hr; eauto|contradiction].
    Qed.

    Lemma item_str t ss x : item_ok t ss ([IVal (LStr x)], Ok x).
    Proof. intros s. cbn [fst snd]. step. apply runs_nil, pushes_intro. reflexivity. Qed.

    Definition item_s (c' : ctx) (p : tpart) : ops * res bytes :=
      match p with
      | PStr x => ([IVal (LStr x)], Ok x)
      | PExpr pe => (tr pe ++ [IRender], do v <- eval fo f c' pe; render fo f v)
      | PHole => ([ITranslatorPanic], Err)
      end.
    Definition sparts_ok (ps : list tpart) : bool :=
      forallb (fun p => match p with PStr _ => true | PHole => false | PExpr pe => frag pe end) ps.

    Lemma item_s_codes c' ps : map fst (map (item_s c') ps) = map part_code ps.
    Proof. induction ps as [|[x| |pe] ps IHp]; cbn; f_equal; auto. Qed.

    Lemma fmts_go_join c' ps : sparts_ok ps = true -> fmts_go fo f c' ps = sem_join (map (item_s c') ps).
    Proof.
      induction ps as [|[x| |pe] ps IHp]; cbn [sparts_ok forallb]; intros H; try discriminate.
      - reflexivity.
      - cbn. rewrite <- IHp by exact H. reflexivity.
      - apply andb_true_iff in H as [_ H]. cbn [map sem_join item_s snd fmts_go]. rewrite <- IHp by exact H.
        destruct (fmts_go fo f c' ps); cbn [bind]; auto. rewrite bind_assoc. reflexivity.
    Qed.

    Lemma items_s_ok c' t ss ps :
      sparts_ok ps = true -> ctx_rel c' t ss -> Forall (item_ok t ss) (map (item_s c') ps).
    Proof.
      intros H Hc. induction ps as [|[x| |pe] ps IHp]; cbn [sparts_ok forallb map] in *; try discriminate.
      - constructor.
      - constructor; [apply item_str|auto].
      - apply andb_true_iff in H as [H1 H2]. constructor; [apply item_render; auto|auto].
    Qed.

    Lemma exec_newscope rn n j s t ss :
      exec rn (INewScope j) (mk n s t ss) =
      vdo fin <- rn (mk (S n) [] t ss); vdo p <- pop fo (stk fin); jump fo C (mk n (fst p :: s) t ss) j.
    Proof.
      cbn -[jump]. unfold op_new_scope. cbn -[jump].
      destruct (rn _) as [fin| | | |]; cbn -[jump]; auto.
      destruct (pop fo (stk fin)) as [[v r]| | | |]; reflexivity.
    Qed.

    (* NewScope: a nested run of the code behind it on an empty stack, whose top value is kept *)
    Lemma runs_newscope {A} code s t ss (r : res A) R :
      runs code [] t ss r (fun a s1 _ _ => exists w rest, R a w /\ s1 = w :: rest) ->
      runs (INewScope (List.length (code ++ [IReturn])) :: code ++ [IReturn]) s t ss r (pushes R s t ss).
    Proof.
      intros H n Hcode.
      assert (Hb : n + List.length (code ++ [IReturn]) < List.length C).
      { eapply code_at_lt; [exact Hcode|]. cbn. lia. }
      apply code_at_cons in Hcode as [Hn Hbody]. pose proof (runs_nested _ _ _ _ _ _ _ _ _ _ _ H Hbody) as Hnest.
      destruct r as [a| | |]; cbn in Hnest |- *; auto.
      - destruct Hnest as (fin & (s1 & t1 & ss1 & -> & w & rest & Hw & ->) & Hs).
        exists (w :: s), t, ss. split; [apply pushes_intro, Hw|].
        eapply reaches_step; [exact Hn|reflexivity|].
        eapply settles_ext; [intros k; apply exec_newscope|].
        eapply settles_bind; [exact Hs|]. cbn [stk Compile_Base.mk pop vbind fst]. rewrite jump_ok by exact Hb.
        cbn [List.length]. rewrite Nat.add_succ_r. apply settles_const.
      - eapply errs_step; [exact Hn|reflexivity|].
        eapply settles_ext; [intros k; apply exec_newscope|]. apply settles_bind_err, Hnest.
    Qed.

    Lemma exec_bindover rn n w x s t ss :
      exec rn IBindOver (mk n (w :: WSym x :: s) t ss) =
      vdo t' <- binding_push fo t x w false; VOk (mk (S n) s t' ss).
    Proof. cbn -[binding_push]. destruct (binding_push fo t x w false); reflexivity. Qed.

    Lemma sim_formats parts arg : sim_at (S f) (EFormatS parts arg).
    Proof.
      intros c s t ss Hf Hc. rewrite eval_formats, tr_formats. split_frag Hf. fold (sparts_ok parts) in Hf.
      set (jc := join_parts (rev (map part_code parts))).
      replace (ISym (b "item") :: tr arg ++ IBindOver :: jc ++ [IReturn])
        with ((ISym (b "item") :: tr arg ++ IBindOver :: jc) ++ [IReturn])
        by (cbn; rewrite <- app_assoc; reflexivity).
      apply runs_newscope. step. eapply evals_seq; [apply sim_ih; auto|]. intros item wi Ri.
      eapply runs_step with (t1 := sym_add (b "item") wi t);
        [reflexivity|intros; rewrite exec_bindover; unfold binding_push; rewrite andb_false_r; reflexivity|].
      set (c' := with_scope fo c ((b "item", item) :: sc fo c)).
      assert (Hc' : ctx_rel c' (sym_add (b "item") wi t) ss).
      { apply (ctx_rel_with_scope _ _ _ _ _ Hc). apply scope_rel_add; [exact (ctx_rel_scope _ _ _ Hc)|exact Ri]. }
      rewrite (fmts_go_join c' parts Hf). subst jc. rewrite <- (item_s_codes c').
      eapply runs_weaken; [apply sim_join, items_s_ok; eauto|].
      intros v s1 t1 ss1 (w & (x & -> & ->) & -> & _ & _). exists (WStr x), []. split; [constructor|reflexivity].
    Qed.

    (* the list form is the single form without the scope, once its holes hold their arguments *)
    Fixpoint fill (ps : list tpart) (es : list expr) : list tpart :=
      match ps with
      | [] => []
      | PStr x :: ps' => PStr x :: fill ps' es
      | PHole :: ps' =>
        match es with
        | a :: es' => PExpr a :: fill ps' es'
        | [] => PHole :: fill ps' []
        end
      | PExpr _ :: ps' => PHole :: fill ps' es
      end.
    Definition lparts_ok (ps : list tpart) : bool :=
      forallb (fun p => match p with PExpr _ => false | _ => true end) ps.

    Lemma fill_ok ps : forall es,
      lparts_ok ps = true -> count_holes ps = List.length es -> forallb frag es = true ->
      sparts_ok (fill ps es) = true /\ forall c, fmtl_go fo f c ps es = fmts_go fo f c (fill ps es).
    Proof.
      unfold count_holes.
      induction ps as [|[x| |pe] ps IHp]; intros es H Hc Hfe; cbn [lparts_ok forallb] in H; try discriminate;
        cbn [fill filter List.length] in *.
      - auto.
      - destruct (IHp es H Hc Hfe) as [H1 H2]. split; [exact H1|]. intros c. cbn. rewrite H2. reflexivity.
      - destruct es as [|a es]; [discriminate|]. cbn in Hfe. apply andb_true_iff in Hfe as [Hfa Hfe].
        destruct (IHp es H ltac:(cbn in Hc; lia) Hfe) as [H1 H2]. split; [cbn; rewrite Hfa; exact H1|].
        intros c. cbn. rewrite H2. reflexivity.
    Qed.

    Lemma list_parts_app l1 : forall a1 l2 a2,
      count_holes l1 = List.length a1 ->
      list_parts (l1 ++ l2) (a1 ++ a2) = list_parts l1 a1 ++ list_parts l2 a2.
    Proof.
      induction l1 as [|[x| |pe] l1 IHl]; intros a1 l2 a2 Hc; unfold count_holes in *; cbn in Hc |- *.
      - destruct a1; [reflexivity|discriminate].
      - f_equal. apply IHl. exact Hc.
      - destruct a1 as [|a a1]; [discriminate|]. cbn. f_equal. apply IHl. cbn in Hc. lia.
      - f_equal. apply IHl. exact Hc.
    Qed.

    Lemma count_holes_rev ps : count_holes (rev ps) = count_holes ps.
    Proof.
      unfold count_holes. induction ps as [|p ps IHp]; cbn; auto.
      rewrite filter_app, app_length, IHp. cbn. destruct p; cbn; lia.
    Qed.

    (* the translator walks the reversed template with the reversed arguments *)
    Lemma list_parts_fill ps : forall es,
      count_holes ps = List.length es ->
      list_parts (rev ps) (rev (map tr es)) = rev (map part_code (fill ps es)).
    Proof.
      induction ps as [|p ps IHp]; intros es Hc; [reflexivity|].
      assert (Hsplit : forall es' one, count_holes ps = List.length es' ->
                list_parts (rev ps ++ [p]) (rev (map tr es') ++ one) =
                rev (map part_code (fill ps es')) ++ list_parts [p] one).
      { intros es' one Hc'. rewrite list_parts_app, IHp by (rewrite ?count_holes_rev, ?rev_length, ?map_length; exact Hc').
        reflexivity. }
      unfold count_holes in Hc. destruct p as [x| |pe]; cbn in Hc; cbn [rev fill map].
      - rewrite <- (app_nil_r (rev (map tr es))). apply Hsplit. exact Hc.
      - destruct es as [|a es]; [discriminate|]. cbn [map rev]. apply Hsplit. unfold count_holes. cbn in Hc. lia.
      - rewrite <- (app_nil_r (rev (map tr es))). apply Hsplit. exact Hc.
    Qed.

    Lemma sim_formatl parts args : sim_at (S f) (EFormatL parts args).
    Proof.
      intros c s t ss Hf Hc. rewrite eval_formatl, tr_formatl. split_frag Hf. fold (lparts_ok parts) in Hf.
      destruct (Nat.eqb (count_holes parts) (List.length args)) eqn:Ecnt; cbn [negb]; [|step; fails].
      apply Nat.eqb_eq in Ecnt. destruct (fill_ok parts args Hf Ecnt Hf0) as [Hok Hgo].
      match goal with |- runs ?cd _ _ _ _ _ =>
        replace cd with (join_parts (rev (map fst (map (item_s c) (fill parts args)))))
          by (rewrite item_s_codes, <- (list_parts_fill parts args Ecnt); destruct parts; reflexivity)
      end.
      rewrite Hgo, (fmts_go_join c _ Hok).
      eapply runs_weaken; [apply sim_join, items_s_ok; auto|].
      intros v s1 t1 ss1 (w & (x & -> & ->) & -> & -> & ->). apply pushes_intro. constructor.
    Qed.

    (* Like a closure, a module value records where its Module instruction stands, and where the
       thunk of its out expression does. *)
    Lemma sim_module ps out body : sim_at (S f) (EModule ps out body).
    Proof.
      intros c s t ss Hf Hc. rewrite eval_module, tr_module. split_frag Hf. fold (frags ps) in Hf.
      step. eapply runs_seq; [apply sim_fields with (acc := []); eauto|].
      intros pv s1 t1 ss1 (w & (flds & -> & Hpv) & -> & -> & ->).
      set (mcode := IBind :: translate body ++ [IReturn]).
      intros n Hcode. destruct out as [oe|]; cbn [app] in Hcode.
      - (* InitThunk at n jumps over the out expression to Module at m, which jumps over the body *)
        set (th := tr oe ++ [IReturn]) in *. set (m := S n + List.length th).
        pose proof Hcode as Hthunk. rewrite app_comm_cons in Hthunk. apply code_at_app in Hthunk as [Hthunk _].
        replace (S (List.length (tr oe))) with (List.length th) in Hcode
          by (subst th; rewrite app_length, Nat.add_1_r; reflexivity).
        assert (Hr1 : reaches (mk n (WTuple flds :: s) t ss) (mk m (WThunk n :: WTuple flds :: s) t ss)).
        { eapply reaches_jump; [exact Hcode|reflexivity|reflexivity]. }
        apply code_at_cons in Hcode as [_ Hcode]. apply code_at_app in Hcode as [_ Hcode]. fold m in Hcode.
        assert (Hr2 : reaches (mk m (WThunk n :: WTuple flds :: s) t ss)
                              (mk (S m + List.length mcode) (WMod m (Some n) flds :: s) t ss)).
        { eapply reaches_jump with (c := []); [rewrite app_nil_r; exact Hcode|reflexivity|reflexivity]. }
        exists (WMod m (Some n) flds :: s), t, ss. split.
        + apply pushes_intro. apply VR_mod; [exact Hpv|exact Hf0|exact Hcode|]. split; [exact Hf1|]. eauto.
        + eapply reaches_eq; [eapply reaches_trans; [exact Hr1|exact Hr2]|]. f_equal.
          subst m mcode th. cbn [List.length]. repeat (rewrite app_length; cbn [List.length]). lia.
      - assert (Hr : reaches (mk n (WTuple flds :: s) t ss)
                             (mk (S n + List.length mcode) (WMod n None flds :: s) t ss)).
        { eapply reaches_jump with (c := []); [rewrite app_nil_r; exact Hcode|reflexivity|reflexivity]. }
        exists (WMod n None flds :: s), t, ss. split.
        + apply pushes_intro. apply VR_mod; [exact Hpv|exact Hf0|exact Hcode|reflexivity].
        + eapply reaches_eq; [exact Hr|]. f_equal. subst mcode. cbn [app List.length]. lia.
    Qed.
  End Step.

  Theorem sim_main : forall f, sim_e f /\ sim_copy f /\ sim_ss f.
  Proof.
    induction f as [|f (IH & IHc & IHs)].
    - repeat split; repeat intro; exact I.
    - split; [|split; [apply sim_copy_S; assumption|apply sim_ss_S; assumption]].
      intros e. destruct e.
      + eapply sim_lit; [reflexivity|intros; reflexivity|constructor].
      + eapply sim_lit; [reflexivity|intros; reflexivity|constructor].
      + eapply sim_lit; [reflexivity|intros; reflexivity|constructor].
      + eapply sim_lit; [reflexivity|intros; reflexivity|constructor].
      + eapply sim_lit; [reflexivity|intros; reflexivity|constructor].
      + apply sim_sym.
      + apply sim_tuple; auto.
      + apply sim_list; auto.
      + destruct o.
        * apply sim_arith; auto.
        * apply sim_arith; auto.
        * apply sim_arith; auto.
        * apply sim_arith; auto.
        * apply sim_arith; auto.
        * apply (sim_andor f IH true).
        * apply (sim_andor f IH false).
        * apply sim_equal; auto.
        * apply sim_cmp; auto.
        * apply sim_cmp; auto.
        * apply sim_notequal; auto.
        * apply sim_cmp; auto.
        * apply sim_cmp; auto.
        * intros c s t ss Hf Hc. rewrite eval_rematch. split_frag Hf. apply (sim_regex f IH _ _ []); auto.
        * intros c s t ss Hf Hc. rewrite eval_notrematch. split_frag Hf. apply (sim_regex f IH _ _ [INot]); auto.
        * destruct e1; try (apply sim_in_gen; [exact IH|exact I]). apply sim_in_sym; auto.
        * apply sim_is; auto.
        * destruct e2; try (apply sim_dot_gen; [exact IH|reflexivity]).
          -- apply sim_dot_sym; auto.
          -- apply sim_dot_copy; auto.
          -- apply sim_dot_call; auto.
      + apply sim_not; auto.
      + apply sim_group; auto.
      + apply sim_copy_expr; auto.
      + apply sim_range; auto.
      + apply sim_formatl; auto.
      + apply sim_formats; auto.
      + apply sim_call; auto.
      + apply sim_cast; auto.
      + apply sim_func; auto.
      + apply sim_select; auto.
      + apply sim_map; auto.
      + apply sim_filter; auto.
      + apply sim_reduce; auto.
      + apply sim_module; auto.
      + apply sim_fail; auto.
      + apply sim_trace; auto.
      + intros c s t ss Hf; discriminate.
      + intros c s t ss Hf; discriminate.
      + intros c s t ss Hf; discriminate.
  Qed.
End Sim.
