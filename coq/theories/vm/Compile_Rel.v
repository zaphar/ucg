(* The fragment predicate, the relation between semantic values and VM values (a logical relation
   for closures: same parameters, body compiled in the running code, snapshots related pointwise),
   and the correspondence of every primitive of the evaluator with the VM handler's primitive. *)
From Ucg Require Import base.Bytes_Lemmas.
From Ucg Require Export vm.Compile_Base.

Arguments VNull {fo}. Arguments VBool {fo}. Arguments VInt {fo}. Arguments VFloat {fo}.
Arguments VStr {fo}. Arguments VList {fo}. Arguments VTuple {fo}. Arguments VFunc {fo}.
Arguments VModule {fo}.

Fixpoint nodupb (l : list bytes) : bool :=
  match l with [] => true | x :: l' => negb (existsb (bytes_eqb x) l') && nodupb l' end.
Definition params_ok (ps : list bytes) : bool := nodupb ps.
Definition is_sel (e : expr) : bool :=
  match e with ESym _ | EStr _ | EInt _ => true | _ => false end.

Fixpoint frag (e : expr) : bool :=
  match e with
  | ENull | EBool _ | EInt _ | EFloat _ | EStr _ | ESym _ => true
  | ETuple fs => forallb (fun kv => frag (snd kv)) fs
  | EList es => forallb frag es
  | EBin o l r =>
    match o with
    | DOT =>
      match r with
      | ECopy sel fs => frag l && is_sel sel && forallb (fun kv => frag (snd kv)) fs
      | ECall fn args => frag l && is_sel fn && forallb frag args
      | _ => frag l && frag r
      end
    | _ => frag l && frag r
    end
  | ENot e1 | EGroup e1 | ECast _ e1 | EFail e1 | ETrace e1 => frag e1
  | ECopy t fs => frag t && forallb (fun kv => frag (snd kv)) fs
  | ERange a s z => frag a && match s with Some s' => frag s' | None => true end && frag z
  | ECall fn args => frag fn && forallb frag args
  | EFunc ps body => params_ok ps && frag body
  | ESelect v d arms =>
    frag v && match d with Some d' => frag d' | None => true end && forallb (fun kv => frag (snd kv)) arms
  | EMap fe te | EFilter fe te => frag fe && frag te
  | EReduce fe ae te => frag fe && frag ae && frag te
  | EFormatL parts args =>
    forallb (fun p => match p with PExpr _ => false | _ => true end) parts && forallb frag args
  | EFormatS parts arg =>
    forallb (fun p => match p with PStr _ => true | PHole => false | PExpr pe => frag pe end) parts && frag arg
  | EModule ps out body =>
    forallb (fun kv => frag (snd kv)) ps && match out with Some o => frag o | None => true end
    && forallb frag_stmt body
  | EImport _ | EInclude _ _ | EConvert _ _ => false
  end
with frag_stmt (s : stmt) : bool :=
  match s with
  | SLet x e => frag e
  | SExpr e => frag e
  | SAssert _ | SOut _ _ => false
  end.

Lemma reserved_agree x : vm_is_reserved x = is_reserved x.
Proof. reflexivity. Qed.

Inductive orel {A B} (R : A -> B -> Prop) : option A -> option B -> Prop :=
| orel_none : orel R None None
| orel_some a c : R a c -> orel R (Some a) (Some c).

Section Rel.
  Variable fo : float_ops.
  Variable C : ops.

  Notation wval := (wval fo).
  Notation value := (value fo).

  Inductive val_rel : value -> wval -> Prop :=
  | VR_null : val_rel VNull WEmpty
  | VR_bool v : val_rel (VBool v) (WBool v)
  | VR_int z : val_rel (VInt z) (WInt z)
  | VR_float x : val_rel (VFloat x) (WFloat x)
  | VR_str s : val_rel (VStr s) (WStr s)
  | VR_list l l' : Forall2 val_rel l l' -> val_rel (VList l) (WList l')
  | VR_tuple fs fs' :
      Forall2 (fun a c => fst a = fst c /\ val_rel (snd a) (snd c)) fs fs' ->
      val_rel (VTuple fs) (WTuple fs')
  | VR_func ps body clo ptr snap :
      frag body = true -> params_ok ps = true ->
      code_at C ptr (IFunc (S (List.length (tr body))) :: tr body ++ [IReturn]) ->
      (forall x, orel val_rel (lookup fo x clo) (sym_get x snap)) ->
      val_rel (VFunc ps body clo) (WFunc ptr (rev ps) snap)
  | VR_mod ps out body ptr rp flds :
      Forall2 (fun a c => fst a = fst c /\ val_rel (snd a) (snd c)) ps flds ->
      forallb frag_stmt body = true ->
      code_at C ptr (IModule (S (List.length (translate body ++ [IReturn]))) :: IBind :: translate body ++ [IReturn]) ->
      match out with
      | Some oe => frag oe = true /\
                   exists tp, rp = Some tp /\
                              code_at C tp (IInitThunk (S (List.length (tr oe))) :: tr oe ++ [IReturn])
      | None => rp = None
      end ->
      val_rel (VModule ps out body) (WMod ptr rp flds).

  Definition fld_rel (a : bytes * value) (c : bytes * wval) : Prop :=
    fst a = fst c /\ val_rel (snd a) (snd c).
  Definition scope_rel (rho : scope fo) (t : symtab fo) : Prop :=
    forall x, orel val_rel (lookup fo x rho) (sym_get x t).
  Definition self_rel (sv : option value) (ss : list wval) : Prop := orel val_rel sv (hd_error ss).

  Lemma sym_get_add x k (v : wval) t :
    sym_get x (sym_add k v t) = if bytes_eqb x k then Some v else sym_get x t.
  Proof.
    induction t as [|[k' w] t IH]; cbn.
    - reflexivity.
    - destruct (bytes_ltb k k') eqn:Elt; cbn.
      + reflexivity.
      + destruct (bytes_eqb k k') eqn:Ekk; cbn.
        * apply bytes_eqb_spec in Ekk; subst k'. destruct (bytes_eqb x k); reflexivity.
        * destruct (bytes_eqb x k') eqn:Exk'.
          -- apply bytes_eqb_spec in Exk'; subst k'.
             destruct (bytes_eqb x k) eqn:Exk; auto.
             apply bytes_eqb_spec in Exk; subst. rewrite bytes_eqb_refl in Ekk; discriminate.
          -- exact IH.
  Qed.

  Lemma scope_rel_add rho t x v w :
    scope_rel rho t -> val_rel v w -> scope_rel ((x, v) :: rho) (sym_add x w t).
  Proof.
    intros H Hv y. cbn. rewrite sym_get_add. destruct (bytes_eqb y x).
    - constructor; auto.
    - apply H.
  Qed.

  Lemma scope_rel_nil : scope_rel [] [].
  Proof. intros x; constructor. Qed.

  Definition tn_conv (t : tname) : wtn :=
    match t with
    | TInt => NInt | TFloat => NFloat | TString => NString | TBool => NBool | TNull => NNull
    | TList => NList | TTuple => NTuple | TFunc => NFunc
    end.

  Lemma type_of_rel v w : val_rel v w -> wtype_name w = tn_conv (type_of fo v).
  Proof. destruct 1; reflexivity. Qed.

  Lemma tname_eqb_conv a c : wtn_eqb (tn_conv a) (tn_conv c) = tname_eqb a c.
  Proof. destruct a, c; reflexivity. Qed.

  Lemma compatible_rel v1 w1 v2 w2 :
    val_rel v1 w1 -> val_rel v2 w2 -> wcompatible w1 w2 = compatible fo v1 v2.
  Proof.
    intros H1 H2. unfold wcompatible, compatible.
    rewrite (type_of_rel _ _ H1), (type_of_rel _ _ H2).
    change NNull with (tn_conv TNull). rewrite !tname_eqb_conv. reflexivity.
  Qed.

  Lemma is_name_rel v w : val_rel v w -> wtyp w = is_name fo v.
  Proof. destruct 1; reflexivity. Qed.

  Definition arith_instr (o : op) : instr :=
    match o with Add => IAdd | Sub => ISub | Mul => IMul | Div => IDiv | _ => IMod end.
  Definition is_arith (o : op) : bool :=
    match o with Add | Sub | Mul | Div | Mod => true | _ => false end.

  Lemma chk_checked z : res_out val_rel (chk fo z) (checked fo z).
  Proof.
    unfold chk, checked. destruct (in_i64 z); cbn; eauto using val_rel.
  Qed.

  (* closes the comparison of two primitives once both sides have been computed *)
  Ltac ro :=
    cbn; try reflexivity; try apply chk_checked; try exact I;
    try (eexists; split; [reflexivity | constructor; auto]).

  Lemma arith_rel o l r lw rw :
    is_arith o = true -> val_rel l lw -> val_rel r rw ->
    res_out val_rel (arith' fo o l r) (vm_arith fo (arith_instr o) lw rw).
  Proof.
    intros Ho Hl Hr.
    destruct o; try discriminate; destruct Hl; destruct Hr; ro.
    - apply Forall2_app; auto.
    - destruct (Z.eqb z0 0); ro.
    - destruct (Z.eqb z0 0); ro. destruct (Z.eqb z i64_min && Z.eqb z0 (-1)); ro.
  Qed.

  Definition cmp_instr (o : op) : instr :=
    match o with GT => IGt | LT => ILt | GTEqual => IGtEq | _ => ILtEq end.
  Definition is_cmp (o : op) : bool :=
    match o with GT | LT | GTEqual | LTEqual => true | _ => false end.

  Lemma compare_rel o l r lw rw :
    is_cmp o = true -> val_rel l lw -> val_rel r rw ->
    res_out val_rel (compare_num fo o l r) (vm_compare fo (cmp_instr o) lw rw).
  Proof.
    intros Ho Hl Hr.
    destruct o; try discriminate; destruct Hl; destruct Hr; ro.
  Qed.

  Lemma cast_rel c v w : val_rel v w -> res_out val_rel (cast fo c v) (vm_cast fo c w).
  Proof.
    (* value kind by target type; what is left to split are the float conversions, parse_int, the
       two spellings of a boolean and the boolean itself *)
    intros Hv. destruct Hv; destruct c; cbn;
      repeat (match goal with |- context [match ?c with _ => _ end] => destruct c end; cbn); ro.
  Qed.

  Lemma lookup_fld_get k fs fs' :
    Forall2 fld_rel fs fs' -> orel val_rel (lookup fo k fs) (fld_get fo k fs').
  Proof.
    induction 1 as [|[k1 v1] [k2 w2] fs fs' [Hk Hv] _ IH]; cbn in *.
    - constructor.
    - subst k2. rewrite (bytes_eqb_sym k1 k). destruct (bytes_eqb k k1); auto. constructor; auto.
  Qed.

  Lemma Forall2_length {A B} {R : A -> B -> Prop} {l l'} :
    Forall2 R l l' -> List.length l = List.length l'.
  Proof. induction 1; cbn; auto. Qed.

  Lemma Forall2_nth_error {A B} (R : A -> B -> Prop) l l' n :
    Forall2 R l l' -> orel R (nth_error l n) (nth_error l' n).
  Proof.
    intros H; revert n; induction H; intros [|n]; cbn; try constructor; auto.
  Qed.

  Lemma index_rel (c : ctx fo) t k tw kw :
    val_rel t tw -> val_rel k kw ->
    res_out val_rel (index fo c t k) (vm_index fo (negb (strict fo c)) tw kw).
  Proof.
    intros Ht Hk. unfold index, vm_index.
    assert (Hmiss : res_out val_rel (if strict fo c then Err else Ok VNull)
                            (if negb (strict fo c) then VOk WEmpty else VErr)).
    { destruct (strict fo c); ro. }
    destruct Hk; try exact Hmiss.
    - destruct Ht; try exact Hmiss.
      pose proof (Forall2_length H) as Hlen.
      pose proof (Forall2_nth_error _ _ _ (Z.to_nat z) H) as Hn.
      destruct (Z.leb 0 z) eqn:E0; [|rewrite andb_false_r; exact Hmiss].
      rewrite andb_true_r.
      destruct (Z.ltb z (Z.of_nat (List.length l'))) eqn:El.
      + apply Z.ltb_lt in El. apply Z.leb_le in E0.
        inversion Hn as [Hn1 Hn2|a c' Hac Hn1 Hn2].
        * symmetry in Hn2. apply nth_error_None in Hn2. lia.
        * ro. eexists; split; [reflexivity|auto].
      + apply Z.ltb_ge in El. apply Z.leb_le in E0.
        inversion Hn as [Hn1 Hn2|a c' Hac Hn1 Hn2]; try exact Hmiss.
        assert (Z.to_nat z < List.length l').
        { apply nth_error_Some. congruence. } lia.
    - destruct Ht; try exact Hmiss.
      pose proof (lookup_fld_get s _ _ H) as Hl.
      inversion Hl; try exact Hmiss. ro. eexists; split; [reflexivity|auto].
  Qed.

  Definition veq_list (f : nat) := fix go (x y : list value) : res bool :=
    match x, y with
    | [], [] => Ok true
    | v :: x', w :: y' => do r <- veq fo true f v w; if r then go x' y' else Ok false
    | _, _ => Ok false
    end.
  Definition veq_tuple (f : nat) := fix go (x y : list (bytes * value)) : res bool :=
    match x, y with
    | [], [] => Ok true
    | (k, v) :: x', (k', w) :: y' =>
      if bytes_eqb k k' then (do r <- veq fo true f v w; if r then go x' y' else Ok false)
      else Ok false
    | _, _ => Ok false
    end.
  Definition weq_list := fix go (x y : list wval) : option bool :=
    match x, y with
    | [], [] => Some true
    | v :: x', w :: y' => match weq v w with Some true => go x' y' | r => r end
    | _, _ => Some false
    end.
  Definition weq_tuple := fix go (x y : list (bytes * wval)) : option bool :=
    match x, y with
    | [], [] => Some true
    | (k, v) :: x', (k', w) :: y' =>
      if bytes_eqb k k' then match weq v w with Some true => go x' y' | r => r end
      else Some false
    | _, _ => Some false
    end.

  (* a computation of the evaluator that never errs, against one of the VM that cannot *)
  Definition res_opt {A} (r : res A) (o : option A) : Prop :=
    match r with Ok a => o = Some a | Err => False | _ => True end.

  Lemma veq_rel : forall f a c wa wc,
    val_rel a wa -> val_rel c wc -> res_opt (veq fo true f a c) (weq wa wc).
  Proof.
    induction f as [|f IH]; intros a c wa wc Ha Hc; [exact I|].
    destruct Ha as [| | | | |x x' Hx|x x' Hx| |]; destruct Hc as [| | | | |y y' Hy|y y' Hy| |];
      try reflexivity; try exact I.
    - (* lists: the VM compares the lengths first, the evaluator finds a difference on the way *)
      change (res_opt (veq_list f x y)
                      (if negb (Nat.eqb (List.length x') (List.length y')) then Some false else weq_list x' y')).
      revert y y' Hy. induction Hx as [|v w x x' Hvw _ IHx]; intros y y' Hy;
        destruct Hy as [|v2 w2 y y' Hvw2 Hy]; try reflexivity.
      cbn [veq_list weq_list List.length Nat.eqb]. specialize (IHx _ _ Hy).
      pose proof (IH _ _ _ _ Hvw Hvw2) as Hv. destruct (veq fo true f v v2) as [[]| | |]; cbn in Hv |- *; auto.
      + rewrite Hv. destruct (negb _); exact IHx.
      + rewrite Hv. destruct (negb _); reflexivity.
    - change (res_opt (if negb (Nat.eqb (List.length x) (List.length y)) then Ok false else veq_tuple f x y)
                      (if negb (Nat.eqb (List.length x') (List.length y')) then Some false else weq_tuple x' y')).
      rewrite <- (Forall2_length Hx), <- (Forall2_length Hy). destruct (negb _); [reflexivity|].
      revert y y' Hy. induction Hx as [|[k v] [k' w] x x' [Hk Hvw] _ IHx]; intros y y' Hy;
        destruct Hy as [|[k2 v2] [k2' w2] y y' [Hk2 Hvw2] Hy]; try reflexivity.
      cbn in Hk, Hk2, Hvw, Hvw2. subst k' k2'. cbn [veq_tuple weq_tuple]. specialize (IHx _ _ Hy).
      destruct (bytes_eqb k k2); [|reflexivity].
      pose proof (IH _ _ _ _ Hvw Hvw2) as Hv. destruct (veq fo true f v v2) as [[]| | |]; cbn in Hv |- *; auto.
      + rewrite Hv. exact IHx.
      + rewrite Hv. reflexivity.
  Qed.

  Definition weq_prim (l r : wval) : outcome wval :=
    if wcompatible l r then match weq l r with Some q => VOk (WBool q) | None => VUnsup end else VErr.

  Lemma equal_rel f lv rv lw rw :
    val_rel lv lw -> val_rel rv rw ->
    res_out (fun q w => w = WBool q) (if compatible fo lv rv then veq fo true f lv rv else Err) (weq_prim lw rw).
  Proof.
    intros Hl Hr. unfold weq_prim. rewrite (compatible_rel _ _ _ _ Hl Hr).
    destruct (compatible fo lv rv); cbn; auto.
    pose proof (veq_rel f _ _ _ _ Hl Hr) as He.
    destruct (veq fo true f lv rv) as [q| | |]; cbn in He |- *; auto; [rewrite He; eauto|contradiction].
  Qed.

  (* the loop of the `in` operator over a list *)
  Definition in_list (f : nat) (needle : value) := fix go (items : list value) : res value :=
    match items with
    | [] => Ok (VBool false)
    | v :: rest => do r <- veq fo true f v needle; if r then Ok (VBool true) else go rest
    end.

  Lemma in_list_rel f needle nw items iw :
    Forall2 val_rel items iw -> val_rel needle nw ->
    res_out val_rel (in_list f needle items) (vdo r <- list_has fo iw nw; VOk (WBool r)).
  Proof.
    intros Hi Hn. induction Hi as [|v w x x' Hvw _ IH]; cbn.
    - eexists; split; [reflexivity|constructor].
    - pose proof (veq_rel f _ _ _ _ Hvw Hn) as He.
      destruct (veq fo true f v needle) as [[]| | |]; cbn in He |- *; auto; try contradiction; rewrite He.
      + eexists; split; [reflexivity|constructor].
      + exact IH.
  Qed.

  Lemma merge_field_rel fs fs' k v w :
    Forall2 fld_rel fs fs' -> val_rel v w ->
    res_out (Forall2 fld_rel) (merge_field fo fs k v) (wmerge_field fs' k w).
  Proof.
    intros Hf Hv. induction Hf as [|[k1 v1] [k2 w2] fs fs' [Hk Hvw] Hf IH]; cbn in *.
    - eexists; split; [reflexivity|]. constructor; [split; auto|constructor].
    - subst k2. rewrite (bytes_eqb_sym k1 k). destruct (bytes_eqb k k1).
      + rewrite (compatible_rel _ _ _ _ Hvw Hv). destruct (compatible fo v1 v); cbn; auto.
        eexists; split; [reflexivity|]. constructor; [split; auto|auto].
      + destruct (merge_field fo fs k v) as [r| | |]; cbn in *; auto.
        * destruct IH as (r' & -> & Hr). cbn. eexists; split; [reflexivity|].
          constructor; [split; auto|auto].
        * rewrite IH. reflexivity.
  Qed.

  Lemma merge_fields_rel ov ov' : Forall2 fld_rel ov ov' -> forall base base',
    Forall2 fld_rel base base' ->
    res_out (Forall2 fld_rel) (merge_fields fo base ov) (wmerge_fields base' ov').
  Proof.
    induction 1 as [|[k v] [k' w] ov ov' [Hk Hvw] _ IH]; intros base base' Hb; cbn in *.
    - eexists; split; [reflexivity|auto].
    - subst k'. pose proof (merge_field_rel _ _ k _ _ Hb Hvw) as Hm.
      destruct (merge_field fo base k v) as [r| | |]; cbn in *; auto.
      + destruct Hm as (r' & -> & Hr). cbn. apply IH; auto.
      + rewrite Hm. reflexivity.
  Qed.

  Definition int_conv (v : value) : wval := match v with VInt n => WInt n | _ => WEmpty end.
  Lemma range_from_rel n : forall a s z,
    Forall2 val_rel (range_from fo n a s z) (map int_conv (range_from fo n a s z)).
  Proof.
    induction n as [|n IH]; intros a s z; cbn; [constructor|].
    destruct (Z.ltb z a); [constructor|]. cbn. constructor; [constructor|].
    destruct (in_i64 (a + s)); [apply IH|constructor].
  Qed.

  Definition sel_key (v : value) : option bytes :=
    match v with
    | VStr s => Some s
    | VBool true => Some (b "true")
    | VBool false => Some (b "false")
    | _ => None
    end.
  Lemma select_matches_rel v w k :
    val_rel v w ->
    select_matches fo (WSym k) w = match sel_key v with Some kk => bytes_eqb kk k | None => false end.
  Proof.
    destruct 1; unfold select_matches, sel_key; auto.
    - destruct v; cbn [negb].
      + rewrite andb_true_r, andb_false_r. rewrite (bytes_eqb_sym k).
        destruct (bytes_eqb _ k); reflexivity.
      + rewrite andb_false_r, andb_true_r. apply bytes_eqb_sym.
    - apply bytes_eqb_sym.
  Qed.

  Definition render_list (f : nat) := fix go (l : list value) : res bytes :=
    match l with
    | [] => Ok []
    | v :: l' => do t <- render fo f v; do r <- go l'; Ok (t ++ ","%char :: r)
    end.
  Definition render_flds (f : nat) := fix go (fs : list (bytes * value)) : res bytes :=
    match fs with
    | [] => Ok []
    | (k, v) :: fs' => do t <- render fo f v; do r <- go fs'; Ok (k ++ b " = " ++ t ++ ","%char :: r)
    end.
  Definition wrender_list := fix go (l : list wval) : option bytes :=
    match l with
    | [] => Some []
    | v :: l' => match wrender v, go l' with
                 | Some t, Some r => Some (t ++ ","%char :: r)
                 | _, _ => None end
    end.
  Definition wrender_flds := fix go (fs : list (bytes * wval)) : option bytes :=
    match fs with
    | [] => Some []
    | (k, v) :: fs' => match wrender v, go fs' with
                       | Some t, Some r => Some (k ++ b " = " ++ t ++ ","%char :: r)
                       | _, _ => None end
    end.

  (* Op::Render produces the text the evaluator's [render] produces *)
  Lemma render_rel : forall f v w, val_rel v w -> res_opt (render fo f v) (wrender w).
  Proof.
    induction f as [|f IH]; intros v w Hvw; [exact I|].
    destruct Hvw as [|v| |x| |l l' Hl|fs fs' Hfs| |]; try reflexivity.
    - destruct v; reflexivity.
    - cbn. destruct (f_text fo x); [reflexivity|exact I].
    - change (res_opt (do body <- render_list f l; Ok ("["%char :: body ++ b "]"))
                      (match wrender_list l' with Some body => Some ("["%char :: body ++ b "]") | None => None end)).
      assert (Hb : res_opt (render_list f l) (wrender_list l')).
      { induction Hl as [|v w l l' Hvw _ IHl]; [reflexivity|]. cbn [render_list wrender_list].
        pose proof (IH _ _ Hvw) as Hv. destruct (render fo f v); cbn in Hv |- *; auto. rewrite Hv.
        destruct (render_list f l); cbn in IHl |- *; auto. rewrite IHl. reflexivity. }
      destruct (render_list f l); cbn in Hb |- *; auto. rewrite Hb. reflexivity.
    - change (res_opt (do body <- render_flds f fs; Ok ("{"%char :: body ++ b "}"))
                      (match wrender_flds fs' with Some body => Some ("{"%char :: body ++ b "}") | None => None end)).
      assert (Hb : res_opt (render_flds f fs) (wrender_flds fs')).
      { induction Hfs as [|[k v] [k' w] l l' [Hk Hvw] _ IHl]; [reflexivity|]. cbn in Hk, Hvw. subst k'.
        cbn [render_flds wrender_flds].
        pose proof (IH _ _ Hvw) as Hv. destruct (render fo f v); cbn in Hv |- *; auto. rewrite Hv.
        destruct (render_flds f l); cbn in IHl |- *; auto. rewrite IHl. reflexivity. }
      destruct (render_flds f fs); cbn in Hb |- *; auto. rewrite Hb. reflexivity.
  Qed.

  (* The evaluator binds the parameters first to last on top of the closure's scope; the VM pops
     them last to first into the snapshot.  Both are put in closed form, and the two forms agree
     on every name because the parameters are distinct. *)
  Lemma bind_params_char ps : forall avs clo,
    List.length ps = List.length avs ->
    bind_params fo ps avs clo = if existsb is_reserved ps then Err else Ok (rev (combine ps avs) ++ clo).
  Proof.
    induction ps as [|p ps IH]; intros [|a avs] clo Hl;
      cbn [bind_params existsb List.length combine rev app] in *; try discriminate; auto.
    destruct (is_reserved p); cbn [orb]; auto. rewrite IH by lia.
    destruct (existsb is_reserved ps); auto. rewrite <- app_assoc. reflexivity.
  Qed.

  Definition add_all (l : list (bytes * wval)) (t : symtab fo) : symtab fo :=
    fold_right (fun kv t => sym_add (fst kv) (snd kv) t) t l.

  Lemma bind_args_app n1 : forall n2 s t,
    bind_args fo (n1 ++ n2) s t = vdo p <- bind_args fo n1 s t; bind_args fo n2 (fst p) (snd p).
  Proof.
    induction n1 as [|nm n1 IH]; intros n2 s t; cbn [app bind_args vbind fst snd]; [reflexivity|].
    destruct s as [|v s]; [reflexivity|]. destruct (binding_push fo t nm v false); cbn [vbind]; auto.
  Qed.

  Lemma bind_args_char ps : forall avw s t,
    List.length ps = List.length avw ->
    bind_args fo (rev ps) (rev avw ++ s) t =
    if existsb is_reserved ps then VErr else VOk (s, add_all (combine ps avw) t).
  Proof.
    induction ps as [|p ps IH]; intros [|aw avw] s t Hl; cbn [List.length] in Hl; try discriminate; [reflexivity|].
    cbn [rev existsb combine add_all fold_right fst snd]. rewrite <- app_assoc, bind_args_app, IH by lia.
    destruct (existsb is_reserved ps); [rewrite orb_true_r; reflexivity|]. rewrite orb_false_r.
    cbn [vbind fst snd bind_args]. unfold binding_push. change (vm_is_reserved p) with (is_reserved p).
    destruct (is_reserved p); [reflexivity|]. rewrite andb_false_r. reflexivity.
  Qed.

  Lemma sym_get_add_all x l : forall t,
    sym_get x (add_all l t) = match sym_get x l with Some v => Some v | None => sym_get x t end.
  Proof.
    induction l as [|[k v] l IH]; intros t; cbn [add_all fold_right fst snd sym_get]; [reflexivity|].
    rewrite sym_get_add. destruct (bytes_eqb x k); [reflexivity|apply IH].
  Qed.

  Lemma sym_get_combine_notin p ps : forall (avw : list wval),
    existsb (bytes_eqb p) ps = false -> sym_get p (combine ps avw) = None.
  Proof.
    induction ps as [|q ps IH]; intros [|aw avw] H; cbn in *; auto.
    apply orb_false_iff in H as [-> H]. auto.
  Qed.

  Lemma existsb_reserved_ok ps : existsb vm_is_reserved ps = existsb is_reserved ps.
  Proof. reflexivity. Qed.

  Lemma bind_scope_rel ps : forall avs avw clo snap,
    nodupb ps = true -> Forall2 val_rel avs avw -> scope_rel clo snap ->
    scope_rel (rev (combine ps avs) ++ clo) (add_all (combine ps avw) snap).
  Proof.
    induction ps as [|p ps IH]; intros avs avw clo snap Hnd Hav Hs; [exact Hs|].
    destruct Hav as [|a aw avs avw Ha Hav]; [exact Hs|]. cbn in Hnd.
    apply andb_true_iff in Hnd as [Hp Hnd]. apply negb_true_iff in Hp.
    cbn [combine rev add_all fold_right fst snd]. rewrite <- app_assoc. intros x.
    pose proof (IH avs avw ((p, a) :: clo) (sym_add p aw snap) Hnd Hav (scope_rel_add _ _ p _ _ Hs Ha) x) as Hx.
    cbn [app]. fold (add_all (combine ps avw) snap). rewrite sym_get_add, sym_get_add_all.
    rewrite sym_get_add_all, sym_get_add in Hx.
    destruct (bytes_eqb x p) eqn:Exp; [|exact Hx].
    apply bytes_eqb_spec in Exp. subst x. rewrite (sym_get_combine_notin p ps avw Hp) in *. exact Hx.
  Qed.

  Lemma bind_rel ps avs avw clo snap s :
    params_ok ps = true -> Forall2 val_rel avs avw -> List.length ps = List.length avs ->
    scope_rel clo snap ->
    res_out (fun sc' p => fst p = s /\ scope_rel sc' (snd p))
            (bind_params fo ps avs clo) (bind_args fo (rev ps) (rev avw ++ s) snap).
  Proof.
    intros Hnd Hav Hl Hs. rewrite bind_params_char, bind_args_char by (rewrite <- ?(Forall2_length Hav); auto).
    destruct (existsb is_reserved ps); [reflexivity|].
    eexists. split; [reflexivity|]. split; [reflexivity|]. apply bind_scope_rel; auto.
  Qed.
End Rel.
