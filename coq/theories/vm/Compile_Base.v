(* Infrastructure for the compile-correctness proof: fuel monotonicity of the VM, the
   "reaches"/"errs" relations between machine states, code in context, handlers whose nested runs
   have fuel enough, and triples over code fragments with their rules. *)
From Ucg Require Import base.Bytes_Lemmas.
From Ucg Require Export vm.Vm.

(* [o'] is what [o] becomes with more fuel: the same, unless [o] ran out *)
Definition refines {A} (o o' : outcome A) : Prop := o <> VFuel -> o' = o.

Lemma refines_refl {A} (o : outcome A) : refines o o.
Proof. intros _. reflexivity. Qed.

Lemma refines_bind {A B} (o o' : outcome A) (k k' : A -> outcome B) :
  refines o o' -> (forall a, refines (k a) (k' a)) -> refines (vbind o k) (vbind o' k').
Proof.
  intros Ho Hk. destruct o as [a| | | |]; try (rewrite Ho by discriminate; apply refines_refl || apply Hk).
  intros H. now elim H.
Qed.

Lemma bind_ret {A} (r : res A) : (do a <- r; Ok a) = r.
Proof. destruct r; reflexivity. Qed.

Lemma bind_assoc {A B D} (a : res A) (k : A -> res B) (h : B -> res D) :
  (do x <- (do v <- a; k v); h x) = (do v <- a; do x <- k v; h x).
Proof. destruct a; reflexivity. Qed.

Lemma fold_strict {A X} (G : res A -> X -> res A) :
  (forall r x, G r x = do a <- r; G (Ok a) x) ->
  forall l r, fold_left G l r = do a <- r; fold_left G l (Ok a).
Proof.
  intros HG. induction l as [|x l IHl]; intros r; destruct r; try reflexivity;
    cbn [fold_left]; rewrite HG; cbn [bind]; apply IHl.
Qed.

(* a primitive of the evaluator against the handler's primitive: equal kinds of outcome, related results *)
Definition res_out {A B} (R : A -> B -> Prop) (r : res A) (o : outcome B) : Prop :=
  match r with
  | Ok a => exists c, o = VOk c /\ R a c
  | Err => o = VErr
  | _ => True
  end.

Lemma res_out_bind {A B A' B'} (R : A -> B -> Prop) (R' : A' -> B' -> Prop) r o k h :
  res_out R r o -> (forall a x, R a x -> res_out R' (k a) (h x)) -> res_out R' (bind r k) (vbind o h).
Proof.
  intros H Hk. destruct r; cbn in *; auto.
  - destruct H as (x & -> & Hx). apply Hk, Hx.
  - subst o. reflexivity.
Qed.

Lemma res_out_map {A B B'} (R : A -> B -> Prop) (R' : A -> B' -> Prop) (g : B -> B') r o :
  res_out R r o -> (forall a w, R a w -> R' a (g w)) -> res_out R' r (vdo x <- o; VOk (g x)).
Proof.
  intros H Hg. destruct r; cbn in *; auto.
  - destruct H as (w & -> & Hw). exists (g w). auto.
  - subst o. reflexivity.
Qed.

Section Base.
  Variable fo : float_ops.
  Variable C : ops.
  Variable strict_ : bool.
  Variable envv : list (bytes * bytes).

  Notation wval := (wval fo).
  Notation state := (state fo).
  Notation run := (vm_run fo C strict_ envv).
  Notation exec := (exec_instr fo C strict_ envv).

  Definition mk (n : nat) (s : list wval) (t : symtab fo) (ss : list wval) : state :=
    {| pc := n; stk := s; syms := t; selfs := ss |}.

  (* Every handler is built from [vbind] and case analysis on data, and hands the states of nested
     runs to its run function unchanged, so it refines pointwise when the run function does. *)
  Definition le_run (r1 r2 : state -> outcome state) : Prop := forall st, refines (r1 st) (r2 st).

  Section Mono.
    Variables r1 r2 : state -> outcome state.
    Hypothesis Hle : le_run r1 r2.

    Lemma fcall_impl_mono ptr bs snap s :
      refines (fcall_impl fo r1 ptr bs snap s) (fcall_impl fo r2 ptr bs snap s).
    Proof.
      unfold fcall_impl. apply refines_bind; [apply refines_refl|intros [s' t]].
      apply refines_bind; [apply Hle|intros fin; apply refines_refl].
    Qed.

    Lemma call_with_mono {A} ptr bs snap args s (k k' : wval * list wval -> outcome A) :
      (forall p, refines (k p) (k' p)) ->
      refines (vbind (call_with fo r1 ptr bs snap args s) k) (vbind (call_with fo r2 ptr bs snap args s) k').
    Proof. intros Hk. apply refines_bind; [apply fcall_impl_mono|exact Hk]. Qed.

    Lemma map_list_mono ptr bs snap l : forall s,
      refines (map_list fo r1 ptr bs snap l s) (map_list fo r2 ptr bs snap l s).
    Proof.
      induction l as [|e l IH]; intros s; cbn; [apply refines_refl|].
      apply call_with_mono. intros [r s1].
      apply refines_bind; [apply IH|intros p; apply refines_refl].
    Qed.

    Lemma map_tuple_mono ptr bs snap l : forall s,
      refines (map_tuple fo r1 ptr bs snap l s) (map_tuple fo r2 ptr bs snap l s).
    Proof.
      induction l as [|[k v] l IH]; intros s; cbn; [apply refines_refl|].
      apply call_with_mono. intros [r s1].
      destruct r as [| | | | | |fval| | | |]; try apply IH.
      destruct fval as [|n [|v' [|]]]; try apply refines_refl. destruct n; try apply refines_refl.
      apply refines_bind; [apply IH|intros p; apply refines_refl].
    Qed.

    Lemma map_str_mono ptr bs snap l : forall s,
      refines (map_str fo r1 ptr bs snap l s) (map_str fo r2 ptr bs snap l s).
    Proof.
      induction l as [|e l IH]; intros s; cbn; [apply refines_refl|].
      apply call_with_mono. intros [r s1]. destruct r; try apply refines_refl.
      apply refines_bind; [apply IH|intros p; apply refines_refl].
    Qed.

    Lemma filter_list_mono ptr bs snap l : forall s,
      refines (filter_list fo r1 ptr bs snap l s) (filter_list fo r2 ptr bs snap l s).
    Proof.
      induction l as [|e l IH]; intros s; cbn; [apply refines_refl|].
      apply call_with_mono. intros [r s1].
      apply refines_bind; [apply IH|intros p; apply refines_refl].
    Qed.

    Lemma filter_tuple_mono ptr bs snap l : forall s,
      refines (filter_tuple fo r1 ptr bs snap l s) (filter_tuple fo r2 ptr bs snap l s).
    Proof.
      induction l as [|[k v] l IH]; intros s; cbn; [apply refines_refl|].
      apply call_with_mono. intros [r s1].
      apply refines_bind; [apply IH|intros p; apply refines_refl].
    Qed.

    Lemma filter_str_mono ptr bs snap l : forall s,
      refines (filter_str fo r1 ptr bs snap l s) (filter_str fo r2 ptr bs snap l s).
    Proof.
      induction l as [|e l IH]; intros s; cbn; [apply refines_refl|].
      apply call_with_mono. intros [r s1].
      apply refines_bind; [apply IH|intros p; apply refines_refl].
    Qed.

    Lemma reduce_list_mono ptr bs snap l : forall acc s,
      refines (reduce_list fo r1 ptr bs snap l acc s) (reduce_list fo r2 ptr bs snap l acc s).
    Proof.
      induction l as [|e l IH]; intros acc s; cbn; [apply refines_refl|].
      apply call_with_mono. intros [r s1]. apply IH.
    Qed.

    Lemma reduce_tuple_mono ptr bs snap l : forall acc s,
      refines (reduce_tuple fo r1 ptr bs snap l acc s) (reduce_tuple fo r2 ptr bs snap l acc s).
    Proof.
      induction l as [|[k v] l IH]; intros acc s; cbn; [apply refines_refl|].
      apply call_with_mono. intros [r s1]. apply IH.
    Qed.

    Lemma reduce_str_mono ptr bs snap l : forall acc s,
      refines (reduce_str fo r1 ptr bs snap l acc s) (reduce_str fo r2 ptr bs snap l acc s).
    Proof.
      induction l as [|e l IH]; intros acc s; cbn; [apply refines_refl|].
      apply call_with_mono. intros [r s1]. apply IH.
    Qed.

    (* only NewScope, Cp, FCall and the three loop hooks start nested runs *)
    Lemma exec_mono i st : refines (exec r1 i st) (exec r2 i st).
    Proof.
      destruct i; try apply refines_refl; cbn.
      - unfold op_new_scope. apply refines_bind; [apply Hle|intros fin; apply refines_refl].
      - unfold op_copy.
        apply refines_bind; [apply refines_refl|intros [ov s1]].
        apply refines_bind; [apply refines_refl|intros [tgt s2]].
        destruct ov; try apply refines_refl. destruct tgt; try apply refines_refl.
        apply refines_bind; [apply refines_refl|intros f1].
        apply refines_bind; [apply refines_refl|intros f2].
        apply refines_bind; [apply Hle|intros fin].
        destruct result_ptr; [|apply refines_refl]. destruct (Nat.ltb _ _); [|apply refines_refl].
        apply refines_bind; [apply Hle|intros fin2; apply refines_refl].
      - unfold op_fcall.
        apply refines_bind; [apply refines_refl|intros [f s1]].
        apply refines_bind; [apply refines_refl|intros [al s2]].
        destruct f; try apply refines_refl.
        apply refines_bind; [apply refines_refl|intros _].
        apply refines_bind; [apply fcall_impl_mono|intros p; apply refines_refl].
      - unfold op_runtime. destruct h; try apply refines_refl.
        + unfold hook_map. destruct (stk st) as [|tgt [|fp s]]; try apply refines_refl.
          destruct fp; try apply refines_refl.
          destruct tgt; try apply refines_refl;
            (apply refines_bind; [apply refines_refl|intros _];
             apply refines_bind; [|intros p; apply refines_refl]).
          * apply map_str_mono.
          * apply map_list_mono.
          * apply map_tuple_mono.
        + unfold hook_filter. destruct (stk st) as [|tgt [|fp s]]; try apply refines_refl.
          destruct fp; try apply refines_refl.
          destruct tgt; try apply refines_refl;
            (apply refines_bind; [apply refines_refl|intros _];
             apply refines_bind; [|intros p; apply refines_refl]).
          * apply filter_str_mono.
          * apply filter_list_mono.
          * apply filter_tuple_mono.
        + unfold hook_reduce. destruct (stk st) as [|tgt [|acc [|fp s]]]; try apply refines_refl.
          destruct fp; try apply refines_refl.
          destruct tgt; try apply refines_refl;
            (apply refines_bind; [apply refines_refl|intros _];
             apply refines_bind; [|intros p; apply refines_refl]).
          * apply reduce_str_mono.
          * apply reduce_list_mono.
          * apply reduce_tuple_mono.
    Qed.
  End Mono.

  Definition is_ret (i : instr) : bool := match i with IReturn => true | _ => false end.

  Lemma run_S f st :
    run (S f) st =
    match nth_error C (pc st) with
    | Some i => if is_ret i then VOk st else vdo st' <- exec (run f) i st; run f st'
    | None => VOk st
    end.
  Proof. cbn. destruct (nth_error C (pc st)) as [[]|]; reflexivity. Qed.

  Lemma run_mono_S : forall f, le_run (run f) (run (S f)).
  Proof.
    induction f as [|f IH]; intros st; [intros H; now elim H|].
    rewrite 2 run_S. destruct (nth_error C (pc st)) as [i|]; [|apply refines_refl].
    destruct (is_ret i); [apply refines_refl|].
    apply refines_bind; [apply exec_mono; exact IH|exact IH].
  Qed.

  Lemma run_mono : forall f f' st o, run f st = o -> o <> VFuel -> f <= f' -> run f' st = o.
  Proof.
    intros f f' st o H Ho Hle. subst o. induction Hle; [reflexivity|].
    rewrite <- IHHle. apply run_mono_S. rewrite IHHle. exact Ho.
  Qed.

  Definition reaches (st st' : state) : Prop :=
    forall k o, run k st' = o -> o <> VFuel -> exists k', run k' st = o.
  Definition errs (st : state) : Prop := exists k, run k st = VErr.

  Lemma reaches_refl st : reaches st st.
  Proof. intros k o H _. eauto. Qed.

  Lemma reaches_trans st1 st2 st3 : reaches st1 st2 -> reaches st2 st3 -> reaches st1 st3.
  Proof.
    intros H12 H23 k o H Ho. destruct (H23 _ _ H Ho) as (k2 & H2). eapply H12; eauto.
  Qed.

  Lemma reaches_errs st1 st2 : reaches st1 st2 -> errs st2 -> errs st1.
  Proof. intros H12 (k & Hk). eapply H12; eauto. discriminate. Qed.

  Lemma reaches_eq st st1 st2 : reaches st st1 -> st1 = st2 -> reaches st st2.
  Proof. intros; subst; auto. Qed.

  Definition code_at (n : nat) (c : ops) : Prop :=
    forall k i, nth_error c k = Some i -> nth_error C (n + k) = Some i.

  Lemma code_at_app n a c : code_at n (a ++ c) -> code_at n a /\ code_at (n + List.length a) c.
  Proof.
    intros H; split; intros k i Hk.
    - apply H. rewrite nth_error_app1; auto. apply nth_error_Some. congruence.
    - replace (n + List.length a + k) with (n + (List.length a + k)) by lia. apply H.
      rewrite nth_error_app2 by lia. replace (List.length a + k - List.length a) with k by lia. auto.
  Qed.

  Lemma code_at_cons n i c : code_at n (i :: c) -> nth_error C n = Some i /\ code_at (S n) c.
  Proof.
    intros H; split.
    - specialize (H 0 i eq_refl). now rewrite Nat.add_0_r in H.
    - intros k j Hk. replace (S n + k) with (n + S k) by lia. apply H. exact Hk.
  Qed.

  Lemma code_at_lt n c k : code_at n c -> k < List.length c -> n + k < List.length C.
  Proof.
    intros H Hk. destruct (nth_error c k) as [i|] eqn:E.
    - apply nth_error_Some. rewrite (H _ _ E). discriminate.
    - apply nth_error_None in E. lia.
  Qed.

  Lemma jump_ok n s t ss j :
    n + j < List.length C -> jump fo C (mk n s t ss) j = VOk (mk (S (n + j)) s t ss).
  Proof. intros H. unfold jump. cbn [pc mk]. apply Nat.ltb_lt in H. rewrite H. reflexivity. Qed.

  (* [g], a handler or a run as a function of the fuel of its nested runs, is [o] from some fuel on *)
  Definition settles {A} (g : nat -> outcome A) (o : outcome A) : Prop :=
    exists k0, forall k, k0 <= k -> g k = o.

  Lemma settles_const {A} (o : outcome A) : settles (fun _ => o) o.
  Proof. exists 0. reflexivity. Qed.

  Lemma settles_bind {A B} (g : nat -> outcome A) (h : nat -> A -> outcome B) a o :
    settles g (VOk a) -> settles (fun k => h k a) o -> settles (fun k => vbind (g k) (h k)) o.
  Proof.
    intros (k1 & H1) (k2 & H2). exists (Nat.max k1 k2). intros k Hk.
    rewrite H1 by lia. apply H2. lia.
  Qed.

  Lemma settles_bind_err {A B} (g : nat -> outcome A) (h : nat -> A -> outcome B) :
    settles g VErr -> settles (fun k => vbind (g k) (h k)) VErr.
  Proof. intros (k1 & H1). exists k1. intros k Hk. rewrite H1 by exact Hk. reflexivity. Qed.

  Lemma settles_ext {A} (g g' : nat -> outcome A) o : (forall k, g k = g' k) -> settles g' o -> settles g o.
  Proof. intros He (k0 & H). exists k0. intros k Hk. rewrite He. auto. Qed.

  Lemma reaches_step st st1 i :
    nth_error C (pc st) = Some i -> is_ret i = false ->
    settles (fun k => exec (run k) i st) (VOk st1) -> reaches st st1.
  Proof.
    intros Hf Hi (k0 & Hk0) k o H Ho. exists (S (Nat.max k k0)).
    rewrite run_S, Hf, Hi, Hk0 by lia. eapply run_mono; eauto. lia.
  Qed.

  Lemma errs_step st i :
    nth_error C (pc st) = Some i -> is_ret i = false ->
    settles (fun k => exec (run k) i st) VErr -> errs st.
  Proof. intros Hf Hi (k & Hk). exists (S k). rewrite run_S, Hf, Hi, Hk by lia. reflexivity. Qed.

  Lemma reaches_settles st st' :
    reaches st st' -> nth_error C (pc st') = Some IReturn -> settles (fun k => run k st) (VOk st').
  Proof.
    intros H Hr. destruct (H 1 (VOk st')) as (k0 & Hk0); [rewrite run_S, Hr; reflexivity|discriminate|].
    exists k0. intros k Hk. eapply run_mono; eauto. discriminate.
  Qed.

  Lemma errs_settles st : errs st -> settles (fun k => run k st) VErr.
  Proof. intros (k0 & Hk0). exists k0. intros k Hk. eapply run_mono; eauto. discriminate. Qed.

  (* a result of the evaluator against a computation of the machine that may start nested runs *)
  Definition answers {A W} (R : A -> W -> Prop) (r : res A) (g : nat -> outcome W) : Prop :=
    match r with
    | Ok a => exists w, R a w /\ settles g (VOk w)
    | Err => settles g VErr
    | _ => True
    end.

  Lemma answers_bind {A W B X} (R : A -> W -> Prop) (R' : B -> X -> Prop) r g (k : A -> res B)
        (h : nat -> W -> outcome X) :
    answers R r g -> (forall a w, R a w -> answers R' (k a) (fun n => h n w)) ->
    answers R' (bind r k) (fun n => vbind (g n) (h n)).
  Proof.
    intros Hr Hk. destruct r as [a| | |]; cbn; auto.
    - destruct Hr as (w & Hw & Hg). specialize (Hk a w Hw). destruct (k a); cbn in *; auto.
      + destruct Hk as (x & Hx & Hh). exists x; split; auto. eapply settles_bind; eauto.
      + eapply settles_bind; eauto.
    - apply settles_bind_err; auto.
  Qed.

  Lemma answers_then {A W X} (R : A -> W -> Prop) (R' : A -> X -> Prop) r g (h : nat -> W -> outcome X) :
    answers R r g -> (forall a w, R a w -> answers R' (Ok a) (fun n => h n w)) ->
    answers R' r (fun n => vbind (g n) (h n)).
  Proof.
    intros Hr Hk. rewrite <- (bind_ret r).
    eapply answers_bind; eauto.
  Qed.

  Lemma answers_pure {A W} (R : A -> W -> Prop) r o : res_out R r o -> answers R r (fun _ => o).
  Proof.
    destruct r; cbn; auto.
    - intros (w & -> & Hw). exists w; split; auto. apply settles_const.
    - intros ->. apply settles_const.
  Qed.

  Lemma answers_ret {A W} (R : A -> W -> Prop) a w : R a w -> answers R (Ok a) (fun _ => VOk w).
  Proof. intros H. exists w. split; [exact H|apply settles_const]. Qed.

  Lemma answers_ext {A W} (R : A -> W -> Prop) r g g' :
    (forall k, g k = g' k) -> answers R r g' -> answers R r g.
  Proof.
    intros He. destruct r; cbn; auto.
    - intros (w & Hw & H). exists w. split; [exact Hw|]. eapply settles_ext; eauto.
    - apply settles_ext, He.
  Qed.

  Definition post (A : Type) : Type := A -> list wval -> symtab fo -> list wval -> Prop.

  (* Wherever [code] stands in C, started on stack, symbols and self stack [s t ss] it mirrors the
     result [r] of the evaluator: on Ok the machine gets to the end of [code] in a state that [Q]
     accepts, on Err it stops with an error. *)
  Definition runs {A} (code : ops) (s : list wval) (t : symtab fo) (ss : list wval) (r : res A)
             (Q : post A) : Prop :=
    forall n, code_at n code ->
      match r with
      | Ok a => exists s' t' ss', Q a s' t' ss' /\ reaches (mk n s t ss) (mk (n + List.length code) s' t' ss')
      | Err => errs (mk n s t ss)
      | _ => True
      end.

  Lemma runs_nil {A} (a : A) s t ss (Q : post A) : Q a s t ss -> runs [] s t ss (Ok a) Q.
  Proof.
    intros H n _. exists s, t, ss. split; [exact H|]. cbn. rewrite Nat.add_0_r. apply reaches_refl.
  Qed.

  Lemma runs_seq {A B} c1 c2 s t ss (r1 : res A) (k : A -> res B) Q1 (Q : post B) :
    runs c1 s t ss r1 Q1 -> (forall a s1 t1 ss1, Q1 a s1 t1 ss1 -> runs c2 s1 t1 ss1 (k a) Q) ->
    runs (c1 ++ c2) s t ss (bind r1 k) Q.
  Proof.
    intros H1 H2 n Hc. apply code_at_app in Hc as [Hc1 Hc2]. specialize (H1 n Hc1).
    destruct r1 as [a| | |]; cbn; auto.
    destruct H1 as (s1 & t1 & ss1 & HQ & Hr1). specialize (H2 a s1 t1 ss1 HQ _ Hc2).
    destruct (k a); auto.
    - destruct H2 as (s2 & t2 & ss2 & HQ2 & Hr2). exists s2, t2, ss2. split; [exact HQ2|].
      rewrite app_length, Nat.add_assoc. eapply reaches_trans; eauto.
    - eapply reaches_errs; eauto.
  Qed.

  Lemma runs_post {A B} c s t ss (r : res A) (g : A -> B) Q1 (Q : post B) :
    runs c s t ss r Q1 -> (forall a s1 t1 ss1, Q1 a s1 t1 ss1 -> Q (g a) s1 t1 ss1) ->
    runs c s t ss (do a <- r; Ok (g a)) Q.
  Proof.
    intros H HQ n Hc. specialize (H n Hc). destruct r as [a| | |]; cbn; auto.
    destruct H as (s1 & t1 & ss1 & H1 & Hr). exists s1, t1, ss1. auto.
  Qed.

  Lemma runs_weaken {A} c s t ss (r : res A) Q1 (Q : post A) :
    runs c s t ss r Q1 -> (forall a s1 t1 ss1, Q1 a s1 t1 ss1 -> Q a s1 t1 ss1) -> runs c s t ss r Q.
  Proof.
    intros H HQ n Hc. specialize (H n Hc). destruct r as [a| | |]; auto.
    destruct H as (s1 & t1 & ss1 & H1 & Hr). exists s1, t1, ss1. auto.
  Qed.

  Lemma runs_then {A} c1 c2 s t ss (r : res A) Q1 (Q : post A) :
    runs c1 s t ss r Q1 -> (forall a s1 t1 ss1, Q1 a s1 t1 ss1 -> runs c2 s1 t1 ss1 (Ok a) Q) ->
    runs (c1 ++ c2) s t ss r Q.
  Proof.
    intros H1 H2. rewrite <- (bind_ret r).
    eapply runs_seq; eauto.
  Qed.

  (* sequencing after a result that is already known, as when an expression is evaluated twice *)
  Lemma runs_known {A B} c1 c2 s t ss (a : A) (r : res B) Q1 Q :
    runs c1 s t ss (Ok a) Q1 -> (forall s1 t1 ss1, Q1 a s1 t1 ss1 -> runs c2 s1 t1 ss1 r Q) ->
    runs (c1 ++ c2) s t ss r Q.
  Proof.
    intros H1 H2. change r with (do a' <- Ok a; (fun _ => r) a').
    eapply runs_seq with (Q1 := fun _ => Q1 a); [|intros _; exact H2].
    intros n Hc. exact (H1 n Hc).
  Qed.

  Lemma runs_instr {A} i s t ss (r : res A) (Q : post A) :
    is_ret i = false ->
    (forall n, nth_error C n = Some i ->
               answers (fun a st1 => exists s1 t1 ss1, st1 = mk (S n) s1 t1 ss1 /\ Q a s1 t1 ss1) r
                       (fun k => exec (run k) i (mk n s t ss))) ->
    runs [i] s t ss r Q.
  Proof.
    intros Hi H n Hc. apply code_at_cons in Hc as [Hn _]. specialize (H n Hn).
    destruct r as [a| | |]; cbn in *; auto.
    - destruct H as (st1 & (s1 & t1 & ss1 & -> & HQ) & Hs). exists s1, t1, ss1. split; [exact HQ|].
      rewrite Nat.add_1_r. eapply reaches_step; eauto.
    - eapply errs_step; eauto.
  Qed.

  Lemma runs_step {A} i c s t ss s1 t1 ss1 (r : res A) Q :
    is_ret i = false -> (forall rn n, exec rn i (mk n s t ss) = VOk (mk (S n) s1 t1 ss1)) ->
    runs c s1 t1 ss1 r Q -> runs (i :: c) s t ss r Q.
  Proof.
    intros Hi He Hc n Hcode. apply code_at_cons in Hcode as [Hn Hc']. specialize (Hc (S n) Hc').
    assert (Hr : reaches (mk n s t ss) (mk (S n) s1 t1 ss1)).
    { eapply reaches_step; [exact Hn|exact Hi|]. exists 0. intros k _. apply He. }
    destruct r as [a| | |]; auto.
    - destruct Hc as (s2 & t2 & ss2 & HQ & Hr2). exists s2, t2, ss2. split; [exact HQ|].
      cbn [List.length]. rewrite Nat.add_succ_r. eapply reaches_trans; eauto.
    - eapply reaches_errs; eauto.
  Qed.

  Lemma runs_fail {A} i c s t ss (Q : post A) :
    is_ret i = false -> (forall rn n, exec rn i (mk n s t ss) = VErr) -> runs (i :: c) s t ss Err Q.
  Proof.
    intros Hi He n Hcode. apply code_at_cons in Hcode as [Hn _].
    eapply errs_step; [exact Hn|exact Hi|]. exists 0. intros k _. apply He.
  Qed.

  Lemma reaches_jump n i skipped c s t ss s1 t1 ss1 :
    code_at n (i :: skipped ++ c) -> is_ret i = false ->
    (forall rn, exec rn i (mk n s t ss) = jump fo C (mk n s1 t1 ss1) (List.length skipped)) ->
    reaches (mk n s t ss) (mk (S n + List.length skipped) s1 t1 ss1).
  Proof.
    intros Hcode Hi He.
    assert (Hb : n + List.length skipped < List.length C).
    { eapply code_at_lt; [exact Hcode|]. cbn. rewrite app_length. lia. }
    apply code_at_cons in Hcode as [Hn _].
    eapply reaches_step; [exact Hn|exact Hi|]. exists 0. intros k _. rewrite He. apply jump_ok, Hb.
  Qed.

  Lemma runs_jump {A} i skipped c s t ss s1 t1 ss1 (r : res A) Q :
    is_ret i = false ->
    (forall rn n, exec rn i (mk n s t ss) = jump fo C (mk n s1 t1 ss1) (List.length skipped)) ->
    runs c s1 t1 ss1 r Q -> runs (i :: skipped ++ c) s t ss r Q.
  Proof.
    intros Hi He Hc n Hcode.
    pose proof (reaches_jump _ _ _ _ _ _ _ _ _ _ Hcode Hi (fun rn => He rn n)) as Hr.
    apply code_at_cons in Hcode as [_ Hc']. apply code_at_app in Hc' as [_ Hc']. specialize (Hc _ Hc').
    destruct r as [a| | |]; auto.
    - destruct Hc as (s2 & t2 & ss2 & HQ & Hr2). exists s2, t2, ss2. split; [exact HQ|].
      cbn [List.length]. rewrite app_length, Nat.add_succ_r, Nat.add_assoc. eapply reaches_trans; eauto.
    - eapply reaches_errs; eauto.
  Qed.

  Lemma runs_skip {A} i skipped s t ss s1 t1 ss1 (a : A) (Q : post A) :
    is_ret i = false ->
    (forall rn n, exec rn i (mk n s t ss) = jump fo C (mk n s1 t1 ss1) (List.length skipped)) ->
    Q a s1 t1 ss1 -> runs (i :: skipped) s t ss (Ok a) Q.
  Proof.
    intros Hi He HQ. replace (i :: skipped) with (i :: skipped ++ []) by (rewrite app_nil_r; reflexivity).
    eapply runs_jump; [exact Hi|exact He|apply runs_nil, HQ].
  Qed.

  (* the usual postcondition: one value on top of [s], nothing else touched *)
  Definition pushes {A} (R : A -> wval -> Prop) (s : list wval) (t : symtab fo) (ss : list wval) : post A :=
    fun a s1 t1 ss1 => exists w, R a w /\ s1 = w :: s /\ t1 = t /\ ss1 = ss.

  Lemma pushes_intro {A} (R : A -> wval -> Prop) s t ss a w : R a w -> pushes R s t ss a (w :: s) t ss.
  Proof. intros H. exists w. auto. Qed.

  Lemma evals_seq {A B} c1 c2 s t ss (r1 : res A) (k : A -> res B) R Q :
    runs c1 s t ss r1 (pushes R s t ss) -> (forall a w, R a w -> runs c2 (w :: s) t ss (k a) Q) ->
    runs (c1 ++ c2) s t ss (bind r1 k) Q.
  Proof.
    intros H1 H2. eapply runs_seq; [exact H1|]. intros a s1 t1 ss1 (w & Hw & -> & -> & ->). eauto.
  Qed.

  Lemma evals_known {A B} c1 c2 s t ss (a : A) (r : res B) R Q :
    runs c1 s t ss (Ok a) (pushes R s t ss) -> (forall w, R a w -> runs c2 (w :: s) t ss r Q) ->
    runs (c1 ++ c2) s t ss r Q.
  Proof.
    intros H1 H2. eapply runs_known; [exact H1|]. intros s1 t1 ss1 (w & Hw & -> & -> & ->). auto.
  Qed.

  Lemma runs_op {A X} i s t ss (r : res A) (o : outcome X) s1 t1 ss1 (R : A -> X -> Prop) (Q : post A) :
    is_ret i = false ->
    (forall rn n, exec rn i (mk n s t ss) = vdo x <- o; VOk (mk (S n) (s1 x) (t1 x) (ss1 x))) ->
    res_out R r o -> (forall a x, R a x -> Q a (s1 x) (t1 x) (ss1 x)) -> runs [i] s t ss r Q.
  Proof.
    intros Hi He Ho HQ. apply runs_instr; [exact Hi|]. intros n _.
    eapply answers_ext; [intros k; apply He|].
    destruct r as [a| | |]; cbn in *; auto.
    - destruct Ho as (x & -> & Hx). exists (mk (S n) (s1 x) (t1 x) (ss1 x)). split; [eauto 6|apply settles_const].
    - subst o. apply settles_const.
  Qed.

  Lemma runs_prim {A} i s0 s t ss (r : res A) o R :
    is_ret i = false ->
    (forall rn n, exec rn i (mk n s0 t ss) = vdo v <- o; VOk (mk (S n) (v :: s) t ss)) ->
    res_out R r o -> runs [i] s0 t ss r (pushes R s t ss).
  Proof.
    intros Hi He Ho.
    apply runs_op with (o := o) (s1 := fun v => v :: s) (t1 := fun _ => t) (ss1 := fun _ => ss) (R := R); auto.
    intros a w. apply pushes_intro.
  Qed.

  Lemma runs_nested {A} code s t ss (r : res A) (Q : post A) n :
    runs code s t ss r Q -> code_at n (code ++ [IReturn]) ->
    answers (fun a fin => exists s1 t1 ss1, fin = mk (n + List.length code) s1 t1 ss1 /\ Q a s1 t1 ss1) r
            (fun k => run k (mk n s t ss)).
  Proof.
    intros H Hc. apply code_at_app in Hc as [Hc Hret]. apply code_at_cons in Hret as [Hret _].
    specialize (H n Hc). destruct r as [a| | |]; cbn; auto.
    - destruct H as (s1 & t1 & ss1 & HQ & Hr). exists (mk (n + List.length code) s1 t1 ss1). split; [eauto|].
      apply reaches_settles; [exact Hr|exact Hret].
    - apply errs_settles, H.
  Qed.
End Base.
