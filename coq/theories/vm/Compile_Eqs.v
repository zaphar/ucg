(* The pieces of the definitional evaluator that recur under a name of their own (a call, a tuple
   literal, the loops of map/filter/reduce and of the format forms, ...), and unfolding equations
   of the evaluator and of the model translator, one per expression form, in terms of those
   pieces, so that the simulation proof never has to unfold the big fixpoints. *)
From Ucg Require Export vm.Compile_Rel.

Section Eqs.
  Variable fo : float_ops.
  Notation value := (value fo).
  Notation ctx := (ctx fo).

  Definition fn_ctx (c : ctx) (s : scope fo) : ctx :=
    {| sc := s; self_v := None; envt := envt fo c; strict := strict fo c; eq_ordered := eq_ordered fo c |}.

  Definition call_f (f : nat) (c : ctx) (fv : value) (args : list value) : res value :=
    match fv with
    | VFunc ps body clo =>
      if negb (Nat.eqb (List.length ps) (List.length args)) then Err
      else do s <- bind_params fo ps args clo; eval fo f (fn_ctx c s) body
    | _ => Err
    end.

  Definition tuple_lit_f (f : nat) (c : ctx) (fs : list (bytes * expr)) (acc : res (list (bytes * value)))
    : res (list (bytes * value)) :=
    fold_left (fun acc '(k, e) => do a <- acc; do v <- eval fo f c e; merge_field fo a k v) fs acc.

  Definition regex_sem (lv rv : value) : res value :=
    match lv, rv with VStr _, VStr _ => Unsup | _, _ => Err end.

  Definition range_sem (sv stv env_ : value) : res value :=
    match sv, stv, env_ with
    | VInt a, VNull, VInt z =>
      if Z.ltb range_limit (range_len a 1 z) then Unsup else Ok (VList (range_from fo (Z.to_nat (range_len a 1 z)) a 1 z))
    | VInt a, VInt s, VInt z =>
      if Z.leb s 0 then Err
      else if Z.ltb range_limit (range_len a s z) then Unsup
      else Ok (VList (range_from fo (Z.to_nat (range_len a s z)) a s z))
    | _, _, _ => Err
    end.

  Definition find_arm (k : bytes) := fix find (arms : list (bytes * expr)) : option expr :=
    match arms with
    | [] => None
    | (k', ae) :: arms' => if bytes_eqb k k' then Some ae else find arms'
    end.

  Definition fmtl_go (f : nat) (c : ctx) := fix go (ps : list tpart) (es : list expr) : res value :=
    match ps with
    | [] => Ok (VStr [])
    | PStr s :: ps' => do r <- go ps' es; match r with VStr t => Ok (VStr (s ++ t)) | _ => Err end
    | PHole :: ps' =>
      match es with
      | a :: es' => do r <- go ps' es'; do v <- eval fo f c a; do t <- render fo f v;
                    match r with VStr t' => Ok (VStr (t ++ t')) | _ => Err end
      | [] => Err
      end
    | PExpr _ :: _ => Err
    end.
  Definition fmts_go (f : nat) (c' : ctx) := fix go (ps : list tpart) : res value :=
    match ps with
    | [] => Ok (VStr [])
    | PStr s :: ps' => do r <- go ps'; match r with VStr t => Ok (VStr (s ++ t)) | _ => Err end
    | PExpr pe :: ps' =>
      do r <- go ps'; do v <- eval fo f c' pe; do t <- render fo f v;
      match r with VStr t' => Ok (VStr (t ++ t')) | _ => Err end
    | PHole :: _ => Err
    end.

  Definition keep_sem (o : value) : bool := match o with VNull | VBool false => false | _ => true end.

  Definition map_tuple_sem (f : nat) (c : ctx) (fv : value) :=
    fix go (fs : list (bytes * value)) : res (list (bytes * value)) :=
      match fs with
      | [] => Ok []
      | (k, v) :: fs' =>
        do out <- call_f f c fv [VStr k; v];
        match out with
        | VList [VStr k'; v'] => do r <- go fs'; Ok ((k', v') :: r)
        | VList _ => Err
        | _ => go fs'
        end
      end.

  Definition map_sem (f : nat) (c : ctx) (fv tv : value) : res value :=
    match fv with
    | VFunc ps _ _ =>
      match tv with
      | VList l => if negb (Nat.eqb (List.length ps) 1) then Err
                   else do r <- mapM (fun v => call_f f c fv [v]) l; Ok (VList r)
      | VTuple fs =>
        if negb (Nat.eqb (List.length ps) 2) then Err
        else do r <- map_tuple_sem f c fv fs; Ok (VTuple r)
      | VStr s => if negb (Nat.eqb (List.length ps) 1) then Err
                  else do r <- mapM (fun ch => do o <- call_f f c fv [VStr ch];
                                                match o with VStr t => Ok t | _ => Err end) (utf8_chars s);
                       Ok (VStr (concat r))
      | _ => Err
      end
    | _ => Err
    end.

  Definition filter_sem (f : nat) (c : ctx) (fv tv : value) : res value :=
    match fv with
    | VFunc ps _ _ =>
      match tv with
      | VList l => if negb (Nat.eqb (List.length ps) 1) then Err
                   else do r <- mapM (fun v => do o <- call_f f c fv [v]; Ok (keep_sem o, v)) l;
                        Ok (VList (map snd (filter fst r)))
      | VTuple fs => if negb (Nat.eqb (List.length ps) 2) then Err
                     else do r <- mapM (fun '(k, v) => do o <- call_f f c fv [VStr k; v]; Ok (keep_sem o, (k, v))) fs;
                          Ok (VTuple (map snd (filter fst r)))
      | VStr s => if negb (Nat.eqb (List.length ps) 1) then Err
                  else do r <- mapM (fun ch => do o <- call_f f c fv [VStr ch]; Ok (keep_sem o, ch)) (utf8_chars s);
                       Ok (VStr (concat (map snd (filter fst r))))
      | _ => Err
      end
    | _ => Err
    end.

  Definition reduce_sem (f : nat) (c : ctx) (fv acc tv : value) : res value :=
    match fv with
    | VFunc ps _ _ =>
      match tv with
      | VList l => if negb (Nat.eqb (List.length ps) 2) then Err
                   else fold_left (fun a v => do a' <- a; call_f f c fv [a'; v]) l (Ok acc)
      | VTuple fs => if negb (Nat.eqb (List.length ps) 3) then Err
                     else fold_left (fun a '(k, v) => do a' <- a; call_f f c fv [a'; VStr k; v]) fs (Ok acc)
      | VStr s => if negb (Nat.eqb (List.length ps) 2) then Err
                  else fold_left (fun a ch => do a' <- a; call_f f c fv [a'; VStr ch]) (utf8_chars s) (Ok acc)
      | _ => Err
      end
    | _ => Err
    end.

  Section E.
    Variables (f : nat) (c : ctx).
    Notation ev := (eval fo f c).

    Lemma eval_null : eval fo (S f) c ENull = Ok VNull. Proof. reflexivity. Qed.

    Lemma eval_bool v : eval fo (S f) c (EBool v) = Ok (VBool v). Proof. reflexivity. Qed.

    Lemma eval_int z : eval fo (S f) c (EInt z) = Ok (VInt z). Proof. reflexivity. Qed.

    Lemma eval_float z : eval fo (S f) c (EFloat z) = Ok (VFloat (f_of_bits fo z)). Proof. reflexivity. Qed.

    Lemma eval_str s : eval fo (S f) c (EStr s) = Ok (VStr s). Proof. reflexivity. Qed.

    Lemma eval_sym x : eval fo (S f) c (ESym x) =
      if bytes_eqb x (b "self") then match self_v fo c with Some v => Ok v | None => Err end
      else match lookup fo x (sc fo c) with
           | Some v => Ok v
           | None => if bytes_eqb x (b "env") then Ok (env_tuple fo c) else Err
           end.
    Proof. reflexivity. Qed.

    Lemma eval_tuple fs : eval fo (S f) c (ETuple fs) = do r <- tuple_lit_f f c fs (Ok []); Ok (VTuple r).
    Proof. reflexivity. Qed.

    Lemma eval_list es : eval fo (S f) c (EList es) = do r <- mapM ev es; Ok (VList r).
    Proof. reflexivity. Qed.

    Lemma eval_group e : eval fo (S f) c (EGroup e) = ev e. Proof. reflexivity. Qed.

    Lemma eval_not e : eval fo (S f) c (ENot e) =
      do v <- ev e; match v with VBool x => Ok (VBool (negb x)) | _ => Err end.
    Proof. reflexivity. Qed.

    Lemma eval_andor (is_and : bool) l r : eval fo (S f) c (EBin (if is_and then AND else OR) l r) =
      do lv <- ev l; match lv with VBool x => if Bool.eqb x is_and then ev r else Ok (VBool x) | _ => Err end.
    Proof.
      destruct is_and; cbn; destruct (ev l) as [lv| | |]; try reflexivity; destruct lv as [|[]| | | | | | |]; reflexivity.
    Qed.

    Lemma eval_arith o l r : is_arith o = true ->
      eval fo (S f) c (EBin o l r) = do rv <- ev r; do lv <- ev l; arith' fo o lv rv.
    Proof. destruct o; try discriminate; reflexivity. Qed.

    Lemma eval_cmp o l r : is_cmp o = true ->
      eval fo (S f) c (EBin o l r) = do rv <- ev r; do lv <- ev l; compare_num fo o lv rv.
    Proof. destruct o; try discriminate; reflexivity. Qed.

    Definition eq_sem (lv rv : value) : res bool :=
      if compatible fo lv rv then veq fo (eq_ordered fo c) f lv rv else Err.
    Lemma eval_equal l r : eval fo (S f) c (EBin Equal l r) =
      do rv <- ev r; do lv <- ev l; do q <- eq_sem lv rv; Ok (VBool q).
    Proof.
      cbn. destruct (ev r) as [rv| | |]; try reflexivity. destruct (ev l) as [lv| | |]; try reflexivity.
      unfold eq_sem. cbn. destruct (compatible fo lv rv); reflexivity.
    Qed.

    Lemma eval_notequal l r : eval fo (S f) c (EBin NotEqual l r) =
      do rv <- ev r; do lv <- ev l; do q <- eq_sem lv rv; Ok (VBool (negb q)).
    Proof.
      cbn. destruct (ev r) as [rv| | |]; try reflexivity. destruct (ev l) as [lv| | |]; try reflexivity.
      unfold eq_sem. cbn. destruct (compatible fo lv rv); reflexivity.
    Qed.

    Lemma eval_rematch l r : eval fo (S f) c (EBin REMatch l r) =
      do rv <- ev r; do lv <- ev l; regex_sem lv rv.
    Proof. reflexivity. Qed.

    Lemma eval_notrematch l r : eval fo (S f) c (EBin NotREMatch l r) =
      do rv <- ev r; do lv <- ev l; regex_sem lv rv.
    Proof. reflexivity. Qed.

    Lemma eval_is l r : eval fo (S f) c (EBin IS l r) =
      do tv <- ev r; do lv <- ev l;
      match tv with
      | VStr t => Ok (VBool (bytes_eqb (is_name fo lv) t))
      | VNull => Ok (VBool false)
      | _ => Err
      end.
    Proof. reflexivity. Qed.

    Definition in_result (hay needle : value) : res value :=
      match hay with
      | VTuple fs => match needle with
                     | VStr k => Ok (VBool (match lookup fo k fs with Some _ => true | None => false end))
                     | _ => Err end
      | VList items => in_list fo f needle items
      | VStr s => match needle with VStr part => Ok (VBool (contains_sub s part)) | _ => Ok (VBool false) end
      | _ => Err
      end.
    (* a bare name on the left of `in` stands for itself when the right side is a tuple *)
    Definition in_needle (l : expr) (hay : value) : res value :=
      match l with
      | ESym x => match hay with VTuple _ => Ok (VStr x) | _ => ev l end
      | _ => ev l
      end.
    Lemma eval_in l r : eq_ordered fo c = true -> eval fo (S f) c (EBin IN l r) =
      do hay <- ev r; do needle <- in_needle l hay; in_result hay needle.
    Proof. intros E. cbn. rewrite E. reflexivity. Qed.

    Lemma in_needle_gen l hay : match l with ESym _ => False | _ => True end -> in_needle l hay = ev l.
    Proof. destruct l; try contradiction; reflexivity. Qed.

    Definition dot_general (r : expr) : bool :=
      match r with
      | ECopy _ _ | ECall _ _ | ESym _ => false
      | _ => true
      end.
    Lemma eval_dot_gen l r : dot_general r = true ->
      eval fo (S f) c (EBin DOT l r) = do lv <- ev l; do kv <- ev r; index fo c lv kv.
    Proof. destruct r; try discriminate; reflexivity. Qed.

    Lemma eval_dot_sym l k : eval fo (S f) c (EBin DOT l (ESym k)) = do lv <- ev l; index fo c lv (VStr k).
    Proof. reflexivity. Qed.

    Definition sel_key_val (sel : expr) : value :=
      match sel with EInt k => VInt k | ESym k | EStr k => VStr k | _ => VNull end.
    Lemma eval_dot_copy l sel fs : is_sel sel = true ->
      eval fo (S f) c (EBin DOT l (ECopy sel fs)) =
      do lv <- ev l; do tv <- index fo c lv (sel_key_val sel); copy_into fo f c tv fs.
    Proof. destruct sel; try discriminate; reflexivity. Qed.

    Lemma eval_dot_call l sel args : is_sel sel = true ->
      eval fo (S f) c (EBin DOT l (ECall sel args)) =
      do avs <- mapM ev args; do lv <- ev l; do fv <- index fo c lv (sel_key_val sel); call_f f c fv avs.
    Proof. destruct sel; try discriminate; reflexivity. Qed.

    Lemma eval_copy t fs : eval fo (S f) c (ECopy t fs) = do tv <- ev t; copy_into fo f c tv fs.
    Proof. reflexivity. Qed.

    Lemma eval_range st stp en : eval fo (S f) c (ERange st stp en) =
      do env_ <- ev en;
      do stv <- match stp with Some s => ev s | None => Ok VNull end;
      do sv <- ev st; range_sem sv stv env_.
    Proof. reflexivity. Qed.

    Lemma eval_call fe args : eval fo (S f) c (ECall fe args) =
      do avs <- mapM ev args; do fv <- ev fe; call_f f c fv avs.
    Proof. reflexivity. Qed.

    Lemma eval_cast ct e : eval fo (S f) c (ECast ct e) = do v <- ev e; cast fo ct v.
    Proof. reflexivity. Qed.

    Lemma eval_func ps body : eval fo (S f) c (EFunc ps body) = Ok (VFunc ps body (sc fo c)).
    Proof. reflexivity. Qed.

    Lemma eval_select ve dflt arms : eval fo (S f) c (ESelect ve dflt arms) =
      do v <- ev ve;
      match (match sel_key fo v with Some k => find_arm k arms | None => None end) with
      | Some ae => ev ae
      | None => match dflt with Some d => ev d | None => Err end
      end.
    Proof.
      cbn. destruct (ev ve) as [v| | |]; cbn; try reflexivity.
    Qed.

    Lemma eval_map fe te : eval fo (S f) c (EMap fe te) = do fv <- ev fe; do tv <- ev te; map_sem f c fv tv.
    Proof. reflexivity. Qed.

    Lemma eval_filter fe te : eval fo (S f) c (EFilter fe te) = do fv <- ev fe; do tv <- ev te; filter_sem f c fv tv.
    Proof. reflexivity. Qed.

    Lemma eval_reduce fe ae te : eval fo (S f) c (EReduce fe ae te) =
      do fv <- ev fe; do acc <- ev ae; do tv <- ev te; reduce_sem f c fv acc tv.
    Proof. reflexivity. Qed.

    Lemma eval_formatl parts args : eval fo (S f) c (EFormatL parts args) =
      if negb (Nat.eqb (count_holes parts) (List.length args)) then Err else fmtl_go f c parts args.
    Proof. reflexivity. Qed.

    Lemma eval_formats parts arg : eval fo (S f) c (EFormatS parts arg) =
      do item <- ev arg; fmts_go f (with_scope fo c ((b "item", item) :: sc fo c)) parts.
    Proof. reflexivity. Qed.

    Lemma eval_module ps out body : eval fo (S f) c (EModule ps out body) =
      do pv <- tuple_lit_f f c ps (Ok []); Ok (VModule pv out body).
    Proof. reflexivity. Qed.

    Lemma eval_fail e : eval fo (S f) c (EFail e) = do _ <- ev e; Err. Proof. reflexivity. Qed.

    Lemma eval_trace e : eval fo (S f) c (ETrace e) = ev e. Proof. reflexivity. Qed.
  End E.

  Lemma copy_into_eq f c tv fs : copy_into fo (S f) c tv fs =
    do ovs <- tuple_lit_f f (with_self fo c (Some tv)) fs (Ok []);
    match tv with
    | VTuple base => do r <- merge_fields fo base ovs; Ok (VTuple r)
    | VModule ps out body =>
      do flds <- merge_fields fo ps ovs;
      do flds <- merge_field fo flds (b "this") tv;
      let c0 := {| sc := [(b "mod", VTuple flds)]; self_v := Some tv; envt := envt fo c;
                   strict := strict fo c; eq_ordered := eq_ordered fo c |} in
      do s <- exec_list fo f c0 body;
      match out with
      | Some oe => eval fo f (with_scope fo c0 s) oe
      | None => Ok (VTuple (export_scope fo s true))
      end
    | _ => Err
    end.
  Proof. reflexivity. Qed.
End Eqs.

Lemma cat_map_app {A} (g : A -> ops) l1 l2 : cat_map g (l1 ++ l2) = cat_map g l1 ++ cat_map g l2.
Proof. induction l1 as [|a l1 IHl]; cbn; auto. rewrite IHl, app_assoc. reflexivity. Qed.

Lemma tr_tuple fs : tr (ETuple fs) = IInitTuple :: tr_fields fs. Proof. reflexivity. Qed.

Lemma tr_fields_cons k e fs : tr_fields ((k, e) :: fs) = ISym k :: tr e ++ [IField] ++ tr_fields fs.
Proof. unfold tr_fields. cbn. rewrite <- !app_assoc. reflexivity. Qed.

Lemma tr_list es : tr (EList es) = IInitList :: cat_map (fun e => tr e ++ [IElement]) es.
Proof. reflexivity. Qed.

Lemma tr_andor (is_and : bool) l r : tr (EBin (if is_and then AND else OR) l r) =
  tr l ++ (if is_and then IAnd (List.length (tr r)) else IOr (List.length (tr r))) :: tr r.
Proof. destruct is_and; reflexivity. Qed.

Lemma tr_arith o l r : is_arith o = true -> tr (EBin o l r) = tr r ++ tr l ++ [arith_instr o].
Proof. destruct o; try discriminate; reflexivity. Qed.

Lemma tr_cmp o l r : is_cmp o = true -> tr (EBin o l r) = tr r ++ tr l ++ [cmp_instr o].
Proof. destruct o; try discriminate; reflexivity. Qed.

Lemma tr_in l r : match l with ESym _ => False | _ => True end ->
  tr (EBin IN l r) = tr r ++ tr l ++ [IExist].
Proof. cbn [tr]. destruct l; try contradiction; reflexivity. Qed.

Definition sel_lit (sel : expr) : lit :=
  match sel with EInt k => LInt k | ESym k | EStr k => LStr k | _ => LEmpty end.
Lemma tr_dot_gen l r : dot_general r = true -> tr (EBin DOT l r) = tr l ++ tr r ++ [IIndex].
Proof. cbn [tr]. destruct r; try discriminate; reflexivity. Qed.

Lemma tr_dot_copy l sel fs : is_sel sel = true ->
  tr (EBin DOT l (ECopy sel fs)) = tr l ++ IVal (sel_lit sel) :: IIndex :: copy_code (tr_fields fs).
Proof. destruct sel; try discriminate; reflexivity. Qed.

Lemma tr_dot_call l sel args : is_sel sel = true ->
  tr (EBin DOT l (ECall sel args)) =
  cat_map tr args ++ IVal (LInt (Z.of_nat (List.length args))) :: tr l ++ [IVal (sel_lit sel); IIndex; IFCall].
Proof. destruct sel; try discriminate; cbn; rewrite <- ?app_assoc; reflexivity. Qed.

Lemma tr_copy t fs : tr (ECopy t fs) = tr t ++ copy_code (tr_fields fs). Proof. reflexivity. Qed.

Lemma tr_select ve dflt arms : tr (ESelect ve dflt arms) =
  tr ve ++ sel_arms (map (fun kv => (fst kv, tr (snd kv))) arms)
                    (match dflt with Some de => tr de | None => [IVal (LStr no_default_msg); IBang] end).
Proof.
  cbn. f_equal. f_equal. apply map_ext. intros [k e]; reflexivity.
Qed.

Definition part_code (p : tpart) : ops :=
  match p with PStr s => [IVal (LStr s)] | PHole => [ITranslatorPanic] | PExpr pe => tr pe ++ [IRender] end.
Lemma tr_formats parts arg : tr (EFormatS parts arg) =
  INewScope (List.length (ISym (b "item") :: tr arg ++ IBindOver :: join_parts (rev (map part_code parts)) ++ [IReturn]))
            :: ISym (b "item") :: tr arg ++ IBindOver :: join_parts (rev (map part_code parts)) ++ [IReturn].
Proof. reflexivity. Qed.

Lemma tr_formatl parts args : tr (EFormatL parts args) =
  if negb (Nat.eqb (count_holes parts) (List.length args))
  then [IVal (LStr (fmt_count_msg (count_holes parts) (List.length args))); IBang]
  else match parts with
       | [] => [IVal (LStr [])]
       | _ => join_parts (list_parts (rev parts) (rev (map tr args)))
       end.
Proof. reflexivity. Qed.

Lemma tr_module ps out body : tr (EModule ps out body) =
  IInitTuple :: tr_fields ps ++
  (match out with
   | Some oe => IInitThunk (S (List.length (tr oe))) :: tr oe ++ [IReturn]
   | None => []
   end) ++ IModule (S (List.length (translate body ++ [IReturn]))) :: IBind :: translate body ++ [IReturn].
Proof. reflexivity. Qed.
