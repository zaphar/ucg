(* Scoping facts of the definitional semantics (used by C10). *)
From Ucg Require Import base.Bytes_Lemmas sem.Sem.

Section Scope.
  Variable fo : float_ops.
  Notation value := (value fo).
  Notation scope := (scope fo).
  Notation ctx := (ctx fo).
  Notation exec_list := (exec_list fo).
  Notation eval := (eval fo).
  Notation lookup := (lookup fo).

  (* [s'] extends [s]: every name bound in s keeps its value in s' *)
  Definition extends (s s' : scope) : Prop :=
    forall x v, lookup x s = Some v -> lookup x s' = Some v.

  Lemma extends_refl s : extends s s.
  Proof. intros x v H; exact H. Qed.

  Lemma extends_trans s1 s2 s3 : extends s1 s2 -> extends s2 s3 -> extends s1 s3.
  Proof. intros H1 H2 x v H. apply H2, H1, H. Qed.

  Lemma extends_fresh s x v : lookup x s = None -> extends s ((x, v) :: s).
  Proof.
    intros Hn y w Hy. cbn. destruct (bytes_eqb y x) eqn:E; [|exact Hy].
    apply Bytes_Lemmas.bytes_eqb_spec in E. subst y. congruence.
  Qed.

  Definition exec_stmt (fuel : nat) (c : ctx) (s : stmt) : res scope :=
    match s with
    | SLet x e =>
      do v <- eval fuel c e;
      if is_reserved x then Err
      else match lookup x (sc fo c) with
           | Some _ => Err
           | None => Ok ((x, v) :: sc fo c)
           end
    | SExpr e => do _ <- eval fuel c e; Ok (sc fo c)
    | SAssert _ | SOut _ _ => Unsup
    end.

  Lemma exec_list_S fuel (c : ctx) ss :
    exec_list (S fuel) c ss =
    match ss with
    | [] => Ok (sc fo c)
    | s :: ss' => do s1 <- exec_stmt fuel c s; exec_list fuel (with_scope fo c s1) ss'
    end.
  Proof. reflexivity. Qed.

  Lemma exec_stmt_extends fuel (c : ctx) s s1 : exec_stmt fuel c s = Ok s1 -> extends (sc fo c) s1.
  Proof.
    destruct s as [x e|e|e|t e]; cbn [exec_stmt]; try discriminate.
    - destruct (eval fuel c e) as [v| | |]; try discriminate. cbn [bind].
      destruct (is_reserved x); [discriminate|].
      destruct (lookup x (sc fo c)) eqn:El; [discriminate|]. intros [= <-]. now apply extends_fresh.
    - destruct (eval fuel c e) as [v| | |]; try discriminate. intros [= <-]. apply extends_refl.
  Qed.

  (* Bindings are immutable: whatever a program does, the bindings that existed before it
     still exist afterwards with the same values. *)
  Theorem bindings_immutable_lemma : forall fuel (c : ctx) ss s',
      exec_list fuel c ss = Ok s' -> extends (sc fo c) s'.
  Proof.
    induction fuel as [|f IH]; intros c ss s' H; [discriminate|].
    rewrite exec_list_S in H. destruct ss as [|s ss].
    - inversion H; subst. apply extends_refl.
    - destruct (exec_stmt f c s) as [s1| | |] eqn:E; try discriminate.
      eapply extends_trans; [exact (exec_stmt_extends _ _ _ _ E)|]. exact (IH _ _ _ H).
  Qed.

  (* A statement that binds a name that is already bound fails the build ... *)
  Theorem rebind_is_error_lemma : forall fuel (c : ctx) x e ss v0,
      lookup x (sc fo c) = Some v0 ->
      forall s', exec_list fuel c (SLet x e :: ss) <> Ok s'.
  Proof.
    intros fuel c x e ss v0 Hb s' H. destruct fuel as [|f]; [discriminate|].
    rewrite exec_list_S in H. cbn [exec_stmt] in H.
    destruct (eval f c e) as [v| | |]; try discriminate. cbn [bind] in H.
    destruct (is_reserved x); [discriminate|]. rewrite Hb in H. discriminate.
  Qed.

  (* ... and so does one that binds a reserved word. *)
  Theorem reserved_is_error_lemma : forall fuel (c : ctx) x e ss,
      is_reserved x = true -> forall s', exec_list fuel c (SLet x e :: ss) <> Ok s'.
  Proof.
    intros fuel c x e ss Hr s' H. destruct fuel as [|f]; [discriminate|].
    rewrite exec_list_S in H. cbn [exec_stmt] in H.
    destruct (eval f c e) as [v| | |]; try discriminate. cbn [bind] in H.
    rewrite Hr in H. discriminate.
  Qed.

  (* Programs are evaluated statement by statement: running p1 ++ p2 is running p1 and then p2 in
     the scope p1 produced (for enough fuel on both sides). *)
  Theorem exec_app_lemma : forall fuel (c : ctx) p1 p2 s',
      exec_list fuel c (p1 ++ p2) = Ok s' ->
      exists s1, exec_list fuel c p1 = Ok s1 /\
                 exec_list (fuel - List.length p1) (with_scope fo c s1) p2 = Ok s'.
  Proof.
    induction fuel as [|f IH]; intros c p1 p2 s' H; [discriminate|].
    destruct p1 as [|s p1].
    - cbn [app] in H. exists (sc fo c). split; [reflexivity|].
      cbn [List.length]. rewrite Nat.sub_0_r. destruct c; exact H.
    - cbn [app] in H. rewrite exec_list_S in H. rewrite exec_list_S.
      destruct (exec_stmt f c s) as [s1| | |]; try discriminate.
      exact (IH _ _ _ _ H).
  Qed.

  (* A prefix that fails makes the whole program fail (with the same kind of outcome). *)
  Theorem prefix_failure_propagates_lemma : forall fuel (c : ctx) p1 p2,
      exec_list fuel c p1 = Err -> exec_list fuel c (p1 ++ p2) = Err.
  Proof.
    induction fuel as [|f IH]; intros c p1 p2 H; [discriminate|].
    destruct p1 as [|s p1]; [discriminate|].
    cbn [app]. rewrite exec_list_S in *.
    destruct (exec_stmt f c s) as [s1| | |]; cbn [bind] in *; try discriminate; [|reflexivity].
    apply IH, H.
  Qed.

  (* A function's result depends only on its closure and arguments: the caller's scope and `self`
     do not enter the evaluation of the body: [eval] builds the body's context from the closure, the
     arguments and the three settings alone, so the two sides differ in nothing else. *)
  Theorem call_ignores_caller_scope : forall fuel (c1 c2 : ctx) ps body clo,
      envt fo c1 = envt fo c2 -> strict fo c1 = strict fo c2 -> eq_ordered fo c1 = eq_ordered fo c2 ->
      forall avs s,
        bind_params fo ps avs clo = Ok s ->
        eval fuel {| sc := s; self_v := None; envt := envt fo c1; strict := strict fo c1; eq_ordered := eq_ordered fo c1 |} body =
        eval fuel {| sc := s; self_v := None; envt := envt fo c2; strict := strict fo c2; eq_ordered := eq_ordered fo c2 |} body.
  Proof.
    intros fuel c1 c2 ps body clo He Hs Ho avs s _. rewrite He, Hs, Ho. reflexivity.
  Qed.
End Scope.
